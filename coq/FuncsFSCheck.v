(* FuncsFSCheck.v -- OBLIGATIONS tying the size bookkeeping of the memory-mapped file
   (fs/os_mmap.go: Slice's end-of-file test, WriteAt's size update, mremap's "mapping large enough"
   test and its choice of the new mapping size) AS TRANSLATED FROM THE CURRENT SOURCES (gen/Funcs.v)
   to the expressions FSImpl.v uses in mm_Slice, mm_WriteAt and mm_mremap.
   Each statement quantifies over ALL file sizes / offsets below 2^62. *)
From Coq Require Import ZArith NArith Bool Lia.
From Pogreb Require Import Base GoSem FSImpl.
From Pogreb.gen Require Import Funcs Consts.
Open Scope Z_scope.

(* Slice(start, end) reports EOF exactly when FSImpl.mm_Slice does: size < end *)
Theorem slice_eof_ok : forall e size : N,
  go_slice_eof (Z.of_N e) (Z.of_N size) = (size <? e)%N.
Proof. intros e size. apply ltb_NZ. Qed.

(* WriteAt: the wrapper's size becomes max(size, off + n), as in FSImpl.mm_WriteAt *)
Theorem mmap_write_size_ok : forall off n size : N,
  (off < 2 ^ 62)%N -> (n < 2 ^ 62)%N ->
  go_mmap_write_size (Z.of_N off) (Z.of_N n) (Z.of_N size)
  = Z.of_N (if (size <? off + n)%N then off + n else size)%N.
Proof.
  intros off n size Ho Hn. change (2 ^ 62)%N with 4611686018427387904%N in *.
  unfold go_mmap_write_size, go_add, go_conv, go_gtb.
  rewrite wrap_S64_N, <- N2Z.inj_add, wrap_S64_N, ltb_NZ
    by (change (2 ^ 63)%N with 9223372036854775808%N; lia).
  destruct (size <? off + n)%N; reflexivity.
Qed.

(* mremap leaves the mapping alone exactly when FSImpl.mm_mremap does: size <= mmapSize *)
Theorem mremap_enough_ok : forall msize size : N,
  go_mremap_enough (Z.of_N msize) (Z.of_N size) = (size <=? msize)%N.
Proof. intros msize size. apply leb_NZ. Qed.

(* the mapping size mremap asks for: max(initialMmapSize, size) for the first mapping, otherwise
   twice the current one (ONE doubling), as in FSImpl.mm_mremap with imm = initialMmapSize *)
Theorem mremap_size_ok : forall msize size : N,
  (msize < 2 ^ 62)%N ->
  go_mremap_size (Z.of_N msize) (Z.of_N size)
  = Z.of_N (if (msize =? 0)%N then (if (initial_mmap_size <? size)%N then size else initial_mmap_size)
            else msize * 2)%N.
Proof.
  intros msize size Hm. change (2 ^ 62)%N with 4611686018427387904%N in Hm.
  unfold go_mremap_size, go_eqb, go_ltb, go_mul, initial_mmap_size.
  rewrite (eqb_NZ _ 0), (ltb_NZ 1073741824), <- (N2Z.inj_mul _ 2), wrap_S64_N
    by (change (2 ^ 63)%N with 9223372036854775808%N; lia).
  destruct (msize =? 0)%N, (1073741824 <? size)%N; reflexivity.
Qed.
