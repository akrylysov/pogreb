(* Phys.v -- executable model of the PHYSICAL layout of pogreb's on-disk hash index
   (index.go, bucket.go, file.go: extend; iterator.go: fetchItems; compaction.go: promoteRecord).
   Definitions and small computation examples only; the theorems are in PhysProofs.v.

   Index.v models the index as "a chain owns its buckets": no file offsets, no free list.  Here
   the two index files are modelled as arrays of 512-byte buckets addressed by FILE OFFSET:

     main.pix      = 512-byte header ++ bucket 0 ++ bucket 1 ++ ...     ([ph_main], bucketOffset(i) = 512+512*i)
     overflow.pix  = 512-byte header ++ overflow buckets                ([ph_over], offset 512+512*j)
     index meta    = level, splitBucketIdx, numKeys, numBuckets, freeBucketOffs ([ph_free])

   A bucket is the FULL array of 31 slots plus the [next] offset (0 = no overflow bucket).  A slot
   is empty iff its offset field is 0 (the Go loops [break] at the first such slot).  Buckets freed
   by a split keep their stale contents in overflow.pix; the file never shrinks.

   DEFINITIONS
     pbucket (pb_slots, pb_next), phys (ph_level, ph_split, ph_nkeys, ph_nbuckets, ph_main, ph_over,
       ph_free), empty_pb, pb_live (slots before the first empty one = Bucket.dense),
     bucket_off (bucketOffset), off_ok / off_idx / pb_read / pb_write (file.Slice / WriteAt on a
       512-aligned block of a bucket file),
     bhandle (bucketHandle: file, offset, in-memory copy of the bucket), write_bh (bucketHandle.write),
     walk_over / ph_walk (bucketIterator: newBucketIterator + next until next = 0, with fuel),
     scan_res / scan_slots (the slot loop: break at offset 0, continue on a miss),
     hit_loop (the bucket loop shared by index.get, index.delete, promoteRecord),
     swriter (slotWriter), create_overflow (createOverflowBucket), swr_insert (slotWriter.insert),
       swr_write (slotWriter.write), find_ins (findInsertionBucket),
     ph_bidx (bucketIndex), ph_get, ph_put_core / ph_put, ph_dosplit (index.split), ph_del,
       ph_repoint, ph_count, ph_bucket (fetchItems), ph_empty, phys_ops : idx_ops phys,
     ph_main_bytes, ph_over_bytes (the byte images of main.pix and overflow.pix),
     Module PhysVariants: variants of the algorithm used by the sensitivity witnesses of
       PhysProofs.v: ph_dosplit_early_free (split that frees the old overflow buckets of the chain
       BEFORE re-inserting; turns out to be harmless, see PhysProofs.v), ph_dosplit_no_free (split
       that forgets freeOverflowBucket: leak), create_overflow_nopop / ph_put_nopop (a
       createOverflowBucket that does not pop the free list: shared bucket).

   DEVIATIONS / MODELLING DECISIONS
     - Name clashes: the record fields [ph_split] (splitBucketIdx) and [ph_nbuckets] (numBuckets) keep
       these names; the FUNCTION index.split is [ph_dosplit] (as px_split / px_dosplit in Index.v),
       and ix_nbuckets of [phys_ops] is the field projection [ph_nbuckets].
     - The bucket iterator is run EAGERLY: [ph_walk p n] reads the whole chain of bucket n first
       (fuel = 1 + number of overflow buckets in the file) and the operations then work on the list
       of bucket handles.  This is equivalent to the lazy Go iterator because no operation writes
       a bucket between two calls of it.next(): put, delete and promoteRecord write after the scan,
       split writes after its loop (createOverflowBucket only extends the file / pops the free list
       and returns a FRESH zero bucket that is not read from the file).  Consequently
       "b.next == 0" in findInsertionBucket is "this is the last handle of the walk".
       The only observable difference: a read error / cycle BEHIND the bucket where the Go code
       stops early is an error here and not there; PhysInv (PhysProofs.v) excludes both.
     - Errors: idx_ops has no error channel.  If the walk fails (fuel exhausted = cycle, offset not
       512-aligned, < 512 or beyond the end of the file) get returns None, put/delete return the
       unchanged index and None, repoint returns None, ph_bucket returns [], split returns the state
       after main.extend and the pointer advance (what the Go code leaves behind on an I/O error).
       A WriteAt beyond the end of a file (would grow the file in Go) is a no-op; never happens
       under PhysInv.
     - As in Index.v: no MaxKeys guard, no uint32 wrap-around of numKeys / numBuckets, the split
       policy is the parameter [grow numKeys numBuckets]; put and delete return the slot they
       overwrote / removed (the Go code returns nothing).
     - The inner loop of index.split and of fetchItems ("for j: if slots[j].offset == 0 break") is
       written as a fold over [pb_live] (= Bucket.dense, defined in Bucket.v as exactly that
       prefix); the loops that need the slot INDEX (get / put / delete / promoteRecord) are the
       explicit [scan_slots]. *)
From Coq Require Import ZArith Lia.
From Pogreb Require Import Base Bytes Record Index Bucket.

(** * Buckets and bucket files *)

Record pbucket := { pb_slots : list slot; pb_next : N }.

Record phys := {
  ph_level : N;                 (* level *)
  ph_split : N;                 (* splitBucketIdx *)
  ph_nkeys : N;                 (* numKeys *)
  ph_nbuckets : N;              (* numBuckets *)
  ph_main : list pbucket;       (* main.pix after the header *)
  ph_over : list pbucket;       (* overflow.pix after the header *)
  ph_free : list N              (* freeBucketOffs *)
}.

(* a zero bucket: what file.extend(bucketSize) appends and what bucketHandle{} holds *)
Definition empty_pb : pbucket := {| pb_slots := repeat empty_slot 31; pb_next := 0 |}.

(* the slots the scanning loops look at *)
Definition pb_live (b : pbucket) : list slot := Bucket.dense (pb_slots b).

(* bucketOffset *)
Definition bucket_off (i : N) : N := 512 + 512 * i.

(* offsets of whole buckets behind the 512-byte header *)
Definition off_ok (off : N) : bool := (512 <=? off) && (off mod 512 =? 0).
Definition off_idx (off : N) : nat := N.to_nat ((off - 512) / 512).

(* bucketHandle.read: file.Slice(off, off+512) + UnmarshalBinary *)
Definition pb_read (file : list pbucket) (off : N) : option pbucket :=
  if off_ok off then nth_error file (off_idx off) else None.

(* bucketHandle.write: MarshalBinary + file.WriteAt(buf, off) *)
Definition pb_write (file : list pbucket) (off : N) (b : pbucket) : list pbucket :=
  if off_ok off then lupd (off_idx off) b file else file.

Definition set_main (p : phys) (m : list pbucket) : phys :=
  {| ph_level := ph_level p; ph_split := ph_split p; ph_nkeys := ph_nkeys p;
     ph_nbuckets := ph_nbuckets p; ph_main := m; ph_over := ph_over p; ph_free := ph_free p |}.
Definition set_over (p : phys) (o : list pbucket) : phys :=
  {| ph_level := ph_level p; ph_split := ph_split p; ph_nkeys := ph_nkeys p;
     ph_nbuckets := ph_nbuckets p; ph_main := ph_main p; ph_over := o; ph_free := ph_free p |}.
Definition set_free (p : phys) (f : list N) : phys :=
  {| ph_level := ph_level p; ph_split := ph_split p; ph_nkeys := ph_nkeys p;
     ph_nbuckets := ph_nbuckets p; ph_main := ph_main p; ph_over := ph_over p; ph_free := f |}.
Definition set_nkeys (p : phys) (n : N) : phys :=
  {| ph_level := ph_level p; ph_split := ph_split p; ph_nkeys := n;
     ph_nbuckets := ph_nbuckets p; ph_main := ph_main p; ph_over := ph_over p; ph_free := ph_free p |}.
Definition set_nbuckets (p : phys) (n : N) : phys :=
  {| ph_level := ph_level p; ph_split := ph_split p; ph_nkeys := ph_nkeys p;
     ph_nbuckets := n; ph_main := ph_main p; ph_over := ph_over p; ph_free := ph_free p |}.
Definition set_ptr (p : phys) (lv sp : N) : phys :=
  {| ph_level := lv; ph_split := sp; ph_nkeys := ph_nkeys p;
     ph_nbuckets := ph_nbuckets p; ph_main := ph_main p; ph_over := ph_over p; ph_free := ph_free p |}.

(** * Bucket handles and the bucket iterator *)

(* bucketHandle: the file (main / overflow), the offset, the in-memory copy *)
Record bhandle := { bh_main : bool; bh_off : N; bh_b : pbucket }.

Definition bh_set_next (h : bhandle) (next : N) : bhandle :=
  {| bh_main := bh_main h; bh_off := bh_off h;
     bh_b := {| pb_slots := pb_slots (bh_b h); pb_next := next |} |}.
(* b.slots[i] = sl *)
Definition bh_set_slot (h : bhandle) (i : nat) (sl : slot) : bhandle :=
  {| bh_main := bh_main h; bh_off := bh_off h;
     bh_b := {| pb_slots := lupd i sl (pb_slots (bh_b h)); pb_next := pb_next (bh_b h) |} |}.

(* bucket.del: shift the later slots left, zero the last one *)
Fixpoint del_slot (i : nat) (l : list slot) : list slot :=
  match l with
  | [] => []
  | s :: l' => match i with O => l' ++ [empty_slot] | S i' => s :: del_slot i' l' end
  end.
Definition bh_del (h : bhandle) (i : nat) : bhandle :=
  {| bh_main := bh_main h; bh_off := bh_off h;
     bh_b := {| pb_slots := del_slot i (pb_slots (bh_b h)); pb_next := pb_next (bh_b h) |} |}.

(* bucketHandle.write *)
Definition write_bh (p : phys) (h : bhandle) : phys :=
  if bh_main h then set_main p (pb_write (ph_main p) (bh_off h) (bh_b h))
  else set_over p (pb_write (ph_over p) (bh_off h) (bh_b h)).

(* bucketIterator.next after the first bucket: it.f = overflow; stop at off = 0 *)
Fixpoint walk_over (over : list pbucket) (fuel : nat) (off : N) : option (list bhandle) :=
  if off =? 0 then Some [] else
  match fuel with
  | O => None
  | S f => match pb_read over off with
           | None => None
           | Some b => match walk_over over f (pb_next b) with
                       | None => None
                       | Some l => Some ({| bh_main := false; bh_off := off; bh_b := b |} :: l)
                       end
           end
  end.

(* newBucketIterator(n) and all its next() calls: the main bucket, then the overflow buckets *)
Definition ph_walk (p : phys) (n : N) : option (list bhandle) :=
  match pb_read (ph_main p) (bucket_off n) with
  | None => None
  | Some b => match walk_over (ph_over p) (S (length (ph_over p))) (pb_next b) with
              | None => None
              | Some l => Some ({| bh_main := true; bh_off := bucket_off n; bh_b := b |} :: l)
              end
  end.

(** * The scanning loops *)

(* for i := 0; i < slotsPerBucket; i++ { sl := b.slots[i]; if sl.offset == 0 { break };
     if !f(sl) { continue }; ... } *)
Inductive scan_res :=
| ScHit (i : nat) (s : slot)        (* stopped at slot i, which f accepts *)
| ScFree (i : nat)                  (* break at the empty slot i *)
| ScEnd (i : nat).                  (* loop finished, i = slotsPerBucket *)

Fixpoint scan_slots (f : slot -> bool) (l : list slot) (i : nat) : scan_res :=
  match l with
  | [] => ScEnd i
  | s :: l' => if sl_off s =? 0 then ScFree i
               else if f s then ScHit i s else scan_slots f l' (S i)
  end.

(* the bucket loop of index.get / index.delete / promoteRecord: first accepted slot in scan order,
   with its bucket handle and slot index *)
Fixpoint hit_loop (f : slot -> bool) (hs : list bhandle) : option (bhandle * nat * slot) :=
  match hs with
  | [] => None
  | h :: hs' => match scan_slots f (pb_slots (bh_b h)) 0 with
                | ScHit i s => Some (h, i, s)
                | _ => hit_loop f hs'
                end
  end.

Definition ph_bidx (p : phys) (h : N) : N := bucket_index (ph_level p) (ph_split p) h.

(* index.get *)
Definition ph_get (p : phys) (h : N) (m : slot -> bool) : option slot :=
  match ph_walk p (ph_bidx p h) with
  | None => None
  | Some hs => match hit_loop (hit h m) hs with Some (_, _, s) => Some s | None => None end
  end.

(** * slotWriter *)

Record swriter := { sw_cur : bhandle; sw_idx : nat; sw_prev : list bhandle }.

(* createOverflowBucket: pop the free list, else overflow.extend(bucketSize) (returns the old
   file size = 512 + 512 * number of overflow buckets and appends a zero bucket) *)
Definition create_overflow (p : phys) : phys * bhandle :=
  match ph_free p with
  | off :: fr => (set_free p fr, {| bh_main := false; bh_off := off; bh_b := empty_pb |})
  | [] => (set_over p (ph_over p ++ [empty_pb]),
           {| bh_main := false; bh_off := bucket_off (nlen (ph_over p)); bh_b := empty_pb |})
  end.

(* slotWriter.insert *)
Definition swr_insert (p : phys) (w : swriter) (sl : slot) : phys * swriter :=
  let pw :=
    if (sw_idx w =? 31)%nat then
      let pn := create_overflow p in
      (fst pn, {| sw_cur := snd pn; sw_idx := 0;
                  sw_prev := sw_prev w ++ [bh_set_next (sw_cur w) (bh_off (snd pn))] |})
    else (p, w) in
  (fst pw, {| sw_cur := bh_set_slot (sw_cur (snd pw)) (sw_idx (snd pw)) sl;
              sw_idx := S (sw_idx (snd pw)); sw_prev := sw_prev (snd pw) |}).

(* slotWriter.write: previous buckets last-to-first, then the current bucket *)
Definition swr_write (p : phys) (w : swriter) : phys :=
  write_bh (fold_left write_bh (rev (sw_prev w)) p) (sw_cur w).

Definition mk_writer (h : bhandle) (i : nat) : swriter :=
  {| sw_cur := h; sw_idx := i; sw_prev := [] |}.

(* findInsertionBucket; [free] = the first empty slot met so far.  [hs' = []] is "b.next == 0".
   Result: the slot writer and, if the key is already in the index, the slot found. *)
Fixpoint find_ins (f : slot -> bool) (hs : list bhandle) (free : option swriter)
    : option (swriter * option slot) :=
  match hs with
  | [] => None                                        (* "failed to insert a new slot" *)
  | h :: hs' =>
    match scan_slots f (pb_slots (bh_b h)) 0 with
    | ScHit i s => Some (mk_writer h i, Some s)
    | ScFree i =>
      let free' := match free with None => Some (mk_writer h i) | Some _ => free end in
      match hs' with
      | [] => match free' with Some w => Some (w, None) | None => Some (mk_writer h i, None) end
      | _ :: _ => find_ins f hs' free'
      end
    | ScEnd i =>
      match hs' with
      | [] => match free with Some w => Some (w, None) | None => Some (mk_writer h i, None) end
      | _ :: _ => find_ins f hs' free
      end
    end
  end.

(** * index.split *)

(* the body of the slot loop of index.split; state: the index (free list, overflow file size), the
   updatedBucket writer, the sw writer *)
Definition split_body (lv sp ub : N) (st : phys * swriter * swriter) (sl : slot)
    : phys * swriter * swriter :=
  if bucket_index lv sp (sl_h sl) =? ub
  then let r := swr_insert (fst (fst st)) (snd (fst st)) sl in (fst r, snd r, snd st)
  else let r := swr_insert (fst (fst st)) (snd st) sl in (fst r, snd (fst st), snd r).

(* the body of the bucket loop: all live slots of the bucket, then remember b.next *)
Definition split_bucket (lv sp ub : N) (st : (phys * swriter * swriter) * list N) (h : bhandle)
    : (phys * swriter * swriter) * list N :=
  (fold_left (split_body lv sp ub) (pb_live (bh_b h)) (fst st),
   if pb_next (bh_b h) =? 0 then snd st else snd st ++ [pb_next (bh_b h)]).

Definition fresh_main_writer (off : N) : swriter :=
  mk_writer {| bh_main := true; bh_off := off; bh_b := empty_pb |} 0.

Definition ph_dosplit (p : phys) : phys :=
  let ub := ph_split p in                                            (* updatedBucketIdx *)
  let upd := fresh_main_writer (bucket_off ub) in                    (* a FRESH bucket, not read *)
  let newoff := bucket_off (nlen (ph_main p)) in                     (* main.extend(bucketSize) *)
  let p1 := set_main p (ph_main p ++ [empty_pb]) in
  let sw := fresh_main_writer newoff in
  let adv := advance (ph_level p) (ph_split p) in                    (* pointer advanced FIRST *)
  let p2 := set_ptr p1 (fst adv) (snd adv) in
  match ph_walk p2 ub with
  | None => p2
  | Some hs =>
    let r := fold_left (split_bucket (fst adv) (snd adv) ub) hs ((p2, upd, sw), []) in
    let p3 := fst (fst (fst r)) in
    let p4 := set_free p3 (ph_free p3 ++ snd r) in                   (* freeOverflowBucket(...) *)
    let p5 := swr_write p4 (snd (fst r)) in                          (* sw.write() *)
    let p6 := swr_write p5 (snd (fst (fst r))) in                    (* updatedBucket.write() *)
    set_nbuckets p6 (ph_nbuckets p6 + 1)
  end.

(** * put, delete, promoteRecord, iteration *)

(* index.put up to and including numKeys++; None = error *)
Definition ph_put_core (p : phys) (sl : slot) (m : slot -> bool) : option (phys * option slot) :=
  match ph_walk p (ph_bidx p (sl_h sl)) with
  | None => None
  | Some hs =>
    match find_ins (hit (sl_h sl) m) hs None with
    | None => None
    | Some (w, old) =>
      let r := swr_insert p w sl in
      let p2 := swr_write (fst r) (snd r) in
      match old with
      | Some o => Some (p2, Some o)                                  (* overwritingExisting *)
      | None => Some (set_nkeys p2 (ph_nkeys p2 + 1), None)
      end
    end
  end.

(* index.put *)
Definition ph_put (grow : N -> N -> bool) (p : phys) (sl : slot) (m : slot -> bool)
    : phys * option slot :=
  match ph_put_core p sl m with
  | None => (p, None)
  | Some (p1, Some o) => (p1, Some o)
  | Some (p1, None) => (if grow (ph_nkeys p1) (ph_nbuckets p1) then ph_dosplit p1 else p1, None)
  end.

(* index.delete *)
Definition ph_del (p : phys) (h : N) (m : slot -> bool) : phys * option slot :=
  match ph_walk p (ph_bidx p h) with
  | None => (p, None)
  | Some hs =>
    match hit_loop (hit h m) hs with
    | None => (p, None)
    | Some (b, i, s) => (set_nkeys (write_bh p (bh_del b i)) (ph_nkeys p - 1), Some s)
    end
  end.

(* promoteRecord, index part: b.slots[i].segmentID = nseg; b.slots[i].offset = noff; b.write() *)
Definition ph_repoint (p : phys) (h seg off nseg noff : N) : option phys :=
  match ph_walk p (ph_bidx p h) with
  | None => None
  | Some hs =>
    match hit_loop (rp_hit h seg off) hs with
    | None => None
    | Some (b, i, s) => Some (write_bh p (bh_set_slot b i (rp_new nseg noff s)))
    end
  end.

Definition ph_count (p : phys) : N := ph_nkeys p.

(* ItemIterator.fetchItems *)
Definition ph_bucket (p : phys) (n : N) : list slot :=
  match ph_walk p n with
  | None => []
  | Some hs => concat (map (fun h => pb_live (bh_b h)) hs)
  end.

(* openIndex on empty files: one zero bucket in main.pix, nothing in overflow.pix *)
Definition ph_empty : phys :=
  {| ph_level := 0; ph_split := 0; ph_nkeys := 0; ph_nbuckets := 1;
     ph_main := [empty_pb]; ph_over := []; ph_free := [] |}.

Definition phys_ops : idx_ops phys :=
  {| ix_empty := ph_empty; ix_get := ph_get; ix_put := ph_put; ix_del := ph_del;
     ix_repoint := ph_repoint; ix_count := ph_count; ix_nbuckets := ph_nbuckets;
     ix_bucket := ph_bucket |}.

(** * Byte images of the two index files *)

Definition pb_bytes (b : pbucket) : bytes := marshal_bucket (pb_slots b) (pb_next b).
Definition file_bytes (bs : list pbucket) : bytes := header_bytes ++ concat (map pb_bytes bs).
Definition ph_main_bytes (p : phys) : bytes := file_bytes (ph_main p).
Definition ph_over_bytes (p : phys) : bytes := file_bytes (ph_over p).

(** * Variants of the algorithm, for the sensitivity witnesses *)
Module PhysVariants.

(* (a) index.split that calls freeOverflowBucket for the old overflow buckets of the chain BEFORE
   re-inserting the slots: a bucket that is still to be read is handed out again *)
Definition ph_dosplit_early_free (p : phys) : phys :=
  let ub := ph_split p in
  let upd := fresh_main_writer (bucket_off ub) in
  let newoff := bucket_off (nlen (ph_main p)) in
  let p1 := set_main p (ph_main p ++ [empty_pb]) in
  let sw := fresh_main_writer newoff in
  let adv := advance (ph_level p) (ph_split p) in
  let p2 := set_ptr p1 (fst adv) (snd adv) in
  match ph_walk p2 ub with
  | None => p2
  | Some hs =>
    let frees := map bh_off (tl hs) in
    let p2' := set_free p2 (ph_free p2 ++ frees) in
    let r := fold_left (split_bucket (fst adv) (snd adv) ub) hs ((p2', upd, sw), []) in
    let p3 := fst (fst (fst r)) in
    let p5 := swr_write p3 (snd (fst r)) in
    let p6 := swr_write p5 (snd (fst (fst r))) in
    set_nbuckets p6 (ph_nbuckets p6 + 1)
  end.

Definition ph_put_early_free (grow : N -> N -> bool) (p : phys) (sl : slot) (m : slot -> bool)
    : phys * option slot :=
  match ph_put_core p sl m with
  | None => (p, None)
  | Some (p1, Some o) => (p1, Some o)
  | Some (p1, None) =>
    (if grow (ph_nkeys p1) (ph_nbuckets p1) then ph_dosplit_early_free p1 else p1, None)
  end.

(* (a') index.split that forgets freeOverflowBucket: the old overflow buckets of the chain leak *)
Definition ph_dosplit_no_free (p : phys) : phys :=
  let ub := ph_split p in
  let upd := fresh_main_writer (bucket_off ub) in
  let newoff := bucket_off (nlen (ph_main p)) in
  let p1 := set_main p (ph_main p ++ [empty_pb]) in
  let sw := fresh_main_writer newoff in
  let adv := advance (ph_level p) (ph_split p) in
  let p2 := set_ptr p1 (fst adv) (snd adv) in
  match ph_walk p2 ub with
  | None => p2
  | Some hs =>
    let r := fold_left (split_bucket (fst adv) (snd adv) ub) hs ((p2, upd, sw), []) in
    let p3 := fst (fst (fst r)) in
    let p5 := swr_write p3 (snd (fst r)) in
    let p6 := swr_write p5 (snd (fst (fst r))) in
    set_nbuckets p6 (ph_nbuckets p6 + 1)
  end.

(* (b) createOverflowBucket that takes the head of the free list WITHOUT removing it *)
Definition create_overflow_nopop (p : phys) : phys * bhandle :=
  match ph_free p with
  | off :: fr => (p, {| bh_main := false; bh_off := off; bh_b := empty_pb |})
  | [] => (set_over p (ph_over p ++ [empty_pb]),
           {| bh_main := false; bh_off := bucket_off (nlen (ph_over p)); bh_b := empty_pb |})
  end.

Definition swr_insert_nopop (p : phys) (w : swriter) (sl : slot) : phys * swriter :=
  let pw :=
    if (sw_idx w =? 31)%nat then
      let pn := create_overflow_nopop p in
      (fst pn, {| sw_cur := snd pn; sw_idx := 0;
                  sw_prev := sw_prev w ++ [bh_set_next (sw_cur w) (bh_off (snd pn))] |})
    else (p, w) in
  (fst pw, {| sw_cur := bh_set_slot (sw_cur (snd pw)) (sw_idx (snd pw)) sl;
              sw_idx := S (sw_idx (snd pw)); sw_prev := sw_prev (snd pw) |}).

(* index.put without a split, on top of the wrong createOverflowBucket *)
Definition ph_put_nopop (p : phys) (sl : slot) (m : slot -> bool) : phys * option slot :=
  match ph_walk p (ph_bidx p (sl_h sl)) with
  | None => (p, None)
  | Some hs =>
    match find_ins (hit (sl_h sl) m) hs None with
    | None => (p, None)
    | Some (w, old) =>
      let r := swr_insert_nopop p w sl in
      let p2 := swr_write (fst r) (snd r) in
      match old with
      | Some o => (p2, Some o)
      | None => (set_nkeys p2 (ph_nkeys p2 + 1), None)
      end
    end
  end.

End PhysVariants.

(** * Small computation examples *)
Module PhysEx.
Import PxEx.

Definition pput_keys (grow : N -> N -> bool) (p : phys) (n : nat) : phys :=
  fold_left (fun p i => fst (ph_put grow p (mk (N.of_nat i)) (is (N.of_nat i)))) (seq 1 n) p.

(* 40 slots with the same hash, no split: main bucket full, next = 512 (first block of
   overflow.pix), 9 slots there *)
Definition pex40 : phys := pput_keys grow0 ph_empty 40.
Definition pex40_v : phys := Eval vm_compute in pex40.
Lemma pex40_eq : pex40 = pex40_v.
Proof. vm_compute. reflexivity. Qed.

Example pex40_shape :
  map (fun b => (length (pb_live b), pb_next b)) (ph_main pex40) = [(31%nat, 512)] /\
  map (fun b => (length (pb_live b), pb_next b)) (ph_over pex40) = [(9%nat, 0)] /\
  ph_free pex40 = [] /\ ph_nkeys pex40 = 40 /\ ph_nbuckets pex40 = 1 /\
  ph_bucket pex40 0 = px_bucket ex40 0 /\
  ph_get pex40 7 (is 35) = Some (mk 35) /\ ph_get pex40 7 (is 41) = None.
Proof. rewrite pex40_eq. vm_compute. repeat split. Qed.

(* the empty index files are a header and one zero block / a header *)
Example ph_empty_bytes :
  ph_main_bytes ph_empty = header_bytes ++ zeros 512 /\ ph_over_bytes ph_empty = header_bytes.
Proof. vm_compute. split; reflexivity. Qed.

End PhysEx.
