(* The database on the bucket chains of index.go ([chain_ops], Index.v) against the same database on
   the flat reference index ([flat_ops], Flat.v), for any hash function, split policy, thresholds and
   sync mode.  States are related component by component ([gst_rel R]: everything equal, index values
   related by R, also inside the disk and the trace); here R is [idx_rel]: the chains are well formed
   and hold a permutation of the flat list.  The index laws (get_rel, put_rel, del_rel, repoint_rel)
   need that the callback accepts at most one slot ([uniq]); the operation theorems take it from [Inv]
   of the FLAT state, and nothing beyond [st_rel] is assumed about the chain state.  Put also needs
   the 32-bit condition [room], which is not inductive and is therefore required along runs ([rooms]).
   Composed with DBProofsOps: the chain database refines the plain map (C01_chain_refines_map).
   Sections Rel and Guarded are generic in the two index types: the operations that call the index are
   lifted once, under a guard on the second instance ([guarded_sim]); here the guard is [uniq], in
   DBSimExact.v it is a nonzero offset.
   [sim_items] is stated up to [out_equiv] (the exists-form is false for a closed handle: both sides
   return EClosed); params_ok is carried only because put_ok_ex / delete_ok_ex carry it.
   Not here: Compact along runs (DBRun.v), Close / Open / crashes (DBSimSessions.v). *)
From Coq Require Import ZArith Lia ZifyN ZifyNat ZifyBool Permutation.
From Pogreb Require Import Base BaseLemmas Crc Bytes Record RecordProofs Flat Index Spec DB DBInv
  DBLemmas DBProofsOps DBProofsCompact.
Ltac Zify.zify_post_hook ::= Z.div_mod_to_equations.

Inductive opt_rel {A B} (R : A -> B -> Prop) : option A -> option B -> Prop :=
| opt_rel_none : opt_rel R None None
| opt_rel_some a b : R a b -> opt_rel R (Some a) (Some b).

Inductive gob_rel {A B} (R : A -> B -> Prop) : gob A -> gob B -> Prop :=
| gob_rel_absent : gob_rel R GAbsent GAbsent
| gob_rel_partial : gob_rel R GPartial GPartial
| gob_rel_ok a b : R a b -> gob_rel R (GOk a) (GOk b).

(* writeRecord = choose the segment (seal, swap) ; append -- for any index (cf. DBLemmas.wr_prelude) *)
Definition gprelude {I} (ops : idx_ops I) (P : params) (r : rec) (s : @DB.st I) (m : @DB.mem I) :
    @DB.st I * @DB.mem I :=
  let need_swap := match cur_seg m with
                   | None => true
                   | Some g => sm_full (g_meta g) || (p_maxseg P <? g_size g + rsize r)
                   end in
  if need_swap
  then let '(s0, m0) := match cur_seg m with
                        | Some g => seal ops (g_id g) s m
                        | None => (s, m)
                        end in
       swap_segment ops s0 m0
  else (s, m).

Definition gtail {I} (ops : idx_ops I) (r : rec) (s1 : @DB.st I) (m1 : @DB.mem I) :
    option (@DB.st I * @DB.mem I * N * N) :=
  match cur_seg m1 with
  | None => None
  | Some g =>
    match find_dseg (g_id g) (s_disk s1) with
    | None => None
    | Some f =>
      if negb ((f_seq f =? g_seq g) && (flen f =? g_size g)) then None
      else
        let off := g_size g in
        let s2 := emit ops (EAppend (g_id g) (g_seq g) off r) s1 in
        let m2 := set_msegs m1 (upd_mseg (g_id g)
                    (fun g => set_gmeta (set_gsize g (off + rsize r)) (count_rec r (g_meta g)))
                    (m_segs m1)) in
        Some (s2, m2, g_id g, u32 off)
    end
  end.

Lemma write_record_g {I} (ops : idx_ops I) P r s m :
  write_record ops P r s m = let '(s1, m1) := gprelude ops P r s m in gtail ops r s1 m1.
Proof. reflexivity. Qed.

Lemma seal_idx {I} (ops : idx_ops I) id s m : m_idx (snd (seal ops id s m)) = m_idx m.
Proof. unfold seal. destruct (find_mseg id (m_segs m)) as [g|]; [destruct (sm_full (g_meta g))|]; reflexivity. Qed.

Lemma swap_idx {I} (ops : idx_ops I) s m : m_idx (snd (swap_segment ops s m)) = m_idx m.
Proof. unfold swap_segment. destruct (find _ (m_segs m)); reflexivity. Qed.

Lemma gprelude_idx {I} (ops : idx_ops I) P r s m : m_idx (snd (gprelude ops P r s m)) = m_idx m.
Proof.
  unfold gprelude. destruct (cur_seg m) as [g|].
  - destruct (sm_full (g_meta g) || (p_maxseg P <? g_size g + rsize r)); [|reflexivity].
    pose proof (seal_idx ops (g_id g) s m) as H. destruct (seal ops (g_id g) s m) as [s0 m0].
    cbn [snd] in H. rewrite swap_idx. exact H.
  - apply swap_idx.
Qed.

Lemma gtail_idx {I} (ops : idx_ops I) r s1 m1 s' m' id off :
  gtail ops r s1 m1 = Some (s', m', id, off) -> m_idx m' = m_idx m1.
Proof.
  unfold gtail. destruct (cur_seg m1) as [g|]; [|discriminate].
  destruct (find_dseg (g_id g) (s_disk s1)) as [f|]; [|discriminate].
  destruct (negb ((f_seq f =? g_seq g) && (flen f =? g_size g))); [discriminate|].
  cbv zeta. intros H. injection H as _ <- _ _. reflexivity.
Qed.

Lemma write_record_idx {I} (ops : idx_ops I) P r s m s' m' id off :
  write_record ops P r s m = Some (s', m', id, off) -> m_idx m' = m_idx m.
Proof.
  rewrite write_record_g. pose proof (gprelude_idx ops P r s m) as H.
  destruct (gprelude ops P r s m) as [s1 m1]. cbn [snd] in H. intros E.
  rewrite (gtail_idx _ _ _ _ _ _ _ _ E). exact H.
Qed.

Section Rel.
Context {I1 I2 : Type}.
Variable R : I1 -> I2 -> Prop.

Notation disk1 := (@DB.disk I1). Notation disk2 := (@DB.disk I2).
Notation mem1 := (@DB.mem I1).   Notation mem2 := (@DB.mem I2).
Notation st1 := (@DB.st I1).     Notation st2 := (@DB.st I2).
Notation fsev1 := (@DB.fsev I1). Notation fsev2 := (@DB.fsev I2).

(* equal in every component; the index values are related *)
Inductive gdisk_rel : disk1 -> disk2 -> Prop :=
| DiskRel segs orph i1 i2 ov g1 g2 dbm lk bac :
    opt_rel R i1 i2 -> gob_rel R g1 g2 ->
    gdisk_rel {| d_segs := segs; d_orphans := orph; d_index := i1; d_overflow := ov; d_imeta := g1;
                d_dbmeta := dbm; d_lock := lk; d_bac := bac |}
             {| d_segs := segs; d_orphans := orph; d_index := i2; d_overflow := ov; d_imeta := g2;
                d_dbmeta := dbm; d_lock := lk; d_bac := bac |}.

Inductive gev_rel : fsev1 -> fsev2 -> Prop :=
| er_create f : gev_rel (ECreate f) (ECreate f)
| er_header f : gev_rel (EHeader f) (EHeader f)
| er_append id seq off r : gev_rel (EAppend id seq off r) (EAppend id seq off r)
| er_index i1 i2 : R i1 i2 -> gev_rel (EIndex i1) (EIndex i2)
| er_gobseg id seq m : gev_rel (EGobSeg id seq m) (EGobSeg id seq m)
| er_gobindex i1 i2 : R i1 i2 -> gev_rel (EGobIndex i1) (EGobIndex i2)
| er_gobdb sd : gev_rel (EGobDb sd) (EGobDb sd)
| er_trunc f n : gev_rel (ETrunc f n) (ETrunc f n)
| er_rename f g : gev_rel (ERename f g) (ERename f g)
| er_remove f : gev_rel (ERemove f) (ERemove f)
| er_sync f : gev_rel (ESync f) (ESync f).

Inductive gmem_rel : mem1 -> mem2 -> Prop :=
| MemRel segs cur rem mx i1 i2 seed : R i1 i2 ->
    gmem_rel {| m_segs := segs; m_cur := cur; m_cur_removed := rem; m_maxseq := mx; m_idx := i1;
               m_seed := seed |}
            {| m_segs := segs; m_cur := cur; m_cur_removed := rem; m_maxseq := mx; m_idx := i2;
               m_seed := seed |}.

Inductive gst_rel : st1 -> st2 -> Prop :=
| StRel m1 m2 d1 d2 t1 t2 :
    opt_rel gmem_rel m1 m2 -> gdisk_rel d1 d2 -> Forall2 gev_rel t1 t2 ->
    gst_rel {| s_mem := m1; s_disk := d1; s_trace := t1 |} {| s_mem := m2; s_disk := d2; s_trace := t2 |}.

(* the relations component by component, for users who build related states by hand *)
Lemma disk_rel_iff (d1 : disk1) (d2 : disk2) :
  gdisk_rel d1 d2 <->
  d_segs d1 = d_segs d2 /\ d_orphans d1 = d_orphans d2 /\ opt_rel R (d_index d1) (d_index d2) /\
  d_overflow d1 = d_overflow d2 /\ gob_rel R (d_imeta d1) (d_imeta d2) /\
  d_dbmeta d1 = d_dbmeta d2 /\ d_lock d1 = d_lock d2 /\ d_bac d1 = d_bac d2.
Proof.
  split.
  - intros H. destruct H. cbn [d_segs d_orphans d_index d_overflow d_imeta d_dbmeta d_lock d_bac].
    repeat split; assumption.
  - destruct d1 as [a1 b1 c1 e1 f1 g1 h1 j1], d2 as [a2 b2 c2 e2 f2 g2 h2 j2]. cbn [d_segs d_orphans d_index d_overflow d_imeta d_dbmeta d_lock d_bac].
    intros (-> & -> & Hi & -> & Hg & -> & -> & ->). constructor; assumption.
Qed.

Lemma mem_rel_iff (m1 : mem1) (m2 : mem2) :
  gmem_rel m1 m2 <->
  m_segs m1 = m_segs m2 /\ m_cur m1 = m_cur m2 /\ m_cur_removed m1 = m_cur_removed m2 /\
  m_maxseq m1 = m_maxseq m2 /\ R (m_idx m1) (m_idx m2) /\ m_seed m1 = m_seed m2.
Proof.
  split.
  - intros H. destruct H. cbn [m_segs m_cur m_cur_removed m_maxseq m_idx m_seed]. repeat split; assumption.
  - destruct m1 as [a1 b1 c1 e1 f1 g1], m2 as [a2 b2 c2 e2 f2 g2]. cbn [m_segs m_cur m_cur_removed m_maxseq m_idx m_seed].
    intros (-> & -> & -> & -> & Hi & ->). constructor; assumption.
Qed.

Lemma st_rel_iff (s1 : st1) (s2 : st2) :
  gst_rel s1 s2 <->
  opt_rel gmem_rel (s_mem s1) (s_mem s2) /\ gdisk_rel (s_disk s1) (s_disk s2) /\
  Forall2 gev_rel (s_trace s1) (s_trace s2).
Proof.
  split.
  - intros H. destruct H. cbn [s_mem s_disk s_trace]. repeat split; assumption.
  - destruct s1 as [a1 b1 c1], s2 as [a2 b2 c2]. cbn [s_mem s_disk s_trace]. intros (A & B & C). constructor; assumption.
Qed.

Lemma st_rel_disk s1 s2 : gst_rel s1 s2 -> gdisk_rel (s_disk s1) (s_disk s2).
Proof. intros H. apply st_rel_iff in H. tauto. Qed.
Lemma st_rel_trace s1 s2 : gst_rel s1 s2 -> Forall2 gev_rel (s_trace s1) (s_trace s2).
Proof. intros H. apply st_rel_iff in H. tauto. Qed.

Lemma st_rel_mem_cases s1 s2 : gst_rel s1 s2 ->
  (s_mem s1 = None /\ s_mem s2 = None) \/
  (exists m1 m2, s_mem s1 = Some m1 /\ s_mem s2 = Some m2 /\ gmem_rel m1 m2).
Proof.
  intros H. destruct H as [m1 m2 d1 d2 t1 t2 Hm _ _]. cbn [s_mem].
  destruct Hm as [|a b Hab]; [left; split; reflexivity|right; exists a, b; auto].
Qed.

Lemma mem_rel_segs m1 m2 : gmem_rel m1 m2 -> m_segs m1 = m_segs m2.
Proof. intros H. destruct H. reflexivity. Qed.
Lemma mem_rel_cur m1 m2 : gmem_rel m1 m2 -> m_cur m1 = m_cur m2.
Proof. intros H. destruct H. reflexivity. Qed.
Lemma mem_rel_maxseq m1 m2 : gmem_rel m1 m2 -> m_maxseq m1 = m_maxseq m2.
Proof. intros H. destruct H. reflexivity. Qed.
Lemma mem_rel_seed m1 m2 : gmem_rel m1 m2 -> m_seed m1 = m_seed m2.
Proof. intros H. destruct H. reflexivity. Qed.
Lemma mem_rel_idx m1 m2 : gmem_rel m1 m2 -> R (m_idx m1) (m_idx m2).
Proof. intros H. destruct H. assumption. Qed.
Lemma mem_rel_cur_seg m1 m2 : gmem_rel m1 m2 -> cur_seg m1 = cur_seg m2.
Proof. intros H. destruct H. reflexivity. Qed.

Lemma find_dseg_rel d1 d2 id : gdisk_rel d1 d2 -> find_dseg id d1 = find_dseg id d2.
Proof. intros H. destruct H. reflexivity. Qed.
Lemma d_segs_rel d1 d2 : gdisk_rel d1 d2 -> d_segs d1 = d_segs d2.
Proof. intros H. destruct H. reflexivity. Qed.
Lemma read_kv_rel d1 d2 sl : gdisk_rel d1 d2 -> read_kv d1 sl = read_kv d2 sl.
Proof. intros H. destruct H. reflexivity. Qed.
(* equality of FUNCTIONS (no extensionality needed): the callback handed to the index is the same *)
Lemma matchf_rel d1 d2 k : gdisk_rel d1 d2 -> matchf d1 k = matchf d2 k.
Proof. intros H. destruct H. reflexivity. Qed.
Lemma read_slots_rel d1 d2 l : gdisk_rel d1 d2 -> read_slots d1 l = read_slots d2 l.
Proof.
  intros H. induction l as [|sl l IH]; [reflexivity|].
  cbn [read_slots]. rewrite IH, (read_kv_rel _ _ sl H). reflexivity.
Qed.
Lemma seg_names_rel d1 d2 : gdisk_rel d1 d2 -> seg_names d1 = seg_names d2.
Proof. intros H. destruct H. reflexivity. Qed.
Lemma dir_rel d1 d2 : gdisk_rel d1 d2 -> dir d1 = dir d2.
Proof.
  intros H. destruct H as [segs orph i1 i2 ov g1 g2 dbm lk bac Hi Hg].
  unfold dir, seg_names. cbn [d_segs d_orphans d_index d_overflow d_imeta d_dbmeta d_lock d_bac].
  destruct Hi; destruct Hg; reflexivity.
Qed.
Lemma exists_file_rel d1 d2 f : gdisk_rel d1 d2 -> exists_file d1 f = exists_file d2 f.
Proof. intros H. unfold exists_file. rewrite (dir_rel _ _ H). reflexivity. Qed.
Lemma total_recs_rel d1 d2 : gdisk_rel d1 d2 -> total_recs d1 = total_recs d2.
Proof. intros H. destruct H. reflexivity. Qed.

Lemma set_msegs_rel m1 m2 l : gmem_rel m1 m2 -> gmem_rel (set_msegs m1 l) (set_msegs m2 l).
Proof. intros H. destruct H. constructor. assumption. Qed.
Lemma set_msegs_upd_g id F m1 m2 : gmem_rel m1 m2 ->
  gmem_rel (set_msegs m1 (upd_mseg id F (m_segs m1))) (set_msegs m2 (upd_mseg id F (m_segs m2))).
Proof. intros H. rewrite (mem_rel_segs _ _ H). apply set_msegs_rel. exact H. Qed.
Lemma set_cur_rel m1 m2 c b : gmem_rel m1 m2 -> gmem_rel (set_cur m1 c b) (set_cur m2 c b).
Proof. intros H. destruct H. constructor. assumption. Qed.
Lemma set_maxseq_rel m1 m2 n : gmem_rel m1 m2 -> gmem_rel (set_maxseq m1 n) (set_maxseq m2 n).
Proof. intros H. destruct H. constructor. assumption. Qed.
Lemma set_idx_rel m1 m2 i1 i2 : gmem_rel m1 m2 -> R i1 i2 -> gmem_rel (set_idx m1 i1) (set_idx m2 i2).
Proof. intros H Hi. destruct H. constructor. assumption. Qed.
Lemma track_del_rel m1 m2 sl : gmem_rel m1 m2 -> gmem_rel (track_del sl m1) (track_del sl m2).
Proof. intros H. destruct H. constructor. assumption. Qed.
Lemma add_delbytes_rel m1 m2 id n : gmem_rel m1 m2 -> gmem_rel (add_delbytes id n m1) (add_delbytes id n m2).
Proof. intros H. destruct H. constructor. assumption. Qed.
Lemma pick_rel P m1 m2 : gmem_rel m1 m2 -> pick P m1 = pick P m2.
Proof. intros H. destruct H. reflexivity. Qed.

Lemma with_mem_rel s1 s2 m1 m2 : gst_rel s1 s2 -> gmem_rel m1 m2 -> gst_rel (with_mem m1 s1) (with_mem m2 s2).
Proof. intros H Hm. destruct H. constructor; [constructor|..]; assumption. Qed.
Lemma clear_trace_rel s1 s2 : gst_rel s1 s2 -> gst_rel (clear_trace s1) (clear_trace s2).
Proof. intros H. destruct H. constructor; [assumption|assumption|constructor]. Qed.

Variable ops1 : idx_ops I1.
Variable ops2 : idx_ops I2.
Hypothesis R_empty : R (ix_empty ops1) (ix_empty ops2).

Ltac dsimp :=
  cbv beta iota delta [apply_ev file_removed set_segs set_orphans set_index set_overflow set_imeta
    set_dbmeta set_lock set_bac upd_seg d_segs d_orphans d_index d_overflow d_imeta d_dbmeta d_lock d_bac].

Lemma file_removed_rel d1 d2 f : gdisk_rel d1 d2 -> gdisk_rel (file_removed f d1) (file_removed f d2).
Proof.
  intros H. destruct H as [segs orph i1 i2 ov g1 g2 dbm lk bac Hi Hg].
  destruct f; dsimp; constructor; try assumption; constructor.
Qed.

Lemma set_bac_rel d1 d2 l : gdisk_rel d1 d2 -> gdisk_rel (set_bac d1 l) (set_bac d2 l).
Proof. intros H. destruct H. dsimp. constructor; assumption. Qed.
Lemma d_bac_rel d1 d2 : gdisk_rel d1 d2 -> d_bac d1 = d_bac d2.
Proof. intros H. destruct H. reflexivity. Qed.

Theorem apply_ev_rel d1 d2 e1 e2 : gdisk_rel d1 d2 -> gev_rel e1 e2 ->
  gdisk_rel (apply_ev ops1 d1 e1) (apply_ev ops2 d2 e2).
Proof.
  intros Hd He. destruct He as [f|f|id seq off r|i1 i2 Hi|id seq m|i1 i2 Hi|sd|f n|f g|f|f].
  - destruct Hd as [segs orph j1 j2 ov g1 g2 dbm lk bac Hj Hg].
    destruct f; dsimp; constructor; try assumption; constructor. exact R_empty.
  - destruct Hd as [segs orph j1 j2 ov g1 g2 dbm lk bac Hj Hg].
    destruct f; dsimp; constructor; assumption.
  - destruct Hd. dsimp. constructor; assumption.
  - destruct Hd. dsimp. constructor; [constructor|]; assumption.
  - destruct Hd. dsimp. constructor; assumption.
  - destruct Hd. dsimp. constructor; [|constructor]; assumption.
  - destruct Hd. dsimp. constructor; assumption.
  - destruct Hd as [segs orph j1 j2 ov g1 g2 dbm lk bac Hj Hg].
    destruct f; dsimp; constructor; try assumption; constructor.
  - cbv beta iota delta [apply_ev].
    rewrite (d_bac_rel _ _ (file_removed_rel d1 d2 f Hd)).
    apply set_bac_rel. apply file_removed_rel. exact Hd.
  - cbv beta iota delta [apply_ev]. apply file_removed_rel. exact Hd.
  - cbv beta iota delta [apply_ev]. exact Hd.
Qed.

Lemma emit_rel s1 s2 e1 e2 : gst_rel s1 s2 -> gev_rel e1 e2 -> gst_rel (emit ops1 e1 s1) (emit ops2 e2 s2).
Proof.
  intros Hs He. destruct Hs as [m1 m2 d1 d2 t1 t2 Hm Hd Ht]. unfold emit. cbn [s_mem s_disk s_trace].
  constructor; [exact Hm|apply apply_ev_rel; assumption|].
  apply Forall2_app; [exact Ht|]. constructor; [exact He|constructor].
Qed.

Lemma emits_rel es1 es2 : Forall2 gev_rel es1 es2 -> forall s1 s2, gst_rel s1 s2 ->
  gst_rel (emits ops1 es1 s1) (emits ops2 es2 s2).
Proof.
  unfold emits. induction 1 as [|e1 e2 es1 es2 He Hes IH]; intros s1 s2 Hs; cbn [fold_left]; [exact Hs|].
  apply IH. apply emit_rel; assumption.
Qed.

Definition sm_rel (a : st1 * mem1) (b : st2 * mem2) : Prop := gst_rel (fst a) (fst b) /\ gmem_rel (snd a) (snd b).

Lemma seal_rel id s1 s2 m1 m2 : gst_rel s1 s2 -> gmem_rel m1 m2 ->
  sm_rel (seal ops1 id s1 m1) (seal ops2 id s2 m2).
Proof.
  intros Hs Hm. unfold seal. rewrite (mem_rel_segs _ _ Hm).
  destruct (find_mseg id (m_segs m2)) as [g|]; [|split; assumption].
  destruct (sm_full (g_meta g)); [split; assumption|].
  split; cbn [fst snd]; [apply emit_rel; [exact Hs|constructor]|apply set_msegs_rel; exact Hm].
Qed.

Lemma swap_segment_rel s1 s2 m1 m2 : gst_rel s1 s2 -> gmem_rel m1 m2 ->
  sm_rel (swap_segment ops1 s1 m1) (swap_segment ops2 s2 m2).
Proof.
  intros Hs Hm. unfold swap_segment. rewrite (mem_rel_segs _ _ Hm).
  destruct (find (fun g => negb (sm_full (g_meta g))) (m_segs m2)) as [g|].
  - split; cbn [fst snd]; [exact Hs|apply set_cur_rel; exact Hm].
  - cbv zeta. rewrite (mem_rel_maxseq _ _ Hm). split; cbn [fst snd].
    + apply emits_rel; [|exact Hs]. constructor; [constructor|]. constructor; [constructor|constructor].
    + apply set_cur_rel, set_maxseq_rel, set_msegs_rel. exact Hm.
Qed.

Lemma gprelude_rel P r s1 s2 m1 m2 : gst_rel s1 s2 -> gmem_rel m1 m2 ->
  sm_rel (gprelude ops1 P r s1 m1) (gprelude ops2 P r s2 m2).
Proof.
  intros Hs Hm. unfold gprelude. rewrite (mem_rel_cur_seg _ _ Hm).
  destruct (cur_seg m2) as [g|].
  - destruct (sm_full (g_meta g) || (p_maxseg P <? g_size g + rsize r)); [|split; assumption].
    pose proof (seal_rel (g_id g) s1 s2 m1 m2 Hs Hm) as Hseal.
    destruct (seal ops1 (g_id g) s1 m1) as [s01 m01]. destruct (seal ops2 (g_id g) s2 m2) as [s02 m02].
    destruct Hseal as [A B]. cbn [fst snd] in A, B. apply swap_segment_rel; assumption.
  - apply swap_segment_rel; assumption.
Qed.

Definition wr_rel (a : option (st1 * mem1 * N * N)) (b : option (st2 * mem2 * N * N)) : Prop :=
  match a, b with
  | None, None => True
  | Some (s1, m1, id1, off1), Some (s2, m2, id2, off2) =>
      gst_rel s1 s2 /\ gmem_rel m1 m2 /\ id1 = id2 /\ off1 = off2
  | _, _ => False
  end.

Lemma gtail_rel r s1 s2 m1 m2 : gst_rel s1 s2 -> gmem_rel m1 m2 ->
  wr_rel (gtail ops1 r s1 m1) (gtail ops2 r s2 m2).
Proof.
  intros Hs Hm. unfold gtail. rewrite (mem_rel_cur_seg _ _ Hm).
  destruct (cur_seg m2) as [g|]; [|exact I].
  rewrite (find_dseg_rel _ _ (g_id g) (st_rel_disk _ _ Hs)).
  destruct (find_dseg (g_id g) (s_disk s2)) as [f|]; [|exact I].
  destruct (negb ((f_seq f =? g_seq g) && (flen f =? g_size g))); [exact I|].
  cbv zeta. unfold wr_rel. split; [apply emit_rel; [exact Hs|constructor]|].
  split; [|split; reflexivity]. rewrite (mem_rel_segs _ _ Hm). apply set_msegs_rel. exact Hm.
Qed.

Theorem write_record_rel P r s1 s2 m1 m2 : gst_rel s1 s2 -> gmem_rel m1 m2 ->
  wr_rel (write_record ops1 P r s1 m1) (write_record ops2 P r s2 m2).
Proof.
  intros Hs Hm. rewrite !write_record_g.
  pose proof (gprelude_rel P r s1 s2 m1 m2 Hs Hm) as Hp.
  destruct (gprelude ops1 P r s1 m1) as [s1' m1']. destruct (gprelude ops2 P r s2 m2) as [s2' m2'].
  destruct Hp as [A B]. cbn [fst snd] in A, B. apply gtail_rel; assumption.
Qed.

Lemma do_sync_rel s1 s2 m1 m2 : gst_rel s1 s2 -> gmem_rel m1 m2 ->
  gst_rel (do_sync ops1 s1 m1) (do_sync ops2 s2 m2).
Proof.
  intros Hs Hm. unfold do_sync. rewrite (mem_rel_cur_seg _ _ Hm).
  destruct (cur_seg m2) as [g|]; [apply emit_rel; [exact Hs|constructor]|exact Hs].
Qed.

Definition so_rel (a : st1 * out) (b : st2 * out) : Prop := snd a = snd b /\ gst_rel (fst a) (fst b).

Lemma finish_rel P s1 s2 m1 m2 : gst_rel s1 s2 -> gmem_rel m1 m2 ->
  so_rel (finish ops1 P s1 m1) (finish ops2 P s2 m2).
Proof.
  intros Hs Hm. unfold finish. split; cbn [fst snd]; [reflexivity|].
  apply with_mem_rel; [|exact Hm]. destruct (p_sync P); [apply do_sync_rel; assumption|exact Hs].
Qed.

Lemma remove_segment_rel id seq s1 s2 m1 m2 : gst_rel s1 s2 -> gmem_rel m1 m2 ->
  gst_rel (remove_segment ops1 id seq s1 m1) (remove_segment ops2 id seq s2 m2).
Proof.
  intros Hs Hm. unfold remove_segment. cbv zeta.
  pose proof (do_sync_rel s1 s2 m1 m2 Hs Hm) as Hsync.
  rewrite (exists_file_rel _ _ (FSegMeta id seq) (st_rel_disk _ _ Hsync)).
  rewrite (mem_rel_cur _ _ Hm), (mem_rel_segs _ _ Hm).
  apply with_mem_rel.
  - apply emit_rel; [|constructor].
    destruct (exists_file (s_disk (do_sync ops2 s2 m2)) (FSegMeta id seq));
      [apply emit_rel; [exact Hsync|constructor]|exact Hsync].
  - destruct ((fst (m_cur m2) =? id) && (snd (m_cur m2) =? seq)).
    + apply set_cur_rel, set_msegs_rel. exact Hm.
    + apply set_msegs_rel. exact Hm.
Qed.

Lemma fold_seal_rel (l : list mseg) : forall a b, sm_rel a b ->
  sm_rel (fold_left (fun sm g => seal ops1 (g_id g) (fst sm) (snd sm)) l a)
         (fold_left (fun sm g => seal ops2 (g_id g) (fst sm) (snd sm)) l b).
Proof.
  induction l as [|g l IH]; intros a b Hab; cbn [fold_left]; [exact Hab|].
  apply IH. destruct Hab as [A B]. apply seal_rel; assumption.
Qed.

Theorem sync_rel s1 s2 : gst_rel s1 s2 -> so_rel (db_sync ops1 s1) (db_sync ops2 s2).
Proof.
  intros Hs. unfold db_sync.
  destruct (st_rel_mem_cases _ _ Hs) as [[E1 E2]|(m1 & m2 & E1 & E2 & Hm)]; rewrite E1, E2.
  - split; [reflexivity|exact Hs].
  - split; cbn [fst snd]; [reflexivity|apply do_sync_rel; assumption].
Qed.

Definition pick_res_rel (a : option (st1 * cursor)) (b : option (st2 * cursor)) : Prop :=
  match a, b with
  | None, None => True
  | Some (s1, c1), Some (s2, c2) => gst_rel s1 s2 /\ c1 = c2
  | _, _ => False
  end.

Theorem compact_pick_rel P s1 s2 : gst_rel s1 s2 ->
  pick_res_rel (compact_pick ops1 P s1) (compact_pick ops2 P s2).
Proof.
  intros Hs. unfold compact_pick.
  destruct (st_rel_mem_cases _ _ Hs) as [[E1 E2]|(m1 & m2 & E1 & E2 & Hm)]; rewrite E1, E2; [exact I|].
  cbv zeta. rewrite (pick_rel P _ _ Hm).
  pose proof (fold_seal_rel (pick P m2) (s1, m1) (s2, m2) (conj Hs Hm)) as Hf.
  destruct (fold_left (fun sm g => seal ops1 (g_id g) (fst sm) (snd sm)) (pick P m2) (s1, m1)) as [s1' m1'].
  destruct (fold_left (fun sm g => seal ops2 (g_id g) (fst sm) (snd sm)) (pick P m2) (s2, m2)) as [s2' m2'].
  destruct Hf as [A B]. cbn [fst snd] in A, B. unfold pick_res_rel.
  split; [apply with_mem_rel; assumption|reflexivity].
Qed.

End Rel.

Arguments gdisk_rel {I1 I2} R. Arguments gev_rel {I1 I2} R. Arguments gmem_rel {I1 I2} R.
Arguments gst_rel {I1 I2} R. Arguments sm_rel {I1 I2} R. Arguments so_rel {I1 I2} R.
Arguments wr_rel {I1 I2} R. Arguments pick_res_rel {I1 I2} R.

(* The index laws hold as long as the call is admissible on the SECOND instance: [G f b] says that the
   callback [f] may be handed to the index value [b], [Ok o] that [o] may be stored as a slot offset.
   Chain against flat index (below): G = [uniq], at most one slot is accepted; Ok = True.
   Exact simulation (DBSimExact.v): G = True; Ok o = (o <> 0).  Every theorem of Section Guarded asks for
   the guard at the calls the operation makes, as a hypothesis about the second database only. *)
Record guarded_sim {I1 I2} (ops1 : idx_ops I1) (ops2 : idx_ops I2) (R : I1 -> I2 -> Prop)
    (G : (slot -> bool) -> I2 -> Prop) (Ok : N -> Prop) : Prop := {
  gs_empty : R (ix_empty ops1) (ix_empty ops2);
  gs_count : forall a b, R a b -> ix_count ops1 a = ix_count ops2 b;
  gs_get : forall a b h m, R a b -> G (fl_hit h m) b -> ix_get ops1 a h m = ix_get ops2 b h m;
  gs_put : forall g a b sl m, R a b -> G (fl_hit (sl_h sl) m) b -> Ok (sl_off sl) ->
     snd (ix_put ops1 g a sl m) = snd (ix_put ops2 g b sl m) /\
     R (fst (ix_put ops1 g a sl m)) (fst (ix_put ops2 g b sl m));
  gs_del : forall a b h m, R a b -> G (fl_hit h m) b ->
     snd (ix_del ops1 a h m) = snd (ix_del ops2 b h m) /\
     R (fst (ix_del ops1 a h m)) (fst (ix_del ops2 b h m));
  gs_repoint : forall a b h seg off nseg noff, R a b -> G (fl_points h seg off) b -> Ok noff ->
     opt_rel R (ix_repoint ops1 a h seg off nseg noff) (ix_repoint ops2 b h seg off nseg noff)
}.
Arguments gs_empty {I1 I2 ops1 ops2 R G Ok}. Arguments gs_count {I1 I2 ops1 ops2 R G Ok}.
Arguments gs_get {I1 I2 ops1 ops2 R G Ok}. Arguments gs_put {I1 I2 ops1 ops2 R G Ok}.
Arguments gs_del {I1 I2 ops1 ops2 R G Ok}. Arguments gs_repoint {I1 I2 ops1 ops2 R G Ok}.

Section Guarded.
Context {I1 I2 : Type}.
Variable ops1 : idx_ops I1.
Variable ops2 : idx_ops I2.
Variable R : I1 -> I2 -> Prop.
Variable G : (slot -> bool) -> I2 -> Prop.
Variable Ok : N -> Prop.
Hypothesis GS : guarded_sim ops1 ops2 R G Ok.

Local Notation st1 := (@DB.st I1). Local Notation st2 := (@DB.st I2).
Local Notation mem1 := (@DB.mem I1). Local Notation mem2 := (@DB.mem I2).
Let RE : R (ix_empty ops1) (ix_empty ops2) := gs_empty GS.

(* Put: the index is called after the write, with the offset the write returned *)
Theorem gsim_put P k v (s1 : st1) (s2 : st2) :
  gst_rel R s1 s2 ->
  (forall m s' m' id off, s_mem s2 = Some m ->
     write_record ops2 P (mkput k v) s2 m = Some (s', m', id, off) ->
     G (fl_hit (p_hash P (m_seed m) k) (matchf (s_disk s') k)) (m_idx m') /\ Ok off) ->
  so_rel R (db_put ops1 P k v s1) (db_put ops2 P k v s2).
Proof.
  intros Hs HG. unfold db_put.
  destruct (st_rel_mem_cases R _ _ Hs) as [[E1 E2]|(m1 & m2 & E1 & E2 & Hm)]; rewrite E1, E2.
  { split; [reflexivity|exact Hs]. }
  cbv beta iota.
  destruct (max_key_len <? nlen k); [split; [reflexivity|exact Hs]|].
  destruct (max_val_len <? nlen v); [split; [reflexivity|exact Hs]|].
  rewrite (mem_rel_seed R _ _ Hm). cbv zeta.
  pose proof (write_record_rel R ops1 ops2 RE P (mkput k v) s1 s2 m1 m2 Hs Hm) as Hw.
  destruct (write_record ops1 P (mkput k v) s1 m1) as [[[[s1' m1'] id1] off1]|];
    destruct (write_record ops2 P (mkput k v) s2 m2) as [[[[s2' m2'] id2] off2]|] eqn:Ew2;
    unfold wr_rel in Hw; try contradiction; [|split; [reflexivity|exact Hs]].
  destruct Hw as (Hs' & Hm' & -> & ->). destruct (HG m2 _ _ _ _ E2 Ew2) as [Hg Hoff].
  rewrite (matchf_rel R _ _ k (st_rel_disk R _ _ Hs')).
  set (sl := {| sl_h := p_hash P (m_seed m2) k; sl_seg := id2; sl_ks := u16 (nlen k);
                sl_vs := u32 (nlen v); sl_off := off2 |}).
  destruct (gs_put GS (p_grow P) (m_idx m1') (m_idx m2') sl (matchf (s_disk s2') k)
              (mem_rel_idx R _ _ Hm') Hg Hoff) as [Eold Hi].
  destruct (ix_put ops1 (p_grow P) (m_idx m1') sl (matchf (s_disk s2') k)) as [i1 old1].
  destruct (ix_put ops2 (p_grow P) (m_idx m2') sl (matchf (s_disk s2') k)) as [i2 old2].
  cbn [fst snd] in Eold, Hi. subst old2.
  apply (finish_rel R ops1 ops2 RE).
  - apply (emit_rel R ops1 ops2 RE); [exact Hs'|constructor; exact Hi].
  - apply set_idx_rel; [|exact Hi]. destruct old1; [apply track_del_rel|]; exact Hm'.
Qed.

(* Delete, Get, Has look the key up in the state as it is *)
Definition key_guard (P : params) (k : key) (s2 : st2) : Prop :=
  forall m, s_mem s2 = Some m -> G (fl_hit (p_hash P (m_seed m) k) (matchf (s_disk s2) k)) (m_idx m).

Theorem gsim_delete P k (s1 : st1) (s2 : st2) :
  gst_rel R s1 s2 -> key_guard P k s2 -> so_rel R (db_delete ops1 P k s1) (db_delete ops2 P k s2).
Proof.
  intros Hs HG. unfold db_delete.
  destruct (st_rel_mem_cases R _ _ Hs) as [[E1 E2]|(m1 & m2 & E1 & E2 & Hm)]; rewrite E1, E2.
  { split; [reflexivity|exact Hs]. }
  cbv beta iota. rewrite (mem_rel_seed R _ _ Hm). cbv zeta.
  rewrite (matchf_rel R _ _ k (st_rel_disk R _ _ Hs)).
  destruct (gs_del GS (m_idx m1) (m_idx m2) (p_hash P (m_seed m2) k) (matchf (s_disk s2) k)
              (mem_rel_idx R _ _ Hm) (HG m2 E2)) as [Eold Hi].
  destruct (ix_del ops1 (m_idx m1) (p_hash P (m_seed m2) k) (matchf (s_disk s2) k)) as [i1 old1].
  destruct (ix_del ops2 (m_idx m2) (p_hash P (m_seed m2) k) (matchf (s_disk s2) k)) as [i2 old2].
  cbn [fst snd] in Eold, Hi. subst old2.
  destruct old1 as [o|]; [|apply (finish_rel R ops1 ops2 RE); assumption].
  pose proof (write_record_rel R ops1 ops2 RE P (mkdel k) s1 s2 (track_del o m1) (track_del o m2) Hs
                (track_del_rel R _ _ o Hm)) as Hw.
  destruct (write_record ops1 P (mkdel k) s1 (track_del o m1)) as [[[[s1' m1'] id1] off1]|];
    destruct (write_record ops2 P (mkdel k) s2 (track_del o m2)) as [[[[s2' m2'] id2] off2]|];
    unfold wr_rel in Hw; try contradiction; [|split; [reflexivity|exact Hs]].
  destruct Hw as (Hs' & Hm' & -> & ->).
  apply (finish_rel R ops1 ops2 RE).
  - apply (emit_rel R ops1 ops2 RE); [exact Hs'|constructor; exact Hi].
  - apply set_idx_rel; [|exact Hi]. apply add_delbytes_rel. exact Hm'.
Qed.

Theorem gsim_get P k (s1 : st1) (s2 : st2) :
  gst_rel R s1 s2 -> key_guard P k s2 -> db_get ops1 P k s1 = db_get ops2 P k s2.
Proof.
  intros Hs HG. unfold db_get.
  destruct (st_rel_mem_cases R _ _ Hs) as [[E1 E2]|(m1 & m2 & E1 & E2 & Hm)]; rewrite E1, E2; [reflexivity|].
  cbv beta iota. rewrite (mem_rel_seed R _ _ Hm), (matchf_rel R _ _ k (st_rel_disk R _ _ Hs)).
  rewrite (gs_get GS _ _ _ _ (mem_rel_idx R _ _ Hm) (HG m2 E2)).
  destruct (ix_get ops2 (m_idx m2) (p_hash P (m_seed m2) k) (matchf (s_disk s2) k)) as [sl|]; [|reflexivity].
  rewrite (read_kv_rel R _ _ sl (st_rel_disk R _ _ Hs)). reflexivity.
Qed.

Theorem gsim_has P k (s1 : st1) (s2 : st2) :
  gst_rel R s1 s2 -> key_guard P k s2 -> db_has ops1 P k s1 = db_has ops2 P k s2.
Proof.
  intros Hs HG. unfold db_has.
  destruct (st_rel_mem_cases R _ _ Hs) as [[E1 E2]|(m1 & m2 & E1 & E2 & Hm)]; rewrite E1, E2; [reflexivity|].
  cbv beta iota. rewrite (mem_rel_seed R _ _ Hm), (matchf_rel R _ _ k (st_rel_disk R _ _ Hs)).
  rewrite (gs_get GS _ _ _ _ (mem_rel_idx R _ _ Hm) (HG m2 E2)). reflexivity.
Qed.

Theorem gsim_count (s1 : st1) (s2 : st2) : gst_rel R s1 s2 -> db_count ops1 s1 = db_count ops2 s2.
Proof.
  intros Hs. unfold db_count.
  destruct (st_rel_mem_cases R _ _ Hs) as [[E1 E2]|(m1 & m2 & E1 & E2 & Hm)]; rewrite E1, E2; [reflexivity|].
  cbv beta iota. rewrite (gs_count GS _ _ (mem_rel_idx R _ _ Hm)). reflexivity.
Qed.

(* one replayed record of recover() *)
Lemma greplay_rec P d1 d2 id off r (m1 : mem1) (m2 : mem2) :
  gdisk_rel R d1 d2 -> gmem_rel R m1 m2 ->
  G (fl_hit (p_hash P (m_seed m2) (rk r)) (matchf d2 (rk r))) (m_idx m2) -> Ok (u32 off) ->
  gmem_rel R (replay_rec ops1 P d1 id off r m1) (replay_rec ops2 P d2 id off r m2).
Proof.
  intros Hd Hm Hg Hoff. unfold replay_rec.
  rewrite (mem_rel_seed R _ _ Hm), (matchf_rel R _ _ (rk r) Hd). cbv zeta.
  destruct (rdel r).
  - destruct (gs_del GS (m_idx m1) (m_idx m2) (p_hash P (m_seed m2) (rk r)) (matchf d2 (rk r))
                (mem_rel_idx R _ _ Hm) Hg) as [Eold Hi].
    destruct (ix_del ops1 (m_idx m1) (p_hash P (m_seed m2) (rk r)) (matchf d2 (rk r))) as [i1 old1].
    destruct (ix_del ops2 (m_idx m2) (p_hash P (m_seed m2) (rk r)) (matchf d2 (rk r))) as [i2 old2].
    cbn [fst snd] in Eold, Hi. subst old2. cbv beta iota.
    apply set_msegs_upd_g. apply set_idx_rel; [|exact Hi].
    destruct old1; [apply track_del_rel|]; exact Hm.
  - set (sl := {| sl_h := p_hash P (m_seed m2) (rk r); sl_seg := id; sl_ks := u16 (nlen (rk r));
                  sl_vs := u32 (nlen (rv r)); sl_off := u32 off |}).
    destruct (gs_put GS (p_grow P) (m_idx m1) (m_idx m2) sl (matchf d2 (rk r))
                (mem_rel_idx R _ _ Hm) Hg Hoff) as [Eold Hi].
    destruct (ix_put ops1 (p_grow P) (m_idx m1) sl (matchf d2 (rk r))) as [i1 old1].
    destruct (ix_put ops2 (p_grow P) (m_idx m2) sl (matchf d2 (rk r))) as [i2 old2].
    cbn [fst snd] in Eold, Hi. subst old2. cbv beta iota.
    apply set_msegs_upd_g. apply set_idx_rel; [|exact Hi].
    destruct old1; [apply track_del_rel|]; exact Hm.
Qed.

Inductive gcstep_rel : @cstep I1 -> @cstep I2 -> Prop :=
| gcr_done : gcstep_rel CDone CDone
| gcr_more s1 s2 c : gst_rel R s1 s2 -> gcstep_rel (CMore s1 c) (CMore s2 c)
| gcr_fail w : gcstep_rel (CFail w) (CFail w).

(* the calls of promoteRecord: repoint to the record's own place (a test), writeRecord, repoint to
   the new place; the index value is the same at both calls (write_record_idx) *)
Definition step_guard (P : params) (s2 : st2) : Prop :=
  forall m, s_mem s2 = Some m ->
  (forall h seg off, G (fl_points h seg off) (m_idx m)) /\
  (forall id f off r, find_dseg id (s_disk s2) = Some f -> rec_at off (seg_entries f) = Some r -> Ok (u32 off)) /\
  (forall r s' m' id off, write_record ops2 P r s2 m = Some (s', m', id, off) -> Ok off).

Theorem gsim_compact_step P (s1 : st1) (s2 : st2) c :
  gst_rel R s1 s2 -> step_guard P s2 ->
  gcstep_rel (compact_step ops1 P s1 c) (compact_step ops2 P s2 c).
Proof.
  intros Hs HG. unfold compact_step.
  destruct (st_rel_mem_cases R _ _ Hs) as [[E1 E2]|(m1 & m2 & E1 & E2 & Hm)]; rewrite E1, E2; [constructor|].
  destruct (HG m2 E2) as (Gp & Grec & Gw). cbv beta iota.
  destruct (c_src c) as [[[id seq] off]|].
  - rewrite (find_dseg_rel R _ _ id (st_rel_disk R _ _ Hs)).
    destruct (find_dseg id (s_disk s2)) as [f|] eqn:Ef; [|constructor].
    destruct (rec_at off (seg_entries f)) as [r|] eqn:Er.
    + cbv zeta. destruct (rdel r); [constructor; exact Hs|].
      rewrite (mem_rel_seed R _ _ Hm).
      set (h := p_hash P (m_seed m2) (rk r)).
      pose proof (gs_repoint GS (m_idx m1) (m_idx m2) h id (u32 off) id (u32 off)
                    (mem_rel_idx R _ _ Hm) (Gp _ _ _) (Grec id f off r Ef Er)) as R1.
      destruct (ix_repoint ops1 (m_idx m1) h id (u32 off) id (u32 off)) as [j1|];
        destruct (ix_repoint ops2 (m_idx m2) h id (u32 off) id (u32 off)) as [j2|]; inversion R1; subst;
        [|constructor; exact Hs].
      pose proof (write_record_rel R ops1 ops2 RE P r s1 s2 m1 m2 Hs Hm) as Hw.
      destruct (write_record ops1 P r s1 m1) as [[[[s1' m1'] id1] off1]|];
        destruct (write_record ops2 P r s2 m2) as [[[[s2' m2'] id2] off2]|] eqn:Ew2;
        unfold wr_rel in Hw; try contradiction; [|constructor].
      destruct Hw as (Hs' & Hm' & -> & ->).
      assert (Gp' : G (fl_points h id (u32 off)) (m_idx m2'))
        by (rewrite (write_record_idx _ _ _ _ _ _ _ _ _ Ew2); apply Gp).
      pose proof (gs_repoint GS (m_idx m1') (m_idx m2') h id (u32 off) id2 off2
                    (mem_rel_idx R _ _ Hm') Gp' (Gw _ _ _ _ _ Ew2)) as R2.
      destruct (ix_repoint ops1 (m_idx m1') h id (u32 off) id2 off2) as [k1|];
        destruct (ix_repoint ops2 (m_idx m2') h id (u32 off) id2 off2) as [k2|]; inversion R2; subst;
        [|constructor].
      constructor. apply with_mem_rel.
      * apply (emit_rel R ops1 ops2 RE); [exact Hs'|constructor; assumption].
      * apply set_idx_rel; assumption.
    + destruct (negb ((flen f =? off) && (f_seq f =? seq))); [constructor|].
      constructor. apply (remove_segment_rel R ops1 ops2 RE); assumption.
  - destruct (c_todo c) as [|[id seq] todo]; [constructor|]. cbv zeta. constructor.
    apply with_mem_rel; [exact Hs|]. apply set_msegs_upd_g. exact Hm.
Qed.

(* whole compactions: [Q fuel] holds of the second database along its own run and gives the guard *)
Variable P : params.
Variable Q : nat -> st2 -> cursor -> Prop.
Hypothesis HQ : forall f s c, Q (S f) s c ->
  step_guard P s /\ forall s' c', compact_step ops2 P s c = CMore s' c' -> Q f s' c'.

Theorem gsim_compact_run fuel : forall (s1 : st1) (s2 : st2) c, gst_rel R s1 s2 -> Q fuel s2 c ->
  so_rel R (compact_run ops1 P fuel s1 c) (compact_run ops2 P fuel s2 c).
Proof.
  induction fuel as [|f IH]; intros s1 s2 c Hs Hc; cbn [compact_run].
  - split; [reflexivity|exact Hs].
  - destruct (HQ f s2 c Hc) as [Hg Hnext].
    pose proof (gsim_compact_step P s1 s2 c Hs Hg) as Hstep.
    destruct (compact_step ops1 P s1 c) as [|s1' c1'|w1];
      destruct (compact_step ops2 P s2 c) as [|s2' c2'|w2]; inversion Hstep; subst.
    + split; [reflexivity|exact Hs].
    + apply IH; [assumption|]. apply Hnext. reflexivity.
    + split; [reflexivity|exact Hs].
Qed.

Theorem gsim_db_compact (s1 : st1) (s2 : st2) :
  gst_rel R s1 s2 ->
  (forall s c, compact_pick ops2 P s2 = Some (s, c) ->
     Q (S (2 * length (c_todo c) + 2 * total_recs (s_disk s) + 2)) s c) ->
  so_rel R (db_compact ops1 P s1) (db_compact ops2 P s2).
Proof.
  intros Hs Hc. unfold db_compact.
  pose proof (compact_pick_rel R ops1 ops2 RE P s1 s2 Hs) as Hp.
  destruct (compact_pick ops1 P s1) as [[s1' c1]|];
    destruct (compact_pick ops2 P s2) as [[s2' c2]|]; unfold pick_res_rel in Hp; try contradiction;
    [|split; [reflexivity|exact Hs]].
  destruct Hp as [Hs' ->]. rewrite (total_recs_rel R _ _ (st_rel_disk R _ _ Hs')).
  apply gsim_compact_run; [exact Hs'|]. apply Hc. reflexivity.
Qed.

End Guarded.

Definition idx_rel (p : pindex) (l : flat) : Prop :=
  PInv p /\ Permutation (all_slots p) l /\ px_nkeys p = nlen l.

Lemma idx_rel_intro p l : PInv p -> Permutation (all_slots p) l -> idx_rel p l.
Proof.
  intros HI HP. split; [exact HI|]. split; [exact HP|].
  destruct HI as (_ & _ & _ & _ & Hk). rewrite Hk. apply nlen_perm. exact HP.
Qed.

Lemma idx_rel_empty : idx_rel (ix_empty chain_ops) (ix_empty flat_ops).
Proof. apply idx_rel_intro; [exact PInv_empty|]. cbn. constructor. Qed.

(* at most one slot of the list is accepted by the callback *)
Definition uniq (f : slot -> bool) (l : list slot) : Prop :=
  forall a b, In a l -> In b l -> f a = true -> f b = true -> a = b.

Lemma find_none_intro {A} (f : A -> bool) l : (forall x, In x l -> f x = false) -> find f l = None.
Proof.
  induction l as [|x l IH]; intros H; [reflexivity|]. cbn [find].
  rewrite (H x (or_introl eq_refl)). apply IH. intros y Hy. apply H. right. exact Hy.
Qed.

Lemma fl_replace_split f new l l' o : fl_replace f new l = Some (l', o) ->
  exists a b, l = a ++ o :: b /\ l' = a ++ new :: b /\ f o = true.
Proof.
  revert l'. induction l as [|s l IH]; intros l' H; cbn [fl_replace] in H; [discriminate|].
  destruct (f s) eqn:Es.
  - injection H as <- <-. exists [], l. auto.
  - destruct (fl_replace f new l) as [[l0 o0]|]; [|discriminate]. injection H as <- <-.
    destruct (IH _ eq_refl) as (a & b & -> & -> & Ho). exists (s :: a), b. auto.
Qed.

Lemma fl_replace_none_intro f new l : (forall x, In x l -> f x = false) -> fl_replace f new l = None.
Proof.
  induction l as [|s l IH]; intros H; [reflexivity|]. cbn [fl_replace].
  rewrite (H s (or_introl eq_refl)), IH; [reflexivity|]. intros y Hy. apply H. right. exact Hy.
Qed.

Lemma fl_remove_split f l l' o : fl_remove f l = Some (l', o) ->
  exists a b, l = a ++ o :: b /\ l' = a ++ b /\ f o = true.
Proof.
  revert l'. induction l as [|s l IH]; intros l' H; cbn [fl_remove] in H; [discriminate|].
  destruct (f s) eqn:Es.
  - injection H as <- <-. exists [], l. auto.
  - destruct (fl_remove f l) as [[l0 o0]|]; [|discriminate]. injection H as <- <-.
    destruct (IH _ eq_refl) as (a & b & -> & -> & Ho). exists (s :: a), b. auto.
Qed.

Lemma fl_remove_none_intro f l : (forall x, In x l -> f x = false) -> fl_remove f l = None.
Proof.
  induction l as [|s l IH]; intros H; [reflexivity|]. cbn [fl_remove].
  rewrite (H s (or_introl eq_refl)), IH; [reflexivity|]. intros y Hy. apply H. right. exact Hy.
Qed.

Lemma fl_repoint_none_intro l h seg off nseg noff :
  (forall x, In x l -> fl_points h seg off x = false) -> fl_repoint l h seg off nseg noff = None.
Proof.
  induction l as [|s l IH]; intros H; [reflexivity|]. cbn [fl_repoint].
  rewrite (H s (or_introl eq_refl)), IH; [reflexivity|]. intros y Hy. apply H. right. exact Hy.
Qed.

Lemma fl_hit_true h m s : fl_hit h m s = true <-> sl_h s = h /\ m s = true.
Proof. exact (hit_true h m s). Qed.
Lemma fl_points_true h seg off s : fl_points h seg off s = true <-> sl_h s = h /\ sl_seg s = seg /\ sl_off s = off.
Proof. exact (rp_hit_true h seg off s). Qed.

Lemma not_true_false b : b <> true -> b = false.
Proof. destruct b; congruence. Qed.

(* the chains have no slot with hash [h] that [m] accepts: the flat list has no hit *)
Lemma hit_false_intro p (l : flat) h m : Permutation (all_slots p) l ->
  (forall x, In x (all_slots p) -> sl_h x = h -> m x = false) ->
  forall x, In x l -> fl_hit h m x = false.
Proof.
  intros HP Hno x Hx. apply not_true_false. intros Hc. apply fl_hit_true in Hc. destruct Hc as [Hh Hm].
  rewrite (Hno x (Permutation_in x (Permutation_sym HP) Hx) Hh) in Hm. discriminate.
Qed.

Theorem get_rel p l h m : idx_rel p l -> uniq (fl_hit h m) l -> px_get p h m = fl_get l h m.
Proof.
  intros (HI & HP & _) U. unfold fl_get. destruct (px_get p h m) as [s|] eqn:E.
  - destruct (px_get_some _ _ _ _ E) as (Hin & Hh & Hm).
    assert (Hl : In s l) by (eapply Permutation_in; eassumption).
    assert (Hs : fl_hit h m s = true) by (apply fl_hit_true; auto).
    destruct (find (fl_hit h m) l) as [s'|] eqn:F.
    + apply find_some in F. destruct F as [F1 F2]. f_equal. apply U; assumption.
    + pose proof (find_none _ _ F s Hl). congruence.
  - symmetry. apply find_none_intro. exact (hit_false_intro p l h m HP (px_get_none _ _ _ HI E)).
Qed.

Theorem put_rel grow p l sl m p' op l' of :
  idx_rel p l -> uniq (fl_hit (sl_h sl) m) l ->
  px_put grow p sl m = (p', op) -> fl_put grow l sl m = (l', of) ->
  op = of /\ idx_rel p' l'.
Proof.
  intros (HI & HP & _) U Ep Ef. destruct (px_put_spec _ _ _ _ _ _ HI Ep) as [HI' Hs].
  unfold fl_put in Ef. destruct op as [o|].
  - destruct Hs as (Hin & Hh & Hm & l1 & l2 & P1 & P2).
    assert (Hl : In o l) by (eapply Permutation_in; eassumption).
    assert (Ho : fl_hit (sl_h sl) m o = true) by (apply fl_hit_true; auto).
    destruct (fl_replace (fl_hit (sl_h sl) m) sl l) as [[l0 o0]|] eqn:F.
    + injection Ef as <- <-. destruct (fl_replace_split _ _ _ _ _ F) as (a & b & -> & -> & Ho0).
      assert (o0 = o) by (apply U; [apply in_elt|exact Hl|exact Ho0|exact Ho]). subst o0.
      split; [reflexivity|]. apply idx_rel_intro; [exact HI'|].
      rewrite P2. apply Permutation_elt. apply (Permutation_app_inv l1 l2 a b o).
      rewrite <- P1. exact HP.
    + pose proof (fl_replace_None _ _ _ F o Hl). congruence.
  - destruct Hs as [Hno P2].
    rewrite fl_replace_none_intro in Ef.
    + injection Ef as <- <-. split; [reflexivity|]. apply idx_rel_intro; [exact HI'|].
      rewrite P2, HP. apply Permutation_cons_append.
    + exact (hit_false_intro p l (sl_h sl) m HP Hno).
Qed.

Theorem del_rel p l h m p' op l' of :
  idx_rel p l -> uniq (fl_hit h m) l ->
  px_del p h m = (p', op) -> fl_del l h m = (l', of) ->
  op = of /\ idx_rel p' l'.
Proof.
  intros (HI & HP & Hk) U Ep Ef. destruct (px_del_spec _ _ _ _ _ HI Ep) as [HI' Hs].
  unfold fl_del in Ef. destruct op as [o|].
  - destruct Hs as (Hh & Hm & P1).
    assert (Hl : In o l).
    { eapply Permutation_in; [exact HP|]. eapply Permutation_in; [symmetry; exact P1|]. left. reflexivity. }
    assert (Ho : fl_hit h m o = true) by (apply fl_hit_true; auto).
    destruct (fl_remove (fl_hit h m) l) as [[l0 o0]|] eqn:F.
    + injection Ef as <- <-. destruct (fl_remove_split _ _ _ _ F) as (a & b & -> & -> & Ho0).
      assert (o0 = o) by (apply U; [apply in_elt|exact Hl|exact Ho0|exact Ho]). subst o0.
      split; [reflexivity|]. apply idx_rel_intro; [exact HI'|].
      apply Permutation_cons_app_inv with (a := o). rewrite <- P1. exact HP.
    + pose proof (fl_remove_None _ _ F o Hl). congruence.
  - destruct Hs as [-> Hno].
    rewrite fl_remove_none_intro in Ef.
    + injection Ef as <- <-. split; [reflexivity|]. split; [exact HI|]. split; assumption.
    + exact (hit_false_intro p l h m HP Hno).
Qed.

Theorem repoint_rel p l h seg off nseg noff :
  idx_rel p l -> uniq (fl_points h seg off) l ->
  opt_rel idx_rel (px_repoint p h seg off nseg noff) (fl_repoint l h seg off nseg noff).
Proof.
  intros (HI & HP & Hk) U.
  destruct (px_repoint p h seg off nseg noff) as [p'|] eqn:Ep.
  - destruct (px_repoint_some _ _ _ _ _ _ _ HI Ep) as (HI' & o & l1 & l2 & Hh & Hs & Ho & P1 & P2).
    assert (Hl : In o l).
    { eapply Permutation_in; [exact HP|]. eapply Permutation_in; [symmetry; exact P1|]. apply in_elt. }
    assert (Hpt : fl_points h seg off o = true) by (apply fl_points_true; auto).
    destruct (fl_repoint l h seg off nseg noff) as [l'|] eqn:F.
    + constructor. destruct (cp_repoint_Some _ _ _ _ _ _ _ F) as (a & o0 & b & -> & -> & Ho0).
      assert (o0 = o) by (apply U; [apply in_elt|exact Hl|exact Ho0|exact Hpt]). subst o0.
      apply idx_rel_intro; [exact HI'|]. rewrite P2. unfold repointed.
      apply Permutation_elt. apply (Permutation_app_inv l1 l2 a b o). rewrite <- P1. exact HP.
    + pose proof (cp_repoint_None _ _ _ _ _ _ F o Hl). congruence.
  - rewrite fl_repoint_none_intro; [constructor|].
    intros x Hx. apply not_true_false. intros Hc. apply fl_points_true in Hc.
    assert (Hp : In x (all_slots p)) by (eapply Permutation_in; [symmetry|]; eassumption).
    exact (px_repoint_none _ _ _ _ _ _ HI Ep x Hp Hc).
Qed.

Lemma count_rel p l : idx_rel p l -> ix_count chain_ops p = ix_count flat_ops l.
Proof. intros (_ & _ & Hk). exact Hk. Qed.

Lemma chain_flat_guarded : guarded_sim chain_ops flat_ops idx_rel uniq (fun _ => True).
Proof.
  constructor; cbn [ix_get ix_put ix_del ix_repoint chain_ops flat_ops].
  - exact idx_rel_empty.
  - exact count_rel.
  - exact get_rel.
  - intros g p l sl m H U _. destruct (px_put g p sl m) as [p' op] eqn:Ep.
    destruct (fl_put g l sl m) as [l' of] eqn:Ef. exact (put_rel g p l sl m p' op l' of H U Ep Ef).
  - intros p l h m H U. destruct (px_del p h m) as [p' op] eqn:Ep.
    destruct (fl_del l h m) as [l' of] eqn:Ef. exact (del_rel p l h m p' op l' of H U Ep Ef).
  - intros p l h seg off nseg noff H U _. exact (repoint_rel p l h seg off nseg noff H U).
Qed.

Notation disk_rel := (gdisk_rel idx_rel).
Notation ev_rel := (gev_rel idx_rel).
Notation mem_rel := (gmem_rel idx_rel).
Notation st_rel := (gst_rel idx_rel).

Local Notation stp := (@DB.st pindex).
Local Notation stf := (@DB.st flat).
Local Notation diskf := (@DB.disk flat).
Local Notation memf := (@DB.mem flat).

Lemma matchf_key (d : diskf) k sl : matchf d k sl = true -> slot_key d sl = k.
Proof.
  unfold matchf, slot_key. destruct (read_kv d sl) as [[k' v]|]; rewrite andb_true_iff; intros [_ H].
  - apply key_eqb_eq in H. congruence.
  - discriminate.
Qed.

Lemma uniq_hit P seed idx (d d1 : diskf) k :
  idx_agrees P seed idx d ->
  (forall id off r, rec_of d id off = Some r -> rec_of d1 id off = Some r) ->
  uniq (fl_hit (p_hash P seed k) (matchf d1 k)) idx.
Proof.
  intros (Hok & Hnd & _) Hkeep a b Ha Hb Fa Fb.
  apply fl_hit_true in Fa, Fb. destruct Fa as [_ Fa], Fb as [_ Fb]. apply matchf_key in Fa, Fb.
  pose proof (proj1 (Forall_forall _ _) Hok a Ha) as Oa.
  pose proof (proj1 (Forall_forall _ _) Hok b Hb) as Ob.
  destruct (slot_keep P d d1 seed a Hkeep Oa) as (_ & _ & Ka).
  destruct (slot_keep P d d1 seed b Hkeep Ob) as (_ & _ & Kb).
  apply (NoDup_map_inj (slot_key d) idx); [exact Hnd|exact Ha|exact Hb|congruence].
Qed.

Lemma uniq_hit_same P seed idx (d : diskf) k :
  idx_agrees P seed idx d -> uniq (fl_hit (p_hash P seed k) (matchf d k)) idx.
Proof. intros H. apply (uniq_hit P seed idx d d k H). auto. Qed.

(* two slots that point to the same record are the same slot *)
Definition points_uniq (l : flat) : Prop := forall h seg off, uniq (fl_points h seg off) l.

Lemma uniq_points P seed idx (d : diskf) : idx_agrees P seed idx d -> points_uniq idx.
Proof.
  intros (Hok & Hnd & _) h seg off a b Ha Hb Fa Fb.
  apply fl_points_true in Fa, Fb. destruct Fa as (_ & Sa & Oa), Fb as (_ & Sb & Ob).
  pose proof (proj1 (Forall_forall _ _) Hok a Ha) as Ka.
  pose proof (proj1 (Forall_forall _ _) Hok b Hb) as Kb.
  destruct (slot_ok_read P d seed a Ka) as (ra & Era & _ & _ & _ & _ & _ & Eka).
  destruct (slot_ok_read P d seed b Kb) as (rb & Erb & _ & _ & _ & _ & _ & Ekb).
  rewrite Sa, Oa in Era. rewrite Sb, Ob in Erb.
  apply (NoDup_map_inj (slot_key d) idx); [exact Hnd|exact Ha|exact Hb|congruence].
Qed.

(* writeRecord on the flat state keeps every record readable (as write_record_spec, without [params_ok]) *)
Lemma wr_keep P r (s : stf) (m : memf) s' m' id off :
  InvLog m (s_disk s) -> room m -> rec_fits r ->
  write_record flat_ops P r s m = Some (s', m', id, off) ->
  m_idx m' = m_idx m /\
  forall id' off' r', rec_of (s_disk s) id' off' = Some r' -> rec_of (s_disk s') id' off' = Some r'.
Proof.
  intros HI Hroom Hr E.
  destruct (write_record_full P r s m HI Hroom Hr) as (s1 & m1 & id1 & off1 & E1 & HI1 & Eo & _ & Ei & _).
  rewrite E1 in E. injection E as <- <- <- <-. split; [exact Ei|].
  exact (olog_keep _ _ _ (proj1 HI) (proj1 HI1) Eo).
Qed.

Lemma key_guard_Inv P k (sf : stf) : Inv P sf -> key_guard uniq P k sf.
Proof. intros HI m Em. destruct (Inv_open P sf m Em HI) as (_ & Hidx & _). exact (uniq_hit_same P _ _ _ k Hidx). Qed.

Lemma step_guard_uniq P (sf : stf) :
  (forall mf, s_mem sf = Some mf -> points_uniq (m_idx mf)) -> step_guard flat_ops uniq (fun _ => True) P sf.
Proof. intros H m Em. split; [exact (H m Em)|]. split; intros; exact I. Qed.

Lemma so_rel_let (a : stp * out) (b : stf * out) :
  so_rel idx_rel a b -> let '(sp', op) := a in let '(sf', of) := b in op = of /\ st_rel sp' sf'.
Proof. destruct a, b. exact (fun H => H). Qed.

Section Sim.
Variable P : params.

Lemma sim_put_so (sp : stp) (sf : stf) k v :
  st_rel sp sf -> Inv P sf -> (exists m, s_mem sf = Some m /\ room m) ->
  Forall byte k -> Forall byte v -> nlen k <= max_key_len -> nlen v <= max_val_len ->
  so_rel idx_rel (db_put chain_ops P k v sp) (db_put flat_ops P k v sf).
Proof.
  intros Hs HI (mf & Emf & Hroom) Hbk Hbv Hk Hv. apply (gsim_put _ _ _ _ _ chain_flat_guarded); [exact Hs|].
  intros m s' m' id off Em Ew. assert (m = mf) by congruence. subst m.
  destruct (Inv_open P sf mf Emf HI) as (HL & Hidx & _).
  destruct (wr_keep P _ sf mf _ _ _ _ HL Hroom (rec_fits_mkput k v Hbk Hbv Hk Hv) Ew) as [Ei Hkeep].
  split; [|exact I]. rewrite Ei. apply (uniq_hit P _ _ (s_disk sf)); assumption.
Qed.

Theorem sim_put (sp : stp) (sf : stf) k v :
  st_rel sp sf -> Inv P sf -> (exists m, s_mem sf = Some m /\ room m) ->
  Forall byte k -> Forall byte v -> nlen k <= max_key_len -> nlen v <= max_val_len ->
  let '(sp', op) := db_put chain_ops P k v sp in
  let '(sf', of) := db_put flat_ops P k v sf in
  op = of /\ st_rel sp' sf'.
Proof. intros. apply so_rel_let. apply sim_put_so; assumption. Qed.

(* no size condition, no [room]: the index is consulted BEFORE the write *)
Lemma sim_delete_so (sp : stp) (sf : stf) k :
  st_rel sp sf -> Inv P sf ->
  so_rel idx_rel (db_delete chain_ops P k sp) (db_delete flat_ops P k sf).
Proof.
  intros Hs HI. exact (gsim_delete _ _ _ _ _ chain_flat_guarded P k sp sf Hs (key_guard_Inv P k sf HI)).
Qed.

Theorem sim_delete (sp : stp) (sf : stf) k :
  st_rel sp sf -> Inv P sf ->
  let '(sp', op) := db_delete chain_ops P k sp in
  let '(sf', of) := db_delete flat_ops P k sf in
  op = of /\ st_rel sp' sf'.
Proof. intros. apply so_rel_let. apply sim_delete_so; assumption. Qed.

Theorem sim_get (sp : stp) (sf : stf) k :
  st_rel sp sf -> Inv P sf -> db_get chain_ops P k sp = db_get flat_ops P k sf.
Proof.
  intros Hs HI. exact (gsim_get _ _ _ _ _ chain_flat_guarded P k sp sf Hs (key_guard_Inv P k sf HI)).
Qed.

Theorem sim_get_append (sp : stp) (sf : stf) k buf :
  st_rel sp sf -> Inv P sf -> db_get_append chain_ops P k buf sp = db_get_append flat_ops P k buf sf.
Proof. intros Hs HI. unfold db_get_append. rewrite (sim_get sp sf k Hs HI). reflexivity. Qed.

Theorem sim_has (sp : stp) (sf : stf) k :
  st_rel sp sf -> Inv P sf -> db_has chain_ops P k sp = db_has flat_ops P k sf.
Proof.
  intros Hs HI. exact (gsim_has _ _ _ _ _ chain_flat_guarded P k sp sf Hs (key_guard_Inv P k sf HI)).
Qed.

(* Count needs no invariant at all *)
Theorem sim_count (sp : stp) (sf : stf) :
  st_rel sp sf -> db_count chain_ops sp = db_count flat_ops sf.
Proof. exact (gsim_count _ _ _ _ _ chain_flat_guarded sp sf). Qed.

Theorem sim_sync (sp : stp) (sf : stf) :
  st_rel sp sf ->
  let '(sp', op) := db_sync chain_ops sp in
  let '(sf', of) := db_sync flat_ops sf in
  op = of /\ st_rel sp' sf'.
Proof. intros Hs. apply so_rel_let. apply sync_rel; [exact idx_rel_empty|exact Hs]. Qed.

Theorem sim_compact_pick (sp : stp) (sf : stf) :
  st_rel sp sf ->
  match compact_pick chain_ops P sp, compact_pick flat_ops P sf with
  | None, None => True
  | Some (sp', cp), Some (sf', cf) => st_rel sp' sf' /\ cp = cf
  | _, _ => False
  end.
Proof. intros Hs. apply (compact_pick_rel idx_rel chain_ops flat_ops idx_rel_empty P sp sf Hs). Qed.

End Sim.

Definition kv_of {I} (d : @DB.disk I) (sl : slot) : key * val :=
  match read_kv d sl with Some kv => kv | None => ([], []) end.

Lemma read_slots_all {I} (d : @DB.disk I) l :
  (forall sl, In sl l -> read_kv d sl <> None) -> read_slots d l = Some (map (kv_of d) l).
Proof.
  induction l as [|sl l IH]; intros H; [reflexivity|]. cbn [read_slots map].
  rewrite IH by (intros x Hx; apply H; right; exact Hx).
  destruct (read_kv d sl) as [kv|] eqn:E.
  - replace (kv_of d sl) with kv by (unfold kv_of; rewrite E; reflexivity). reflexivity.
  - exfalso. apply (H sl); [left; reflexivity|exact E].
Qed.

(* a full scan when every slot is readable: the buckets in order *)
Lemma db_items_scan {I} (ops : idx_ops I) (s : @DB.st I) m :
  s_mem s = Some m ->
  (forall n sl, In sl (ix_bucket ops (m_idx m) n) -> read_kv (s_disk s) sl <> None) ->
  db_items ops s =
  OItems (concat (map (fun n => map (kv_of (s_disk s)) (ix_bucket ops (m_idx m) n))
                      (nseq 0 (N.to_nat (ix_nbuckets ops (m_idx m)))))).
Proof.
  intros E H. unfold db_items. rewrite E. cbv zeta.
  generalize (nseq 0 (N.to_nat (ix_nbuckets ops (m_idx m)))). intros bs.
  induction bs as [|n bs IH]; [reflexivity|].
  cbn [map concat]. rewrite IH. unfold fetch_bucket. rewrite E.
  rewrite (read_slots_all _ _ (H n)). reflexivity.
Qed.

Lemma nseq_seq a n : nseq (N.of_nat a) n = map N.of_nat (seq a n).
Proof.
  revert a. induction n as [|n IH]; intros a; [reflexivity|]. cbn [nseq seq map]. f_equal.
  replace (N.of_nat a + 1) with (N.of_nat (S a)) by lia. apply IH.
Qed.

Lemma concat_map_map {A B C} (f : B -> C) (g : A -> list B) l :
  concat (map (fun n => map f (g n)) l) = map f (concat (map g l)).
Proof. rewrite concat_map, map_map. reflexivity. Qed.

Lemma chain_scan_all p : concat (map (px_bucket p) (nseq 0 (N.to_nat (px_nbuckets p)))) = all_slots p.
Proof.
  unfold px_nbuckets. rewrite <- length_nlen. change 0 with (N.of_nat 0). rewrite nseq_seq.
  apply px_iter_all.
Qed.

(* outputs up to the order of an Items listing *)
Definition out_equiv (a b : out) : Prop :=
  match a, b with
  | OItems l1, OItems l2 => Permutation l1 l2
  | _, _ => a = b
  end.

Lemma out_equiv_refl a : out_equiv a a.
Proof. destruct a; cbn; reflexivity. Qed.

Section Sim2.
Variable P : params.

Lemma sim_items_open (sp : stp) (sf : stf) :
  st_rel sp sf -> Inv P sf -> s_mem sf <> None ->
  exists lp lf, db_items chain_ops sp = OItems lp /\ db_items flat_ops sf = OItems lf /\ Permutation lp lf.
Proof.
  intros Hs HI Hopen.
  destruct (st_rel_mem_cases _ _ _ Hs) as [[E1 E2]|(mp & mf & E1 & E2 & Hm)]; [congruence|].
  destruct (Inv_open P sf mf E2 HI) as (_ & (Hok & _ & _) & _).
  destruct (mem_rel_idx _ _ _ Hm) as (HPI & HPerm & _).
  assert (Hrd : forall sl, In sl (m_idx mf) -> read_kv (s_disk sf) sl <> None).
  { intros sl Hsl. pose proof (proj1 (Forall_forall _ _) Hok sl Hsl) as Ok.
    destruct (slot_ok_read P _ _ _ Ok) as (r & _ & _ & _ & _ & _ & Er & _). congruence. }
  exists (map (kv_of (s_disk sf)) (all_slots (m_idx mp))), (map (kv_of (s_disk sf)) (m_idx mf) ++ []).
  split; [|split].
  - rewrite (db_items_scan chain_ops sp mp E1).
    + cbn [ix_bucket ix_nbuckets chain_ops]. rewrite concat_map_map, chain_scan_all. f_equal.
      apply map_ext. intros sl. unfold kv_of. rewrite (read_kv_rel _ _ _ sl (st_rel_disk _ _ _ Hs)). reflexivity.
    + intros n sl Hsl. rewrite (read_kv_rel _ _ _ sl (st_rel_disk _ _ _ Hs)). apply Hrd.
      eapply Permutation_in; [exact HPerm|]. cbn [ix_bucket chain_ops] in Hsl.
      rewrite px_bucketE in Hsl. exact (px_chain_in_all _ _ _ Hsl).
  - rewrite (db_items_scan flat_ops sf mf E2).
    + cbn [ix_bucket ix_nbuckets flat_ops]. reflexivity.
    + intros n sl Hsl. cbn [ix_bucket flat_ops] in Hsl. destruct (n =? 0); [apply Hrd; exact Hsl|destruct Hsl].
  - rewrite app_nil_r. apply Permutation_map. exact HPerm.
Qed.

Theorem sim_items (sp : stp) (sf : stf) :
  st_rel sp sf -> Inv P sf -> out_equiv (db_items chain_ops sp) (db_items flat_ops sf).
Proof.
  intros Hs HI. destruct (s_mem sf) as [mf|] eqn:E2.
  - destruct (sim_items_open sp sf Hs HI) as (lp & lf & -> & -> & HP); [congruence|exact HP].
  - destruct (st_rel_mem_cases _ _ _ Hs) as [[E1 _]|(mp & mf & _ & E2' & _)]; [|congruence].
    unfold db_items. rewrite E1, E2. reflexivity.
Qed.

End Sim2.

Inductive cstep_rel : @cstep pindex -> @cstep flat -> Prop :=
| cr_done : cstep_rel CDone CDone
| cr_more sp sf c : st_rel sp sf -> cstep_rel (CMore sp c) (CMore sf c)
| cr_fail w : cstep_rel (CFail w) (CFail w).

Section Sim3.
Variable P : params.

(* the only fact about the flat state that a compaction step needs: two slots of the flat index
   never point to the same record *)
Theorem sim_compact_step_gen (sp : stp) (sf : stf) c :
  st_rel sp sf -> (forall mf, s_mem sf = Some mf -> points_uniq (m_idx mf)) ->
  cstep_rel (compact_step chain_ops P sp c) (compact_step flat_ops P sf c).
Proof.
  intros Hs HU.
  destruct (gsim_compact_step _ _ _ _ _ chain_flat_guarded P sp sf c Hs (step_guard_uniq P sf HU));
    constructor; assumption.
Qed.

Theorem sim_compact_step (sp : stp) (sf : stf) c :
  st_rel sp sf -> Inv P sf ->
  cstep_rel (compact_step chain_ops P sp c) (compact_step flat_ops P sf c).
Proof.
  intros Hs HI. apply sim_compact_step_gen; [exact Hs|]. intros mf E2.
  destruct (Inv_open P sf mf E2 HI) as (_ & Hidx & _). exact (uniq_points P _ _ _ Hidx).
Qed.

End Sim3.

Lemma sdel_absent m k : sget m k = None -> sdel m k = m.
Proof.
  induction m as [|[k' v] m IH]; [reflexivity|]. cbn [sget sdel].
  destruct (key_eqb k k'); [discriminate|]. intros H. rewrite (IH H). reflexivity.
Qed.

(* Put / Delete of the flat database change [abs] exactly as the specification map changes *)
Lemma flat_put_abs P (s : stf) k v :
  params_ok P -> Inv P s -> (exists m, s_mem s = Some m /\ room m) ->
  Forall byte k -> Forall byte v -> nlen k <= max_key_len -> nlen v <= max_val_len ->
  exists s', db_put flat_ops P k v s = (s', OOk) /\ Inv P s' /\ s_mem s' <> None /\
             abs (s_disk s') = sput (abs (s_disk s)) k v.
Proof.
  intros HP HI Hm Hbk Hbv Hk Hv.
  destruct (put_ok_ex P s k v HP HI Hm Hbk Hbv Hk Hv)
    as (s' & E & HI' & Hm' & _ & id & seq & off & pre & i2 & post & _ & _ & _ & _ & Eo & _).
  exists s'. split; [exact E|]. split; [exact HI'|]. split; [exact Hm'|].
  rewrite (abs_snoc _ _ _ Eo). reflexivity.
Qed.

Lemma del_found_bytes P seed idx (d : diskf) k i1 o :
  DiskOK d -> idx_agrees P seed idx d ->
  fl_del idx (p_hash P seed k) (matchf d k) = (i1, Some o) -> Forall byte k.
Proof.
  intros Hd Hidx E. pose proof Hidx as (Hok & Hnd & _). rewrite (fl_del_hit P seed idx d k Hd Hok) in E.
  destruct (fl_remove (khit (slot_key d) k) idx) as [[l' o']|] eqn:Er; [|discriminate].
  inversion E; subst i1 o'. destruct (fl_remove_Some _ _ _ _ _ Hnd Er) as (A1 & A2 & _).
  pose proof (proj1 (Forall_forall _ _) Hok o A1) as Ho.
  destruct (slot_ok_read P d seed o Ho) as (r & Er' & _ & _ & _ & _ & _ & Ek).
  pose proof (rec_of_rec_fits d _ _ r Hd Er') as (Hb & _). rewrite <- A2, Ek. exact Hb.
Qed.

(* Delete accepts ANY key (no [Forall byte k]): a key that is not a byte string is absent *)
Lemma flat_delete_abs P (s : stf) k :
  params_ok P -> Inv P s -> (exists m, s_mem s = Some m /\ room m) ->
  exists s', db_delete flat_ops P k s = (s', OOk) /\ Inv P s' /\ s_mem s' <> None /\
             abs (s_disk s') = sdel (abs (s_disk s)) k.
Proof.
  intros HP HI (m & Em & Hroom).
  destruct (Inv_open P s m Em HI) as (HL & Hidx & _). assert (Hd : DiskOK (s_disk s)) by apply HL.
  destruct (fl_del (m_idx m) (p_hash P (m_seed m) k) (matchf (s_disk s) k)) as [i1 [o|]] eqn:Edel.
  - pose proof (del_found_bytes P _ _ _ k i1 o Hd Hidx Edel) as Hbk.
    destruct (delete_ok_ex P s k HP HI (ex_intro _ m (conj Em Hroom)) Hbk)
      as (s' & E & HI' & Hm' & _ & _ & [(Habs & Ed & _)|(_ & _ & id & seq & off & pre & i & post & _ & _ & _ & _ & Eo & _)]).
    + exists s'. split; [exact E|]. split; [exact HI'|]. split; [exact Hm'|].
      rewrite Ed, (sdel_absent _ _ Habs). reflexivity.
    + exists s'. split; [exact E|]. split; [exact HI'|]. split; [exact Hm'|].
      rewrite (abs_snoc _ _ _ Eo). reflexivity.
  - destruct (del_absent P _ _ _ k i1 Hd Hidx Edel) as [-> Habs].
    destruct (finish_spec P s m) as (s' & Ef & Ems' & Eds' & _).
    exists s'. unfold db_delete. rewrite Em. cbn [ix_del flat_ops]. rewrite Edel.
    split; [exact Ef|]. split; [apply (Inv_same P s); [congruence|exact Eds'|exact HI]|].
    split; [congruence|]. rewrite Eds', (sdel_absent _ _ Habs). reflexivity.
Qed.

Section Chain.
Variable P : params.

Theorem chain_get_ok (sp : stp) (sf : stf) k :
  st_rel sp sf -> Inv P sf -> s_mem sf <> None ->
  db_get chain_ops P k sp = OVal (sget (abs (s_disk sf)) k).
Proof. intros Hs HI Hm. rewrite (sim_get P sp sf k Hs HI). apply get_ok; assumption. Qed.

Theorem chain_get_append_ok (sp : stp) (sf : stf) k buf :
  st_rel sp sf -> Inv P sf -> s_mem sf <> None ->
  db_get_append chain_ops P k buf sp = OVal (option_map (fun v => buf ++ v) (sget (abs (s_disk sf)) k)).
Proof. intros Hs HI Hm. rewrite (sim_get_append P sp sf k buf Hs HI). apply get_append_ok; assumption. Qed.

Theorem chain_has_ok (sp : stp) (sf : stf) k :
  st_rel sp sf -> Inv P sf -> s_mem sf <> None ->
  db_has chain_ops P k sp = OBool (shas (abs (s_disk sf)) k).
Proof. intros Hs HI Hm. rewrite (sim_has P sp sf k Hs HI). apply has_ok; assumption. Qed.

Theorem chain_count_ok (sp : stp) (sf : stf) :
  st_rel sp sf -> Inv P sf -> s_mem sf <> None ->
  db_count chain_ops sp = ONum (scount (abs (s_disk sf))).
Proof. intros Hs HI Hm. rewrite (sim_count sp sf Hs). apply (count_ok P); assumption. Qed.

Theorem chain_items_ok (sp : stp) (sf : stf) :
  st_rel sp sf -> Inv P sf -> s_mem sf <> None ->
  exists l, db_items chain_ops sp = OItems l /\ Permutation l (abs (s_disk sf)).
Proof.
  intros Hs HI Hm. destruct (sim_items_open P sp sf Hs HI Hm) as (lp & lf & Ep & Ef & HP).
  destruct (items_ok P sf HI Hm) as (l & El & Hl). exists lp. split; [exact Ep|].
  rewrite HP. assert (lf = l) by congruence. subst lf. exact Hl.
Qed.

Theorem chain_put_ok (sp : stp) (sf : stf) k v :
  params_ok P -> st_rel sp sf -> Inv P sf -> (exists m, s_mem sf = Some m /\ room m) ->
  Forall byte k -> Forall byte v -> nlen k <= max_key_len -> nlen v <= max_val_len ->
  let '(sp', o) := db_put chain_ops P k v sp in
  let sf' := fst (db_put flat_ops P k v sf) in
  o = OOk /\ st_rel sp' sf' /\ Inv P sf' /\ s_mem sf' <> None /\
  abs (s_disk sf') = sput (abs (s_disk sf)) k v.
Proof.
  intros HP Hs HI Hm Hbk Hbv Hk Hv.
  pose proof (sim_put_so P sp sf k v Hs HI Hm Hbk Hbv Hk Hv) as [Ho Hs'].
  destruct (flat_put_abs P sf k v HP HI Hm Hbk Hbv Hk Hv) as (sf' & E & HI' & Hm' & Ea).
  rewrite E in Ho, Hs' |- *. cbn [fst snd] in Ho, Hs' |- *.
  destruct (db_put chain_ops P k v sp) as [sp' o]. cbn [fst snd] in Ho, Hs'. cbv zeta. auto.
Qed.

Theorem chain_delete_ok (sp : stp) (sf : stf) k :
  params_ok P -> st_rel sp sf -> Inv P sf -> (exists m, s_mem sf = Some m /\ room m) ->
  let '(sp', o) := db_delete chain_ops P k sp in
  let sf' := fst (db_delete flat_ops P k sf) in
  o = OOk /\ st_rel sp' sf' /\ Inv P sf' /\ s_mem sf' <> None /\
  abs (s_disk sf') = sdel (abs (s_disk sf)) k.
Proof.
  intros HP Hs HI Hm.
  pose proof (sim_delete_so P sp sf k Hs HI) as [Ho Hs'].
  destruct (flat_delete_abs P sf k HP HI Hm) as (sf' & E & HI' & Hm' & Ea).
  rewrite E in Ho, Hs' |- *. cbn [fst snd] in Ho, Hs' |- *.
  destruct (db_delete chain_ops P k sp) as [sp' o]. cbn [fst snd] in Ho, Hs'. cbv zeta. auto.
Qed.

Theorem chain_sync_ok (sp : stp) (sf : stf) :
  st_rel sp sf -> Inv P sf -> s_mem sf <> None ->
  let '(sp', o) := db_sync chain_ops sp in
  let sf' := fst (db_sync flat_ops sf) in
  o = OOk /\ st_rel sp' sf' /\ Inv P sf' /\ s_disk sf' = s_disk sf /\ s_mem sf' = s_mem sf.
Proof.
  intros Hs HI Hm. pose proof (sync_rel idx_rel chain_ops flat_ops idx_rel_empty sp sf Hs) as [Ho Hs'].
  pose proof (sync_ok P sf HI Hm) as Hf.
  destruct (db_sync flat_ops sf) as [sf' of]. destruct (db_sync chain_ops sp) as [sp' o].
  cbn [fst snd] in Ho, Hs' |- *. cbv zeta. destruct Hf as (-> & A & B & C). auto.
Qed.

End Chain.

Inductive op :=
| OpPut (k : key) (v : val) | OpDelete (k : key) | OpGet (k : key) | OpGetAppend (k : key) (buf : bytes)
| OpHas (k : key) | OpCount | OpItems | OpSync.

Definition step {I} (ops : idx_ops I) (P : params) (s : @DB.st I) (o : op) : @DB.st I * out :=
  match o with
  | OpPut k v => db_put ops P k v s
  | OpDelete k => db_delete ops P k s
  | OpGet k => (s, db_get ops P k s)
  | OpGetAppend k buf => (s, db_get_append ops P k buf s)
  | OpHas k => (s, db_has ops P k s)
  | OpCount => (s, db_count ops s)
  | OpItems => (s, db_items ops s)
  | OpSync => db_sync ops s
  end.
Definition step_chain (P : params) : stp -> op -> stp * out := step chain_ops P.
Definition step_flat (P : params) : stf -> op -> stf * out := step flat_ops P.

(* the specification: a plain map; Items returns the map itself *)
Definition step_spec (m : smap) (o : op) : smap * out :=
  match o with
  | OpPut k v => (sput m k v, OOk)
  | OpDelete k => (sdel m k, OOk)
  | OpGet k => (m, OVal (sget m k))
  | OpGetAppend k buf => (m, OVal (option_map (fun v => buf ++ v) (sget m k)))
  | OpHas k => (m, OBool (shas m k))
  | OpCount => (m, ONum (scount m))
  | OpItems => (m, OItems m)
  | OpSync => (m, OOk)
  end.

Fixpoint run {S} (stepf : S -> op -> S * out) (s : S) (l : list op) : list out :=
  match l with
  | [] => []
  | o :: l' => let '(s', r) := stepf s o in r :: run stepf s' l'
  end.

(* Put arguments are byte strings within the size limits (a Put outside of them is rejected by the
   database, the plain map would accept it); every other operation takes any argument *)
Definition op_valid (o : op) : Prop :=
  match o with
  | OpPut k v => Forall byte k /\ Forall byte v /\ nlen k <= max_key_len /\ nlen v <= max_val_len
  | _ => True
  end.

(* the 32-bit offset side condition (DBInv.room) holds in every state the FLAT run goes through
   (this also says that the database is open) *)
Inductive rooms (P : params) : stf -> list op -> Prop :=
| rooms_nil s : rooms P s []
| rooms_cons s o l :
    (exists m, s_mem s = Some m /\ room m) -> rooms P (fst (step_flat P s o)) l -> rooms P s (o :: l).

Lemma step_refines P (sp : stp) (sf : stf) o :
  params_ok P -> st_rel sp sf -> Inv P sf -> op_valid o -> (exists m, s_mem sf = Some m /\ room m) ->
  st_rel (fst (step_chain P sp o)) (fst (step_flat P sf o)) /\
  Inv P (fst (step_flat P sf o)) /\
  abs (s_disk (fst (step_flat P sf o))) = fst (step_spec (abs (s_disk sf)) o) /\
  out_equiv (snd (step_chain P sp o)) (snd (step_spec (abs (s_disk sf)) o)).
Proof.
  intros HP Hs HI Hv Hroom.
  assert (Hopen : s_mem sf <> None) by (destruct Hroom as (m & -> & _); discriminate).
  unfold step_chain, step_flat. destruct o as [k v|k|k|k buf|k| | |]; cbn [step step_spec fst snd].
  - destruct Hv as (Hbk & Hbv & Hk & Hvl).
    pose proof (chain_put_ok P sp sf k v HP Hs HI Hroom Hbk Hbv Hk Hvl) as H.
    destruct (db_put chain_ops P k v sp) as [sp' o]. cbv zeta in H. cbn [fst snd].
    destruct H as (-> & A & B & _ & C). repeat split; assumption.
  - pose proof (chain_delete_ok P sp sf k HP Hs HI Hroom) as H.
    destruct (db_delete chain_ops P k sp) as [sp' o]. cbv zeta in H. cbn [fst snd].
    destruct H as (-> & A & B & _ & C). repeat split; assumption.
  - rewrite (chain_get_ok P sp sf k Hs HI Hopen). repeat split; assumption.
  - rewrite (chain_get_append_ok P sp sf k buf Hs HI Hopen). repeat split; assumption.
  - rewrite (chain_has_ok P sp sf k Hs HI Hopen). repeat split; assumption.
  - rewrite (chain_count_ok P sp sf Hs HI Hopen). repeat split; assumption.
  - destruct (chain_items_ok P sp sf Hs HI Hopen) as (l & -> & Hl). repeat split; assumption.
  - pose proof (chain_sync_ok P sp sf Hs HI Hopen) as H.
    destruct (db_sync chain_ops sp) as [sp' o]. cbv zeta in H. cbn [fst snd].
    destruct H as (-> & A & B & C & _). rewrite C. repeat split; assumption.
Qed.

(* C01 for the real index: for every hash function, split policy, thresholds and sync mode, the
   outputs of any run of valid operations on the chain-index database are the outputs of the plain
   map (Items up to order), as long as the offsets fit in 32 bits *)
Theorem C01_chain_refines_map P (sp : stp) (sf : stf) (l : list op) :
  params_ok P -> st_rel sp sf -> Inv P sf -> Forall op_valid l -> rooms P sf l ->
  Forall2 out_equiv (run (step_chain P) sp l) (run step_spec (abs (s_disk sf)) l).
Proof.
  intros HP. revert sp sf. induction l as [|o l IH]; intros sp sf Hs HI Hv Hr; cbn [run]; [constructor|].
  inversion Hv as [|? ? Hvo Hvl]; subst. inversion Hr as [|? ? ? Hro Hrl]; subst.
  destruct (step_refines P sp sf o HP Hs HI Hvo Hro) as (A & B & C & D).
  destruct (step_chain P sp o) as [sp' rp]. destruct (step_spec (abs (s_disk sf)) o) as [ms' rs].
  cbn [fst snd] in A, C, D. constructor; [exact D|]. rewrite <- C. apply IH; assumption.
Qed.

(* the same with the states: relation, invariant and abstraction along the run *)
Theorem chain_run_states P (sp : stp) (sf : stf) (l : list op) :
  params_ok P -> st_rel sp sf -> Inv P sf -> Forall op_valid l -> rooms P sf l ->
  let sp' := fold_left (fun s o => fst (step_chain P s o)) l sp in
  let sf' := fold_left (fun s o => fst (step_flat P s o)) l sf in
  st_rel sp' sf' /\ Inv P sf' /\
  abs (s_disk sf') = fold_left (fun m o => fst (step_spec m o)) l (abs (s_disk sf)).
Proof.
  intros HP. revert sp sf. induction l as [|o l IH]; intros sp sf Hs HI Hv Hr; cbn [fold_left]; [auto|].
  inversion Hv as [|? ? Hvo Hvl]; subst. inversion Hr as [|? ? ? Hro Hrl]; subst.
  destruct (step_refines P sp sf o HP Hs HI Hvo Hro) as (A & B & C & D).
  rewrite <- C. apply IH; assumption.
Qed.

Definition st0 {I} : @DB.st I := {| s_mem := None; s_disk := disk0; s_trace := [] |}.

(* the state of the flat database after Open on an empty directory, written out *)
Definition flat_init (seed : N) : stf :=
  {| s_mem := Some {| m_segs := [{| g_id := 0; g_seq := 1; g_size := 512; g_meta := smeta0 |}];
                      m_cur := (0, 1); m_cur_removed := false; m_maxseq := 1; m_idx := [];
                      m_seed := seed |};
     s_disk := {| d_segs := [{| f_id := 0; f_seq := 1; f_hdr := true; f_recs := []; f_tail := [];
                               f_meta := GAbsent |}];
                  d_orphans := []; d_index := Some []; d_overflow := true; d_imeta := GAbsent;
                  d_dbmeta := GAbsent; d_lock := true; d_bac := [] |};
     s_trace := [ECreate FLock; ECreate FMain; EHeader FMain; ECreate FOverflow; EHeader FOverflow;
                 ETrunc FMain 1024; EIndex []; ECreate (FSeg 0 1); EHeader (FSeg 0 1)] |}.

Lemma flat_open_fresh P seed : db_open flat_ops P seed st0 = (flat_init seed, OOpened false).
Proof. vm_compute. reflexivity. Qed.

Lemma flat_init_Inv P seed : Inv P (flat_init seed).
Proof.
  unfold Inv, flat_init. cbn [s_mem s_disk].
  split; [|split; [|split; [|split; [|split; [|split; [|split; [|split]]]]]]].
  - split; [|split].
    + constructor; [|constructor]. unfold dseg_ok. cbn [f_recs f_tail f_hdr].
      split; [constructor|]. split; [exact tail_stuck_nil|]. split; [constructor|].
      split; [discriminate|]. vm_compute. reflexivity.
    + cbn [d_segs map f_id]. constructor; [intros []|constructor].
    + cbn [d_segs map f_seq]. constructor; [intros []|constructor].
  - split.
    + intros g [<-|[]]. eexists. split; [left; reflexivity|]. repeat split.
    + intros f [<-|[]]. eexists. split; [left; reflexivity|]. split; reflexivity.
  - cbn [m_segs ids_increasing]. split; [intros g' []|exact I].
  - split.
    + intros g [<-|[]]. cbn [g_seq m_maxseq]. lia.
    + intros g g' [<-|[]] [<-|[]] _. cbn [g_seq]. lia.
  - intros _. eexists. split; [left; reflexivity|]. split; reflexivity.
  - split; [constructor|]. split; [constructor|]. intros k. reflexivity.
  - reflexivity.
  - reflexivity.
  - reflexivity.
Qed.

Lemma flat_init_room seed : exists m, s_mem (flat_init seed) = Some m /\ room m.
Proof.
  eexists. split; [reflexivity|]. intros g [<-|[]]. vm_compute. reflexivity.
Qed.

Lemma flat_init_abs seed : abs (s_disk (flat_init seed)) = [].
Proof. reflexivity. Qed.

Theorem init_rel P seed :
  let '(sp, op) := db_open chain_ops P seed st0 in
  let '(sf, of) := db_open flat_ops P seed st0 in
  op = OOpened false /\ of = OOpened false /\ st_rel sp sf /\ Inv P sf /\
  (exists m, s_mem sf = Some m /\ room m) /\ abs (s_disk sf) = [].
Proof.
  rewrite flat_open_fresh.
  set (a := db_open chain_ops P seed st0). vm_compute in a. subst a. cbv beta iota.
  split; [reflexivity|]. split; [reflexivity|].
  split; [|split; [apply flat_init_Inv|split; [apply flat_init_room|reflexivity]]].
  unfold flat_init. constructor.
  - constructor. constructor. exact idx_rel_empty.
  - constructor; [constructor; exact idx_rel_empty|constructor].
  - repeat first [exact idx_rel_empty | constructor].
Qed.

(* hence: any run of valid operations on a freshly opened chain-index database behaves like the
   plain map started empty *)
Corollary C01_chain_from_empty P seed (l : list op) :
  params_ok P -> Forall op_valid l -> rooms P (flat_init seed) l ->
  Forall2 out_equiv (run (step_chain P) (fst (db_open chain_ops P seed st0)) l) (run step_spec [] l).
Proof.
  intros HP Hv Hr. pose proof (init_rel P seed) as H. rewrite flat_open_fresh in H.
  destruct (db_open chain_ops P seed st0) as [sp o]. destruct H as (_ & _ & Hs & HI & _ & Ea).
  cbn [fst]. rewrite <- Ea. apply C01_chain_refines_map; assumption.
Qed.

Definition op_valid_b (o : op) : bool :=
  match o with
  | OpPut k v => forallb (fun b => b <? 256) k && forallb (fun b => b <? 256) v &&
                 (nlen k <=? max_key_len) && (nlen v <=? max_val_len)
  | _ => true
  end.

Lemma op_valid_b_ok o : op_valid_b o = true -> op_valid o.
Proof.
  destruct o as [k v|k|k|k buf|k| | |]; cbn [op_valid_b op_valid]; try (intros _; exact I).
  rewrite !andb_true_iff. intros [[[A B] C] D].
  split; [apply forallb_byte; exact A|]. split; [apply forallb_byte; exact B|].
  split; [apply N.leb_le; exact C|apply N.leb_le; exact D].
Qed.

Lemma ops_valid_b_ok l : forallb op_valid_b l = true -> Forall op_valid l.
Proof.
  intros H. apply Forall_forall. intros o Ho. apply op_valid_b_ok.
  exact (proj1 (forallb_forall _ _) H o Ho).
Qed.

Fixpoint rooms_b (P : params) (s : stf) (l : list op) : bool :=
  match l with
  | [] => true
  | o :: l' => match s_mem s with Some m => room_b m | None => false end &&
               rooms_b P (fst (step_flat P s o)) l'
  end.

Lemma rooms_b_ok P l : forall s, rooms_b P s l = true -> rooms P s l.
Proof.
  induction l as [|o l IH]; intros s H; [constructor|]. cbn [rooms_b] in H.
  apply andb_true_iff in H. destruct H as [A B]. constructor; [|apply IH; exact B].
  destruct (s_mem s) as [m|]; [|discriminate]. exists m. split; [reflexivity|apply room_b_ok; exact A].
Qed.

(* [rooms_b] and the final state in one pass over the run *)
Fixpoint rooms_run (P : params) (s : stf) (l : list op) : bool * stf :=
  match l with
  | [] => (true, s)
  | o :: l' => let r := rooms_run P (fst (step_flat P s o)) l' in
               (match s_mem s with Some m => room_b m | None => false end && fst r, snd r)
  end.

Lemma rooms_run_fst P l : forall s, fst (rooms_run P s l) = rooms_b P s l.
Proof.
  induction l as [|o l IH]; intros s; cbn [rooms_run rooms_b fst]; [reflexivity|].
  rewrite IH. reflexivity.
Qed.
Lemma rooms_run_snd P l : forall s,
  snd (rooms_run P s l) = fold_left (fun s o => fst (step_flat P s o)) l s.
Proof. induction l as [|o l IH]; intros s; cbn [rooms_run fold_left snd]; [reflexivity|apply IH]. Qed.

Module SimEx.
(* every key has the same 32-bit hash; the index never splits: all slots live in ONE chain *)
Definition exP : params :=
  {| p_maxseg := 1000000; p_minseg := 0; p_frag := fun _ _ => false; p_sync := false;
     p_grow := fun _ _ => false; p_hash := fun _ _ => 7 |}.

Definition key_of (i : nat) : key := [N.of_nat i].
Definition val_of (i : nat) : val := [N.of_nat i; N.of_nat i].

(* 40 colliding keys, then key 3 is deleted: the head bucket (31 slots) gets a hole, 9 slots live in
   an overflow bucket *)
Definition ex_ops : list op := map (fun i => OpPut (key_of i) (val_of i)) (seq 1 40) ++ [OpDelete (key_of 3)].
(* ... then a new key: it goes into the hole of the head bucket, i.e. BEFORE slots 32..40 in chain
   scan order, while the flat list appends it at the end *)
Definition ex_ops2 : list op := ex_ops ++ [OpPut (key_of 41) (val_of 41)].

Definition exp0 : stp := fst (db_open chain_ops exP 1 st0).
Definition exf0 : stf := flat_init 1.
Definition exp : stp := fold_left (fun s o => fst (step_chain exP s o)) ex_ops exp0.
Definition exf : stf := fold_left (fun s o => fst (step_flat exP s o)) ex_ops exf0.
Definition exp2 : stp := fold_left (fun s o => fst (step_chain exP s o)) ex_ops2 exp0.
Definition exf2 : stf := fold_left (fun s o => fst (step_flat exP s o)) ex_ops2 exf0.

Definition chain_shape (s : stp) : list (list nat) :=
  match s_mem s with Some m => map (map (@length slot)) (px_chains (m_idx m)) | None => [] end.
Definition chain_slots (s : stp) : list slot :=
  match s_mem s with Some m => all_slots (m_idx m) | None => [] end.
Definition flat_slots (s : stf) : list slot :=
  match s_mem s with Some m => m_idx m | None => [] end.

(* the two databases and the plain map answer alike *)
Definition ex_queries : list op :=
  [OpGet (key_of 3); OpGet (key_of 32); OpGet (key_of 41); OpHas (key_of 2); OpCount;
   OpPut (key_of 32) (val_of 5); OpGet (key_of 32); OpCount; OpDelete (key_of 99); OpSync].

Lemma exP_ok : params_ok exP.
Proof. vm_compute. reflexivity. Qed.

Lemma ex_rel0 : st_rel exp0 exf0 /\ Inv exP exf0.
Proof.
  pose proof (init_rel exP 1) as H. rewrite flat_open_fresh in H. unfold exp0, exf0.
  destruct (db_open chain_ops exP 1 st0) as [sp o]. cbn [fst]. tauto.
Qed.

(* the flat run with its side condition in one pass; the second runs are the first ones plus one step *)
Definition exr : bool * stf := rooms_run exP exf0 ex_ops.
Lemma exr_fst : fst exr = rooms_b exP exf0 ex_ops.
Proof. exact (rooms_run_fst exP ex_ops exf0). Qed.
Lemma exr_snd : snd exr = exf.
Proof. exact (rooms_run_snd exP ex_ops exf0). Qed.
Definition o41 : op := OpPut (key_of 41) (val_of 41).
Lemma exp2_step : exp2 = fold_left (fun s o => fst (step_chain exP s o)) [o41] exp.
Proof. exact (fold_left_app (fun s o => fst (step_chain exP s o)) ex_ops [o41] exp0). Qed.
Lemma exf2_step : exf2 = fold_left (fun s o => fst (step_flat exP s o)) [o41] exf.
Proof. exact (fold_left_app (fun s o => fst (step_flat exP s o)) ex_ops [o41] exf0). Qed.

(* everything the examples below need from evaluation *)
Definition ex_facts (p p2 : stp) (rb : bool) (f f2 : stf) : Prop :=
  (chain_shape p = [[30; 9]]%nat /\ chain_shape p2 = [[31; 9]]%nat) /\
  (forallb op_valid_b ex_ops = true /\ rb = true) /\
  (forallb op_valid_b [o41] = true /\ rooms_b exP f [o41] = true) /\
  chain_slots p = flat_slots f /\
  (chain_slots p2 <> flat_slots f2 /\ length (chain_slots p2) = 40%nat) /\
  (run (step_chain exP) p2 ex_queries = run (step_flat exP) f2 ex_queries /\
   run (step_chain exP) p2 ex_queries =
     [OVal None; OVal (Some (val_of 32)); OVal (Some (val_of 41)); OBool true; ONum 40;
      OOk; OVal (Some (val_of 5)); ONum 40; OOk; OOk]).

(* ... in ONE conversion: the checker's evaluator is lazy and shares the value of a constant only
   within a single conversion, so [exp] and [exr] are run once here instead of once per example.
   Below, never let a tactic compare [exp], [exf], [exp2] or [exf2] with anything up to conversion
   (that runs the whole fold): rewrite with the equations above and close with the matching conjunct. *)
Lemma ex_eval : ex_facts exp exp2 (rooms_b exP exf0 ex_ops) exf exf2.
Proof.
  assert (H : ex_facts exp (fold_left (fun s o => fst (step_chain exP s o)) [o41] exp) (fst exr)
                (snd exr) (fold_left (fun s o => fst (step_flat exP s o)) [o41] (snd exr))).
  { vm_compute. repeat split. discriminate. }
  rewrite exr_fst, exr_snd in H. rewrite exp2_step, exf2_step. exact H.
Qed.

(* one chain: head bucket with a hole (30 of 31 slots), overflow bucket with 9 slots *)
Example ex_shape : chain_shape exp = [[30; 9]]%nat.
Proof. exact (proj1 (proj1 ex_eval)). Qed.
Example ex_shape2 : chain_shape exp2 = [[31; 9]]%nat.
Proof. exact (proj2 (proj1 ex_eval)). Qed.

(* the hypotheses of the run theorems hold for these runs *)
Example ex_rel : st_rel exp exf /\ Inv exP exf.
Proof.
  destruct ex_rel0 as [H0 I0]. destruct ex_eval as (_ & [Hv Hr] & _).
  destruct (chain_run_states exP exp0 exf0 ex_ops exP_ok H0 I0 (ops_valid_b_ok _ Hv)
              (rooms_b_ok _ _ _ Hr)) as (A & B & _).
  unfold exp, exf. exact (conj A B).
Qed.

Example ex_rel2 : st_rel exp2 exf2 /\ Inv exP exf2.
Proof.
  destruct ex_rel as [H1 I1]. destruct ex_eval as (_ & _ & [Hv Hr] & _).
  destruct (chain_run_states exP exp exf [o41] exP_ok H1 I1 (ops_valid_b_ok _ Hv)
              (rooms_b_ok _ _ _ Hr)) as (A & B & _).
  rewrite exp2_step, exf2_step. exact (conj A B).
Qed.

(* the relation is not the identity: after the 41st Put the chain scan order and the flat list
   differ (they are permutations of each other by [ex_rel2]) *)
Example ex_same_order : chain_slots exp = flat_slots exf.
Proof. destruct ex_eval as (_ & _ & _ & H & _). exact H. Qed.
Example ex_other_order : chain_slots exp2 <> flat_slots exf2 /\ length (chain_slots exp2) = 40%nat.
Proof. destruct ex_eval as (_ & _ & _ & _ & H & _). exact H. Qed.

Example ex_outputs :
  run (step_chain exP) exp2 ex_queries = run (step_flat exP) exf2 ex_queries /\
  run (step_chain exP) exp2 ex_queries =
    [OVal None; OVal (Some (val_of 32)); OVal (Some (val_of 41)); OBool true; ONum 40;
     OOk; OVal (Some (val_of 5)); ONum 40; OOk; OOk].
Proof. destruct ex_eval as (_ & _ & _ & _ & _ & H). exact H. Qed.
End SimEx.

(* Whole compactions, conditional on the side condition of [sim_compact_step_gen] along the FLAT run;
   [Inv] at every step implies it ([cuniq_of_Inv]) *)

Inductive cuniq (P : params) : nat -> stf -> cursor -> Prop :=
| cuniq_O s c : cuniq P O s c
| cuniq_S f s c :
    (forall m, s_mem s = Some m -> points_uniq (m_idx m)) ->
    (forall s' c', compact_step flat_ops P s c = CMore s' c' -> cuniq P f s' c') ->
    cuniq P (S f) s c.

Lemma cuniq_step P f (s : stf) c : cuniq P (S f) s c ->
  step_guard flat_ops uniq (fun _ => True) P s /\
  forall s' c', compact_step flat_ops P s c = CMore s' c' -> cuniq P f s' c'.
Proof. intros H. inversion H as [|? ? ? HU Hnext]; subst. split; [apply step_guard_uniq; exact HU|exact Hnext]. Qed.

Theorem sim_compact_run P fuel : forall (sp : stp) (sf : stf) c,
  st_rel sp sf -> cuniq P fuel sf c ->
  so_rel idx_rel (compact_run chain_ops P fuel sp c) (compact_run flat_ops P fuel sf c).
Proof. exact (gsim_compact_run _ _ _ _ _ chain_flat_guarded P (cuniq P) (cuniq_step P) fuel). Qed.

Theorem sim_db_compact P (sp : stp) (sf : stf) :
  st_rel sp sf ->
  (forall s1 c, compact_pick flat_ops P sf = Some (s1, c) ->
     cuniq P (S (2 * length (c_todo c) + 2 * total_recs (s_disk s1) + 2)) s1 c) ->
  so_rel idx_rel (db_compact chain_ops P sp) (db_compact flat_ops P sf).
Proof. exact (gsim_db_compact _ _ _ _ _ chain_flat_guarded P (cuniq P) (cuniq_step P) sp sf). Qed.

(* the side condition from the invariant *)
Inductive cinv (P : params) : nat -> stf -> cursor -> Prop :=
| cinv_O s c : cinv P O s c
| cinv_S f s c :
    Inv P s -> (forall s' c', compact_step flat_ops P s c = CMore s' c' -> cinv P f s' c') ->
    cinv P (S f) s c.

Lemma cuniq_of_Inv P fuel : forall s c, cinv P fuel s c -> cuniq P fuel s c.
Proof.
  induction fuel as [|f IH]; intros s c H; [constructor|].
  inversion H as [|? ? ? HI Hn]; subst. constructor.
  - intros m Em. destruct (Inv_open P s m Em HI) as (_ & Hidx & _). exact (uniq_points P _ _ _ Hidx).
  - intros s' c' E. apply IH. exact (Hn s' c' E).
Qed.

Print Assumptions apply_ev_rel.
Print Assumptions write_record_rel.
Print Assumptions get_rel.
Print Assumptions put_rel.
Print Assumptions del_rel.
Print Assumptions repoint_rel.
Print Assumptions sim_put.
Print Assumptions sim_delete.
Print Assumptions sim_get.
Print Assumptions sim_get_append.
Print Assumptions sim_has.
Print Assumptions sim_count.
Print Assumptions sim_items.
Print Assumptions sim_items_open.
Print Assumptions sim_sync.
Print Assumptions sim_compact_pick.
Print Assumptions sim_compact_step_gen.
Print Assumptions sim_compact_step.
Print Assumptions sim_compact_run.
Print Assumptions sim_db_compact.
Print Assumptions chain_put_ok.
Print Assumptions chain_delete_ok.
Print Assumptions chain_get_ok.
Print Assumptions chain_get_append_ok.
Print Assumptions chain_has_ok.
Print Assumptions chain_count_ok.
Print Assumptions chain_items_ok.
Print Assumptions chain_sync_ok.
Print Assumptions step_refines.
Print Assumptions C01_chain_refines_map.
Print Assumptions chain_run_states.
Print Assumptions init_rel.
Print Assumptions C01_chain_from_empty.
Print Assumptions SimEx.ex_shape.
Print Assumptions SimEx.ex_rel.
Print Assumptions SimEx.ex_rel2.
Print Assumptions SimEx.ex_other_order.
Print Assumptions SimEx.ex_outputs.
