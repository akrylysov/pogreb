From Pogreb Require Import Base.

Definition poly : N := 0xEDB88320.
Definition mask32 : N := 0xFFFFFFFF.

Definition step (s : N) : N :=
  if N.odd s then N.lxor (N.shiftr s 1) poly else N.shiftr s 1.

Fixpoint iter (n : nat) (f : N -> N) (s : N) : N :=
  match n with O => s | S n => iter n f (f s) end.

Definition upd (s b : N) : N := iter 8 step (N.lxor s b).

Definition crc_state (bs : list N) (s : N) : N := fold_left upd bs s.
Definition crc32 (bs : list N) : N := N.lxor (crc_state bs mask32) mask32.

(* "123456789" -> 0xCBF43926 *)
Example crc_check : crc32 [49;50;51;52;53;54;55;56;57] = 0xCBF43926.
Proof. vm_compute. reflexivity. Qed.

Definition lt32 (s : N) := s < 2^32.

Lemma lt32_bits s : lt32 s <-> forall n, 32 <= n -> N.testbit s n = false.
Proof.
  unfold lt32. split.
  - intros H n Hn. destruct (N.eq_dec s 0) as [->|Hz]; [apply N.bits_0|].
    apply N.bits_above_log2. apply N.log2_lt_pow2 in H; lia.
  - intros H. destruct (N.eq_dec s 0) as [->|Hz]; [reflexivity|].
    apply N.log2_lt_pow2; [lia|].
    destruct (N.lt_ge_cases (N.log2 s) 32) as [Hl|Hl]; [exact Hl|].
    specialize (H (N.log2 s) Hl). rewrite N.bit_log2 in H by exact Hz. discriminate.
Qed.

Lemma poly_lt32 : lt32 poly. Proof. reflexivity. Qed.
Lemma mask32_lt32 : lt32 mask32. Proof. reflexivity. Qed.

Lemma lxor_lt32_both s t : lt32 s -> lt32 t -> lt32 (N.lxor s t).
Proof.
  intros Hs Ht. apply lt32_bits. intros n Hn. rewrite N.lxor_spec.
  rewrite (proj1 (lt32_bits s) Hs n Hn), (proj1 (lt32_bits t) Ht n Hn). reflexivity.
Qed.

Lemma lxor_lt32 s b : lt32 s -> byte b -> lt32 (N.lxor s b).
Proof.
  intros Hs Hb. apply lxor_lt32_both; [exact Hs|].
  exact (N.lt_trans b 256 (2^32) Hb eq_refl).
Qed.

Lemma lxor_cancel_r a b c : N.lxor a c = N.lxor b c -> a = b.
Proof.
  intros E. apply (f_equal (fun x => N.lxor x c)) in E.
  rewrite !N.lxor_assoc, N.lxor_nilpotent, !N.lxor_0_r in E. exact E.
Qed.

Lemma shiftr1_bit s n : lt32 s -> 31 <= n -> N.testbit (N.shiftr s 1) n = false.
Proof.
  intros H Hn. rewrite N.shiftr_spec by apply N.le_0_l.
  apply (proj1 (lt32_bits s) H). lia.
Qed.

Lemma step_lt32 s : lt32 s -> lt32 (step s).
Proof.
  intros H. assert (Hs : lt32 (N.shiftr s 1)).
  { apply lt32_bits. intros n Hn. apply shiftr1_bit; [exact H|lia]. }
  unfold step. destruct (N.odd s); [apply lxor_lt32_both; [exact Hs|exact poly_lt32]|exact Hs].
Qed.

(* Bit 31 of poly is set and bit 31 of s>>1 is clear: the top bit of step s
   tells whether the polynomial was xored in, so step can be undone. *)
Lemma step_top s : lt32 s -> N.testbit (step s) 31 = N.odd s.
Proof.
  intros H. pose proof (shiftr1_bit s 31 H (N.le_refl 31)) as Hs.
  unfold step. destruct (N.odd s); [rewrite N.lxor_spec, Hs; reflexivity|exact Hs].
Qed.

Lemma step_inj s t : lt32 s -> lt32 t -> step s = step t -> s = t.
Proof.
  intros Hs Ht E.
  assert (Ho : N.odd s = N.odd t).
  { rewrite <- (step_top s Hs), <- (step_top t Ht), E. reflexivity. }
  assert (Hh : N.shiftr s 1 = N.shiftr t 1).
  { unfold step in E. rewrite <- Ho in E.
    destruct (N.odd s); [exact (lxor_cancel_r _ _ _ E)|exact E]. }
  rewrite <- !N.div2_spec in Hh.
  rewrite (N.div2_odd s), (N.div2_odd t), Hh, Ho. reflexivity.
Qed.

Lemma iter_lt32 n s : lt32 s -> lt32 (iter n step s).
Proof.
  revert s; induction n as [|n IH]; cbn [iter]; intros s H; [exact H|].
  apply IH, step_lt32, H.
Qed.

Lemma iter_inj n s t : lt32 s -> lt32 t -> iter n step s = iter n step t -> s = t.
Proof.
  revert s t; induction n as [|n IH]; cbn [iter]; intros s t Hs Ht E; [exact E|].
  apply step_inj; [exact Hs|exact Ht|]. apply IH; [apply step_lt32, Hs|apply step_lt32, Ht|exact E].
Qed.

(* Every script about upd starts with `unfold upd`: comparing `upd x y` with
   anything but itself otherwise makes the kernel unfold iter 8 step, which
   triples the term at each of the eight steps. *)
Lemma upd_lt32 s b : lt32 s -> byte b -> lt32 (upd s b).
Proof. unfold upd. intros Hs Hb. apply iter_lt32, lxor_lt32; assumption. Qed.

Lemma upd_inj_state s t b : lt32 s -> lt32 t -> byte b -> upd s b = upd t b -> s = t.
Proof.
  unfold upd. intros Hs Ht Hb E. apply (lxor_cancel_r s t b).
  exact (iter_inj 8 _ _ (lxor_lt32 s b Hs Hb) (lxor_lt32 t b Ht Hb) E).
Qed.

Lemma upd_inj_byte s b c : lt32 s -> byte b -> byte c -> upd s b = upd s c -> b = c.
Proof.
  unfold upd. intros Hs Hb Hc E. apply (lxor_cancel_r b c s).
  rewrite !(N.lxor_comm _ s).
  exact (iter_inj 8 _ _ (lxor_lt32 s b Hs Hb) (lxor_lt32 s c Hs Hc) E).
Qed.

(* What the change-detection argument needs of the per-byte function. *)
Section Fold.
  Variable f : N -> N -> N.
  Hypothesis f_lt32 : forall s b, lt32 s -> byte b -> lt32 (f s b).
  Hypothesis f_inj_state : forall s t b, lt32 s -> lt32 t -> byte b -> f s b = f t b -> s = t.
  Hypothesis f_inj_byte : forall s b c, lt32 s -> byte b -> byte c -> f s b = f s c -> b = c.

  Lemma fold_lt32 bs s : lt32 s -> Forall byte bs -> lt32 (fold_left f bs s).
  Proof.
    intros Hs Hb. revert s Hs.
    induction Hb as [|b bs Hb _ IH]; cbn [fold_left]; intros s Hs; [exact Hs|].
    apply IH, f_lt32; assumption.
  Qed.

  Lemma fold_inj bs s t : lt32 s -> lt32 t -> Forall byte bs ->
    fold_left f bs s = fold_left f bs t -> s = t.
  Proof.
    intros Hs Ht Hb. revert s t Hs Ht.
    induction Hb as [|b bs Hb _ IH]; cbn [fold_left]; intros s t Hs Ht E; [exact E|].
    apply (f_inj_state s t b Hs Ht Hb).
    apply IH; [apply f_lt32; assumption..|exact E].
  Qed.

  Lemma fold_one_change pre b c post s :
    lt32 s -> Forall byte pre -> byte b -> byte c -> Forall byte post ->
    fold_left f (pre ++ b :: post) s = fold_left f (pre ++ c :: post) s -> b = c.
  Proof.
    intros Hs Hpre Hb Hc Hpost. rewrite !fold_left_app. cbn [fold_left].
    pose proof (fold_lt32 pre s Hs Hpre) as H0. intros E.
    apply (f_inj_byte _ b c H0 Hb Hc).
    apply (fold_inj post); [apply f_lt32; assumption..|exact Hpost|exact E].
  Qed.
End Fold.

Lemma crc_state_lt32 bs s : lt32 s -> Forall byte bs -> lt32 (crc_state bs s).
Proof. exact (fold_lt32 upd upd_lt32 bs s). Qed.

(* Changing exactly one byte (to any different byte, in particular flipping one bit)
   of a message always changes the CRC. *)
Theorem crc32_one_byte_change pre b c post :
  Forall byte pre -> byte b -> byte c -> Forall byte post -> b <> c ->
  crc32 (pre ++ b :: post) <> crc32 (pre ++ c :: post).
Proof.
  intros Hpre Hb Hc Hpost Hne E. unfold crc32 in E. apply lxor_cancel_r in E.
  exact (Hne (fold_one_change upd upd_lt32 upd_inj_state upd_inj_byte
                pre b c post mask32 mask32_lt32 Hpre Hb Hc Hpost E)).
Qed.
Print Assumptions crc32_one_byte_change.
