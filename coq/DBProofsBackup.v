(* C12, "Backup is a consistent point-in-time copy", for the database model (DB.v: backup_plan / copy_seg /
   backup_disk / db_backup) on the flat reference index.
   backup.go: Backup holds maintenanceMu for its whole duration, so NO COMPACTION STEP runs between the
   snapshot and the last copy: only the writers Put / Delete / Sync (and reads, which change nothing)
   interleave with the copying.  Compaction steps are therefore excluded from the schedules below; with
   them the statements are false (a removed segment cannot be copied).
   The idea: after the snapshot (memory m0, disk d0) writers only append.  Every segment of m0 is still
   there, Full stays Full, sizes grow ([since]); every file of d0 is still there with its records as a
   prefix of the current ones, files of Full segments are unchanged, other files are newer ([grown]).  So
   CopyN with the size captured at the snapshot, taken from ANY later disk, yields the file of d0.  The
   writers are followed event by event (writeRecord through DBLemmas.wr_prelude_spec), so a copy may be
   taken from a disk in the MIDDLE of a Put (C12_event_granular).
   BkEx.bk_whole_differs: with io.Copy instead of io.CopyN the backup is no snapshot;
   BkEx.bk_schedule_instance: the hypotheses hold of a run whose log rolls over after the snapshot. *)
From Coq Require Import ZArith Lia Permutation Sorted.
From Pogreb Require Import Base BaseLemmas Crc Bytes Record RecordProofs Flat Spec DB DBInv DBLemmas DBMeta
  DBProofsOps DBProofsRecovery.

Local Notation disk := (@DB.disk flat).
Local Notation st := (@DB.st flat).
Local Notation mem := (@DB.mem flat).
Local Notation fsev := (@DB.fsev flat).

(* one entry of the snapshot: segment id, sequence id, captured size (None: the segment was Full) *)
Notation bk_entry := (N * N * option N)%type (only parsing).

Definition since (m0 m : mem) : Prop :=
  forall g0, In g0 (m_segs m0) ->
    exists g, In g (m_segs m) /\ g_id g = g_id g0 /\ g_seq g = g_seq g0 /\
              (sm_full (g_meta g0) = true -> sm_full (g_meta g) = true) /\
              g_size g0 <= g_size g.

(* [NoDup (map f_id (d_segs d))] is part of the relation: [copy_seg] opens the file by NAME with [find],
   so "there is a file with this name and a good content" must mean "THE file with this name". *)
Definition grown (m0 : mem) (d0 d : disk) : Prop :=
  NoDup (map f_id (d_segs d)) /\
  (forall f0, In f0 (d_segs d0) ->
     exists f, In f (d_segs d) /\ f_id f = f_id f0 /\ f_seq f = f_seq f0 /\
       (f_hdr f0 = true -> f_hdr f = true) /\
       (exists more, f_recs f = f_recs f0 ++ more) /\
       (* sealed segments are immutable *)
       (forall g0, In g0 (m_segs m0) -> g_id g0 = f_id f0 -> sm_full (g_meta g0) = true ->
          f_recs f = f_recs f0 /\ f_tail f = f_tail f0)) /\
  (* files that were not there at the snapshot are newer than every file of the snapshot *)
  (forall f, In f (d_segs d) ->
     (exists f0, In f0 (d_segs d0) /\ f_id f0 = f_id f /\ f_seq f0 = f_seq f) \/
     (forall f0, In f0 (d_segs d0) -> f_seq f0 < f_seq f)).

Definition Snap (m0 : mem) (d0 : disk) (s : st) : Prop :=
  exists m, s_mem s = Some m /\ since m0 m /\ grown m0 d0 (s_disk s).

Lemma bk_trunc_recs_prefix pre more : forall off,
  trunc_recs off (off + recs_len pre) (pre ++ more) = (pre, off + recs_len pre).
Proof.
  induction pre as [|r pre IH]; intros off.
  - rewrite recs_len_nil, N.add_0_r. cbn [app]. destruct more as [|r more]; [reflexivity|].
    cbn [trunc_recs]. pose proof (rsize_pos r) as Hr.
    destruct (N.leb_spec (off + rsize r) off) as [H|_]; [exfalso; lia|reflexivity].
  - cbn [app trunc_recs]. rewrite recs_len_cons.
    destruct (N.leb_spec (off + rsize r) (off + (rsize r + recs_len pre))) as [_|H]; [|exfalso; lia].
    rewrite N.add_assoc, IH. reflexivity.
Qed.

(* CopyN(size captured at a record boundary) of a file that has only been appended to since:
   exactly the records of the snapshot, no tail. *)
Lemma bk_trunc_seg_prefix f pre more :
  f_hdr f = true -> f_recs f = pre ++ more ->
  trunc_seg (header_size + recs_len pre) f =
  {| f_id := f_id f; f_seq := f_seq f; f_hdr := true; f_recs := pre; f_tail := []; f_meta := f_meta f |}.
Proof.
  intros Hh Hr. unfold trunc_seg. rewrite Hh. cbn [negb]. rewrite Hr, bk_trunc_recs_prefix.
  rewrite N.sub_diag. reflexivity.
Qed.

Lemma grown_refl P (s : st) m : Inv P s -> s_mem s = Some m -> grown m (s_disk s) (s_disk s).
Proof.
  intros HI Em. pose proof (Inv_InvLog P s m Em HI) as ((_ & Hnd & _) & _).
  split; [exact Hnd|]. split.
  - intros f0 Hf0. exists f0. split; [exact Hf0|]. split; [reflexivity|]. split; [reflexivity|].
    split; [exact (fun H => H)|]. split; [exists []; rewrite app_nil_r; reflexivity|]. intros; split; reflexivity.
  - intros f Hf. left. exists f. auto.
Qed.

Lemma since_refl (m : mem) : since m m.
Proof. intros g Hg. exists g. split; [exact Hg|]. repeat split; auto. lia. Qed.

(* events that leave the segment files alone (EIndex, ESync, gob files, ...) *)
Lemma grown_same_log m0 (d0 d d' : disk) : same_log d d' -> grown m0 d0 d -> grown m0 d0 d'.
Proof.
  intros Hsl (Hnd & Hold & Hnew). split; [rewrite (same_log_ids _ _ Hsl); exact Hnd|]. split.
  - intros f0 Hf0. destruct (Hold f0 Hf0) as (f & Hf & A1 & A2 & A3 & A4 & A5).
    destruct (same_log_In _ _ f Hsl Hf) as (f' & Hf' & Ec).
    destruct (seg_core_inv _ _ Ec) as (B1 & B2 & B3 & B4 & B5 & _).
    exists f'. split; [exact Hf'|]. rewrite B1, B2, B3, B4, B5. auto.
  - intros f' Hf'. destruct (same_log_In _ _ f' (same_log_sym _ _ Hsl) Hf') as (f & Hf & Ec).
    destruct (seg_core_inv _ _ Ec) as (B1 & B2 & _). rewrite <- B1, <- B2. apply Hnew. exact Hf.
Qed.

Lemma grown_segs m0 (d0 d d' : disk) : d_segs d' = d_segs d -> grown m0 d0 d -> grown m0 d0 d'.
Proof. intros E. apply grown_same_log. apply same_log_segs. exact E. Qed.

(* a new, empty segment file: fresh id, sequence id above everything on the disk *)
Lemma grown_create m0 (d0 d : disk) id seq :
  (forall x, In x (d_segs d) -> f_id x <> id) -> (forall x, In x (d_segs d) -> f_seq x < seq) ->
  grown m0 d0 d -> grown m0 d0 (apply_ev flat_ops d (ECreate (FSeg id seq))).
Proof.
  intros Hid Hseq (Hnd & Hold & Hnew). unfold grown. rewrite d_segs_create_seg. split; [|split].
  - rewrite map_app. cbn [map f_id]. apply NoDup_snoc; [exact Hnd|]. intros HIn. apply in_map_iff in HIn.
    destruct HIn as (x & E & Hx). exact (Hid x Hx E).
  - intros f0 Hf0. destruct (Hold f0 Hf0) as (f & Hf & A). exists f. split; [apply in_or_app; left; exact Hf|exact A].
  - intros f Hf. apply in_app_or in Hf. destruct Hf as [Hf|[<-|[]]]; [apply Hnew; exact Hf|].
    right. intros f0 Hf0. destruct (Hold f0 Hf0) as (f & Hf & _ & A2 & _). cbn [f_seq]. rewrite <- A2. apply Hseq. exact Hf.
Qed.

(* a change of one file that keeps its name and header and only adds records; it is either invisible
   in records and tail, or the file is not a sealed segment of the snapshot *)
Lemma grown_upd m0 (d0 d : disk) id seq (G : dseg -> dseg) :
  (forall s, f_id (G s) = f_id s /\ f_seq (G s) = f_seq s /\ (f_hdr s = true -> f_hdr (G s) = true) /\
             exists more, f_recs (G s) = f_recs s ++ more) ->
  ((forall s, f_recs (G s) = f_recs s /\ f_tail (G s) = f_tail s) \/
   (forall g0, In g0 (m_segs m0) -> g_id g0 = id -> sm_full (g_meta g0) = false)) ->
  grown m0 d0 d -> grown m0 d0 (upd_seg id seq G d).
Proof.
  intros HG Hcase (Hnd & Hold & Hnew). unfold grown. rewrite d_segs_upd_seg.
  set (H := fun s : dseg => if is_seg id seq s then G s else s).
  assert (HH : forall s, f_id (H s) = f_id s /\ f_seq (H s) = f_seq s /\ (f_hdr s = true -> f_hdr (H s) = true) /\
                         exists more, f_recs (H s) = f_recs s ++ more).
  { intros s. unfold H. destruct (is_seg id seq s); [apply HG|].
    repeat split; auto. exists []. rewrite app_nil_r. reflexivity. }
  split; [|split].
  - rewrite map_map. rewrite (map_ext (fun x => f_id (H x)) f_id); [exact Hnd|]. intros s. apply (HH s).
  - intros f0 Hf0. destruct (Hold f0 Hf0) as (f & Hf & A1 & A2 & A3 & (more & A4) & A5).
    destruct (HH f) as (B1 & B2 & B3 & (more2 & B4)).
    exists (H f). split; [apply in_map; exact Hf|]. split; [congruence|]. split; [congruence|].
    split; [auto|]. split; [exists (more ++ more2); rewrite B4, A4, app_assoc; reflexivity|].
    intros g0 Hg0 Eid Hfull. destruct (A5 g0 Hg0 Eid Hfull) as [C1 C2]. rewrite <- C1, <- C2.
    unfold H. destruct (is_seg id seq f) eqn:Eis; [|split; reflexivity].
    destruct Hcase as [Hsame|Hnf]; [apply Hsame|]. exfalso.
    unfold is_seg in Eis. apply andb_true_iff in Eis. destruct Eis as [Eis _]. apply N.eqb_eq in Eis.
    rewrite (Hnf g0 Hg0) in Hfull; [discriminate|congruence].
  - intros f' Hf'. apply in_map_iff in Hf'. destruct Hf' as (f & <- & Hf).
    destruct (HH f) as (B1 & B2 & _). rewrite B1, B2. apply Hnew. exact Hf.
Qed.

Lemma grown_header m0 (d0 d : disk) id seq :
  grown m0 d0 d -> grown m0 d0 (apply_ev flat_ops d (EHeader (FSeg id seq))).
Proof.
  intros Hg. cbn [apply_ev]. apply grown_upd; [| |exact Hg].
  - intros s. cbn [f_id f_seq f_hdr f_recs]. repeat split. exists []. rewrite app_nil_r. reflexivity.
  - left. intros s. split; reflexivity.
Qed.

Lemma grown_append m0 (d0 d : disk) id seq off r :
  (forall g0, In g0 (m_segs m0) -> g_id g0 = id -> sm_full (g_meta g0) = false) ->
  grown m0 d0 d -> grown m0 d0 (apply_ev flat_ops d (EAppend id seq off r)).
Proof.
  intros Hnf Hg. rewrite apply_ev_append. apply grown_upd; [| |exact Hg].
  - intros s. cbn [append_seg f_id f_seq f_hdr f_recs]. repeat split; auto. exists [r]. reflexivity.
  - right. exact Hnf.
Qed.

Lemma since_mem_sim (m0 m m' : mem) : mem_sim m m' -> since m0 m -> since m0 m'.
Proof.
  intros ((F & HF & EF) & _) H g0 Hg0. destruct (H g0 Hg0) as (g & Hg & A1 & A2 & A3 & A4).
  destruct (HF g) as (F1 & F2 & F3 & F4). exists (F g). split; [rewrite EF; apply in_map; exact Hg|].
  split; [congruence|]. split; [congruence|]. split; [auto|]. rewrite F3. exact A4.
Qed.

(* an update of the segment [id] that keeps id and sequence id, never clears Full and never shrinks *)
Lemma since_upd_in (m0 m : mem) id (F : mseg -> mseg) :
  (forall g, In g (m_segs m) -> g_id g = id ->
     g_id (F g) = g_id g /\ g_seq (F g) = g_seq g /\
     (sm_full (g_meta g) = true -> sm_full (g_meta (F g)) = true) /\ g_size g <= g_size (F g)) ->
  since m0 m -> since m0 (set_msegs m (upd_mseg id F (m_segs m))).
Proof.
  intros HF H g0 Hg0. destruct (H g0 Hg0) as (g & Hg & A1 & A2 & A3 & A4).
  exists (if g_id g =? id then F g else g). split.
  - cbn [set_msegs m_segs]. apply In_upd_mseg. exists g. split; [exact Hg|reflexivity].
  - destruct (N.eqb_spec (g_id g) id) as [E|_]; [|auto]. destruct (HF g Hg E) as (F1 & F2 & F3 & F4).
    split; [congruence|]. split; [congruence|]. split; [auto|]. lia.
Qed.

Lemma since_upd (m0 m : mem) id (F : mseg -> mseg) :
  (forall g, g_id (F g) = g_id g /\ g_seq (F g) = g_seq g /\
             (sm_full (g_meta g) = true -> sm_full (g_meta (F g)) = true) /\ g_size g <= g_size (F g)) ->
  since m0 m -> since m0 (set_msegs m (upd_mseg id F (m_segs m))).
Proof. intros HF. apply since_upd_in. intros g _ _. apply HF. Qed.

Lemma since_insert (m0 m m' : mem) g : m_segs m' = insert_mseg g (m_segs m) -> since m0 m -> since m0 m'.
Proof.
  intros E H g0 Hg0. destruct (H g0 Hg0) as (x & Hx & A). exists x. split; [|exact A].
  rewrite E. apply insert_mseg_In. right. exact Hx.
Qed.

(* sealSegment only sets Full; swapSegment only adds a segment: neither needs an invariant *)
Lemma seal_since m0 id (s : st) (m : mem) : since m0 m -> since m0 (snd (seal flat_ops id s m)).
Proof.
  intros H. unfold seal. destruct (find_mseg id (m_segs m)) as [g|]; [destruct (sm_full (g_meta g))|]; try exact H.
  apply since_upd; [|exact H]. intros x. cbn [set_gmeta g_id g_seq g_size g_meta]. repeat split; auto. lia.
Qed.

Lemma swap_since m0 (s : st) (m : mem) : since m0 m -> since m0 (snd (swap_segment flat_ops s m)).
Proof.
  intros H. unfold swap_segment. destruct (find _ (m_segs m)); [exact H|].
  eapply since_insert; [reflexivity|exact H].
Qed.

Lemma wr_prelude_since P m0 r (s : st) (m : mem) : since m0 m -> since m0 (snd (wr_prelude P r s m)).
Proof.
  intros H. unfold wr_prelude. destruct (cur_seg m) as [g|]; [|apply swap_since; exact H].
  destruct (sm_full (g_meta g) || (p_maxseg P <? g_size g + rsize r)); [|exact H].
  pose proof (seal_since m0 (g_id g) s m H) as H0. destruct (seal flat_ops (g_id g) s m) as [sa ma].
  apply swap_since. exact H0.
Qed.

Fixpoint all_grown (m0 : mem) (d0 d : disk) (es : list fsev) : Prop :=
  match es with
  | [] => True
  | e :: es' => grown m0 d0 (apply_ev flat_ops d e) /\ all_grown m0 d0 (apply_ev flat_ops d e) es'
  end.

Lemma all_grown_app m0 d0 (a b : list fsev) : forall d,
  all_grown m0 d0 d (a ++ b) <-> all_grown m0 d0 d a /\ all_grown m0 d0 (fold_left (apply_ev flat_ops) a d) b.
Proof.
  induction a as [|e a IH]; intros d; cbn [app all_grown fold_left]; [tauto|]. rewrite IH. tauto.
Qed.

Lemma all_grown_prefix m0 d0 (es : list fsev) : forall d n,
  grown m0 d0 d -> all_grown m0 d0 d es -> grown m0 d0 (fold_left (apply_ev flat_ops) (firstn n es) d).
Proof.
  induction es as [|e es IH]; intros d n Hg Ha.
  - rewrite firstn_nil. exact Hg.
  - destruct n as [|n]; [exact Hg|]. cbn [firstn fold_left]. destruct Ha as [H1 H2]. apply IH; assumption.
Qed.

Lemma all_grown_last m0 d0 (es : list fsev) d :
  grown m0 d0 d -> all_grown m0 d0 d es -> grown m0 d0 (fold_left (apply_ev flat_ops) es d).
Proof. intros Hg Ha. rewrite <- (firstn_all es). apply all_grown_prefix; assumption. Qed.

(* [s'] is reached from [s] by file-system events through grown disks only *)
Definition bk_path (m0 : mem) (d0 : disk) (s s' : st) : Prop :=
  exists es, s_trace s' = s_trace s ++ es /\ s_disk s' = fold_left (apply_ev flat_ops) es (s_disk s) /\
             all_grown m0 d0 (s_disk s) es.

Lemma bk_path_refl m0 d0 (s : st) : bk_path m0 d0 s s.
Proof. exists []. rewrite app_nil_r. split; [reflexivity|]. split; [reflexivity|exact Logic.I]. Qed.

Lemma bk_path_eq m0 d0 (s s' : st) : s_trace s' = s_trace s -> s_disk s' = s_disk s -> bk_path m0 d0 s s'.
Proof. intros Et Ed. exists []. rewrite app_nil_r. split; [exact Et|]. split; [exact Ed|exact Logic.I]. Qed.

Lemma bk_path_trans m0 d0 (a b c : st) : bk_path m0 d0 a b -> bk_path m0 d0 b c -> bk_path m0 d0 a c.
Proof.
  intros (e1 & T1 & D1 & G1) (e2 & T2 & D2 & G2). exists (e1 ++ e2).
  split; [rewrite T2, T1, app_assoc; reflexivity|]. split; [rewrite D2, D1, fold_left_app; reflexivity|].
  apply all_grown_app. split; [exact G1|]. rewrite <- D1. exact G2.
Qed.

Lemma bk_path_emit m0 d0 (s : st) e :
  grown m0 d0 (apply_ev flat_ops (s_disk s) e) -> bk_path m0 d0 s (emit flat_ops e s).
Proof.
  intros H. exists [e]. split; [apply s_trace_emit|]. split; [apply s_disk_emit|]. split; [exact H|exact Logic.I].
Qed.

Lemma bk_path_grown m0 d0 (s s' : st) : grown m0 d0 (s_disk s) -> bk_path m0 d0 s s' -> grown m0 d0 (s_disk s').
Proof. intros Hg (es & _ & Ed & Ha). rewrite Ed. apply all_grown_last; assumption. Qed.

Lemma bk_path_sync m0 d0 (s : st) f : grown m0 d0 (s_disk s) -> bk_path m0 d0 s (emit flat_ops (ESync f) s).
Proof. intros Hg. apply bk_path_emit. rewrite apply_ev_sync. exact Hg. Qed.

(* A segment file that the prelude of writeRecord creates is new.  Read off the disk AFTER the creation:
   it has no two files of one name or one sequence id, and none later than the current segment. *)
Lemma created_fresh (m1 : mem) (d : disk) g :
  InvLog m1 (fold_left (apply_ev flat_ops) [ECreate (FSeg (g_id g) (g_seq g)); EHeader (FSeg (g_id g) (g_seq g))] d) ->
  cur_seg m1 = Some g -> sm_full (g_meta g) = false ->
  forall x, In x (d_segs d) -> f_id x <> g_id g /\ f_seq x < g_seq g.
Proof.
  intros ((_ & Hnid & Hnseq) & [_ Ha2] & _ & [_ Hs2] & _) Ec Hnf x Hx.
  cbn [fold_left apply_ev] in Hnid, Hnseq, Ha2. rewrite d_segs_upd_seg in Hnid, Hnseq, Ha2.
  cbn [d_segs set_segs] in Hnid, Hnseq, Ha2.
  set (H := fun s : dseg => if is_seg _ _ s then _ else s) in *.
  assert (EH : forall s, f_id (H s) = f_id s /\ f_seq (H s) = f_seq s)
    by (intros s; unfold H; destruct (is_seg _ _ s); split; reflexivity).
  rewrite map_map, (map_ext _ _ (fun s => proj1 (EH s))), map_app in Hnid.
  rewrite map_map, (map_ext _ _ (fun s => proj2 (EH s))), map_app in Hnseq.
  apply NoDup_remove_2 in Hnid, Hnseq. rewrite app_nil_r in Hnid, Hnseq. cbn [f_id f_seq] in Hnid, Hnseq.
  split; [intros E; apply Hnid; rewrite <- E; apply in_map; exact Hx|].
  destruct (Ha2 (H x)) as (gx & Hgx & _ & Eq); [apply in_map, in_or_app; left; exact Hx|].
  destruct (cur_seg_Some _ _ Ec) as (_ & Hg & _). pose proof (Hs2 g gx Hg Hgx Hnf) as Hle.
  rewrite Eq, (proj2 (EH x)) in Hle.
  assert (f_seq x <> g_seq g) by (intros E; apply Hnseq; rewrite <- E; apply in_map; exact Hx). lia.
Qed.

(* the events before the append (wr_prelude_spec): at most a Sync, then at most the creation of the
   segment [g] that is current afterwards *)
Lemma all_grown_pre m0 d0 (d : disk) (m1 : mem) g pre :
  wr_pre_shape pre (g_id g) (g_seq g) -> InvLog m1 (fold_left (apply_ev flat_ops) pre d) ->
  cur_seg m1 = Some g -> sm_full (g_meta g) = false -> grown m0 d0 d -> all_grown m0 d0 d pre.
Proof.
  intros Hp HI Ec Hnf Hg. set (F := FSeg (g_id g) (g_seq g)) in *.
  assert (Hc : InvLog m1 (fold_left (apply_ev flat_ops) [ECreate F; EHeader F] d) ->
               all_grown m0 d0 d [ECreate F; EHeader F]).
  { intros HI'. pose proof (created_fresh m1 d g HI' Ec Hnf) as Hfr.
    assert (Hc : grown m0 d0 (apply_ev flat_ops d (ECreate F)))
      by (apply grown_create; [intros x Hx; apply Hfr; exact Hx|intros x Hx; apply Hfr; exact Hx|exact Hg]).
    split; [exact Hc|]. split; [apply grown_header; exact Hc|exact Logic.I]. }
  destruct Hp as [->|[(i & q & ->)|[->|(i & q & ->)]]].
  - exact Logic.I.
  - split; [exact Hg|exact Logic.I].
  - exact (Hc HI).
  - split; [exact Hg|exact (Hc HI)].
Qed.

(* the append itself: it goes to a segment that is not Full now, hence was not Full at the snapshot
   (or did not exist then) *)
Lemma bk_append m0 d0 (m1 : mem) (d1 : disk) g r :
  ids_increasing (m_segs m1) -> cur_seg m1 = Some g -> sm_full (g_meta g) = false ->
  since m0 m1 -> grown m0 d0 d1 ->
  since m0 (set_msegs m1 (upd_mseg (g_id g)
              (fun x => set_gmeta (set_gsize x (g_size g + rsize r)) (count_rec r (g_meta x))) (m_segs m1))) /\
  grown m0 d0 (apply_ev flat_ops d1 (EAppend (g_id g) (g_seq g) (g_size g) r)).
Proof.
  intros Hinc Ec Hnf Hs Hg. destruct (cur_seg_Some _ _ Ec) as (_ & HIn & _).
  assert (Hu : forall x, In x (m_segs m1) -> g_id x = g_id g -> x = g)
    by (intros x Hx E; apply (ids_increasing_unique (m_segs m1)); assumption).
  split.
  - apply since_upd_in; [|exact Hs]. intros x Hx E. rewrite (Hu x Hx E).
    cbn [set_gmeta set_gsize g_id g_seq g_size g_meta]. rewrite count_rec_full. repeat split; auto. lia.
  - apply grown_append; [|exact Hg]. intros g0 Hg0 Eid.
    destruct (sm_full (g_meta g0)) eqn:Ef; [|reflexivity]. exfalso.
    destruct (Hs g0 Hg0) as (x & Hx & A1 & _ & A3 & _). rewrite (Hu x Hx) in A3 by congruence.
    rewrite (A3 Ef) in Hnf. discriminate.
Qed.

Lemma bk_write_record P m0 d0 r (s : st) (m : mem) s' m' id off :
  InvLog m (s_disk s) -> room m -> write_record flat_ops P r s m = Some (s', m', id, off) ->
  since m0 m -> grown m0 d0 (s_disk s) -> since m0 m' /\ bk_path m0 d0 s s'.
Proof.
  intros HI Hroom E Hs Hg. rewrite write_record_eq in E.
  destruct (wr_prelude_spec P r s m HI Hroom)
    as (s1 & m1 & g & pre & E1 & HI1 & _ & Ec1 & Hnf1 & _ & _ & _ & _ & _ & Et1 & Ed1 & Hp1).
  pose proof (wr_prelude_since P m0 r s m Hs) as Hs1. rewrite E1 in E, Hs1. cbn [snd] in Hs1.
  assert (Hpa : bk_path m0 d0 s s1).
  { exists pre. split; [exact Et1|]. split; [exact Ed1|]. rewrite Ed1 in HI1.
    exact (all_grown_pre m0 d0 _ m1 g pre Hp1 HI1 Ec1 Hnf1 Hg). }
  assert (Hinc1 : ids_increasing (m_segs m1)) by apply HI1.
  destruct (bk_append m0 d0 m1 (s_disk s1) g r Hinc1 Ec1 Hnf1 Hs1 (bk_path_grown m0 d0 s s1 Hg Hpa)) as [Hs2 Hg2].
  unfold wr_tail in E. rewrite Ec1 in E.
  destruct (find_dseg (g_id g) (s_disk s1)) as [f|]; [|discriminate].
  destruct (negb ((f_seq f =? g_seq g) && (flen f =? g_size g))); [discriminate|].
  cbv zeta in E. injection E as <- <- _ _.
  split; [exact Hs2|]. eapply bk_path_trans; [exact Hpa|]. apply bk_path_emit. exact Hg2.
Qed.

Lemma bk_do_sync m0 d0 (s : st) (m : mem) : grown m0 d0 (s_disk s) -> bk_path m0 d0 s (do_sync flat_ops s m).
Proof. intros Hg. unfold do_sync. destruct (cur_seg m); [apply bk_path_sync; exact Hg|apply bk_path_refl]. Qed.

Lemma bk_finish P m0 d0 (s : st) (m : mem) :
  grown m0 d0 (s_disk s) ->
  s_mem (fst (finish flat_ops P s m)) = Some m /\ bk_path m0 d0 s (fst (finish flat_ops P s m)).
Proof.
  intros Hg. unfold finish. cbn [fst]. split; [reflexivity|].
  apply (bk_path_trans m0 d0 s (if p_sync P then do_sync flat_ops s m else s)).
  - destruct (p_sync P); [apply bk_do_sync; exact Hg|apply bk_path_refl].
  - apply bk_path_eq; reflexivity.
Qed.

(* [Snap] after the operation, and every disk in between has only grown *)
Definition snap_op (m0 : mem) (d0 : disk) (s s' : st) : Prop := Snap m0 d0 s' /\ bk_path m0 d0 s s'.

(* the common end of Put and Delete: the index goes to disk, then the optional Sync *)
Lemma bk_writer P m0 d0 (s s1 : st) (m2 : mem) i :
  grown m0 d0 (s_disk s) -> bk_path m0 d0 s s1 -> since m0 m2 ->
  snap_op m0 d0 s (fst (finish flat_ops P (emit flat_ops (EIndex i) s1) (set_idx m2 i))).
Proof.
  intros Hg Hp1 Hs2. pose proof (bk_path_grown m0 d0 s s1 Hg Hp1) as Hg1.
  assert (Hg2 : grown m0 d0 (apply_ev flat_ops (s_disk s1) (EIndex i)))
    by (eapply grown_segs; [apply d_segs_index|exact Hg1]).
  destruct (bk_finish P m0 d0 (emit flat_ops (EIndex i) s1) (set_idx m2 i) Hg2) as [Ef Hpf].
  assert (Hp : bk_path m0 d0 s (fst (finish flat_ops P (emit flat_ops (EIndex i) s1) (set_idx m2 i)))).
  { eapply bk_path_trans; [exact Hp1|]. eapply bk_path_trans; [apply bk_path_emit; exact Hg2|exact Hpf]. }
  split; [|exact Hp]. exists (set_idx m2 i). split; [exact Ef|]. split; [exact Hs2|].
  exact (bk_path_grown m0 d0 _ _ Hg Hp).
Qed.

Theorem put_snap_path P m0 d0 (s : st) k v :
  Inv P s -> (exists m, s_mem s = Some m /\ room m) -> Snap m0 d0 s ->
  snap_op m0 d0 s (fst (db_put flat_ops P k v s)).
Proof.
  intros HI (m & Em & Hroom) HS. pose proof HS as (m' & Em' & Hs & Hg).
  assert (m' = m) by congruence. subst m'.
  pose proof (Inv_InvLog P s m Em HI) as HL.
  assert (Hstay : snap_op m0 d0 s s) by (split; [exact HS|apply bk_path_refl]).
  unfold db_put. rewrite Em.
  destruct (max_key_len <? nlen k); [exact Hstay|]. destruct (max_val_len <? nlen v); [exact Hstay|].
  destruct (write_record flat_ops P (mkput k v) s m) as [[[[s1 m1] id] off]|] eqn:Ew; [|exact Hstay].
  destruct (bk_write_record P m0 d0 _ s m s1 m1 id off HL Hroom Ew Hs Hg) as [Hs1 Hp1].
  cbn [ix_put flat_ops].
  destruct (fl_put (p_grow P) (m_idx m1) _ (matchf (s_disk s1) k)) as [i2 old].
  apply bk_writer; [exact Hg|exact Hp1|].
  destruct old; [eapply since_mem_sim; [apply mem_sim_track_del|exact Hs1]|exact Hs1].
Qed.

Theorem delete_snap_path P m0 d0 (s : st) k :
  Inv P s -> (exists m, s_mem s = Some m /\ room m) -> Snap m0 d0 s ->
  snap_op m0 d0 s (fst (db_delete flat_ops P k s)).
Proof.
  intros HI (m & Em & Hroom) HS. pose proof HS as (m' & Em' & Hs & Hg).
  assert (m' = m) by congruence. subst m'.
  pose proof (Inv_InvLog P s m Em HI) as HL.
  unfold db_delete. rewrite Em. cbn [ix_del flat_ops].
  destruct (fl_del (m_idx m) (p_hash P (m_seed m) k) (matchf (s_disk s) k)) as [i1 old].
  destruct old as [o|].
  - assert (Hs0 : since m0 (track_del o m)) by (eapply since_mem_sim; [apply mem_sim_track_del|exact Hs]).
    destruct (write_record flat_ops P (mkdel k) s (track_del o m)) as [[[[s1 m1] id] off]|] eqn:Ew;
      [|split; [exact HS|apply bk_path_refl]].
    destruct (bk_write_record P m0 d0 _ s _ s1 m1 id off (track_del_InvLog o m _ HL) (track_del_room o m Hroom)
                Ew Hs0 Hg) as [Hs1 Hp1].
    apply bk_writer; [exact Hg|exact Hp1|]. eapply since_mem_sim; [apply mem_sim_add_delbytes|exact Hs1].
  - destruct (bk_finish P m0 d0 s m Hg) as [Ef Hpf]. split; [|exact Hpf].
    exists m. split; [exact Ef|]. split; [exact Hs|]. exact (bk_path_grown m0 d0 _ _ Hg Hpf).
Qed.

Theorem sync_snap_path m0 d0 (s : st) : Snap m0 d0 s -> snap_op m0 d0 s (fst (db_sync flat_ops s)).
Proof.
  intros HS. pose proof HS as (m & Em & Hs & Hg). unfold db_sync. rewrite Em. cbn [fst].
  pose proof (bk_do_sync m0 d0 s m Hg) as Hp. split; [|exact Hp].
  destruct (do_sync_spec s m) as (E1 & E2 & _). exists m. split; [congruence|]. split; [exact Hs|].
  rewrite E2. exact Hg.
Qed.

(* the statements in the unpacked form *)
Lemma snap_op_grown m0 d0 (s s' : st) : snap_op m0 d0 s s' ->
  grown m0 d0 (s_disk s') /\ exists m', s_mem s' = Some m' /\ since m0 m'.
Proof. intros ((m' & A & B & C) & _). split; [exact C|]. exists m'. auto. Qed.

Corollary put_grown P m0 d0 (s : st) m k v :
  Inv P s -> s_mem s = Some m -> room m -> grown m0 d0 (s_disk s) -> since m0 m ->
  grown m0 d0 (s_disk (fst (db_put flat_ops P k v s))) /\
  exists m', s_mem (fst (db_put flat_ops P k v s)) = Some m' /\ since m0 m'.
Proof.
  intros HI Em Hr Hg Hs. apply (snap_op_grown m0 d0 s), put_snap_path; [exact HI|exists m; auto|exists m; auto].
Qed.

Corollary delete_grown P m0 d0 (s : st) m k :
  Inv P s -> s_mem s = Some m -> room m -> grown m0 d0 (s_disk s) -> since m0 m ->
  grown m0 d0 (s_disk (fst (db_delete flat_ops P k s))) /\
  exists m', s_mem (fst (db_delete flat_ops P k s)) = Some m' /\ since m0 m'.
Proof.
  intros HI Em Hr Hg Hs. apply (snap_op_grown m0 d0 s), delete_snap_path; [exact HI|exists m; auto|exists m; auto].
Qed.

Corollary sync_grown m0 d0 (s : st) m :
  s_mem s = Some m -> grown m0 d0 (s_disk s) -> since m0 m ->
  grown m0 d0 (s_disk (fst (db_sync flat_ops s))) /\
  exists m', s_mem (fst (db_sync flat_ops s)) = Some m' /\ since m0 m'.
Proof. intros Em Hg Hs. apply (snap_op_grown m0 d0 s), sync_snap_path. exists m. auto. Qed.

(* Compaction steps are NOT writer steps: Backup holds maintenanceMu from before the snapshot until
   after the last copy. *)
Inductive wstep (P : params) : st -> st -> Prop :=
| ws_put s k v : Forall byte k -> Forall byte v -> (exists m, s_mem s = Some m /\ room m) ->
                 wstep P s (fst (db_put flat_ops P k v s))
| ws_del s k : Forall byte k -> (exists m, s_mem s = Some m /\ room m) ->
               wstep P s (fst (db_delete flat_ops P k s))
| ws_sync s : wstep P s (fst (db_sync flat_ops s)).

Inductive wsteps (P : params) (s0 : st) : st -> Prop :=
| wss_refl : wsteps P s0 s0
| wss_step s s' : wsteps P s0 s -> wstep P s s' -> wsteps P s0 s'.

Lemma wstep_inv P (s s' : st) :
  params_ok P -> Inv P s -> s_mem s <> None -> wstep P s s' -> Inv P s' /\ s_mem s' <> None.
Proof.
  intros HP HI Hm Hst. destruct Hst as [s k v Hbk Hbv Hr|s k Hbk Hr|s].
  - destruct (N.le_gt_cases (nlen k) max_key_len) as [Hk|Hk];
      [destruct (N.le_gt_cases (nlen v) max_val_len) as [Hv|Hv]|].
    + pose proof (put_ok P s k v HP HI Hr Hbk Hbv Hk Hv) as H.
      destruct (db_put flat_ops P k v s) as [s' o]. cbn [fst]. destruct H as (_ & A & B & _). auto.
    + destruct (put_rejected P s k v Hm (or_intror Hv)) as (e & E). rewrite E. auto.
    + destruct (put_rejected P s k v Hm (or_introl Hk)) as (e & E). rewrite E. auto.
  - pose proof (delete_ok P s k HP HI Hr Hbk) as H.
    destruct (db_delete flat_ops P k s) as [s' o]. cbn [fst]. destruct H as (_ & A & B & _). auto.
  - pose proof (sync_ok P s HI Hm) as H.
    destruct (db_sync flat_ops s) as [s' o]. cbn [fst]. destruct H as (_ & A & _ & B). split; [exact A|congruence].
Qed.

(* event granularity: [Snap] afterwards, and the disks a copy step can see BETWEEN two events of the
   operation have only grown (the copies run outside db.mu, so a file may be read while a Put is half done) *)
Lemma wstep_path P m0 d0 (s s' : st) : Inv P s -> Snap m0 d0 s -> wstep P s s' -> snap_op m0 d0 s s'.
Proof.
  intros HI HS Hst. destruct Hst as [s k v _ _ Hr|s k _ Hr|s].
  - apply put_snap_path; assumption.
  - apply delete_snap_path; assumption.
  - apply sync_snap_path; assumption.
Qed.

Theorem wsteps_snap P (s0 s : st) m0 :
  params_ok P -> Inv P s0 -> s_mem s0 = Some m0 -> wsteps P s0 s ->
  Inv P s /\ s_mem s <> None /\ Snap m0 (s_disk s0) s.
Proof.
  intros HP HI Em H. induction H as [|s s' _ IH Hst].
  - split; [exact HI|]. split; [congruence|]. exists m0. split; [exact Em|].
    split; [apply since_refl|eapply grown_refl; eassumption].
  - destruct IH as (A & B & C). destruct (wstep_inv P s s' HP A B Hst) as [A' B'].
    split; [exact A'|]. split; [exact B'|]. exact (proj1 (wstep_path P m0 _ s s' A C Hst)).
Qed.

Corollary wsteps_grown P (s0 s : st) m0 :
  params_ok P -> Inv P s0 -> s_mem s0 = Some m0 -> wsteps P s0 s -> grown m0 (s_disk s0) (s_disk s).
Proof. intros HP HI Em H. destruct (wsteps_snap P s0 s m0 HP HI Em H) as (_ & _ & (m & _ & _ & Hg)). exact Hg. Qed.

Definition mid_disk (P : params) (s0 : st) (d : disk) : Prop :=
  exists s s' es n, wsteps P s0 s /\ wstep P s s' /\ s_trace s' = s_trace s ++ es /\
    d = fold_left (apply_ev flat_ops) (firstn n es) (s_disk s).

Theorem mid_disk_grown P (s0 : st) m0 d :
  params_ok P -> Inv P s0 -> s_mem s0 = Some m0 -> mid_disk P s0 d -> grown m0 (s_disk s0) d.
Proof.
  intros HP HI Em (s & s' & es & n & Hw & Hst & Et & ->).
  destruct (wsteps_snap P s0 s m0 HP HI Em Hw) as (A & _ & C).
  destruct (wstep_path P m0 (s_disk s0) s s' A C Hst) as (_ & es' & Et' & _ & Ha).
  assert (es' = es) by (apply (app_inv_head (s_trace s)); congruence). subst es'.
  apply all_grown_prefix; [|exact Ha]. destruct C as (m & _ & _ & Hg). exact Hg.
Qed.

(* the disks between operations are among them *)
Lemma wsteps_mid_disk P (s0 s : st) : wsteps P s0 s -> mid_disk P s0 (s_disk s).
Proof.
  intros Hw. exists s, (fst (db_sync flat_ops s)). 
  assert (Hex : exists es, s_trace (fst (db_sync flat_ops s)) = s_trace s ++ es).
  { unfold db_sync. destruct (s_mem s) as [m|]; cbn [fst]; [|exists []; rewrite app_nil_r; reflexivity].
    destruct (do_sync_spec s m) as (_ & _ & [E|(i & q & E)]); rewrite E; [exists []; rewrite app_nil_r|eexists]; reflexivity. }
  destruct Hex as (es & E). exists es, O. split; [exact Hw|]. split; [apply ws_sync|]. split; [exact E|reflexivity].
Qed.

Lemma bk_find_is_seg (l : list dseg) f :
  NoDup (map f_id l) -> In f l -> find (is_seg (f_id f) (f_seq f)) l = Some f.
Proof.
  induction l as [|x l IH]; intros Hnd HIn; [destruct HIn|].
  cbn [map] in Hnd. inversion Hnd as [|? ? Hx Hnd']; subst. cbn [find].
  destruct HIn as [->|HIn].
  - unfold is_seg. rewrite !N.eqb_refl. reflexivity.
  - unfold is_seg at 1. destruct (N.eqb_spec (f_id x) (f_id f)) as [E|_]; [|apply IH; assumption].
    exfalso. apply Hx. rewrite E. apply in_map. exact HIn.
Qed.

(* the entry of the plan for an in-memory segment *)
Definition bk_plan_of (g : mseg) : bk_entry :=
  (g_id g, g_seq g, if sm_full (g_meta g) then None else Some (g_size g)).

Lemma backup_plan_eq (m : mem) : backup_plan m = map bk_plan_of (by_seq (m_segs m)).
Proof. reflexivity. Qed.

(* the copy of the segment [g0] of the snapshot, taken from ANY later disk, is the file of the
   snapshot disk (without its side file) *)
Lemma bk_copy_seg P (s0 : st) m0 (d : disk) g0 :
  Inv P s0 -> s_mem s0 = Some m0 -> grown m0 (s_disk s0) d -> In g0 (m_segs m0) ->
  exists f0, In f0 (d_segs (s_disk s0)) /\ f_id f0 = g_id g0 /\ f_seq f0 = g_seq g0 /\
             copy_seg d (bk_plan_of g0) = Some (strip f0).
Proof.
  intros HI Em (Hnd & Hold & _) Hg0.
  pose proof (Inv_InvLog P s0 m0 Em HI) as (_ & [Ha1 _] & _).
  destruct (Ha1 g0 Hg0) as (f0 & Hf0 & Eid & Eseq & Ehdr & Etail & Elen).
  exists f0. split; [exact Hf0|]. split; [exact Eid|]. split; [exact Eseq|].
  destruct (Hold f0 Hf0) as (f & Hf & A1 & A2 & A3 & (more & A4) & A5).
  specialize (A3 Ehdr).
  unfold copy_seg, bk_plan_of. rewrite <- Eid, <- Eseq, <- A1, <- A2.
  rewrite (bk_find_is_seg _ f Hnd Hf). f_equal.
  destruct (sm_full (g_meta g0)) eqn:Efull.
  - destruct (A5 g0 Hg0 (eq_sym Eid) Efull) as [B1 B2]. clear A4 A5. unfold strip.
    destruct f as [a b c rs t gm], f0 as [a0 b0 c0 rs0 t0 gm0].
    cbn [f_id f_seq f_hdr f_recs f_tail] in *. subst. reflexivity.
  - rewrite <- Elen, (flen_clean f0 Ehdr Etail), (bk_trunc_seg_prefix f (f_recs f0) more A3 A4).
    unfold strip. destruct f as [a b c rs t gm], f0 as [a0 b0 c0 rs0 t0 gm0].
    cbn [f_id f_seq f_hdr f_recs f_tail f_meta set_fmeta] in *. subst. reflexivity.
Qed.

(* the copy of a planned entry, from any grown disk, is the snapshot's file: same records, no tail *)
Theorem copy_seg_snapshot P (s0 : st) m0 (d : disk) p :
  Inv P s0 -> s_mem s0 = Some m0 -> grown m0 (s_disk s0) d -> In p (backup_plan m0) ->
  exists c f0, copy_seg d p = Some c /\ In f0 (d_segs (s_disk s0)) /\
    f_id c = fst (fst p) /\ f_seq c = snd (fst p) /\ f_id f0 = f_id c /\ f_seq f0 = f_seq c /\
    f_recs c = f_recs f0 /\ f_tail c = [] /\ f_hdr c = true /\ f_meta c = GAbsent.
Proof.
  intros HI Em Hg Hp. rewrite backup_plan_eq in Hp. apply in_map_iff in Hp. destruct Hp as (g0 & <- & Hg0).
  apply (proj1 (rc_by_seq_In _ _)) in Hg0.
  destruct (bk_copy_seg P s0 m0 d g0 HI Em Hg Hg0) as (f0 & Hf0 & Eid & Eseq & Ec).
  pose proof (Inv_InvLog P s0 m0 Em HI) as ((_ & Hnd0 & _) & [Ha1 _] & _).
  destruct (Ha1 g0 Hg0) as (f1 & Hf1 & Eid1 & _ & Ehdr & Etail & _).
  assert (f1 = f0) by (apply (NoDup_map_inj f_id (d_segs (s_disk s0))); try assumption; congruence). subst f1.
  exists (strip f0), f0. split; [exact Ec|]. split; [exact Hf0|].
  unfold strip, bk_plan_of. cbn [set_fmeta f_id f_seq f_recs f_tail f_hdr f_meta fst snd]. auto 10.
Qed.

(* entry [p] was copied from SOME disk that has only grown since the snapshot *)
Definition bk_copied (m0 : mem) (d0 : disk) (p : bk_entry) (c : dseg) : Prop :=
  exists d, grown m0 d0 d /\ copy_seg d p = Some c.

Lemma bk_copies_shape P (s0 : st) m0 :
  Inv P s0 -> s_mem s0 = Some m0 ->
  forall G copies, (forall g, In g G -> In g (m_segs m0)) ->
    Forall2 (bk_copied m0 (s_disk s0)) (map bk_plan_of G) copies ->
    exists L, copies = map strip L /\ map rc_fpair L = map rc_gpair G /\
              (forall f, In f L -> In f (d_segs (s_disk s0))).
Proof.
  intros HI Em. induction G as [|g G IH]; intros copies HG HF.
  - cbn [map] in HF. inversion HF; subst. exists []. split; [reflexivity|]. split; [reflexivity|intros f []].
  - cbn [map] in HF. inversion HF as [|p c pl cl Hc HF']; subst.
    destruct (IH cl (fun x Hx => HG x (or_intror Hx)) HF') as (L & -> & EL & HL).
    destruct Hc as (d & Hgr & Ec).
    destruct (bk_copy_seg P s0 m0 d g HI Em Hgr (HG g (or_introl eq_refl))) as (f0 & Hf0 & Eid & Eseq & Ec').
    rewrite Ec in Ec'. assert (c = strip f0) by congruence. subst c.
    exists (f0 :: L). split; [reflexivity|]. split.
    + cbn [map]. rewrite EL. unfold rc_fpair at 1, rc_gpair at 2. rewrite Eid, Eseq. reflexivity.
    + intros f [<-|Hf]; [exact Hf0|apply HL; exact Hf].
Qed.

Lemma bk_same_pairs (l : list dseg) :
  NoDup (map f_id l) -> forall L1 L2, (forall f, In f L1 -> In f l) -> (forall f, In f L2 -> In f l) ->
  map rc_fpair L1 = map rc_fpair L2 -> L1 = L2.
Proof.
  intros Hnd. induction L1 as [|a L1 IH]; intros L2 H1 H2 E; destruct L2 as [|b L2]; try discriminate; [reflexivity|].
  cbn [map] in E. injection E as Eid Eseq E'. f_equal.
  - apply (NoDup_map_inj f_id l); [exact Hnd|apply H1; left; reflexivity|apply H2; left; reflexivity|exact Eid].
  - apply IH; [intros f Hf; apply H1; right; exact Hf|intros f Hf; apply H2; right; exact Hf|exact E'].
Qed.

(* the copies are the files of the snapshot disk, oldest first, without their side files *)
Lemma bk_copies_eq P (s0 : st) m0 copies :
  Inv P s0 -> s_mem s0 = Some m0 ->
  Forall2 (bk_copied m0 (s_disk s0)) (backup_plan m0) copies ->
  copies = map strip (dby_seq (d_segs (s_disk s0))).
Proof.
  intros HI Em HF. pose proof (Inv_InvLog P s0 m0 Em HI) as ((_ & Hnid & Hnseq) & [Ha1 Ha2] & Hinc & _).
  rewrite backup_plan_eq in HF.
  destruct (bk_copies_shape P s0 m0 HI Em (by_seq (m_segs m0)) copies) as (L & -> & EL & HL).
  { intros g Hg. apply (proj1 (rc_by_seq_In _ _)). exact Hg. }
  { exact HF. }
  f_equal. apply (bk_same_pairs (d_segs (s_disk s0)) Hnid); [exact HL| |].
  - intros f Hf. apply (proj1 (dby_seq_In _ _)). exact Hf.
  - rewrite EL. apply rc_order_pairs; [exact Hinc| |exact Hnseq]. split; [|exact Ha2].
    intros g Hg. destruct (Ha1 g Hg) as (f & Hf & A1 & A2 & _ & _ & A5). exists f. auto.
Qed.

Lemma bk_dby_seq_idem (l : list dseg) : NoDup (map f_seq l) -> dby_seq (dby_seq l) = dby_seq l.
Proof.
  intros Hnd. apply dby_seq_unique.
  - apply (Permutation_NoDup (l := map f_seq l)); [apply Permutation_map; symmetry; apply dby_seq_perm|exact Hnd].
  - apply dby_seq_sorted_lt. exact Hnd.
  - reflexivity.
Qed.

Lemma bk_backup_disk_ok (d0 : disk) :
  DiskOK d0 ->
  let b : disk := backup_disk (map strip (dby_seq (d_segs d0))) in
  DiskOK b /\ bac_ok b /\ d_lock b = true /\ olog b = olog d0.
Proof.
  intros (Hok & Hnid & Hnseq). cbv zeta. split; [|split; [|split]].
  - unfold DiskOK, backup_disk. cbn [d_segs]. rewrite !map_map. split; [|split].
    + apply Forall_forall. intros y Hy. apply in_map_iff in Hy. destruct Hy as (f & <- & Hf).
      apply (dseg_ok_core f); [reflexivity|]. apply (proj1 (Forall_forall _ _) Hok).
      apply (proj1 (dby_seq_In _ _)). exact Hf.
    + change (fun x => f_id (strip x)) with f_id.
      apply (Permutation_NoDup (l := map f_id (d_segs d0))); [apply Permutation_map; symmetry; apply dby_seq_perm|exact Hnid].
    + change (fun x => f_seq (strip x)) with f_seq.
      apply (Permutation_NoDup (l := map f_seq (d_segs d0))); [apply Permutation_map; symmetry; apply dby_seq_perm|exact Hnseq].
  - unfold bac_ok, backup_disk. cbn [d_bac]. constructor.
  - reflexivity.
  - rewrite !olog_eq. unfold backup_disk. cbn [d_segs]. rewrite olog_of_strip. unfold olog_of.
    rewrite (bk_dby_seq_idem _ Hnseq). reflexivity.
Qed.

Theorem C12_backup_is_snapshot P seed (s0 : st) m0 copies :
  params_ok P -> Inv P s0 -> s_mem s0 = Some m0 ->
  Forall2 (fun p c => exists d, grown m0 (s_disk s0) d /\ copy_seg d p = Some c) (backup_plan m0) copies ->
  let b : disk := backup_disk copies in
  DiskOK b /\ bac_ok b /\ d_lock b = true /\ olog b = olog (s_disk s0) /\
  exists s', db_open flat_ops P seed {| s_mem := None; s_disk := b; s_trace := [] |} = (s', OOpened true) /\
    Inv P s' /\ s_mem s' <> None /\
    (forall k, sget (abs (s_disk s')) k = sget (abs (s_disk s0)) k) /\
    olog (s_disk s') = olog (s_disk s0).
Proof.
  intros HP HI Em HF. cbv zeta.
  rewrite (bk_copies_eq P s0 m0 copies HI Em HF).
  assert (Hd0 : DiskOK (s_disk s0)) by apply (Inv_InvLog P s0 m0 Em HI).
  destruct (bk_backup_disk_ok (s_disk s0) Hd0) as (B1 & B2 & B3 & B4). cbv zeta in B1, B2, B3, B4.
  set (b := backup_disk (map strip (dby_seq (d_segs (s_disk s0))))) in *.
  split; [exact B1|]. split; [exact B2|]. split; [exact B3|]. split; [exact B4|].
  pose proof (open_recover_ok P seed b HP B1 B2 B3) as H.
  destruct (db_open flat_ops P seed {| s_mem := None; s_disk := b; s_trace := [] |}) as [s' o].
  destruct H as (-> & A1 & A2 & A3 & _ & A5 & _). exists s'. split; [reflexivity|].
  split; [exact A1|]. split; [exact A2|]. split.
  - intros k. rewrite A3. unfold abs. rewrite B4. reflexivity.
  - rewrite A5. exact B4.
Qed.

(* C12 at event granularity: every copy may be taken in the MIDDLE of a writer operation *)
Theorem C12_event_granular P seed (s0 : st) m0 copies :
  params_ok P -> Inv P s0 -> s_mem s0 = Some m0 ->
  Forall2 (fun p c => exists d, mid_disk P s0 d /\ copy_seg d p = Some c) (backup_plan m0) copies ->
  let b : disk := backup_disk copies in
  DiskOK b /\ bac_ok b /\ d_lock b = true /\ olog b = olog (s_disk s0) /\
  exists s', db_open flat_ops P seed {| s_mem := None; s_disk := b; s_trace := [] |} = (s', OOpened true) /\
    Inv P s' /\ s_mem s' <> None /\
    (forall k, sget (abs (s_disk s')) k = sget (abs (s_disk s0)) k) /\
    olog (s_disk s') = olog (s_disk s0).
Proof.
  intros HP HI Em HF. apply (C12_backup_is_snapshot P seed s0 m0 copies HP HI Em).
  apply (Forall2_imp _ _ _ _ HF). intros p c (d & Hd & Ec). exists d. split; [|exact Ec].
  exact (mid_disk_grown P s0 m0 d HP HI Em Hd).
Qed.

Fixpoint copy_all (plan : list bk_entry) (ds : list disk) : option (list dseg) :=
  match plan, ds with
  | [], _ => Some []
  | p :: pl, d :: ds' =>
      match copy_seg d p, copy_all pl ds' with
      | Some c, Some r => Some (c :: r)
      | _, _ => None
      end
  | _ :: _, [] => None
  end.

(* no copy step can fail, whatever the writers did in between *)
Lemma bk_copy_all_gen P (s0 : st) m0 :
  Inv P s0 -> s_mem s0 = Some m0 ->
  forall pl ds, (forall p, In p pl -> In p (backup_plan m0)) ->
    Forall (grown m0 (s_disk s0)) ds -> length ds = length pl ->
    exists copies, copy_all pl ds = Some copies /\ Forall2 (bk_copied m0 (s_disk s0)) pl copies.
Proof.
  intros HI Em. induction pl as [|p pl IH]; intros ds Hpl Hds Hlen.
  - exists []. split; [reflexivity|constructor].
  - destruct ds as [|d ds]; [discriminate|]. inversion Hds as [|? ? Hd Hds']; subst.
    cbn [length] in Hlen. injection Hlen as Hlen.
    destruct (IH ds (fun q Hq => Hpl q (or_intror Hq)) Hds' Hlen) as (r & Er & HF).
    destruct (copy_seg_snapshot P s0 m0 d p HI Em Hd (Hpl p (or_introl eq_refl))) as (c & _ & Ec & _).
    exists (c :: r). cbn [copy_all]. rewrite Ec, Er. split; [reflexivity|].
    constructor; [exists d; split; assumption|exact HF].
Qed.

Theorem C12_copy_all P seed (s0 : st) m0 (ds : list disk) :
  params_ok P -> Inv P s0 -> s_mem s0 = Some m0 ->
  Forall (grown m0 (s_disk s0)) ds -> length ds = length (backup_plan m0) ->
  exists copies, copy_all (backup_plan m0) ds = Some copies /\
    let b : disk := backup_disk copies in
    DiskOK b /\ bac_ok b /\ d_lock b = true /\ olog b = olog (s_disk s0) /\
    exists s', db_open flat_ops P seed {| s_mem := None; s_disk := b; s_trace := [] |} = (s', OOpened true) /\
      Inv P s' /\ s_mem s' <> None /\
      (forall k, sget (abs (s_disk s')) k = sget (abs (s_disk s0)) k) /\
      olog (s_disk s') = olog (s_disk s0).
Proof.
  intros HP HI Em Hds Hlen.
  destruct (bk_copy_all_gen P s0 m0 HI Em (backup_plan m0) ds (fun p Hp => Hp) Hds Hlen) as (copies & Ec & HF).
  exists copies. split; [exact Ec|]. apply (C12_backup_is_snapshot P seed s0 m0 copies HP HI Em). exact HF.
Qed.

(* db_backup: all copies from the snapshot disk itself *)
Definition bk_go (d : disk) : list bk_entry -> option (list dseg) :=
  fix go (l : list bk_entry) : option (list dseg) :=
    match l with
    | [] => Some []
    | p :: l' => match copy_seg d p, go l' with
                 | Some c, Some r => Some (c :: r)
                 | _, _ => None
                 end
    end.

Lemma db_backup_eq (s : st) :
  db_backup s = match s_mem s with
                | None => None
                | Some m => option_map backup_disk (bk_go (s_disk s) (backup_plan m))
                end.
Proof. reflexivity. Qed.

Lemma bk_go_total (d : disk) pl : (forall p, In p pl -> exists c, copy_seg d p = Some c) ->
  exists cs, bk_go d pl = Some cs /\ Forall2 (fun p c => copy_seg d p = Some c) pl cs.
Proof.
  induction pl as [|p pl IH]; intros H; [exists []; split; [reflexivity|constructor]|].
  destruct (H p (or_introl eq_refl)) as (c & Ec).
  destruct (IH (fun q Hq => H q (or_intror Hq))) as (cs & E & HF).
  exists (c :: cs). split; [|constructor; assumption].
  cbn [bk_go]. rewrite Ec, E. reflexivity.
Qed.

Theorem backup_quiescent P seed (s0 : st) m0 :
  params_ok P -> Inv P s0 -> s_mem s0 = Some m0 ->
  exists copies,
    db_backup s0 = Some (backup_disk copies) /\
    Forall2 (fun p c => copy_seg (s_disk s0) p = Some c) (backup_plan m0) copies /\
    let b : disk := backup_disk copies in
    DiskOK b /\ bac_ok b /\ d_lock b = true /\ olog b = olog (s_disk s0) /\
    exists s', db_open flat_ops P seed {| s_mem := None; s_disk := b; s_trace := [] |} = (s', OOpened true) /\
      Inv P s' /\ s_mem s' <> None /\
      (forall k, sget (abs (s_disk s')) k = sget (abs (s_disk s0)) k) /\
      olog (s_disk s') = olog (s_disk s0).
Proof.
  intros HP HI Em. pose proof (grown_refl P s0 m0 HI Em) as Hg.
  destruct (bk_go_total (s_disk s0) (backup_plan m0)) as (copies & Eg & HF).
  { intros p Hp. destruct (copy_seg_snapshot P s0 m0 _ p HI Em Hg Hp) as (c & _ & Ec & _). exists c. exact Ec. }
  exists copies. split; [rewrite db_backup_eq, Em, Eg; reflexivity|]. split; [exact HF|].
  apply (C12_backup_is_snapshot P seed s0 m0 copies HP HI Em). apply (Forall2_imp _ _ _ _ HF).
  intros p c Ec. exists (s_disk s0). split; [exact Hg|exact Ec].
Qed.

(* source state, planned entries not copied yet, copies made so far *)
Definition bstate := (st * list bk_entry * list dseg)%type.

Inductive bstep (P : params) : bstate -> bstate -> Prop :=
| bs_write s s' todo done : wstep P s s' -> bstep P (s, todo, done) (s', todo, done)
| bs_copy s p todo done c : copy_seg (s_disk s) p = Some c -> bstep P (s, p :: todo, done) (s, todo, done ++ [c]).

Inductive bsteps (P : params) (a : bstate) : bstate -> Prop :=
| bss_refl : bsteps P a a
| bss_step b c : bsteps P a b -> bstep P b c -> bsteps P a c.

(* (1) by construction: [backup_plan : mem -> list bk_entry], [copy_seg : disk -> bk_entry -> option dseg],
       [db_backup : st -> option disk] return no source state and never call [emit];
   (2) in a schedule, a copy step leaves the source state (memory, disk AND trace) as it is, so the
       source component of any schedule is a run of the writer operations alone. *)
Theorem backup_does_not_touch_source P (a b : bstate) :
  bstep P a b ->
  (fst (fst b) = fst (fst a) /\ exists p c, copy_seg (s_disk (fst (fst a))) p = Some c /\
                                             snd (fst a) = p :: snd (fst b) /\ snd b = snd a ++ [c]) \/
  (wstep P (fst (fst a)) (fst (fst b)) /\ snd (fst b) = snd (fst a) /\ snd b = snd a).
Proof.
  intros H. destruct H as [s s' todo done Hws|s p todo done c Ec]; cbn [fst snd].
  - right. auto.
  - left. split; [reflexivity|]. exists p, c. auto.
Qed.

Corollary bsteps_source P (a b : bstate) : bsteps P a b -> wsteps P (fst (fst a)) (fst (fst b)).
Proof.
  intros H. induction H as [|b c _ IH Hst]; [constructor|].
  destruct (backup_does_not_touch_source P b c Hst) as [(E & _)|(Hw & _)].
  - rewrite E. exact IH.
  - econstructor; eassumption.
Qed.

Definition bk_binv (P : params) (s0 : st) (m0 : mem) (b : bstate) : Prop :=
  wsteps P s0 (fst (fst b)) /\
  exists pre, backup_plan m0 = pre ++ snd (fst b) /\ Forall2 (bk_copied m0 (s_disk s0)) pre (snd b).

Lemma bk_binv_steps P (s0 : st) m0 b :
  params_ok P -> Inv P s0 -> s_mem s0 = Some m0 ->
  bsteps P (s0, backup_plan m0, []) b -> bk_binv P s0 m0 b.
Proof.
  intros HP HI Em H. split; [exact (bsteps_source P _ b H)|]. induction H as [|b c H IH Hst].
  - exists []. split; [reflexivity|constructor].
  - destruct IH as (pre & Epl & HF). apply bsteps_source in H.
    destruct Hst as [s s' todo done Hws|s p todo done c Ec]; cbn [fst snd] in *.
    + exists pre. split; assumption.
    + exists (pre ++ [p]). split; [rewrite <- app_assoc; exact Epl|].
      apply Forall2_app; [exact HF|]. constructor; [|constructor].
      exists (s_disk s). split; [|exact Ec]. eapply wsteps_grown; eassumption.
Qed.

(* the next copy step is always enabled *)
Theorem bk_copy_enabled P (s0 s : st) m0 p todo done :
  params_ok P -> Inv P s0 -> s_mem s0 = Some m0 ->
  bsteps P (s0, backup_plan m0, []) (s, p :: todo, done) ->
  exists c, copy_seg (s_disk s) p = Some c.
Proof.
  intros HP HI Em H. destruct (bk_binv_steps P s0 m0 _ HP HI Em H) as (Hw & pre & Epl & _). cbn [fst snd] in *.
  destruct (copy_seg_snapshot P s0 m0 (s_disk s) p HI Em) as (c & _ & Ec & _).
  - eapply wsteps_grown; eassumption.
  - rewrite Epl. apply in_or_app. right. left. reflexivity.
  - exists c. exact Ec.
Qed.

(* C12: for EVERY schedule that interleaves the copy steps with Put / Delete / Sync of the source *)
Theorem C12_schedule P seed (s0 s : st) m0 copies :
  params_ok P -> Inv P s0 -> s_mem s0 = Some m0 ->
  bsteps P (s0, backup_plan m0, []) (s, [], copies) ->
  let b : disk := backup_disk copies in
  DiskOK b /\ bac_ok b /\ d_lock b = true /\ olog b = olog (s_disk s0) /\
  (exists s', db_open flat_ops P seed {| s_mem := None; s_disk := b; s_trace := [] |} = (s', OOpened true) /\
     Inv P s' /\ s_mem s' <> None /\
     (forall k, sget (abs (s_disk s')) k = sget (abs (s_disk s0)) k) /\
     olog (s_disk s') = olog (s_disk s0)) /\
  (* the source: still a good open database, reached by the writers' steps alone *)
  wsteps P s0 s /\ Inv P s /\ s_mem s <> None.
Proof.
  intros HP HI Em H. destruct (bk_binv_steps P s0 m0 _ HP HI Em H) as (Hw & pre & Epl & HF). cbn [fst snd] in *.
  rewrite app_nil_r in Epl. subst pre.
  destruct (C12_backup_is_snapshot P seed s0 m0 copies HP HI Em HF) as (A1 & A2 & A3 & A4 & A5).
  destruct (wsteps_snap P s0 s m0 HP HI Em Hw) as (B1 & B2 & _).
  cbv zeta. auto 10.
Qed.

(* Sensitivity witness: the captured size matters.
      [copy_seg_whole] copies a non-Full segment ENTIRELY (io.Copy instead of io.CopyN).  On the
      concrete run below -- snapshot after Put 1, then Put 3 into the same segment and Put 5 which
      rolls the log over -- the opened backup then contains key 3, written after the snapshot; the
      real [copy_seg] taken from the same late disk gives exactly the contents at the snapshot.       *)
Definition copy_seg_whole (d : disk) (p : bk_entry) : option dseg :=
  let '(id, seq, _) := p in option_map (set_fmeta GAbsent) (find (is_seg id seq) (d_segs d)).

Module BkEx.
Definition w_P : params :=
  {| p_maxseg := 540; p_minseg := 0; p_frag := fun _ _ => false; p_sync := true;
     p_grow := fun _ _ => false; p_hash := fun _ _ => 0 |}.
(* an empty directory with a lock file: opening it "recovers" an empty database *)
Definition w_d0 : disk := Eval vm_compute in set_lock disk0 true.
Definition w_closed (d : disk) : st := {| s_mem := None; s_disk := d; s_trace := [] |}.
Definition w_s1 : st := Eval vm_compute in fst (db_open flat_ops w_P 7 (w_closed w_d0)).
Definition w_s2 : st := Eval vm_compute in fst (db_put flat_ops w_P [1] [2] w_s1).        (* snapshot here *)
Definition w_s3 : st := Eval vm_compute in fst (db_put flat_ops w_P [3] [4] w_s2).        (* same segment *)
Definition w_s4 : st := Eval vm_compute in fst (db_put flat_ops w_P [5] [6; 7] w_s3).     (* new segment *)
Definition w_plan : list bk_entry :=
  Eval vm_compute in match s_mem w_s2 with Some m => backup_plan m | None => [] end.
Definition w_opt (o : option dseg) : list dseg := match o with Some c => [c] | None => [] end.
(* all copies are taken from the LAST disk *)
Definition w_good : list dseg := Eval vm_compute in flat_map (fun p => w_opt (copy_seg (s_disk w_s4) p)) w_plan.
Definition w_whole : list dseg := Eval vm_compute in flat_map (fun p => w_opt (copy_seg_whole (s_disk w_s4) p)) w_plan.
Definition w_open (copies : list dseg) : st := fst (db_open flat_ops w_P 9 (w_closed (backup_disk copies))).

Lemma w_params_ok : params_ok w_P. Proof. reflexivity. Qed.

Lemma w_rec_fits r : rec_fits_b r = true -> rec_fits r.
Proof.
  unfold rec_fits_b, rec_fits. rewrite !andb_true_iff, !N.leb_le. intros [[[H1 H2] H3] H4].
  split; [apply forallb_byte; exact H1|]. split; [apply forallb_byte; exact H2|]. split; assumption.
Qed.

Lemma w_inv1 : Inv w_P w_s1.
Proof.
  assert (Hok : DiskOK w_d0) by (split; [constructor|split; constructor]).
  assert (Hbac : bac_ok w_d0) by constructor.
  pose proof (open_recover_ok w_P 7 w_d0 w_params_ok Hok Hbac eq_refl) as H.
  assert (E : db_open flat_ops w_P 7 {| s_mem := None; s_disk := w_d0; s_trace := [] |} = (w_s1, OOpened true))
    by (vm_compute; reflexivity).
  rewrite E in H. apply H.
Qed.

Lemma w_inv2 : Inv w_P w_s2.
Proof.
  assert (E : db_put flat_ops w_P [1] [2] w_s1 = (w_s2, OOk)) by (vm_compute; reflexivity).
  pose proof (put_ok w_P w_s1 [1] [2] w_params_ok w_inv1) as H. rewrite E in H. apply H.
  - apply open_room_b_ok. vm_compute. reflexivity.
  - apply forallb_byte. reflexivity.
  - apply forallb_byte. reflexivity.
  - vm_compute. discriminate.
  - vm_compute. discriminate.
Qed.

Lemma w_step23 : wstep w_P w_s2 w_s3.
Proof.
  assert (E : w_s3 = fst (db_put flat_ops w_P [3] [4] w_s2)) by (vm_compute; reflexivity).
  rewrite E. constructor; [apply forallb_byte; reflexivity|apply forallb_byte; reflexivity|].
  apply open_room_b_ok. vm_compute. reflexivity.
Qed.

Lemma w_step34 : wstep w_P w_s3 w_s4.
Proof.
  assert (E : w_s4 = fst (db_put flat_ops w_P [5] [6; 7] w_s3)) by (vm_compute; reflexivity).
  rewrite E. constructor; [apply forallb_byte; reflexivity|apply forallb_byte; reflexivity|].
  apply open_room_b_ok. vm_compute. reflexivity.
Qed.

Lemma w_steps : wsteps w_P w_s2 w_s4.
Proof. eapply wss_step; [eapply wss_step; [apply wss_refl|apply w_step23]|apply w_step34]. Qed.

(* the run is of the kind the theorems quantify over: the log did roll over after the snapshot *)
Example bk_run_shape :
  w_plan = [(0, 1, Some 524)] /\
  map (fun f => (f_id f, f_seq f, length (f_recs f))) (d_segs (s_disk w_s4)) = [(0, 1, 2%nat); (1, 2, 1%nat)].
Proof. vm_compute. split; reflexivity. Qed.

(* with the captured size: exactly the snapshot (also an instance of C12_schedule, computed) *)
Example bk_captured_size_ok :
  exists m0, s_mem w_s2 = Some m0 /\ backup_plan m0 = w_plan /\
    map (copy_seg (s_disk w_s4)) w_plan = map Some w_good /\
    abs (s_disk (w_open w_good)) = abs (s_disk w_s2) /\
    abs (s_disk w_s2) = [([1], [2])] /\
    db_get flat_ops w_P [3] (w_open w_good) = OVal None.
Proof. eexists. split; [reflexivity|]. vm_compute. repeat split; reflexivity. Qed.

(* ignoring the captured size: the backup contains a Put issued after the snapshot *)
Example bk_whole_differs :
  exists m0, s_mem w_s2 = Some m0 /\ backup_plan m0 = w_plan /\ wsteps w_P w_s2 w_s4 /\
    map (copy_seg_whole (s_disk w_s4)) w_plan = map Some w_whole /\
    DiskOK (backup_disk w_whole) /\
    sget (abs (s_disk (w_open w_whole))) [3] = Some [4] /\
    sget (abs (s_disk w_s2)) [3] = None /\
    db_get flat_ops w_P [3] (w_open w_whole) = OVal (Some [4]) /\
    db_get flat_ops w_P [3] w_s2 = OVal None /\
    (* and it is not the contents at any later instant either: Put 5 is missing *)
    sget (abs (s_disk (w_open w_whole))) [5] = None /\ sget (abs (s_disk w_s4)) [5] = Some [6; 7].
Proof.
  eexists. split; [reflexivity|]. split; [vm_compute; reflexivity|]. split; [exact w_steps|].
  split; [vm_compute; reflexivity|]. split.
  - unfold DiskOK, backup_disk, w_whole. cbn [d_segs map f_id f_seq]. split; [|split].
    + constructor; [|constructor]. unfold dseg_ok. cbn [f_recs f_tail f_hdr].
      split; [constructor; [|constructor; [|constructor]]; apply w_rec_fits; reflexivity|].
      split; [apply tail_stuck_nil|]. split; [constructor|]. split; [discriminate|vm_compute; reflexivity].
    + constructor; [intros []|constructor].
    + constructor; [intros []|constructor].
  - vm_compute. repeat split; reflexivity.
Qed.

(* the theorem applied to the same run *)
Example bk_schedule_instance :
  exists m0, s_mem w_s2 = Some m0 /\
    bsteps w_P (w_s2, backup_plan m0, []) (w_s4, [], w_good) /\
    forall k, sget (abs (s_disk (w_open w_good))) k = sget (abs (s_disk w_s2)) k.
Proof.
  eexists. split; [reflexivity|].
  match goal with |- bsteps _ (_, ?pl, _) _ /\ _ => assert (Epl : pl = w_plan) by (vm_compute; reflexivity) end.
  assert (Hb : bsteps w_P (w_s2, w_plan, []) (w_s4, [], w_good)).
  { eapply bss_step; [eapply bss_step; [eapply bss_step; [apply bss_refl|]|]|].
    - apply bs_write. apply w_step23.
    - apply bs_write. apply w_step34.
    - apply (bs_copy w_P w_s4 (0, 1, Some 524) [] []). vm_compute. reflexivity. }
  rewrite Epl. split; [exact Hb|]. rewrite <- Epl in Hb.
  destruct (C12_schedule w_P 9 w_s2 w_s4 _ w_good w_params_ok w_inv2 eq_refl Hb) as (_ & _ & _ & _ & (s' & E & _ & _ & A & _) & _).
  unfold w_open, w_closed. rewrite E. exact A.
Qed.
End BkEx.

Print Assumptions bk_trunc_recs_prefix.
Print Assumptions grown_refl.
Print Assumptions put_snap_path.
Print Assumptions delete_snap_path.
Print Assumptions sync_snap_path.
Print Assumptions put_grown.
Print Assumptions delete_grown.
Print Assumptions sync_grown.
Print Assumptions wsteps_snap.
Print Assumptions mid_disk_grown.
Print Assumptions copy_seg_snapshot.
Print Assumptions C12_backup_is_snapshot.
Print Assumptions C12_event_granular.
Print Assumptions C12_copy_all.
Print Assumptions C12_schedule.
Print Assumptions bk_copy_enabled.
Print Assumptions backup_quiescent.
Print Assumptions backup_does_not_touch_source.
Print Assumptions bsteps_source.
Print Assumptions BkEx.bk_captured_size_ok.
Print Assumptions BkEx.bk_whole_differs.
Print Assumptions BkEx.bk_schedule_instance.
