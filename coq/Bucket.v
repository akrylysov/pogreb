(* Bucket.v -- byte-level model of the on-disk index bucket (bucket.go), of the file header
   (header.go) and of the file names (segment.go: segmentName, datalog.go: parseSegmentName),
   with round-trip theorems: "the on-disk format stays the documented format version 2"
   (/repo/docs/design.md: Bucket, Slot).

   NOTE on the bucket layout: 31 slots of 16 bytes are 496 bytes, the overflow offset takes 8
   more (504); bucket.MarshalBinary allocates bucketSize = 512 bytes, so the last 8 bytes of a
   bucket are always zero.  [marshal_bucket] therefore ends with [zeros 8]. *)
From Coq Require Import ZArith Lia ZifyN ZifyNat ZifyBool.
From Pogreb Require Import Base BaseLemmas Crc Bytes Record RecordProofs DB.
Ltac Zify.zify_post_hook ::= Z.div_mod_to_equations.

(* constants, kept folded *)
Lemma pow2_16 : 2 ^ 16 = 65536. Proof. reflexivity. Qed.
Lemma pow2_64 : 2 ^ 64 = 18446744073709551616. Proof. reflexivity. Qed.
Lemma pow256_8 : 256 ^ N.of_nat 8 = 18446744073709551616. Proof. reflexivity. Qed.

Lemma unle_le8 x : x < 18446744073709551616 -> unle (le 8 x) = x.
Proof. intros H. apply unle_le. rewrite pow256_8. exact H. Qed.

Definition slots_per_bucket : nat := 31.
Definition bucket_size : N := 512.
Definition slot_size : N := 16.

(* bucket.MarshalBinary, loop body: hash, segmentID, keySize, valueSize, offset *)
Definition marshal_slot (s : slot) : bytes :=
  le 4 (sl_h s) ++ le 2 (sl_seg s) ++ le 2 (sl_ks s) ++ le 4 (sl_vs s) ++ le 4 (sl_off s).

(* bucket.UnmarshalBinary, loop body: data[:4], data[4:6], data[6:8], data[8:12], data[12:16] *)
Definition unmarshal_slot (bs : bytes) : slot :=
  {| sl_h := unle (ntake 4 bs);
     sl_seg := unle (ntake 2 (ndrop 4 bs));
     sl_ks := unle (ntake 2 (ndrop 6 bs));
     sl_vs := unle (ntake 4 (ndrop 8 bs));
     sl_off := unle (ntake 4 (ndrop 12 bs)) |}.

Definition empty_slot : slot := {| sl_h := 0; sl_seg := 0; sl_ks := 0; sl_vs := 0; sl_off := 0 |}.

Definition slot_wf (s : slot) : Prop :=
  sl_h s < 2 ^ 32 /\ sl_seg s < 2 ^ 16 /\ sl_ks s < 2 ^ 16 /\ sl_vs s < 2 ^ 32 /\ sl_off s < 2 ^ 32.

Fixpoint marshal_slots (l : list slot) : bytes :=
  match l with [] => [] | s :: l' => marshal_slot s ++ marshal_slots l' end.

Definition pad_slots (slots : list slot) : list slot :=
  slots ++ repeat empty_slot (slots_per_bucket - length slots).

(* 31 slots, the overflow offset, and the 8 unused bytes of the 512-byte block *)
Definition marshal_bucket (slots : list slot) (next : N) : bytes :=
  marshal_slots (pad_slots slots) ++ le 8 next ++ zeros 8.

Fixpoint unmarshal_slots (n : nat) (bs : bytes) : list slot :=
  match n with O => [] | S n' => unmarshal_slot bs :: unmarshal_slots n' (ndrop 16 bs) end.

Definition unmarshal_bucket (bs : bytes) : list slot * N :=
  (unmarshal_slots slots_per_bucket bs, unle (ntake 8 (ndrop 496 bs))).

(* The slots index.get / bucketIterator / ItemIterator look at: up to the first free one. *)
Fixpoint dense (b : list slot) : list slot :=
  match b with
  | [] => []
  | s :: b' => if sl_off s =? 0 then [] else s :: dense b'
  end.

Lemma nlen_marshal_slot s : nlen (marshal_slot s) = 16.
Proof. unfold marshal_slot. rewrite !nlen_app, !nlen_le. reflexivity. Qed.

Lemma marshal_slot_bytes s : Forall byte (marshal_slot s).
Proof. unfold marshal_slot. rewrite !Forall_app. repeat split; apply le_bytes. Qed.

Lemma slot_fields (a b c d e rest : bytes) :
  nlen a = 4 -> nlen b = 2 -> nlen c = 2 -> nlen d = 4 -> nlen e = 4 ->
  let l := a ++ b ++ c ++ d ++ e ++ rest in
  ntake 4 l = a /\ ntake 2 (ndrop 4 l) = b /\ ntake 2 (ndrop 6 l) = c /\
  ntake 4 (ndrop 8 l) = d /\ ntake 4 (ndrop 12 l) = e.
Proof.
  intros Ha Hb Hc Hd He l. unfold l.
  assert (Hab : nlen (a ++ b) = 6) by (rewrite nlen_app, Ha, Hb; reflexivity).
  assert (Hac : nlen ((a ++ b) ++ c) = 8) by (rewrite nlen_app, Hab, Hc; reflexivity).
  assert (Had : nlen (((a ++ b) ++ c) ++ d) = 12) by (rewrite nlen_app, Hac, Hd; reflexivity).
  split; [apply ntake_app_exact'; exact Ha|]. split; [apply field_at; assumption|].
  rewrite (app_assoc a b). split; [apply field_at; assumption|].
  rewrite (app_assoc _ c). split; [apply field_at; assumption|].
  rewrite (app_assoc _ d). apply field_at; assumption.
Qed.

Lemma marshal_slot_assoc s rest :
  marshal_slot s ++ rest =
  le 4 (sl_h s) ++ le 2 (sl_seg s) ++ le 2 (sl_ks s) ++ le 4 (sl_vs s) ++ le 4 (sl_off s) ++ rest.
Proof. unfold marshal_slot. rewrite <- !app_assoc. reflexivity. Qed.

Theorem slot_roundtrip s rest : slot_wf s -> unmarshal_slot (marshal_slot s ++ rest) = s.
Proof.
  intros (Hh & Hg & Hk & Hv & Ho).
  rewrite pow2_32 in Hh, Hv, Ho. rewrite pow2_16 in Hg, Hk.
  rewrite marshal_slot_assoc.
  destruct (slot_fields (le 4 (sl_h s)) (le 2 (sl_seg s)) (le 2 (sl_ks s)) (le 4 (sl_vs s))
              (le 4 (sl_off s)) rest) as (E1 & E2 & E3 & E4 & E5); try apply nlen_le.
  unfold unmarshal_slot. rewrite E1, E2, E3, E4, E5.
  rewrite !unle_le4, !unle_le2 by assumption.
  destruct s; reflexivity.
Qed.

Lemma empty_slot_wf : slot_wf empty_slot.
Proof. unfold slot_wf, empty_slot; cbn [sl_h sl_seg sl_ks sl_vs sl_off].
  rewrite pow2_32, pow2_16. lia. Qed.

Lemma ndrop_marshal_slot s rest : ndrop 16 (marshal_slot s ++ rest) = rest.
Proof. apply ndrop_app_exact'. apply nlen_marshal_slot. Qed.

Lemma nlen_marshal_slots l : nlen (marshal_slots l) = 16 * nlen l.
Proof.
  induction l as [|s l IH]; [reflexivity|].
  cbn [marshal_slots]. rewrite nlen_app, nlen_marshal_slot, IH, nlen_cons. lia.
Qed.

Lemma marshal_slots_bytes l : Forall byte (marshal_slots l).
Proof.
  induction l as [|s l IH]; cbn [marshal_slots]; [constructor|].
  apply Forall_app. split; [apply marshal_slot_bytes|exact IH].
Qed.

Lemma slots_roundtrip l : forall rest,
  Forall slot_wf l -> unmarshal_slots (length l) (marshal_slots l ++ rest) = l.
Proof.
  induction l as [|s l IH]; intros rest H; [reflexivity|].
  inversion H as [|? ? Hs Hl]; subst.
  cbn [marshal_slots length unmarshal_slots]. rewrite <- app_assoc.
  rewrite slot_roundtrip by exact Hs. rewrite ndrop_marshal_slot, IH by exact Hl. reflexivity.
Qed.

Lemma length_pad_slots slots :
  (length slots <= 31)%nat -> length (pad_slots slots) = 31%nat.
Proof. intros H. unfold pad_slots, slots_per_bucket. rewrite app_length, repeat_length. lia. Qed.

Lemma pad_slots_wf slots : Forall slot_wf slots -> Forall slot_wf (pad_slots slots).
Proof.
  intros H. unfold pad_slots. apply Forall_app. split; [exact H|].
  apply Forall_forall. intros x Hx. apply repeat_spec in Hx. subst x. apply empty_slot_wf.
Qed.

Lemma nlen_zeros n : nlen (zeros n) = N.of_nat n.
Proof. induction n as [|n IH]; [reflexivity|]. cbn [zeros]. rewrite nlen_cons, IH. lia. Qed.

Lemma zeros_bytes n : Forall byte (zeros n).
Proof. induction n as [|n IH]; cbn [zeros]; constructor; [unfold byte; lia|exact IH]. Qed.

Lemma nlen_padded_slots slots :
  (length slots <= 31)%nat -> nlen (marshal_slots (pad_slots slots)) = 496.
Proof.
  intros H. rewrite nlen_marshal_slots, nlen_length, length_pad_slots by exact H. reflexivity.
Qed.

Theorem marshal_bucket_length slots next :
  (length slots <= 31)%nat -> nlen (marshal_bucket slots next) = 512.
Proof.
  intros H. unfold marshal_bucket.
  rewrite !nlen_app, nlen_padded_slots, nlen_le, nlen_zeros by exact H. reflexivity.
Qed.

Theorem marshal_bucket_bytes slots next : Forall byte (marshal_bucket slots next).
Proof.
  unfold marshal_bucket. rewrite !Forall_app.
  repeat split; [apply marshal_slots_bytes|apply le_bytes|apply zeros_bytes].
Qed.

Theorem bucket_roundtrip slots next :
  (length slots <= 31)%nat -> Forall slot_wf slots -> next < 2 ^ 64 ->
  unmarshal_bucket (marshal_bucket slots next) =
    (slots ++ repeat empty_slot (31 - length slots), next).
Proof.
  intros Hl Hw Hn. rewrite pow2_64 in Hn.
  unfold unmarshal_bucket, marshal_bucket. f_equal.
  - change (unmarshal_slots 31 (marshal_slots (pad_slots slots) ++ le 8 next ++ zeros 8) =
            pad_slots slots).
    generalize (length_pad_slots slots Hl) (pad_slots_wf slots Hw).
    generalize (pad_slots slots) as p. intros p Lp Wp.
    rewrite <- Lp. apply slots_roundtrip. exact Wp.
  - rewrite (ndrop_app_exact' 496 _ _ (nlen_padded_slots slots Hl)).
    rewrite (ntake_app_exact' 8 (le 8 next) _ (nlen_le 8 next)).
    apply unle_le8. exact Hn.
Qed.

Lemma dense_app_free l s rest :
  Forall (fun s => sl_off s <> 0) l -> sl_off s = 0 -> dense (l ++ s :: rest) = l.
Proof.
  intros H Hs. induction H as [|x l Hx Hl IH]; cbn [app dense].
  - rewrite Hs. reflexivity.
  - destruct (N.eqb_spec (sl_off x) 0) as [E|E]; [contradiction|]. rewrite IH. reflexivity.
Qed.

Lemma dense_all l : Forall (fun s => sl_off s <> 0) l -> dense l = l.
Proof.
  intros H. induction H as [|x l Hx Hl IH]; cbn [dense]; [reflexivity|].
  destruct (N.eqb_spec (sl_off x) 0) as [E|E]; [contradiction|]. rewrite IH. reflexivity.
Qed.

Lemma dense_pad slots :
  Forall (fun s => sl_off s <> 0) slots -> dense (pad_slots slots) = slots.
Proof.
  intros H. unfold pad_slots.
  destruct (slots_per_bucket - length slots)%nat as [|k]; cbn [repeat].
  - rewrite app_nil_r. apply dense_all. exact H.
  - apply dense_app_free; [exact H|reflexivity].
Qed.

Theorem bucket_dense_roundtrip slots next :
  (length slots <= 31)%nat -> Forall slot_wf slots -> next < 2 ^ 64 ->
  Forall (fun s => sl_off s <> 0) slots ->
  dense (fst (unmarshal_bucket (marshal_bucket slots next))) = slots.
Proof.
  intros Hl Hw Hn Ho. rewrite bucket_roundtrip by assumption. cbn [fst].
  apply (dense_pad slots Ho).
Qed.

Theorem marshal_bucket_inj s1 n1 s2 n2 :
  (length s1 <= 31)%nat -> (length s2 <= 31)%nat -> Forall slot_wf s1 -> Forall slot_wf s2 ->
  n1 < 2 ^ 64 -> n2 < 2 ^ 64 ->
  marshal_bucket s1 n1 = marshal_bucket s2 n2 ->
  s1 ++ repeat empty_slot (31 - length s1) = s2 ++ repeat empty_slot (31 - length s2) /\ n1 = n2.
Proof.
  intros L1 L2 W1 W2 N1 N2 E.
  assert (R : unmarshal_bucket (marshal_bucket s1 n1) = unmarshal_bucket (marshal_bucket s2 n2))
    by (rewrite E; reflexivity).
  rewrite !bucket_roundtrip in R by assumption.
  split; [exact (f_equal fst R)|exact (f_equal snd R)].
Qed.

(* Buckets as the index keeps them (no free slot before a used one): the slot lists are equal. *)
Theorem marshal_bucket_inj_dense s1 n1 s2 n2 :
  (length s1 <= 31)%nat -> (length s2 <= 31)%nat -> Forall slot_wf s1 -> Forall slot_wf s2 ->
  n1 < 2 ^ 64 -> n2 < 2 ^ 64 ->
  Forall (fun s => sl_off s <> 0) s1 -> Forall (fun s => sl_off s <> 0) s2 ->
  marshal_bucket s1 n1 = marshal_bucket s2 n2 -> s1 = s2 /\ n1 = n2.
Proof.
  intros L1 L2 W1 W2 N1 N2 O1 O2 E.
  destruct (marshal_bucket_inj s1 n1 s2 n2 L1 L2 W1 W2 N1 N2 E) as [_ En]. split; [|exact En].
  rewrite <- (bucket_dense_roundtrip s1 n1 L1 W1 N1 O1), E.
  apply bucket_dense_roundtrip; assumption.
Qed.

Lemma app_eq_len {A} (a b c d : list A) : length a = length c -> a ++ b = c ++ d -> a = c.
Proof.
  revert c. induction a as [|x a IH]; intros c Hl E; destruct c as [|y c]; try discriminate Hl.
  - reflexivity.
  - cbn [app] in E. injection E as Exy E. cbn [length] in Hl. f_equal; [exact Exy|].
    apply IH; [lia|exact E].
Qed.

(* Slot arrays of the same length. *)
Theorem marshal_bucket_inj_len s1 n1 s2 n2 :
  length s1 = length s2 -> (length s1 <= 31)%nat -> Forall slot_wf s1 -> Forall slot_wf s2 ->
  n1 < 2 ^ 64 -> n2 < 2 ^ 64 ->
  marshal_bucket s1 n1 = marshal_bucket s2 n2 -> s1 = s2 /\ n1 = n2.
Proof.
  intros EL L1 W1 W2 N1 N2 E.
  assert (L2 : (length s2 <= 31)%nat) by lia.
  destruct (marshal_bucket_inj s1 n1 s2 n2 L1 L2 W1 W2 N1 N2 E) as [Es En]. split; [|exact En].
  exact (app_eq_len _ _ _ _ EL Es).
Qed.

(* file header (header.go) *)
Lemma header_version : unle (ntake 4 (ndrop 8 header_bytes)) = 2.
Proof. vm_compute. reflexivity. Qed.

Lemma header_bytes_bytes : Forall byte header_bytes.
Proof.
  unfold header_bytes. rewrite !Forall_app. repeat split; [|apply le_bytes|apply zeros_bytes].
  unfold signature. repeat constructor.
Qed.

Theorem header_roundtrip rest :
  header_ok (header_bytes ++ rest) = true /\
  nlen header_bytes = 512 /\
  unle (ntake 4 (ndrop 8 header_bytes)) = 2.
Proof.
  split; [apply header_ok_header|]. split; [apply nlen_header_bytes|apply header_version].
Qed.

Lemma format_version_2 : format_version = 2. Proof. reflexivity. Qed.

Lemma header_ok_iff bs : header_ok bs = true <-> ntake 8 bs = signature.
Proof. unfold header_ok. destruct (bytes_eqb_spec (ntake 8 bs) signature); split; congruence. Qed.

Theorem header_ok_rejects bs :
  nlen bs = 512 -> ntake 8 bs <> signature -> header_ok bs = false.
Proof.
  intros _ H. destruct (header_ok bs) eqn:E; [|reflexivity].
  apply header_ok_iff in E. contradiction.
Qed.

(* A block that passes the check starts with the 8 signature bytes. *)
Theorem header_ok_accepts bs :
  header_ok bs = true -> exists rest, bs = signature ++ rest.
Proof.
  intros H. apply header_ok_iff in H. exists (ndrop 8 bs).
  rewrite <- H. symmetry. apply ntake_ndrop_id.
Qed.

Definition digit (b : N) : Prop := 48 <= b < 58.
Definition is_digit (b : N) : bool := (48 <=? b) && (b <? 58).

(* strconv.ParseUint(s, 10, _) without the range check: digits only, not empty *)
Fixpoint parse_digits (a : N) (bs : bytes) : option N :=
  match bs with
  | [] => Some a
  | b :: bs' => if is_digit b then parse_digits (10 * a + (b - 48)) bs' else None
  end.
Definition parse_decimal (bs : bytes) : option N :=
  match bs with [] => None | _ :: _ => parse_digits 0 bs end.

(* strings.SplitN(s, "-", 2): the part before the first '-' and, if there is one, the part after *)
Fixpoint split_dash (bs : bytes) : bytes * option bytes :=
  match bs with
  | [] => ([], None)
  | b :: bs' => if b =? 45 then ([], Some bs')
                else let '(a, r) := split_dash bs' in (b :: a, r)
  end.

(* strings.TrimSuffix *)
Definition trim_suffix (suf bs : bytes) : bytes :=
  let n := nlen bs in
  let k := nlen suf in
  if (k <=? n) && bytes_eqb (ndrop (n - k) bs) suf then ntake (n - k) bs else bs.

Definition max_u16 : N := 65536.
Definition max_u64 : N := 18446744073709551616.

(* datalog.go: parseSegmentName.  A name without '-' (format version 1) has sequence ID 0. *)
Definition parse_segment_name (name : bytes) : option (N * N) :=
  let '(a, r) := split_dash (trim_suffix ext_psg name) in
  match parse_decimal a with
  | None => None
  | Some id =>
    if id <? max_u16 then
      match r with
      | None => Some (id, 0)
      | Some b =>
        match parse_decimal b with
        | None => None
        | Some seq => if seq <? max_u64 then Some (id, seq) else None
        end
      end
    else None
  end.

Fixpoint dfold (a : N) (ds : bytes) : N :=
  match ds with [] => a | b :: ds' => dfold (10 * a + (b - 48)) ds' end.

Lemma dfold_app a x y : dfold a (x ++ y) = dfold (dfold a x) y.
Proof. revert a. induction x as [|b x IH]; intros a; [reflexivity|]. cbn [app dfold]. apply IH. Qed.

Lemma is_digit_true b : digit b -> is_digit b = true.
Proof. unfold digit, is_digit. intros H. lia. Qed.

Lemma parse_digits_dfold ds : forall a, Forall digit ds -> parse_digits a ds = Some (dfold a ds).
Proof.
  induction ds as [|b ds IH]; intros a H; [reflexivity|].
  inversion H as [|? ? Hb Hds]; subst. cbn [parse_digits dfold].
  rewrite (is_digit_true b Hb). apply IH. exact Hds.
Qed.

Lemma parse_decimal_dfold ds :
  ds <> [] -> Forall digit ds -> parse_decimal ds = Some (dfold 0 ds).
Proof.
  intros Hne H. destruct ds as [|b ds]; [congruence|].
  unfold parse_decimal. apply parse_digits_dfold. exact H.
Qed.

Lemma digits_fuel_S f n acc :
  digits_fuel (S f) n acc =
  if n / 10 =? 0 then (48 + n mod 10) :: acc else digits_fuel f (n / 10) ((48 + n mod 10) :: acc).
Proof. reflexivity. Qed.

Lemma digit_mod10 n : digit (48 + n mod 10).
Proof. unfold digit. lia. Qed.

Lemma digits_fuel_digits fuel : forall n acc,
  Forall digit acc -> Forall digit (digits_fuel fuel n acc).
Proof.
  induction fuel as [|f IH]; intros n acc H; [exact H|].
  rewrite digits_fuel_S.
  assert (H' : Forall digit ((48 + n mod 10) :: acc)) by (constructor; [apply digit_mod10|exact H]).
  destruct (n / 10 =? 0); [exact H'|apply IH; exact H'].
Qed.

Theorem decimal_digits n : Forall (fun b => 48 <= b < 58) (decimal n).
Proof. apply (digits_fuel_digits 20 n []). constructor. Qed.

Lemma pow10_succ f : 10 ^ N.of_nat (S f) = 10 * 10 ^ N.of_nat f.
Proof. rewrite Nat2N.inj_succ, N.pow_succ_r'. reflexivity. Qed.

Lemma digits_fuel_spec f : forall n acc,
  n < 10 ^ N.of_nat (S f) ->
  exists ds, digits_fuel (S f) n acc = ds ++ acc /\ ds <> [] /\ dfold 0 ds = n.
Proof.
  (* a number below 10 is its one digit, whatever fuel is left *)
  induction f as [|f IH]; intros n acc H; rewrite digits_fuel_S;
    (destruct (N.eqb_spec (n / 10) 0) as [E|E];
     [exists [48 + n mod 10]; split; [reflexivity|]; split; [discriminate|]; cbn [dfold]; lia|]).
  - change (10 ^ N.of_nat 1) with 10 in H. lia.
  - rewrite pow10_succ in H.
    destruct (IH (n / 10) ((48 + n mod 10) :: acc)) as (ds & E1 & E2 & E3).
    { set (p := 10 ^ N.of_nat (S f)) in *. lia. }
    exists (ds ++ [48 + n mod 10]). split; [rewrite E1, <- app_assoc; reflexivity|].
    split; [destruct ds; discriminate|].
    rewrite dfold_app, E3. cbn [dfold]. lia.
Qed.

Lemma pow10_20 : 10 ^ N.of_nat 20 = 10 ^ 20. Proof. reflexivity. Qed.

Lemma decimal_spec n : n < 10 ^ 20 -> decimal n <> [] /\ dfold 0 (decimal n) = n.
Proof.
  intros H. rewrite <- pow10_20 in H.
  destruct (digits_fuel_spec 19 n [] H) as (ds & E1 & E2 & E3).
  unfold decimal. rewrite E1, app_nil_r. split; assumption.
Qed.

Theorem parse_decimal_decimal n : n < 10 ^ 20 -> parse_decimal (decimal n) = Some n.
Proof.
  intros H. destruct (decimal_spec n H) as [Hne Hv].
  rewrite parse_decimal_dfold; [rewrite Hv; reflexivity|exact Hne|apply decimal_digits].
Qed.

(* More fuel changes nothing: fuel 20 is enough for n < 10^20. *)
Lemma digits_fuel_indep f : forall g n acc,
  n < 10 ^ N.of_nat (S f) -> (f <= g)%nat -> digits_fuel (S g) n acc = digits_fuel (S f) n acc.
Proof.
  induction f as [|f IH]; intros g n acc H Hg; rewrite !digits_fuel_S;
    destruct (N.eqb_spec (n / 10) 0) as [E|E]; try reflexivity.
  - change (10 ^ N.of_nat 1) with 10 in H. lia.
  - rewrite pow10_succ in H. destruct g as [|g]; [lia|].
    apply IH; [|lia]. set (p := 10 ^ N.of_nat (S f)) in *. lia.
Qed.

Theorem decimal_fuel_enough n fuel :
  n < 10 ^ 20 -> (20 <= fuel)%nat -> digits_fuel fuel n [] = decimal n.
Proof.
  intros H Hf. rewrite <- pow10_20 in H. destruct fuel as [|g]; [lia|].
  unfold decimal. apply digits_fuel_indep; [exact H|lia].
Qed.

Lemma repeat48_digits k : Forall digit (repeat 48 k).
Proof.
  apply Forall_forall. intros x Hx. apply repeat_spec in Hx. subst x. unfold digit. lia.
Qed.

Lemma dfold_repeat48 k : dfold 0 (repeat 48 k) = 0.
Proof. induction k as [|k IH]; [reflexivity|]. cbn [repeat dfold]. exact IH. Qed.

Lemma pad5_decimal_digits n : Forall digit (pad5 (decimal n)).
Proof. unfold pad5. apply Forall_app. split; [apply repeat48_digits|apply decimal_digits]. Qed.

Lemma parse_decimal_pad5 n : n < 10 ^ 20 -> parse_decimal (pad5 (decimal n)) = Some n.
Proof.
  intros H. destruct (decimal_spec n H) as [Hne Hv].
  rewrite parse_decimal_dfold.
  - unfold pad5. rewrite dfold_app, dfold_repeat48, Hv. reflexivity.
  - unfold pad5. intros E. apply app_eq_nil in E. destruct E as [_ E]. contradiction.
  - apply pad5_decimal_digits.
Qed.

Lemma split_dash_digits a b :
  Forall digit a -> split_dash (a ++ 45 :: b) = (a, Some b).
Proof.
  intros H. induction H as [|x a Hx Ha IH]; cbn [app split_dash]; [reflexivity|].
  unfold digit in Hx. destruct (N.eqb_spec x 45) as [E|E]; [lia|]. rewrite IH. reflexivity.
Qed.

Lemma nlen_ext_psg : nlen ext_psg = 4. Proof. reflexivity. Qed.

Lemma trim_suffix_app x : trim_suffix ext_psg (x ++ ext_psg) = x.
Proof.
  unfold trim_suffix. rewrite nlen_app, nlen_ext_psg.
  replace (nlen x + 4 - 4) with (nlen x) by lia.
  rewrite ndrop_app_exact, ntake_app_exact.
  destruct (bytes_eqb_spec ext_psg ext_psg) as [_|E]; [|congruence].
  replace (4 <=? nlen x + 4) with true by lia. reflexivity.
Qed.

Lemma name_seg_eq id seq :
  name_str (FSeg id seq) = (pad5 (decimal id) ++ 45 :: decimal seq) ++ ext_psg.
Proof. cbn [name_str]. rewrite <- app_assoc. reflexivity. Qed.

Lemma max_u16_lt : max_u16 < 10 ^ 20. Proof. reflexivity. Qed.
Lemma max_u64_lt : max_u64 < 10 ^ 20. Proof. reflexivity. Qed.

(* The general form: every uint16 id and every uint64 sequence ID. *)
Theorem segname_roundtrip_full id seq :
  id < max_u16 -> seq < max_u64 ->
  parse_segment_name (name_str (FSeg id seq)) = Some (id, seq).
Proof.
  intros Hi Hs.
  assert (Hi' : id < 10 ^ 20) by (eapply N.lt_trans; [exact Hi|exact max_u16_lt]).
  assert (Hs' : seq < 10 ^ 20) by (eapply N.lt_trans; [exact Hs|exact max_u64_lt]).
  unfold parse_segment_name. rewrite name_seg_eq, trim_suffix_app.
  rewrite (split_dash_digits _ _ (pad5_decimal_digits id)).
  rewrite (parse_decimal_pad5 id Hi'), (parse_decimal_decimal seq Hs').
  apply N.ltb_lt in Hi. apply N.ltb_lt in Hs. rewrite Hi, Hs. reflexivity.
Qed.

Lemma small_id_u16 id : id < 32768 -> id < max_u16.
Proof. unfold max_u16. lia. Qed.
Lemma pow10_19_u64 : 10 ^ 19 < max_u64. Proof. reflexivity. Qed.

Theorem segname_roundtrip id seq :
  id < 32768 -> seq < 10 ^ 19 ->
  parse_segment_name (name_str (FSeg id seq)) = Some (id, seq).
Proof.
  intros Hi Hs. apply segname_roundtrip_full; [apply small_id_u16; exact Hi|].
  eapply N.lt_trans; [exact Hs|exact pow10_19_u64].
Qed.

Theorem segname_injective_full i s j t :
  i < max_u16 -> s < max_u64 -> j < max_u16 -> t < max_u64 ->
  name_str (FSeg i s) = name_str (FSeg j t) -> (i, s) = (j, t).
Proof.
  intros Hi Hs Hj Ht E.
  assert (P : parse_segment_name (name_str (FSeg i s)) = parse_segment_name (name_str (FSeg j t)))
    by (rewrite E; reflexivity).
  rewrite !segname_roundtrip_full in P by assumption. congruence.
Qed.

Theorem segname_injective i s j t :
  i < 32768 -> s < 10 ^ 19 -> j < 32768 -> t < 10 ^ 19 ->
  (i, s) <> (j, t) -> name_str (FSeg i s) <> name_str (FSeg j t).
Proof.
  intros Hi Hs Hj Ht Hne E. apply Hne.
  apply segname_injective_full; try (apply small_id_u16; assumption); try exact E;
    (eapply N.lt_trans; [eassumption|exact pow10_19_u64]).
Qed.

(* a segment name is not the name of any other file: the last four bytes differ *)
Definition suffix4 (l : bytes) : bytes := firstn 4 (rev l).

Lemma suffix4_app_ge a b : (4 <= length b)%nat -> suffix4 (a ++ b) = suffix4 b.
Proof.
  intros H. unfold suffix4. rewrite rev_app_distr, firstn_app, rev_length.
  replace (4 - length b)%nat with 0%nat by lia. cbn [firstn]. apply app_nil_r.
Qed.

Lemma suffix4_ext a b : length b = 4%nat -> suffix4 (a ++ b) = rev b.
Proof.
  intros H. rewrite suffix4_app_ge by lia. unfold suffix4.
  apply firstn_all2. rewrite rev_length. lia.
Qed.

Lemma suffix4_seg id seq : suffix4 (name_str (FSeg id seq)) = rev ext_psg.
Proof. rewrite name_seg_eq. apply suffix4_ext. reflexivity. Qed.

Lemma name_segmeta_eq id seq :
  name_str (FSegMeta id seq) = (pad5 (decimal id) ++ [45] ++ decimal seq ++ ext_psg) ++ ext_pmt.
Proof. cbn [name_str]. rewrite <- !app_assoc. reflexivity. Qed.

Definition is_seg (f : fname) : Prop := match f with FSeg _ _ => True | _ => False end.

Lemma suffix4_other g : ~ is_seg g -> suffix4 (name_str g) <> rev ext_psg.
Proof.
  intros Hg. destruct g as [i s|i s| | | | | |g]; [exfalso; exact (Hg I)| |cbn [name_str]..].
  1: rewrite name_segmeta_eq.
  (* every other kind of file has a fixed name or a fixed extension *)
  all: rewrite ?suffix4_ext by reflexivity; discriminate.
Qed.

Theorem segment_names_distinct_from_others id seq g :
  ~ is_seg g -> name_str (FSeg id seq) <> name_str g.
Proof.
  intros Hg E. apply (suffix4_other g Hg). rewrite <- E. apply suffix4_seg.
Qed.

(* the same, one kind of file at a time *)
Corollary segment_name_not_other id seq :
  (forall i s, name_str (FSeg id seq) <> name_str (FSegMeta i s)) /\
  name_str (FSeg id seq) <> name_str FMain /\
  name_str (FSeg id seq) <> name_str FOverflow /\
  name_str (FSeg id seq) <> name_str FIndexMeta /\
  name_str (FSeg id seq) <> name_str FDbMeta /\
  name_str (FSeg id seq) <> name_str FLock /\
  (forall f, name_str (FSeg id seq) <> name_str (FBac f)).
Proof.
  repeat split; intros; apply segment_names_distinct_from_others; intros H; exact H.
Qed.

Definition ex_slot1 : slot :=
  {| sl_h := 16909060 (* 0x01020304 *); sl_seg := 1; sl_ks := 3; sl_vs := 5; sl_off := 512 |}.
Definition ex_slot2 : slot :=
  {| sl_h := 2864434397 (* 0xAABBCCDD *); sl_seg := 258 (* 0x0102 *); sl_ks := 256 (* 0x0100 *);
     sl_vs := 65536 (* 0x00010000 *); sl_off := 305419896 (* 0x12345678 *) |}.

Example ex_marshal_slot1 :
  marshal_slot ex_slot1 = [4; 3; 2; 1;  1; 0;  3; 0;  5; 0; 0; 0;  0; 2; 0; 0].
Proof. vm_compute. reflexivity. Qed.

Example ex_marshal_bucket :
  marshal_bucket [ex_slot1; ex_slot2] 1024 =
    [4; 3; 2; 1;  1; 0;  3; 0;  5; 0; 0; 0;  0; 2; 0; 0] ++
    [221; 204; 187; 170;  2; 1;  0; 1;  0; 0; 1; 0;  120; 86; 52; 18] ++
    zeros (29 * 16) ++
    [0; 4; 0; 0; 0; 0; 0; 0] ++
    zeros 8.
Proof. vm_compute. reflexivity. Qed.

Example ex_marshal_bucket_len : nlen (marshal_bucket [ex_slot1; ex_slot2] 1024) = 512.
Proof. vm_compute. reflexivity. Qed.

Example ex_unmarshal_bucket :
  unmarshal_bucket (marshal_bucket [ex_slot1; ex_slot2] 1024) =
    ([ex_slot1; ex_slot2] ++ repeat empty_slot 29, 1024) /\
  dense (fst (unmarshal_bucket (marshal_bucket [ex_slot1; ex_slot2] 1024))) = [ex_slot1; ex_slot2].
Proof. vm_compute. split; reflexivity. Qed.

Example ex_empty_bucket : marshal_bucket [] 0 = zeros 512.
Proof. vm_compute. reflexivity. Qed.

Example ex_header :
  ntake 12 header_bytes = [112; 111; 103; 114; 101; 98; 14; 253;  2; 0; 0; 0] /\
  ndrop 12 header_bytes = zeros 500.
Proof. vm_compute. split; reflexivity. Qed.

(* "00003-17.psg" *)
Example ex_segname :
  name_str (FSeg 3 17) = [48; 48; 48; 48; 51;  45;  49; 55;  46; 112; 115; 103].
Proof. vm_compute. reflexivity. Qed.

(* "00003-17.psg.pmt" *)
Example ex_segmetaname :
  name_str (FSegMeta 3 17) = [48; 48; 48; 48; 51;  45;  49; 55;  46; 112; 115; 103;  46; 112; 109; 116].
Proof. vm_compute. reflexivity. Qed.

Example ex_parse_segname :
  parse_segment_name [48; 48; 48; 48; 51;  45;  49; 55;  46; 112; 115; 103] = Some (3, 17).
Proof. vm_compute. reflexivity. Qed.

(* "00003.psg": a version-1 name, sequence ID 0 *)
Example ex_parse_legacy : parse_segment_name [48; 48; 48; 48; 51;  46; 112; 115; 103] = Some (3, 0).
Proof. vm_compute. reflexivity. Qed.

(* "65536-1.psg": the id does not fit uint16;  "main.pix", "-1.psg", "3-.psg": not numbers *)
Example ex_parse_rejects :
  parse_segment_name [54; 53; 53; 51; 54;  45;  49;  46; 112; 115; 103] = None /\
  parse_segment_name [109; 97; 105; 110; 46; 112; 105; 120] = None /\
  parse_segment_name [45; 49; 46; 112; 115; 103] = None /\
  parse_segment_name [51; 45; 46; 112; 115; 103] = None.
Proof. vm_compute. repeat split; reflexivity. Qed.

(* the largest names *)
Example ex_parse_max :
  parse_segment_name (name_str (FSeg 65535 18446744073709551615)) = Some (65535, 18446744073709551615).
Proof. vm_compute. reflexivity. Qed.

Print Assumptions marshal_bucket_length.
Print Assumptions slot_roundtrip.
Print Assumptions bucket_roundtrip.
Print Assumptions bucket_dense_roundtrip.
Print Assumptions marshal_bucket_bytes.
Print Assumptions marshal_bucket_inj.
Print Assumptions marshal_bucket_inj_dense.
Print Assumptions marshal_bucket_inj_len.
Print Assumptions header_roundtrip.
Print Assumptions header_ok_rejects.
Print Assumptions header_ok_accepts.
Print Assumptions decimal_digits.
Print Assumptions parse_decimal_decimal.
Print Assumptions decimal_fuel_enough.
Print Assumptions segname_roundtrip_full.
Print Assumptions segname_roundtrip.
Print Assumptions segname_injective_full.
Print Assumptions segname_injective.
Print Assumptions segment_names_distinct_from_others.
Print Assumptions segment_name_not_other.
Print Assumptions ex_marshal_bucket.
Print Assumptions ex_segname.
