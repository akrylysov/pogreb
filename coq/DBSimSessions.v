(* The chain-vs-flat refinement of DBSim.v / DBRun.v through sessions: Close, Open (clean and recovering),
   crash images, runs over Open / Close / Crash.  Hence the restart (C02), crash (C03) and
   crash-during-recovery (C04) theorems of the flat database hold for the bucket chains and, with
   PhysDB.v, for the physical index.  Nothing is assumed about the chain state beyond [st_rel sp sf];
   every other hypothesis is about the FLAT state.  Close and the clean Open need no invariant.  The
   recovering Open replays the log through put_rel / del_rel, whose uniqueness hypothesis follows from
   NoDup of the slot keys alone (uniq_of_nodup), given before every record by the loop invariant
   rc_IdxInv of DBProofsRecovery.  Along a run the flat side needs more than Inv: a closed state must
   be recognisable as left by Close, by a crash, or fresh ([J]); the side condition [lsides] is asked
   only while the handle is open.  The flat reopening theorems are stated for [clear_trace] while runs
   keep the trace, hence Section MD (the clean Open ignores the trace).  Crash theorems are stated with
   [gcrash_image chain_ops] and the existence of a related flat image.
   Not here: LCrash strikes between operations only (inside one: the chain_crash_* theorems); power loss,
   Backup and the iterator through sessions; crash images of a whole compaction. *)
From Coq Require Import ZArith Lia ZifyN ZifyNat ZifyBool Permutation.
From Pogreb Require Import Base BaseLemmas Crc Bytes Record RecordProofs Flat Index Spec DB DBInv
  DBLemmas DBProofsOps DBMeta DBProofsCompact DBProofsRecovery DBProofsCrash DBSim DBRun DBSimExact
  Bucket Phys PhysProofs PhysDB.
Ltac Zify.zify_post_hook ::= Z.div_mod_to_equations.

Local Notation stp := (@DB.st pindex).
Local Notation stf := (@DB.st flat).
Local Notation diskp := (@DB.disk pindex).
Local Notation diskf := (@DB.disk flat).
Local Notation memp := (@DB.mem pindex).
Local Notation memf := (@DB.mem flat).

Theorem sim_close_so (sp : stp) (sf : stf) :
  st_rel sp sf -> so_rel idx_rel (db_close chain_ops sp) (db_close flat_ops sf).
Proof. exact (close_g chain_ops flat_ops idx_rel idx_rel_empty sp sf). Qed.

Theorem sim_close (sp : stp) (sf : stf) :
  st_rel sp sf ->
  let '(sp', op) := db_close chain_ops sp in
  let '(sf', of) := db_close flat_ops sf in
  op = of /\ st_rel sp' sf'.
Proof. intros Hs. apply so_rel_let. apply sim_close_so. exact Hs. Qed.

(* what Close leaves on disk: main.pix and index.pmt hold related index values *)
Corollary sim_close_disk (sp : stp) (sf : stf) :
  st_rel sp sf ->
  opt_rel idx_rel (d_index (s_disk (fst (db_close chain_ops sp)))) (d_index (s_disk (fst (db_close flat_ops sf)))) /\
  gob_rel idx_rel (d_imeta (s_disk (fst (db_close chain_ops sp)))) (d_imeta (s_disk (fst (db_close flat_ops sf)))).
Proof.
  intros Hs. destruct (sim_close_so sp sf Hs) as [_ H]. apply (st_rel_disk idx_rel) in H.
  apply disk_rel_iff in H. tauto.
Qed.

Theorem sim_open_clean_so P seed (sp : stp) (sf : stf) :
  st_rel sp sf -> d_lock (s_disk sf) = false ->
  so_rel idx_rel (db_open chain_ops P seed sp) (db_open flat_ops P seed sf).
Proof. exact (open_clean_g chain_ops flat_ops idx_rel idx_rel_empty count_rel P seed sp sf). Qed.

Theorem sim_open_clean P seed (sp : stp) (sf : stf) :
  st_rel sp sf -> d_lock (s_disk sf) = false ->
  let '(sp', op) := db_open chain_ops P seed sp in
  let '(sf', of) := db_open flat_ops P seed sf in
  op = of /\ st_rel sp' sf'.
Proof. intros Hs Hl. apply so_rel_let. apply sim_open_clean_so; assumption. Qed.

(* the callback of a replayed record accepts at most one slot as soon as the slot keys are distinct *)
Lemma uniq_of_nodup (d : diskf) h k (l : flat) :
  NoDup (map (slot_key d) l) -> uniq (fl_hit h (matchf d k)) l.
Proof.
  intros Hnd a b Ha Hb Fa Fb.
  apply fl_hit_true in Fa, Fb. destruct Fa as [_ Fa], Fb as [_ Fb]. apply matchf_key in Fa, Fb.
  apply (NoDup_map_inj (slot_key d) l); [exact Hnd|exact Ha|exact Hb|congruence].
Qed.

(* the records of one segment: the loop invariant of DBProofsRecovery ([rc_IdxInv]: the partial flat
   index has valid slots with distinct keys and agrees with the replayed prefix [l] of the log of
   [d4]) holds before every record, and gives the uniqueness that [put_rel] / [del_rel] need *)
Lemma replay_fold_sim P (d4 : diskf) (dp : diskp) (df : diskf) seed id (es : list (N * rec)) :
  disk_rel dp df -> rc_rsim d4 df ->
  (forall e, In e es -> rc_entry_ok d4 (id, fst e, snd e)) ->
  forall l (mp : memp) (mf : memf),
  mem_rel mp mf -> rc_IdxInv P d4 seed l (m_idx mf) -> m_seed mf = seed ->
  mem_rel (fold_left (fun m e => replay_rec chain_ops P dp id (fst e) (snd e) m) es mp)
          (fold_left (fun m e => replay_rec flat_ops P df id (fst e) (snd e) m) es mf).
Proof.
  intros Hd Hsim. induction es as [|e es IH]; intros Hok l mp mf Hm HI Hseed; cbn [fold_left]; [exact Hm|].
  assert (Hnd : NoDup (map (slot_key df) (m_idx mf))).
  { destruct HI as (_ & Hnd & _). erewrite map_ext; [exact Hnd|].
    intros sl. apply rc_rsim_slot_key. exact Hsim. }
  destruct (rc_replay_rec_frame P df id (fst e) (snd e) mf) as (A1 & _ & _ & _ & _ & A6). cbv zeta in A1, A6.
  apply (IH (fun x Hx => Hok x (or_intror Hx)) (l ++ [(id, fst e, snd e)])).
  - apply (greplay_rec _ _ _ _ _ chain_flat_guarded); [exact Hd|exact Hm| |exact I].
    exact (uniq_of_nodup df _ (rk (snd e)) _ Hnd).
  - rewrite A1, Hseed. apply rc_IdxInv_step; [exact HI|exact Hsim|]. apply Hok. left. reflexivity.
  - rewrite A6. exact Hseed.
Qed.

(* the invariant of the recovery loop on the flat side ([d4]: the disk when the loop starts) *)
Definition LInv (P : params) (d4 : diskf) (seed : N) (s : stf) (m : memf) (lpre : list entry) : Prop :=
  rc_rsim d4 (s_disk s) /\ Forall rc_seg_pre (d_segs (s_disk s)) /\ rc_magree (m_segs m) (s_disk s) /\
  rc_IdxInv P d4 seed lpre (m_idx m) /\ m_seed m = seed.

Lemma LInv_step P (d4 : diskf) seed f0 (s : stf) (m : memf) lpre :
  DiskOK d4 -> In f0 (d_segs d4) -> LInv P d4 seed s m lpre ->
  LInv P d4 seed (fst (recover_segment flat_ops P (f_id f0) (f_seq f0) s m))
                 (snd (recover_segment flat_ops P (f_id f0) (f_seq f0) s m)) (lpre ++ dseg_entries f0).
Proof.
  intros Hok Hf0 (Hsim & Hpre & Hag & HI & Hseed).
  destruct (rc_recover_loop P d4 seed [f0] Hok
              (fun x Hx => match Hx with or_introl E => eq_ind f0 (fun y => In y (d_segs d4)) Hf0 x E
                                       | or_intror F => match F with end end)
              s m lpre Hsim Hpre Hag HI Hseed)
    as (s' & m' & E' & R1 & R2 & _ & _ & R5 & R6 & R7 & _).
  cbn [map fold_left] in E'. unfold rc_rstep in E'. cbn [fst snd] in E'. rewrite E'. cbn [fst snd].
  split; [exact R1|]. split; [|split; [exact R5|split; [|exact R7]]].
  - rewrite R2. apply Forall_forall. intros y Hy. apply in_map_iff in Hy. destruct Hy as (x & <- & Hx).
    pose proof (proj1 (Forall_forall _ _) Hpre x Hx) as [Hxh Hxt].
    unfold rc_cleans. cbn [map fold_left fst snd].
    destruct (rc_cstep_fields (f_id f0) (f_seq f0) x) as (_ & _ & _ & _ & B5 & B6 & _).
    split; [apply B5; exact Hxh|]. destruct B6 as [-> | ->]; [apply rc_tail_stuck_nil|exact Hxt].
  - cbn [map concat] in R6. rewrite app_nil_r in R6. exact R6.
Qed.

Lemma recover_segment_sim P (d4 : diskf) seed f0 (sp : stp) (sf : stf) (mp : memp) (mf : memf) lpre :
  DiskOK d4 -> In f0 (d_segs d4) -> st_rel sp sf -> mem_rel mp mf -> LInv P d4 seed sf mf lpre ->
  sm_rel idx_rel (recover_segment chain_ops P (f_id f0) (f_seq f0) sp mp)
                 (recover_segment flat_ops P (f_id f0) (f_seq f0) sf mf).
Proof.
  intros Hok Hf0 Hs Hm HL.
  pose proof (LInv_step P d4 seed f0 sf mf lpre Hok Hf0 HL) as (Hs1 & _).
  destruct HL as (Hsim & Hpre & Hag & HI & Hseed). pose proof Hok as (Hdok & Hnd4 & Hnq4).
  destruct (rc_rsim_find d4 (s_disk sf) (f_id f0) f0 Hsim (find_dseg_unique d4 f0 Hnd4 Hf0)) as (f & Hf & Ec).
  assert (Efr : f_recs f = f_recs f0) by (unfold rc_rcore in Ec; congruence).
  pose proof (find_dseg_In _ _ _ Hf) as [HfIn _].
  pose proof (proj1 (Forall_forall _ _) Hpre f HfIn) as [Hh Hst].
  destruct (rc_tail_stuck_parse _ Hst) as (why & Ep & _).
  unfold recover_segment in Hs1 |- *.
  rewrite (find_dseg_rel _ _ _ (f_id f0) (st_rel_disk _ _ _ Hs)). rewrite Hf, Ep in Hs1 |- *.
  cbv zeta in Hs1 |- *. cbn [fst] in Hs1.
  pose proof (reframe_g idx_rel (f_id f0) (f_seq f0) [] 0 sp sf Hs) as Hs0.
  assert (Hst1 : st_rel
     (match why with
      | SEnd => reframe (f_id f0) (f_seq f0) [] 0 sp
      | _ => emit chain_ops (ETrunc (FSeg (f_id f0) (f_seq f0)) (header_size + recs_len (f_recs f) + 0))
               (reframe (f_id f0) (f_seq f0) [] 0 sp)
      end)
     (match why with
      | SEnd => reframe (f_id f0) (f_seq f0) [] 0 sf
      | _ => emit flat_ops (ETrunc (FSeg (f_id f0) (f_seq f0)) (header_size + recs_len (f_recs f) + 0))
               (reframe (f_id f0) (f_seq f0) [] 0 sf)
      end)).
  { destruct why; try exact Hs0; (apply emit_rel; [exact idx_rel_empty|exact Hs0|constructor]). }
  split; cbn [fst snd]; [exact Hst1|].
  rewrite app_nil_r, Efr. rewrite Efr in Hst1, Hs1. fold (seg_entries f0).
  apply (replay_fold_sim P d4 _ _ seed (f_id f0) (seg_entries f0)) with (l := lpre).
  - exact (st_rel_disk _ _ _ Hst1).
  - exact Hs1.
  - exact (rc_entries_ok d4 f0 Hok Hf0).
  - destruct why; try exact Hm; (apply set_msegs_upd_g; exact Hm).
  - destruct why; exact HI.
  - destruct why; exact Hseed.
Qed.

(* the loop over the segments, oldest first *)
Lemma recover_loop_sim P (d4 : diskf) seed (order : list mseg) :
  DiskOK d4 ->
  (forall g, In g order -> exists f0, In f0 (d_segs d4) /\ f_id f0 = g_id g /\ f_seq f0 = g_seq g) ->
  forall (sp : stp) (sf : stf) (mp : memp) (mf : memf) lpre,
  st_rel sp sf -> mem_rel mp mf -> LInv P d4 seed sf mf lpre ->
  sm_rel idx_rel
    (fold_left (fun sm g => recover_segment chain_ops P (g_id g) (g_seq g) (fst sm) (snd sm)) order (sp, mp))
    (fold_left (fun sm g => recover_segment flat_ops P (g_id g) (g_seq g) (fst sm) (snd sm)) order (sf, mf)).
Proof.
  intros Hok. induction order as [|g order IH]; intros Hord sp sf mp mf lpre Hs Hm HL; cbn [fold_left fst snd].
  - split; assumption.
  - destruct (Hord g (or_introl eq_refl)) as (f0 & Hf0 & <- & <-).
    pose proof (recover_segment_sim P d4 seed f0 sp sf mp mf lpre Hok Hf0 Hs Hm HL) as Hstep.
    pose proof (LInv_step P d4 seed f0 sf mf lpre Hok Hf0 HL) as HL'.
    destruct (recover_segment chain_ops P (f_id f0) (f_seq f0) sp mp) as [sp' mp'].
    destruct (recover_segment flat_ops P (f_id f0) (f_seq f0) sf mf) as [sf' mf'].
    destruct Hstep as [A B]. cbn [fst snd] in A, B, HL'.
    apply (IH (fun x Hx => Hord x (or_intror Hx)) sp' sf' mp' mf' (lpre ++ dseg_entries f0)); assumption.
Qed.

(* recover(): under the facts that hold when Open calls it *)
Lemma recover_sim P (sp : stp) (sf : stf) (mp : memp) (mf : memf) :
  st_rel sp sf -> mem_rel mp mf ->
  DiskOK (s_disk sf) -> Forall rc_seg_pre (d_segs (s_disk sf)) -> rc_magree (m_segs mf) (s_disk sf) ->
  m_idx mf = [] ->
  sm_rel idx_rel (recover chain_ops P sp mp) (recover flat_ops P sf mf).
Proof.
  intros Hs Hm Hok Hpre Hag Hidx. apply (recover_g chain_ops flat_ops idx_rel idx_rel_empty); [exact Hm|].
  assert (HL : LInv P (s_disk sf) (m_seed mf) sf mf []).
  { split; [apply rc_rsim_refl|]. split; [exact Hpre|]. split; [exact Hag|].
    split; [rewrite Hidx; apply rc_IdxInv_nil|reflexivity]. }
  assert (Hord : forall g, In g (by_seq (m_segs mf)) ->
            exists f0, In f0 (d_segs (s_disk sf)) /\ f_id f0 = g_id g /\ f_seq f0 = g_seq g).
  { intros g Hg. apply (proj1 (rc_by_seq_In _ _)) in Hg. destruct (proj1 Hag g Hg) as (f0 & A & B & C & _).
    exists f0. auto. }
  exact (recover_loop_sim P (s_disk sf) (m_seed mf) (by_seq (m_segs mf)) Hok Hord sp sf mp mf [] Hs Hm HL).
Qed.

(* DBProofsRecovery.open_recover_pre, as far as recover_sim needs it *)
Lemma flat_open_pre_facts seed (s0 : stf) :
  DiskOK (s_disk s0) -> bac_ok (s_disk s0) ->
  exists s4 m1, open_pre flat_ops seed (backup_nonseg flat_ops s0) = Some (s4, m1, []) /\
    DiskOK (s_disk s4) /\ Forall rc_seg_pre (d_segs (s_disk s4)) /\ rc_magree (m_segs m1) (s_disk s4) /\
    m_idx m1 = [].
Proof.
  intros Hok Hbac. pose proof (open_recover_pre seed s0 Hok Hbac) as H. unfold open_pre.
  destruct (open_index flat_ops (backup_nonseg flat_ops s0)) as [[s2 i]|]; [|destruct H].
  destruct (open_segments flat_ops s2) as [s3 segs]. cbv zeta. destruct (swap_segment flat_ops s3 _) as [s4 m1].
  destruct H as (-> & _ & F1 & F2 & F3 & _ & F4 & _). exists s4, m1. auto.
Qed.

(* Open on a directory whose lock file is still there: recovery *)
Theorem sim_open_recover_so P seed (sp : stp) (sf : stf) :
  st_rel sp sf -> DiskOK (s_disk sf) -> bac_ok (s_disk sf) -> d_lock (s_disk sf) = true ->
  so_rel idx_rel (db_open chain_ops P seed sp) (db_open flat_ops P seed sf).
Proof.
  intros Hs Hok Hbac Hlock. rewrite !db_open_mid.
  destruct (st_rel_mem_cases _ _ _ Hs) as [[E1 E2]|(m1 & m2 & E1 & E2 & Hm)]; rewrite E1, E2;
    [|split; [reflexivity|exact Hs]].
  cbv beta iota zeta. rewrite (d_lock_g idx_rel _ _ (st_rel_disk _ _ _ Hs)), Hlock. cbv beta iota.
  rewrite !open_mid_pre_post.
  pose proof (backup_nonseg_g chain_ops flat_ops idx_rel idx_rel_empty sp sf Hs) as H1.
  pose proof (open_pre_g chain_ops flat_ops idx_rel idx_rel_empty seed _ _ H1) as Hpre.
  destruct (flat_open_pre_facts seed sf Hok Hbac) as (s4 & mf1 & Ef & F1 & F2 & F3 & F4).
  apply (open_post_g chain_ops flat_ops idx_rel count_rel); [exact H1|exact Hpre|].
  intros _ sa ma ia sb mb ib sd Ea Eb. rewrite Ea, Eb in Hpre. destruct Hpre as (Hsa & Hma & _).
  rewrite Ef in Eb. injection Eb as <- <- _.
  exact (recover_sim P sa s4 _ _ Hsa (reseed_g idx_rel ma mf1 sd Hma) F1 F2 F3 F4).
Qed.

Theorem sim_open_recover P seed (sp : stp) (sf : stf) :
  st_rel sp sf -> DiskOK (s_disk sf) -> bac_ok (s_disk sf) -> d_lock (s_disk sf) = true ->
  let '(sp', op) := db_open chain_ops P seed sp in
  let '(sf', of) := db_open flat_ops P seed sf in
  op = of /\ st_rel sp' sf'.
Proof. intros. apply so_rel_let. apply sim_open_recover_so; assumption. Qed.

(* both paths in one statement: the hypotheses of [open_recover_ok] are needed only when the lock is there *)
Theorem sim_open_so P seed (sp : stp) (sf : stf) :
  st_rel sp sf ->
  (s_mem sf = None -> d_lock (s_disk sf) = true -> DiskOK (s_disk sf) /\ bac_ok (s_disk sf)) ->
  so_rel idx_rel (db_open chain_ops P seed sp) (db_open flat_ops P seed sf).
Proof.
  intros Hs H. destruct (s_mem sf) as [m|] eqn:Em.
  - apply (open_locked_g chain_ops flat_ops idx_rel); [exact Hs|congruence].
  - destruct (d_lock (s_disk sf)) eqn:El.
    + destruct (H eq_refl eq_refl) as [A B]. apply sim_open_recover_so; assumption.
    + apply sim_open_clean_so; assumption.
Qed.

Theorem sim_open P seed (sp : stp) (sf : stf) :
  st_rel sp sf ->
  (s_mem sf = None -> d_lock (s_disk sf) = true -> DiskOK (s_disk sf) /\ bac_ok (s_disk sf)) ->
  let '(sp', op) := db_open chain_ops P seed sp in
  let '(sf', of) := db_open flat_ops P seed sf in
  op = of /\ st_rel sp' sf'.
Proof. intros. apply so_rel_let. apply sim_open_so; assumption. Qed.

(* The clean Open does not look at the trace (the flat theorems about reopening are stated for
   [clear_trace]; the run language keeps the trace).  This is not an instance of DBSimExact's Section Gen
   with R := eq: [gst_rel eq] relates the traces event by event, and here they differ in length. *)
Section MD.
Context {I : Type}.
Variable ops : idx_ops I.

Definition same_md (s s' : @DB.st I) : Prop := s_mem s = s_mem s' /\ s_disk s = s_disk s'.

Lemma same_md_refl s : same_md s s. Proof. split; reflexivity. Qed.

Lemma emit_md e s s' : same_md s s' -> same_md (emit ops e s) (emit ops e s').
Proof. intros [A B]. unfold emit, same_md. cbn [s_mem s_disk]. rewrite A, B. split; reflexivity. Qed.

Lemma emits_md es : forall s s', same_md s s' -> same_md (emits ops es s) (emits ops es s').
Proof.
  unfold emits. induction es as [|e es IH]; intros s s' H; cbn [fold_left]; [exact H|].
  apply IH. apply emit_md. exact H.
Qed.

Definition oi_md (a b : option (@DB.st I * I)) : Prop :=
  match a, b with
  | None, None => True
  | Some (s, i), Some (s', i') => same_md s s' /\ i = i'
  | _, _ => False
  end.

Lemma oi_tail_md s s' : same_md s s' ->
  oi_md (match d_index (s_disk s), d_imeta (s_disk s) with Some i, GOk j => Some (s, i) | _, _ => None end)
        (match d_index (s_disk s'), d_imeta (s_disk s') with Some i, GOk j => Some (s', i) | _, _ => None end).
Proof.
  intros H. pose proof H as [_ B]. rewrite B. destruct (d_index (s_disk s')) as [i|]; [|exact Logic.I].
  destruct (d_imeta (s_disk s')) as [| |j]; try exact Logic.I. split; [exact H|reflexivity].
Qed.

Lemma open_index_md s s' : same_md s s' -> oi_md (open_index ops s) (open_index ops s').
Proof.
  intros H. pose proof H as [_ B]. unfold open_index. rewrite B.
  destruct (d_index (s_disk s')) as [i0|]; cbv beta iota zeta.
  - rewrite B. destruct (d_overflow (s_disk s')).
    + apply oi_tail_md. exact H.
    + apply oi_tail_md. apply emits_md. exact H.
  - pose proof (emits_md [ECreate FMain; EHeader FMain] s s' H) as H1. pose proof H1 as [_ B1].
    rewrite B1. destruct (d_overflow (s_disk (emits ops [ECreate FMain; EHeader FMain] s'))).
    + split; [|reflexivity]. apply emits_md. exact H1.
    + split; [|reflexivity]. apply emits_md. apply emits_md. exact H1.
Qed.

Lemma open_segments_fold_md (L : list dseg) : forall (a b : @DB.st I * list mseg),
  same_md (fst a) (fst b) -> snd a = snd b ->
  let F := fun (acc : @DB.st I * list mseg) (f : dseg) =>
      let '(s, l) := acc in
      let s1 := if f_hdr f then s else emit ops (EHeader (FSeg (f_id f) (f_seq f))) s in
      let size := match find_dseg (f_id f) (s_disk s1) with Some f' => flen f' | None => 0 end in
      let meta := match f_meta f with GOk m => m | _ => smeta0 end in
      (s1, insert_mseg {| g_id := f_id f; g_seq := f_seq f; g_size := size; g_meta := meta |} l) in
  same_md (fst (fold_left F L a)) (fst (fold_left F L b)) /\ snd (fold_left F L a) = snd (fold_left F L b).
Proof.
  induction L as [|f L IH]; intros [sa la] [sb lb] A B; cbn [fold_left]; [split; assumption|].
  cbn [fst snd] in A, B. subst lb. apply IH; cbv beta iota zeta; cbn [fst snd].
  - destruct (f_hdr f); [exact A|apply emit_md; exact A].
  - assert (H1 : same_md (if f_hdr f then sa else emit ops (EHeader (FSeg (f_id f) (f_seq f))) sa)
                         (if f_hdr f then sb else emit ops (EHeader (FSeg (f_id f) (f_seq f))) sb))
      by (destruct (f_hdr f); [exact A|apply emit_md; exact A]).
    destruct H1 as [_ ->]. reflexivity.
Qed.

Lemma open_segments_md s s' : same_md s s' ->
  same_md (fst (open_segments ops s)) (fst (open_segments ops s')) /\
  snd (open_segments ops s) = snd (open_segments ops s').
Proof.
  intros H. pose proof H as [_ B]. unfold open_segments. rewrite B.
  apply (open_segments_fold_md (sort_segs (d_segs (s_disk s'))) (s, []) (s', [])); [exact H|reflexivity].
Qed.

Lemma swap_segment_md s s' m : same_md s s' ->
  same_md (fst (swap_segment ops s m)) (fst (swap_segment ops s' m)) /\
  snd (swap_segment ops s m) = snd (swap_segment ops s' m).
Proof.
  intros H. unfold swap_segment. destruct (find (fun g => negb (sm_full (g_meta g))) (m_segs m)).
  - split; [exact H|reflexivity].
  - cbv zeta. cbn [fst snd]. split; [apply emits_md; exact H|reflexivity].
Qed.

Definition pre_md (a b : option (@DB.st I * @DB.mem I * I)) : Prop :=
  match a, b with
  | None, None => True
  | Some (s, m, i), Some (s', m', i') => same_md s s' /\ m = m' /\ i = i'
  | _, _ => False
  end.

Lemma open_pre_md seed s s' : same_md s s' -> pre_md (open_pre ops seed s) (open_pre ops seed s').
Proof.
  intros H. unfold open_pre. pose proof (open_index_md s s' H) as Hoi.
  destruct (open_index ops s) as [[sa ia]|]; destruct (open_index ops s') as [[sb ib]|];
    unfold oi_md in Hoi; try contradiction; [|exact Logic.I].
  destruct Hoi as [Ha <-]. pose proof (open_segments_md sa sb Ha) as [Hc Es].
  destruct (open_segments ops sa) as [sc segs]. destruct (open_segments ops sb) as [sd segs'].
  cbn [fst snd] in Hc, Es. subst segs'. cbv zeta.
  match goal with |- context [swap_segment ops sc ?m] => pose proof (swap_segment_md sc sd m Hc) as [He Em] end.
  destruct (swap_segment ops sc _) as [se ma]. destruct (swap_segment ops sd _) as [sf mb].
  cbn [fst snd] in He, Em. subst mb. split; [exact He|split; reflexivity].
Qed.

Lemma db_open_clean_md P seed s s' : same_md s s' -> d_lock (s_disk s) = false ->
  snd (db_open ops P seed s) = snd (db_open ops P seed s') /\
  same_md (fst (db_open ops P seed s)) (fst (db_open ops P seed s')).
Proof.
  intros H Hl. pose proof H as [A B]. rewrite !db_open_mid. rewrite <- A, <- B, Hl.
  destruct (s_mem s); [split; [reflexivity|exact H]|]. cbv beta iota zeta.
  rewrite !open_mid_pre_post.
  pose proof (emit_md (ECreate FLock) s s' H) as H0.
  pose proof (open_pre_md seed _ _ H0) as Hp.
  destruct (open_pre ops seed (emit ops (ECreate FLock) s)) as [[[sa ma] ia]|];
    destruct (open_pre ops seed (emit ops (ECreate FLock) s')) as [[[sb mb] ib]|];
    unfold pre_md in Hp; try contradiction; unfold open_post; [|split; [reflexivity|exact H0]].
  destruct Hp as (Ha & <- & <-). pose proof Ha as [_ Bd]. rewrite Bd.
  destruct (ix_count ops ia =? 0).
  - split; [reflexivity|]. cbn [fst]. destruct Ha as [_ Ha]. split; [reflexivity|exact Ha].
  - destruct (d_dbmeta (s_disk sb)) as [| |sd0]; [split; [reflexivity|exact Ha]|split; [reflexivity|exact Ha]|].
    split; [reflexivity|]. cbn [fst]. destruct Ha as [_ Ha]. split; [reflexivity|exact Ha].
Qed.

(* every operation on a closed database: ErrClosed, nothing changes *)
Lemma step'_closed P (s : @DB.st I) b : s_mem s = None -> step' ops P s b = (s, OErr EClosed).
Proof.
  (* each of the nine operations starts with a match on the handle *)
  intros E. destruct b as [[k v|k|k|k buf|k| | |]|]; cbn [step' step];
    unfold db_put, db_delete, db_get_append, db_get, db_has, db_count, db_items, db_sync, db_compact, compact_pick;
    rewrite E; reflexivity.
Qed.

Lemma close_closed (s : @DB.st I) : s_mem s = None -> db_close ops s = (s, OErr EClosed).
Proof. intros E. unfold db_close. rewrite E. reflexivity. Qed.

Lemma open_opened P seed (s : @DB.st I) m : s_mem s = Some m -> db_open ops P seed s = (s, OErr ELocked).
Proof. intros E. unfold db_open. rewrite E. reflexivity. Qed.

Lemma forget_closed (s : @DB.st I) : s_mem s = None ->
  {| s_mem := None; s_disk := s_disk s; s_trace := s_trace s |} = s.
Proof. destruct s as [m d t]. cbn [s_mem s_disk s_trace]. intros ->. reflexivity. Qed.

End MD.

Inductive J (P : params) (s : stf) : Prop :=
| J_open : Inv P s -> MetaOK s -> s_mem s <> None -> bac_ok (s_disk s) -> J P s
| J_closed s0 m0 :                 (* closed by Close: the disk is the one Close left *)
    Inv P s0 -> MetaOK s0 -> s_mem s0 = Some m0 -> bac_ok (s_disk s0) ->
    s_mem s = None -> s_disk s = s_disk (fst (db_close flat_ops s0)) -> J P s
| J_crashed :                      (* the process died while the database was open *)
    s_mem s = None -> DiskOK (s_disk s) -> bac_ok (s_disk s) -> d_lock (s_disk s) = true -> J P s
| J_fresh : s_mem s = None -> s_disk s = disk0 -> J P s.      (* empty directory *)

(* the specification of sessions: a plain map and the state of the handle *)
Inductive mode := MOpen | MClosed | MCrashed.

Definition mode_of (s : stf) : mode :=
  match s_mem s with
  | Some _ => MOpen
  | None => if d_lock (s_disk s) then MCrashed else MClosed
  end.

Definition lstep_spec (st : smap * mode) (o : lop) : (smap * mode) * out :=
  match o, snd st with
  | LBase b, MOpen => ((fst (step_spec' (fst st) b), MOpen), snd (step_spec' (fst st) b))
  | LBase _, _ => (st, OErr EClosed)
  | LClose, MOpen => ((fst st, MClosed), OOk)
  | LClose, _ => (st, OErr EClosed)
  | LOpen _, MOpen => (st, OErr ELocked)
  | LOpen _, MClosed => ((fst st, MOpen), OOpened false)
  | LOpen _, MCrashed => ((fst st, MOpen), OOpened true)      (* nothing is lost, nothing comes back *)
  | LCrash, MOpen => ((fst st, MCrashed), OOk)
  | LCrash, _ => (st, OOk)
  end.

Fixpoint lrun_spec (st : smap * mode) (l : list lop) : list out :=
  match l with
  | [] => []
  | o :: l' => snd (lstep_spec st o) :: lrun_spec (fst (lstep_spec st o)) l'
  end.
Definition lfinal_spec (st : smap * mode) (l : list lop) : smap * mode :=
  fold_left (fun st o => fst (lstep_spec st o)) l st.

(* the side condition of one step, on the FLAT state: as DBRun.rooms' when the database is open,
   nothing when it is closed, nothing for Open / Close / Crash *)
Definition lside (P : params) (sf : stf) (o : lop) : Prop :=
  match o with
  | LBase b => forall m, s_mem sf = Some m -> room m /\ (b = OpCompact -> compact_room P sf) /\ op_valid' b
  | _ => True
  end.

Inductive lsides (P : params) : stf -> list lop -> Prop :=
| lsides_nil s : lsides P s []
| lsides_cons s o l : lside P s o -> lsides P (fst (lstep flat_ops P s o)) l -> lsides P s (o :: l).

Definition StepOK (P : params) (sp : stp) (sf : stf) (ms : smap) (o : lop) : Prop :=
  st_rel (fst (lstep chain_ops P sp o)) (fst (lstep flat_ops P sf o)) /\
  J P (fst (lstep flat_ops P sf o)) /\
  out_equiv (snd (lstep chain_ops P sp o)) (snd (lstep flat_ops P sf o)) /\
  out_equiv' (snd (lstep chain_ops P sp o)) (snd (lstep_spec (ms, mode_of sf) o)) /\
  meq (abs (s_disk (fst (lstep flat_ops P sf o)))) (fst (fst (lstep_spec (ms, mode_of sf) o))) /\
  NoDup (map fst (fst (fst (lstep_spec (ms, mode_of sf) o)))) /\
  mode_of (fst (lstep flat_ops P sf o)) = snd (fst (lstep_spec (ms, mode_of sf) o)) /\
  lop_ok chain_ops P sp o.

Lemma J_DiskOK P (s : stf) : J P s -> DiskOK (s_disk s).
Proof.
  intros [HI _ Hm _|s0 m0 HI0 _ Em0 _ _ Ed|_ H _ _|_ Ed].
  - destruct (s_mem s) as [m|] eqn:Em; [|congruence]. apply (Inv_open P s m Em HI).
  - rewrite Ed. pose proof (close_ok P s0 m0 HI0 Em0) as H. destruct (db_close flat_ops s0) as [s1 o].
    cbn [fst]. apply H.
  - exact H.
  - rewrite Ed. split; [constructor|split; constructor].
Qed.

Lemma ff_ok_chain_of_J P (sp : stp) (sf : stf) : st_rel sp sf -> J P sf -> ff_ok (s_disk sp).
Proof.
  intros Hs HJ. apply (ff_ok_rel idx_rel _ _ (st_rel_disk _ _ _ Hs)). apply ff_ok_of_DiskOK.
  exact (J_DiskOK P sf HJ).
Qed.

Lemma mode_of_closed (s : stf) : s_mem s = None ->
  mode_of s = if d_lock (s_disk s) then MCrashed else MClosed.
Proof. intros E. unfold mode_of. rewrite E. reflexivity. Qed.

Lemma mode_closed_cases (s : stf) : s_mem s = None -> mode_of s = MClosed \/ mode_of s = MCrashed.
Proof. intros E. rewrite (mode_of_closed s E). destruct (d_lock (s_disk s)); auto. Qed.

(* a step that changes neither state and answers [r] on all three sides *)
Lemma StepOK_noop P (sp : stp) (sf : stf) ms o r :
  st_rel sp sf -> J P sf -> meq (abs (s_disk sf)) ms -> NoDup (map fst ms) ->
  lstep chain_ops P sp o = (sp, r) -> lstep flat_ops P sf o = (sf, r) ->
  lstep_spec (ms, mode_of sf) o = ((ms, mode_of sf), r) -> lop_ok chain_ops P sp o ->
  StepOK P sp sf ms o.
Proof.
  intros Hs HJ Hq Hnd E1 E2 E3 Hok. unfold StepOK. rewrite E1, E2, E3. cbn [fst snd].
  exact (conj Hs (conj HJ (conj (out_equiv_refl r) (conj (out_equiv_weaken r r (out_equiv_refl r))
           (conj Hq (conj Hnd (conj eq_refl Hok))))))).
Qed.

Lemma closed_chain (sp : stp) (sf : stf) : st_rel sp sf -> s_mem sf = None -> s_mem sp = None.
Proof. intros Hs Em. destruct (st_rel_mem_cases _ _ _ Hs) as [[E1 _]|(m1 & m2 & _ & E2 & _)]; [exact E1|congruence]. Qed.

Lemma flat_base_keeps P (sf : stf) b :
  params_ok P -> Inv P sf -> MetaOK sf -> (exists m, s_mem sf = Some m /\ room m) ->
  (b = OpCompact -> compact_room P sf) -> op_valid' b ->
  s_mem (fst (step_flat' P sf b)) <> None /\
  d_bac (s_disk (fst (step_flat' P sf b))) = d_bac (s_disk sf).
Proof.
  intros HP HI HM Hroom Hcr Hv.
  assert (Hopen : s_mem sf <> None) by (destruct Hroom as (m & -> & _); discriminate).
  unfold step_flat'. destruct b as [[k v|k|k|k buf|k| | |]|]; cbn [step' step fst op_valid' op_valid] in *;
    try (split; [exact Hopen|reflexivity]).
  - destruct Hv as (Hbk & Hbv & Hk & Hvl). destruct Hroom as (m & Em & Hr).
    destruct (flat_put_abs P sf k v HP HI (ex_intro _ m (conj Em Hr)) Hbk Hbv Hk Hvl) as (s' & E & _ & Hm' & _).
    pose proof (put_preserves P sf c0 k v HI (ex_intro _ m (conj Em Hr)) Hbk Hbv Hk Hvl (CInv_c0 sf m Em))
      as (_ & _ & _ & Hb).
    rewrite E in Hb |- *. cbn [fst] in Hb |- *. split; assumption.
  - destruct Hroom as (m & Em & Hr).
    destruct (flat_delete_abs P sf k HP HI (ex_intro _ m (conj Em Hr))) as (s' & E & _ & Hm' & _).
    split; [rewrite E; exact Hm'|].
    destruct (Inv_open P sf m Em HI) as (HL & Hidx & _). assert (Hd : DiskOK (s_disk sf)) by apply HL.
    destruct (fl_del (m_idx m) (p_hash P (m_seed m) k) (matchf (s_disk sf) k)) as [i1 [o|]] eqn:Edel.
    + pose proof (del_found_bytes P _ _ _ k i1 o Hd Hidx Edel) as Hbk.
      apply (delete_preserves P sf c0 k HI (ex_intro _ m (conj Em Hr)) Hbk (CInv_c0 sf m Em)).
    + destruct (finish_spec P sf m) as (s1 & Ef & _ & Eds & _).
      unfold db_delete. rewrite Em. cbn [ix_del flat_ops]. rewrite Edel, Ef. cbn [fst]. rewrite Eds. reflexivity.
  - pose proof (sync_ok P sf HI Hopen) as H. destruct (db_sync flat_ops sf) as [s' o]. cbn [fst].
    destruct H as (_ & _ & Ed & Em). rewrite Ed, Em. split; [exact Hopen|reflexivity].
  - pose proof (db_compact_ok P sf HI HM Hopen (Hcr eq_refl)) as H.
    destruct (db_compact flat_ops P sf) as [s' o]. cbn [fst]. destruct H as (_ & _ & A & _ & _ & _ & B).
    split; assumption.
Qed.

Lemma lbase_open P (sp : stp) (sf : stf) ms b :
  params_ok P -> st_rel sp sf -> Inv P sf -> MetaOK sf -> s_mem sf <> None -> bac_ok (s_disk sf) ->
  meq (abs (s_disk sf)) ms -> NoDup (map fst ms) -> lside P sf (LBase b) ->
  StepOK P sp sf ms (LBase b).
Proof.
  intros HP Hs HI HM Hopen Hbac Hq Hnd Hside. cbn [lside] in Hside.
  destruct (s_mem sf) as [m|] eqn:Em; [|congruence]. destruct (Hside m eq_refl) as (Hr & Hcr & Hv).
  assert (Hroom : exists m, s_mem sf = Some m /\ room m) by (exists m; auto).
  assert (Hopen2 : s_mem sf <> None) by (rewrite Em; discriminate).
  destruct (step_refines' P sp sf ms b HP Hs HI HM Hq Hnd Hv Hroom Hcr) as (A & B & C & D & E & F & G).
  destruct (flat_base_keeps P sf b HP HI HM Hroom Hcr Hv) as [K1 K2].
  assert (Emode : mode_of sf = MOpen) by (unfold mode_of; rewrite Em; reflexivity).
  unfold StepOK. rewrite Emode. cbn [lstep lstep_spec fst snd].
  unfold step_chain', step_flat' in *.
  split; [exact A|]. split; [apply J_open; [exact B|exact C|exact K1|unfold bac_ok; rewrite K2; exact Hbac]|].
  split; [exact G|]. split; [exact F|]. split; [exact D|]. split; [exact E|].
  split.
  - unfold mode_of. destruct (s_mem (fst (step' flat_ops P sf b))); [reflexivity|congruence].
  - destruct b as [[k v|k|k|k buf|k| | |]|]; cbn [lop_ok op_xok]; try exact I.
    + exact (proj1 (xok_chain_of_flat P sp sf Hs HI Hroom)).
    + apply (compact_xok_of_flat P sp sf); try assumption. apply Hcr. reflexivity.
Qed.

Lemma lbase_closed P (sp : stp) (sf : stf) ms b :
  st_rel sp sf -> J P sf -> s_mem sf = None -> meq (abs (s_disk sf)) ms -> NoDup (map fst ms) ->
  StepOK P sp sf ms (LBase b).
Proof.
  intros Hs HJ Em Hq Hnd. pose proof (closed_chain sp sf Hs Em) as Ep.
  apply (StepOK_noop P sp sf ms (LBase b) (OErr EClosed) Hs HJ Hq Hnd
           (step'_closed chain_ops P sp b Ep) (step'_closed flat_ops P sf b Em)).
  - unfold lstep_spec. cbn [fst snd]. destruct (mode_closed_cases sf Em) as [-> | ->]; reflexivity.
  - destruct b as [[k v|k|k|k buf|k| | |]|]; cbn [lop_ok op_xok]; try exact I.
    + intros m E. congruence.
    + unfold compact_xok, compact_pick. rewrite Ep. exact I.
Qed.

Lemma lclose_open P (sp : stp) (sf : stf) ms :
  st_rel sp sf -> Inv P sf -> MetaOK sf -> s_mem sf <> None -> bac_ok (s_disk sf) ->
  meq (abs (s_disk sf)) ms -> NoDup (map fst ms) -> StepOK P sp sf ms LClose.
Proof.
  intros Hs HI HM Hopen Hbac Hq Hnd.
  destruct (s_mem sf) as [m|] eqn:Em; [|congruence].
  assert (Emode : mode_of sf = MOpen) by (unfold mode_of; rewrite Em; reflexivity).
  unfold StepOK. rewrite Emode. cbn [lstep lstep_spec fst snd].
  destruct (sim_close_so sp sf Hs) as [Eo Hs'].
  pose proof (close_ok P sf m HI Em) as Hc.
  assert (HJ' : J P (fst (db_close flat_ops sf))).
  { apply (J_closed P _ sf m HI HM Em Hbac); [|reflexivity].
    destruct (db_close flat_ops sf) as [s1 o]. cbn [fst]. apply Hc. }
  destruct (db_close chain_ops sp) as [sp1 op]. destruct (db_close flat_ops sf) as [sf1 of].
  cbn [fst snd] in *. destruct Hc as (-> & Em1 & _ & Holog & Hl1 & _). subst op.
  split; [exact Hs'|]. split; [exact HJ'|]. split; [reflexivity|]. split; [reflexivity|].
  split; [rewrite (olog_abs _ _ Holog); exact Hq|]. split; [exact Hnd|].
  split; [|exact I]. unfold mode_of. rewrite Em1, Hl1. reflexivity.
Qed.

Lemma lclose_closed P (sp : stp) (sf : stf) ms :
  st_rel sp sf -> J P sf -> s_mem sf = None -> meq (abs (s_disk sf)) ms -> NoDup (map fst ms) ->
  StepOK P sp sf ms LClose.
Proof.
  intros Hs HJ Em Hq Hnd.
  apply (StepOK_noop P sp sf ms LClose (OErr EClosed) Hs HJ Hq Hnd
           (close_closed chain_ops sp (closed_chain sp sf Hs Em)) (close_closed flat_ops sf Em)); [|exact I].
  unfold lstep_spec. cbn [fst snd]. destruct (mode_closed_cases sf Em) as [-> | ->]; reflexivity.
Qed.

(* Crash: the handle is lost, the disk stays *)
Lemma lcrash_any P (sp : stp) (sf : stf) ms :
  st_rel sp sf -> J P sf -> meq (abs (s_disk sf)) ms -> NoDup (map fst ms) -> StepOK P sp sf ms LCrash.
Proof.
  intros Hs HJ Hq Hnd. destruct (s_mem sf) as [m|] eqn:Em.
  - unfold StepOK. cbn [lstep fst snd lop_ok].
    assert (Emode : mode_of sf = MOpen) by (unfold mode_of; rewrite Em; reflexivity).
    rewrite Emode. cbn [lstep_spec fst snd].
    destruct HJ as [HI HM Hopen Hbac|s0 m0 _ _ _ _ Em' _|Em' _ _ _|Em' _]; try congruence.
    destruct (Inv_Good P sf HI Hopen Hbac) as (G1 & G2 & G3).
    split.
    { apply st_rel_iff. cbn [s_mem s_disk s_trace].
      split; [constructor|]. split; [exact (st_rel_disk _ _ _ Hs)|exact (st_rel_trace _ _ _ Hs)]. }
    split; [apply J_crashed; [reflexivity|exact G1|exact G2|exact G3]|]. split; [reflexivity|]. split; [reflexivity|].
    split; [exact Hq|]. split; [exact Hnd|]. split; [|exact I].
    unfold mode_of. cbn [s_mem s_disk]. rewrite G3. reflexivity.
  - apply (StepOK_noop P sp sf ms LCrash OOk Hs HJ Hq Hnd); cbn [lstep lop_ok]; [| | |exact I].
    + rewrite (forget_closed sp (closed_chain sp sf Hs Em)). reflexivity.
    + rewrite (forget_closed sf Em). reflexivity.
    + unfold lstep_spec. cbn [fst snd]. destruct (mode_closed_cases sf Em) as [-> | ->]; reflexivity.
Qed.

Lemma lopen_any P (sp : stp) (sf : stf) ms seed :
  params_ok P -> st_rel sp sf -> J P sf -> meq (abs (s_disk sf)) ms -> NoDup (map fst ms) ->
  StepOK P sp sf ms (LOpen seed).
Proof.
  intros HP Hs HJ Hq Hnd. pose proof (ff_ok_chain_of_J P sp sf Hs HJ) as Hff.
  unfold StepOK. cbn [lstep lop_ok].
  destruct HJ as [HI HM Hopen Hbac|s0 m0 HI0 HM0 Em0 Hbac0 Em Ed|Em Hok Hbac Hlock|Em Ed].
  - (* somebody holds it open *)
    pose proof (J_open P sf HI HM Hopen Hbac) as HJ.
    destruct (st_rel_mem_cases _ _ _ Hs) as [[_ E2]|(mp & m & E1 & Em & _)]; [congruence|].
    apply (StepOK_noop P sp sf ms (LOpen seed) (OErr ELocked) Hs HJ Hq Hnd
             (open_opened chain_ops P seed sp mp E1) (open_opened flat_ops P seed sf m Em)); [|exact Hff].
    unfold mode_of. rewrite Em. reflexivity.
  - (* closed by Close: the index is read back *)
    pose proof (close_ok P s0 m0 HI0 Em0) as Hc.
    pose proof (close_reopen_ok P seed s0 m0 HP HI0 Em0 HM0) as Hr.
    pose proof (close_reopen_bac P seed s0 m0 HI0 Em0) as Hb.
    destruct (db_close flat_ops s0) as [s1 o1]. cbn [fst] in Ed.
    destruct Hc as (_ & Em1 & _ & Holog & Hl1 & _).
    assert (Hmd : same_md sf (clear_trace s1)).
    { split; [cbn [clear_trace s_mem]; congruence|exact Ed]. }
    assert (Hl : d_lock (s_disk sf) = false) by (rewrite Ed; exact Hl1).
    destruct (db_open_clean_md flat_ops P seed sf (clear_trace s1) Hmd Hl) as [Eo [Hm2 Hd2]].
    destruct (sim_open_clean_so P seed sp sf Hs Hl) as [Eop Hs'].
    assert (Emode : mode_of sf = MClosed) by (rewrite (mode_of_closed sf Em), Hl; reflexivity).
    rewrite Emode. cbn [lstep_spec fst snd].
    destruct (db_open flat_ops P seed (clear_trace s1)) as [s2 o2].
    destruct (db_open flat_ops P seed sf) as [sf' of]. destruct (db_open chain_ops P seed sp) as [sp' op].
    cbn [fst snd] in *. destruct Hr as (-> & HI2 & Ha2 & (m2 & Em2 & _) & HM2). subst of op.
    split; [exact Hs'|].
    split.
    { apply J_open.
      - apply (Inv_same P s2); assumption.
      - apply (MetaOK_same s2); assumption.
      - rewrite Hm2, Em2. discriminate.
      - unfold bac_ok. rewrite Hd2, Hb. exact Hbac0. }
    split; [reflexivity|]. split; [reflexivity|].
    split.
    { intros k. rewrite Hd2, Ha2, <- (Hq k), Ed, (olog_abs _ _ Holog). reflexivity. }
    split; [exact Hnd|]. split; [|exact Hff]. unfold mode_of. rewrite Hm2, Em2. reflexivity.
  - (* crashed: recovery *)
    pose proof (open_recover_gen P seed sf Em Hok Hbac Hlock) as Hr.
    destruct (sim_open_recover_so P seed sp sf Hs Hok Hbac Hlock) as [Eop Hs'].
    assert (Emode : mode_of sf = MCrashed) by (rewrite (mode_of_closed sf Em), Hlock; reflexivity).
    rewrite Emode. cbn [lstep_spec fst snd].
    destruct (db_open flat_ops P seed sf) as [sf' of]. destruct (db_open chain_ops P seed sp) as [sp' op].
    cbn [fst snd] in *. destruct Hr as (-> & HI2 & Hm2 & Ha2 & Hb2 & _ & _ & _ & HM2). subst op.
    split; [exact Hs'|].
    split; [apply J_open; [exact HI2|exact HM2|exact Hm2|unfold bac_ok; rewrite Hb2; constructor]|].
    split; [reflexivity|]. split; [reflexivity|].
    split; [intros k; rewrite Ha2; apply Hq|]. split; [exact Hnd|]. split; [|exact Hff].
    unfold mode_of. destruct (s_mem sf'); [reflexivity|congruence].
  - (* empty directory *)
    assert (Hl : d_lock (s_disk sf) = false) by (rewrite Ed; reflexivity).
    assert (Hmd : same_md sf (@st0 flat)) by (split; [exact Em|exact Ed]).
    destruct (db_open_clean_md flat_ops P seed sf st0 Hmd Hl) as [Eo [Hm2 Hd2]].
    rewrite flat_open_fresh in Eo, Hm2, Hd2.
    destruct (sim_open_clean_so P seed sp sf Hs Hl) as [Eop Hs'].
    assert (Emode : mode_of sf = MClosed) by (rewrite (mode_of_closed sf Em), Hl; reflexivity).
    rewrite Emode. cbn [lstep_spec fst snd].
    destruct (db_open flat_ops P seed sf) as [sf' of]. destruct (db_open chain_ops P seed sp) as [sp' op].
    cbn [fst snd] in *. subst of op.
    split; [exact Hs'|].
    split.
    { apply J_open.
      - apply (Inv_same P (flat_init seed)); [exact Hm2|exact Hd2|apply flat_init_Inv].
      - apply (MetaOK_same (flat_init seed)); [exact Hm2|exact Hd2|apply flat_init_MetaOK].
      - rewrite Hm2. discriminate.
      - unfold bac_ok. rewrite Hd2. constructor. }
    split; [reflexivity|]. split; [reflexivity|].
    split.
    { intros k. rewrite Hd2, <- (Hq k), Ed. reflexivity. }
    split; [exact Hnd|]. split; [|exact Hff]. unfold mode_of. rewrite Hm2. reflexivity.
Qed.

Theorem lstep_refines P (sp : stp) (sf : stf) ms o :
  params_ok P -> st_rel sp sf -> J P sf -> meq (abs (s_disk sf)) ms -> NoDup (map fst ms) ->
  lside P sf o -> StepOK P sp sf ms o.
Proof.
  intros HP Hs HJ Hq Hnd Hside. destruct o as [b| |seed|].
  - pose proof HJ as HJ0.
    destruct HJ as [HI HM Hopen Hbac|s0 m0 _ _ _ _ Em' _|Em' _ _ _|Em' _];
      [apply lbase_open; assumption|apply lbase_closed; assumption..].
  - pose proof HJ as HJ0.
    destruct HJ as [HI HM Hopen Hbac|s0 m0 _ _ _ _ Em' _|Em' _ _ _|Em' _];
      [apply lclose_open; assumption|apply lclose_closed; assumption..].
  - apply lopen_any; assumption.
  - apply lcrash_any; assumption.
Qed.

Theorem lrun_refines P (l : list lop) : params_ok P -> forall (sp : stp) (sf : stf) (ms : smap),
  st_rel sp sf -> J P sf -> meq (abs (s_disk sf)) ms -> NoDup (map fst ms) -> lsides P sf l ->
  Forall2 out_equiv (lrun chain_ops P sp l) (lrun flat_ops P sf l) /\
  Forall2 out_equiv' (lrun chain_ops P sp l) (lrun_spec (ms, mode_of sf) l) /\
  st_rel (lfinal chain_ops P sp l) (lfinal flat_ops P sf l) /\
  J P (lfinal flat_ops P sf l) /\
  meq (abs (s_disk (lfinal flat_ops P sf l))) (fst (lfinal_spec (ms, mode_of sf) l)) /\
  mode_of (lfinal flat_ops P sf l) = snd (lfinal_spec (ms, mode_of sf) l) /\
  loks chain_ops P sp l.
Proof.
  intros HP. unfold lfinal, lfinal_spec.
  induction l as [|o l IH]; intros sp sf ms Hs HJ Hq Hnd Hl.
  - cbn [lrun lrun_spec fold_left fst snd].
    split; [constructor|]. split; [constructor|]. split; [exact Hs|]. split; [exact HJ|].
    split; [exact Hq|]. split; [reflexivity|constructor].
  - inversion Hl as [|? ? ? Ho Hl']; subst.
    destruct (lstep_refines P sp sf ms o HP Hs HJ Hq Hnd Ho) as (A & B & C & D & E & F & G & H).
    cbn [lrun lrun_spec fold_left].
    destruct (lstep_spec (ms, mode_of sf) o) as [[ms' md'] rs] eqn:Esp. cbn [fst snd] in D, E, F, G.
    destruct (IH _ _ ms' A B E F Hl') as (R1 & R2 & R3 & R4 & R5 & R6 & R7).
    rewrite G in R2, R5, R6.
    assert (HL : loks chain_ops P sp (o :: l)) by (constructor; assumption).
    destruct (lstep chain_ops P sp o) as [sp' rp]. destruct (lstep flat_ops P sf o) as [sf' rf].
    cbn [fst snd] in *.
    split; [constructor; assumption|]. split; [constructor; assumption|].
    split; [exact R3|]. split; [exact R4|]. split; [exact R5|]. split; [exact R6|exact HL].
Qed.

(* the run theorem: chain index against flat index through sessions *)
Theorem sim_lrun P (l : list lop) (sp : stp) (sf : stf) :
  params_ok P -> st_rel sp sf -> J P sf -> lsides P sf l ->
  Forall2 out_equiv (lrun chain_ops P sp l) (lrun flat_ops P sf l) /\
  st_rel (lfinal chain_ops P sp l) (lfinal flat_ops P sf l) /\
  J P (lfinal flat_ops P sf l).
Proof.
  intros HP Hs HJ Hl.
  destruct (lrun_refines P l HP sp sf (abs (s_disk sf)) Hs HJ (meq_refl _) (abs_NoDup _) Hl)
    as (A & _ & C & D & _).
  exact (conj A (conj C D)).
Qed.

(* ... and against the specification: a plain map that survives Close / Open and crashes *)
Theorem chain_sessions_refine_spec P (l : list lop) (sp : stp) (sf : stf) :
  params_ok P -> st_rel sp sf -> J P sf -> lsides P sf l ->
  Forall2 out_equiv' (lrun chain_ops P sp l) (lrun_spec (abs (s_disk sf), mode_of sf) l) /\
  meq (abs (s_disk (lfinal flat_ops P sf l))) (fst (lfinal_spec (abs (s_disk sf), mode_of sf) l)) /\
  mode_of (lfinal flat_ops P sf l) = snd (lfinal_spec (abs (s_disk sf), mode_of sf) l).
Proof.
  intros HP Hs HJ Hl.
  destruct (lrun_refines P l HP sp sf (abs (s_disk sf)) Hs HJ (meq_refl _) (abs_NoDup _) Hl)
    as (_ & B & _ & _ & E & F & _).
  exact (conj B (conj E F)).
Qed.

(* the side condition of DBSimExact.xsim_run along the chain run follows *)
Theorem loks_of_flat P (l : list lop) (sp : stp) (sf : stf) :
  params_ok P -> st_rel sp sf -> J P sf -> lsides P sf l -> loks chain_ops P sp l.
Proof.
  intros HP Hs HJ Hl.
  destruct (lrun_refines P l HP sp sf (abs (s_disk sf)) Hs HJ (meq_refl _) (abs_NoDup _) Hl)
    as (_ & _ & _ & _ & _ & _ & G).
  exact G.
Qed.

Lemma J_st0 P : J P (@st0 flat).
Proof. apply J_fresh; reflexivity. Qed.

Corollary chain_sessions_from_empty P (l : list lop) :
  params_ok P -> lsides P st0 l ->
  Forall2 out_equiv (lrun chain_ops P st0 l) (lrun flat_ops P st0 l) /\
  Forall2 out_equiv' (lrun chain_ops P st0 l) (lrun_spec ([], MClosed) l) /\
  st_rel (lfinal chain_ops P st0 l) (lfinal flat_ops P st0 l) /\ J P (lfinal flat_ops P st0 l).
Proof.
  intros HP Hl.
  destruct (lrun_refines P l HP st0 st0 [] (st0_rel idx_rel) (J_st0 P) (meq_refl _) (NoDup_nil _) Hl)
    as (A & B & C & D & _).
  exact (conj A (conj B (conj C D))).
Qed.

Definition lside_b (P : params) (sf : stf) (o : lop) : bool :=
  match o with
  | LBase b =>
      match s_mem sf with
      | None => true
      | Some m => room_b m && (match b with OpCompact => compact_room_b P sf | _ => true end) && op_valid'_b b
      end
  | _ => true
  end.

Lemma lside_b_ok P sf o : lside_b P sf o = true -> lside P sf o.
Proof.
  destruct o as [b| |seed|]; cbn [lside_b lside]; try (intros _; exact I).
  intros H m Em. rewrite Em in H. apply andb_true_iff in H. destruct H as [H C].
  apply andb_true_iff in H. destruct H as [A B].
  split; [apply room_b_ok; exact A|]. split.
  - intros ->. apply compact_room_b_ok. exact B.
  - destruct b as [b|]; [apply op_valid_b_ok; exact C|exact I].
Qed.

Fixpoint lsides_b (P : params) (s : stf) (l : list lop) : bool :=
  match l with
  | [] => true
  | o :: l' => lside_b P s o && lsides_b P (fst (lstep flat_ops P s o)) l'
  end.

Lemma lsides_b_ok P l : forall s, lsides_b P s l = true -> lsides P s l.
Proof.
  induction l as [|o l IH]; intros s H; [constructor|]. cbn [lsides_b] in H.
  apply andb_true_iff in H. destruct H as [A B]. constructor; [apply lside_b_ok; exact A|apply IH; exact B].
Qed.

Lemma lwalk_lsides P l : forall s, fst (fst (lwalk flat_ops (lside_b P) P s l)) = lsides_b P s l.
Proof.
  induction l as [|o l IH]; intros s; cbn [lwalk lsides_b fst]; [reflexivity|]. rewrite IH. reflexivity.
Qed.

(* the crash model of DBProofsCrash.v, for any index implementation *)
Section GCrash.
Context {I : Type}.
Variable ops : idx_ops I.

Definition gtorn (d : @DB.disk I) (id seq : N) (r : rec) (c : N) : @DB.disk I :=
  upd_seg id seq (fun f => {| f_id := f_id f; f_seq := f_seq f; f_hdr := f_hdr f; f_recs := f_recs f;
                              f_tail := f_tail f ++ ntake c (encode_rec r); f_meta := f_meta f |}) d.

Inductive gcrash_image : @DB.disk I -> list (@fsev I) -> @DB.disk I -> Prop :=
| gci_here d es : gcrash_image d es d
| gci_step d e es img : gcrash_image (apply_ev ops d e) es img -> gcrash_image d (e :: es) img
| gci_torn d id seq off r es c : 0 < c -> c < rsize r ->
    gcrash_image d (EAppend id seq off r :: es) (gtorn d id seq r c).

(* the same, as a function of the instant: after [n] events; [cut = Some c]: in the middle of the
   next event, a data write, with c bytes of the record in the file *)
Fixpoint gcrash_at (d : @DB.disk I) (es : list (@fsev I)) (n : nat) (cut : option N) {struct n} : option (@DB.disk I) :=
  match n with
  | O => match cut with
         | None => Some d
         | Some c => match es with
                     | EAppend id seq off r :: _ =>
                         if (0 <? c) && (c <? rsize r) then Some (gtorn d id seq r c) else None
                     | _ => None
                     end
         end
  | S n' => match es with
            | e :: es' => gcrash_at (apply_ev ops d e) es' n' cut
            | [] => None
            end
  end.

Lemma gcrash_at_image es : forall d n cut img, gcrash_at d es n cut = Some img -> gcrash_image d es img.
Proof.
  induction es as [|e es IH]; intros d n cut img H.
  - destruct n; cbn [gcrash_at] in H; [|discriminate]. destruct cut; [discriminate|]. injection H as <-. constructor.
  - destruct n as [|n]; cbn [gcrash_at] in H.
    + destruct cut as [c|]; [|injection H as <-; constructor].
      destruct e as [f|f|id seq off r|i|id seq m|i|sd|f n|f g|f|f]; try discriminate.
      destruct ((0 <? c) && (c <? rsize r)) eqn:Ec; [|discriminate]. injection H as <-.
      apply andb_true_iff in Ec. destruct Ec as [A B]. apply N.ltb_lt in A, B. constructor; assumption.
    + apply gci_step. exact (IH _ n cut img H).
Qed.

Lemma gcrash_image_at d es img : gcrash_image d es img -> exists n cut, gcrash_at d es n cut = Some img.
Proof.
  induction 1 as [d es|d e es img H (n & cut & IH)|d id seq off r es c Hc0 Hc1].
  - exists O, None. reflexivity.
  - exists (S n), cut. exact IH.
  - exists O, (Some c). cbn [gcrash_at].
    rewrite (proj2 (N.ltb_lt _ _) Hc0), (proj2 (N.ltb_lt _ _) Hc1). reflexivity.
Qed.

End GCrash.

(* for the flat index this is DBProofsCrash.crash_image *)
Lemma gtorn_flat (d : diskf) id seq r c : gtorn d id seq r c = torn d id seq r c.
Proof. reflexivity. Qed.

Lemma gcrash_flat (d : diskf) es img : gcrash_image flat_ops d es img <-> crash_image d es img.
Proof.
  split; intros H.
  - induction H as [d es|d e es img H IH|d id seq off r es c Hc0 Hc1].
    + apply ci_here.
    + apply ci_step. exact IH.
    + rewrite gtorn_flat. apply ci_torn; assumption.
  - induction H as [d es|d e es img H IH|d id seq off r es c Hc0 Hc1].
    + apply gci_here.
    + apply gci_step. exact IH.
    + rewrite <- gtorn_flat. apply gci_torn; assumption.
Qed.

(* related disks, related traces: the images at the same instant are related *)
Section CrashRel.
Context {I1 I2 : Type}.
Variable ops1 : idx_ops I1.
Variable ops2 : idx_ops I2.
Variable R : I1 -> I2 -> Prop.
Hypothesis RE : R (ix_empty ops1) (ix_empty ops2).

Lemma gtorn_g (d1 : @DB.disk I1) (d2 : @DB.disk I2) id seq r c :
  gdisk_rel R d1 d2 -> gdisk_rel R (gtorn d1 id seq r c) (gtorn d2 id seq r c).
Proof. intros H. unfold gtorn. apply upd_seg_g. exact H. Qed.

Theorem crash_at_g es1 es2 : Forall2 (gev_rel R) es1 es2 -> forall d1 d2 n cut,
  gdisk_rel R d1 d2 ->
  opt_rel (gdisk_rel R) (gcrash_at ops1 d1 es1 n cut) (gcrash_at ops2 d2 es2 n cut).
Proof.
  induction 1 as [|e1 e2 es1 es2 He Hes IH]; intros d1 d2 n cut Hd.
  - destruct n; cbn [gcrash_at]; [|constructor]. destruct cut; constructor. exact Hd.
  - destruct n as [|n]; cbn [gcrash_at].
    + destruct cut as [c|]; [|constructor; exact Hd].
      destruct He; try constructor.
      destruct ((0 <? c) && (c <? rsize r)); constructor. apply gtorn_g. exact Hd.
    + apply IH. apply (apply_ev_rel R ops1 ops2 RE); assumption.
Qed.

Theorem crash_image_g d1 d2 es1 es2 :
  gdisk_rel R d1 d2 -> Forall2 (gev_rel R) es1 es2 ->
  (forall img1, gcrash_image ops1 d1 es1 img1 ->
     exists img2, gcrash_image ops2 d2 es2 img2 /\ gdisk_rel R img1 img2) /\
  (forall img2, gcrash_image ops2 d2 es2 img2 ->
     exists img1, gcrash_image ops1 d1 es1 img1 /\ gdisk_rel R img1 img2).
Proof.
  intros Hd Hes. split.
  - intros img1 H. destruct (gcrash_image_at ops1 _ _ _ H) as (n & cut & E).
    pose proof (crash_at_g es1 es2 Hes d1 d2 n cut Hd) as Hr. rewrite E in Hr.
    inversion Hr as [|a b Hab Ea Eb]; subst. exists b. split; [|exact Hab].
    apply (gcrash_at_image ops2 es2 d2 n cut). symmetry. exact Eb.
  - intros img2 H. destruct (gcrash_image_at ops2 _ _ _ H) as (n & cut & E).
    pose proof (crash_at_g es1 es2 Hes d1 d2 n cut Hd) as Hr. rewrite E in Hr.
    inversion Hr as [|a b Hab Ea Eb]; subst. exists a. split; [|exact Hab].
    apply (gcrash_at_image ops1 es1 d1 n cut). symmetry. exact Ea.
Qed.

End CrashRel.

Theorem sim_crash_at (dp : diskp) (df : diskf) tp tf n cut :
  disk_rel dp df -> Forall2 ev_rel tp tf ->
  opt_rel disk_rel (gcrash_at chain_ops dp tp n cut) (gcrash_at flat_ops df tf n cut).
Proof. intros Hd Ht. exact (crash_at_g chain_ops flat_ops idx_rel idx_rel_empty tp tf Ht dp df n cut Hd). Qed.

Theorem sim_crash_image (dp : diskp) (df : diskf) tp tf :
  disk_rel dp df -> Forall2 ev_rel tp tf ->
  (forall imgp, gcrash_image chain_ops dp tp imgp -> exists imgf, crash_image df tf imgf /\ disk_rel imgp imgf) /\
  (forall imgf, crash_image df tf imgf -> exists imgp, gcrash_image chain_ops dp tp imgp /\ disk_rel imgp imgf).
Proof.
  intros Hd Ht. destruct (crash_image_g chain_ops flat_ops idx_rel idx_rel_empty dp df tp tf Hd Ht) as [A B].
  split.
  - intros imgp H. destruct (A imgp H) as (imgf & H1 & H2). exists imgf. split; [apply gcrash_flat; exact H1|exact H2].
  - intros imgf H. apply gcrash_flat in H. exact (B imgf H).
Qed.

(* in the form used below: the operation started on related states and ended in related states
   (every operation theorem gives that; [st_rel] includes the traces) *)
Corollary sim_crash_image_st (sp sp' : stp) (sf sf' : stf) imgp :
  disk_rel (s_disk sp) (s_disk sf) -> st_rel sp' sf' ->
  gcrash_image chain_ops (s_disk sp) (s_trace sp') imgp ->
  exists imgf, crash_image (s_disk sf) (s_trace sf') imgf /\ disk_rel imgp imgf.
Proof.
  intros Hd Hs' H.
  exact (proj1 (sim_crash_image _ _ _ _ Hd (st_rel_trace _ _ _ Hs')) imgp H).
Qed.

Definition closedp (d : diskp) : stp := {| s_mem := None; s_disk := d; s_trace := [] |}.

Lemma closed_rel (dp : diskp) (df : diskf) : disk_rel dp df -> st_rel (closedp dp) (closed df).
Proof. intros H. unfold closedp, closed. constructor; [constructor|exact H|constructor]. Qed.

(* what the user sees of an open chain-index database related to a flat one *)
Definition answers (P : params) (sp : stp) (ms : smap) : Prop :=
  (forall k, db_get chain_ops P k sp = OVal (sget ms k)) /\
  (forall k, db_has chain_ops P k sp = OBool (shas ms k)) /\
  db_count chain_ops sp = ONum (scount ms) /\
  exists l, db_items chain_ops sp = OItems l /\ Permutation l ms.

Lemma answers_of_rel P (sp : stp) (sf : stf) :
  st_rel sp sf -> Inv P sf -> s_mem sf <> None -> answers P sp (abs (s_disk sf)).
Proof.
  intros Hs HI Hm. split; [intros k; apply (chain_get_ok P sp sf k Hs HI Hm)|].
  split; [intros k; apply (chain_has_ok P sp sf k Hs HI Hm)|].
  split; [apply (chain_count_ok P sp sf Hs HI Hm)|apply (chain_items_ok P sp sf Hs HI Hm)].
Qed.

Lemma answers_meq P (sp : stp) a b :
  NoDup (map fst a) -> NoDup (map fst b) -> meq a b -> answers P sp a -> answers P sp b.
Proof.
  intros Ha Hb Hq (A1 & A2 & A3 & l & A4 & A5). pose proof (meq_perm a b Ha Hb Hq) as Hp.
  split; [intros k; rewrite A1, (Hq k); reflexivity|].
  split; [intros k; rewrite A2; unfold shas; rewrite (Hq k); reflexivity|].
  split; [rewrite A3; unfold scount; rewrite (nlen_perm _ _ Hp); reflexivity|].
  exists l. split; [exact A4|]. etransitivity; eassumption.
Qed.

Lemma answers_abs P (sp : stp) (a b : diskf) :
  meq (abs a) (abs b) -> answers P sp (abs a) -> answers P sp (abs b).
Proof. exact (answers_meq P sp (abs a) (abs b) (abs_NoDup a) (abs_NoDup b)). Qed.

(* C02: Close, then Open: OOpened false, and every answer is the one given before the Close *)
Theorem chain_close_reopen_ok P seed (sp : stp) (sf : stf) m :
  params_ok P -> st_rel sp sf -> Inv P sf -> s_mem sf = Some m -> MetaOK sf ->
  let '(sp1, o1) := db_close chain_ops sp in
  let '(sp2, o2) := db_open chain_ops P seed (clear_trace sp1) in
  o1 = OOk /\ o2 = OOpened false /\
  answers P sp (abs (s_disk sf)) /\ answers P sp2 (abs (s_disk sf)) /\
  exists sf2, st_rel sp2 sf2 /\ Inv P sf2 /\ MetaOK sf2 /\ s_mem sf2 <> None /\
              meq (abs (s_disk sf2)) (abs (s_disk sf)).
Proof.
  intros HP Hs HI Em HM.
  assert (Hopen : s_mem sf <> None) by congruence.
  pose proof (answers_of_rel P sp sf Hs HI Hopen) as Hbefore.
  destruct (sim_close_so sp sf Hs) as [Eo Hs1].
  pose proof (close_ok P sf m HI Em) as Hc.
  pose proof (close_reopen_ok P seed sf m HP HI Em HM) as Hr.
  destruct (db_close chain_ops sp) as [sp1 o1]. destruct (db_close flat_ops sf) as [sf1 of1].
  cbn [fst snd] in Eo, Hs1. destruct Hc as (-> & _ & _ & _ & Hl1 & _). subst o1.
  pose proof (clear_trace_rel idx_rel _ _ Hs1) as Hs1c.
  destruct (sim_open_clean_so P seed (clear_trace sp1) (clear_trace sf1) Hs1c Hl1) as [Eo2 Hs2].
  destruct (db_open chain_ops P seed (clear_trace sp1)) as [sp2 o2].
  destruct (db_open flat_ops P seed (clear_trace sf1)) as [sf2 of2].
  cbn [fst snd] in Eo2, Hs2. destruct Hr as (-> & HI2 & Ha2 & (m2 & Em2 & _) & HM2). subst o2.
  assert (Hopen2 : s_mem sf2 <> None) by congruence.
  split; [reflexivity|]. split; [reflexivity|]. split; [exact Hbefore|].
  split.
  - exact (answers_abs P sp2 _ _ Ha2 (answers_of_rel P sp2 sf2 Hs2 HI2 Hopen2)).
  - exists sf2. split; [exact Hs2|]. split; [exact HI2|]. split; [exact HM2|]. split; [exact Hopen2|exact Ha2].
Qed.

(* recovery of the chain-index database from an image related to a recoverable flat image *)
Theorem chain_recover_image P seed (imgp : diskp) (imgf : diskf) :
  params_ok P -> disk_rel imgp imgf -> DiskOK imgf -> bac_ok imgf -> d_lock imgf = true ->
  exists sp2 sf2,
    db_open chain_ops P seed (closedp imgp) = (sp2, OOpened true) /\
    db_open flat_ops P seed (closed imgf) = (sf2, OOpened true) /\
    st_rel sp2 sf2 /\ Inv P sf2 /\ MetaOK sf2 /\ s_mem sf2 <> None /\ bac_ok (s_disk sf2) /\
    meq (abs (s_disk sf2)) (abs imgf) /\ answers P sp2 (abs imgf).
Proof.
  intros HP Hd Hok Hbac Hlock.
  pose proof (closed_rel imgp imgf Hd) as Hs.
  destruct (sim_open_recover_so P seed (closedp imgp) (closed imgf) Hs Hok Hbac Hlock) as [Eo Hs2].
  pose proof (open_recover_gen P seed (closed imgf) eq_refl Hok Hbac Hlock) as Hr.
  destruct (db_open chain_ops P seed (closedp imgp)) as [sp2 o2].
  destruct (db_open flat_ops P seed (closed imgf)) as [sf2 of2].
  cbn [fst snd closed s_disk] in Eo, Hs2, Hr. destruct Hr as (-> & HI2 & Hm2 & Ha2 & Hb2 & _ & _ & _ & HM2).
  subst o2. exists sp2, sf2. split; [reflexivity|]. split; [reflexivity|].
  split; [exact Hs2|]. split; [exact HI2|]. split; [exact HM2|]. split; [exact Hm2|].
  split; [unfold bac_ok; rewrite Hb2; constructor|]. split; [exact Ha2|].
  exact (answers_abs P sp2 _ _ Ha2 (answers_of_rel P sp2 sf2 Hs2 HI2 Hm2)).
Qed.

(* the engine: an operation that ran on related states; every crash image of the flat run is
   recoverable and satisfies [Q]; then every crash image of the chain run recovers, to a state related
   to the recovered flat state, and answers as the flat image's contents say *)
Theorem chain_crash_recover_ok P seed (Q : diskf -> Prop) (sp sp' : stp) (sf sf' : stf) imgp :
  params_ok P -> disk_rel (s_disk sp) (s_disk sf) -> st_rel sp' sf' ->
  (forall imgf, crash_image (s_disk sf) (s_trace sf') imgf ->
     DiskOK imgf /\ bac_ok imgf /\ d_lock imgf = true /\ Q imgf) ->
  gcrash_image chain_ops (s_disk sp) (s_trace sp') imgp ->
  exists imgf sp2 sf2,
    crash_image (s_disk sf) (s_trace sf') imgf /\ disk_rel imgp imgf /\ Q imgf /\
    db_open chain_ops P seed (closedp imgp) = (sp2, OOpened true) /\
    db_open flat_ops P seed (closed imgf) = (sf2, OOpened true) /\
    st_rel sp2 sf2 /\ Inv P sf2 /\ MetaOK sf2 /\ s_mem sf2 <> None /\ bac_ok (s_disk sf2) /\
    meq (abs (s_disk sf2)) (abs imgf) /\ answers P sp2 (abs imgf).
Proof.
  intros HP Hd Hs' Hall Himg.
  destruct (sim_crash_image_st sp sp' sf sf' imgp Hd Hs' Himg) as (imgf & Hf & Hrel).
  destruct (Hall imgf Hf) as (G1 & G2 & G3 & HQ).
  destruct (chain_recover_image P seed imgp imgf HP Hrel G1 G2 G3) as (sp2 & sf2 & H).
  exists imgf, sp2, sf2. split; [exact Hf|]. split; [exact Hrel|]. split; [exact HQ|exact H].
Qed.

(* contents before the operation, or after it: nothing else *)
Definition before_or_after (d0 d1 : diskf) (img : diskf) : Prop :=
  meq (abs img) (abs d0) \/ meq (abs img) (abs d1).

(* the two shapes in which the engine is used: every image holds the contents of [d0] or of [d1] (an
   operation that changes the contents), or of [d] (one that does not) *)
Lemma chain_crash_boa P seed d0 d1 (sp sp' : stp) (sf sf' : stf) imgp :
  params_ok P -> disk_rel (s_disk sp) (s_disk sf) -> st_rel sp' sf' ->
  (forall imgf, crash_image (s_disk sf) (s_trace sf') imgf ->
     DiskOK imgf /\ bac_ok imgf /\ d_lock imgf = true /\ before_or_after d0 d1 imgf) ->
  gcrash_image chain_ops (s_disk sp) (s_trace sp') imgp ->
  exists imgf sp2 sf2,
    disk_rel imgp imgf /\ before_or_after d0 d1 imgf /\
    db_open chain_ops P seed (closedp imgp) = (sp2, OOpened true) /\
    st_rel sp2 sf2 /\ Inv P sf2 /\ s_mem sf2 <> None /\
    (answers P sp2 (abs d0) \/ answers P sp2 (abs d1)).
Proof.
  intros HP Hd Hs' Hall Himg.
  destruct (chain_crash_recover_ok P seed (before_or_after d0 d1) sp sp' sf sf' imgp HP Hd Hs' Hall Himg)
    as (imgf & sp2 & sf2 & _ & Hrel & HQ & E2 & _ & Hs2 & HI2 & _ & Hm2 & _ & _ & Hans).
  exists imgf, sp2, sf2. split; [exact Hrel|]. split; [exact HQ|]. split; [exact E2|].
  split; [exact Hs2|]. split; [exact HI2|]. split; [exact Hm2|].
  destruct HQ as [HQ|HQ]; [left|right]; exact (answers_abs P sp2 _ _ HQ Hans).
Qed.

Lemma chain_crash_keeps P seed d (sp sp' : stp) (sf sf' : stf) imgp :
  params_ok P -> disk_rel (s_disk sp) (s_disk sf) -> st_rel sp' sf' ->
  (forall imgf, crash_image (s_disk sf) (s_trace sf') imgf ->
     DiskOK imgf /\ bac_ok imgf /\ d_lock imgf = true /\ meq (abs imgf) (abs d)) ->
  gcrash_image chain_ops (s_disk sp) (s_trace sp') imgp ->
  exists imgf sp2 sf2,
    disk_rel imgp imgf /\ db_open chain_ops P seed (closedp imgp) = (sp2, OOpened true) /\
    st_rel sp2 sf2 /\ Inv P sf2 /\ s_mem sf2 <> None /\ answers P sp2 (abs d).
Proof.
  intros HP Hd Hs' Hall Himg.
  destruct (chain_crash_recover_ok P seed (fun img => meq (abs img) (abs d)) sp sp' sf sf' imgp HP Hd Hs' Hall Himg)
    as (imgf & sp2 & sf2 & _ & Hrel & HQ & E2 & _ & Hs2 & HI2 & _ & Hm2 & _ & _ & Hans).
  exists imgf, sp2, sf2.
  exact (conj Hrel (conj E2 (conj Hs2 (conj HI2 (conj Hm2 (answers_abs P sp2 _ _ HQ Hans)))))).
Qed.

(* C03, Put *)
Theorem chain_crash_put P seed (sp sp' : stp) (sf : stf) k v o imgp :
  params_ok P -> st_rel sp sf -> Inv P sf -> (exists m, s_mem sf = Some m /\ room m) -> bac_ok (s_disk sf) ->
  Forall byte k -> Forall byte v -> nlen k <= max_key_len -> nlen v <= max_val_len ->
  db_put chain_ops P k v (clear_trace sp) = (sp', o) ->
  gcrash_image chain_ops (s_disk sp) (s_trace sp') imgp ->
  let sf' := fst (db_put flat_ops P k v (clear_trace sf)) in
  st_rel sp' sf' /\
  exists imgf sp2 sf2,
    disk_rel imgp imgf /\ before_or_after (s_disk sf) (s_disk sf') imgf /\
    db_open chain_ops P seed (closedp imgp) = (sp2, OOpened true) /\
    st_rel sp2 sf2 /\ Inv P sf2 /\ s_mem sf2 <> None /\
    (answers P sp2 (abs (s_disk sf)) \/ answers P sp2 (sput (abs (s_disk sf)) k v)).
Proof.
  intros HP Hs HI Hroom Hbac Hbk Hbv Hk Hv Eput Himg. cbv zeta.
  pose proof (clear_trace_rel idx_rel _ _ Hs) as Hsc.
  destruct (sim_put_so P (clear_trace sp) (clear_trace sf) k v Hsc (Inv_clear P sf HI) Hroom Hbk Hbv Hk Hv)
    as [_ Hs']. rewrite Eput in Hs'. cbn [fst] in Hs'.
  destruct (flat_put_abs P (clear_trace sf) k v HP (Inv_clear P sf HI) Hroom Hbk Hbv Hk Hv)
    as (sf' & Ef & _ & _ & Eabs).
  rewrite Ef in Hs' |- *. cbn [fst] in Hs' |- *. cbn [clear_trace s_disk] in Eabs.
  split; [exact Hs'|]. rewrite <- Eabs.
  apply (chain_crash_boa P seed (s_disk sf) (s_disk sf') sp sp' sf sf' imgp HP (st_rel_disk _ _ _ Hs) Hs');
    [|exact Himg].
  exact (crash_put P sf sf' k v OOk HP HI Hroom Hbac Hbk Hbv Hk Hv Ef).
Qed.

(* C03, Delete (a key that is a byte string, as crash_delete) *)
Theorem chain_crash_delete P seed (sp sp' : stp) (sf : stf) k o imgp :
  params_ok P -> st_rel sp sf -> Inv P sf -> (exists m, s_mem sf = Some m /\ room m) -> bac_ok (s_disk sf) ->
  Forall byte k ->
  db_delete chain_ops P k (clear_trace sp) = (sp', o) ->
  gcrash_image chain_ops (s_disk sp) (s_trace sp') imgp ->
  let sf' := fst (db_delete flat_ops P k (clear_trace sf)) in
  st_rel sp' sf' /\
  exists imgf sp2 sf2,
    disk_rel imgp imgf /\ before_or_after (s_disk sf) (s_disk sf') imgf /\
    db_open chain_ops P seed (closedp imgp) = (sp2, OOpened true) /\
    st_rel sp2 sf2 /\ Inv P sf2 /\ s_mem sf2 <> None /\
    (answers P sp2 (abs (s_disk sf)) \/ answers P sp2 (sdel (abs (s_disk sf)) k)).
Proof.
  intros HP Hs HI Hroom Hbac Hbk Edel Himg. cbv zeta.
  pose proof (clear_trace_rel idx_rel _ _ Hs) as Hsc.
  destruct (sim_delete_so P (clear_trace sp) (clear_trace sf) k Hsc (Inv_clear P sf HI)) as [_ Hs'].
  rewrite Edel in Hs'. cbn [fst] in Hs'.
  destruct (flat_delete_abs P (clear_trace sf) k HP (Inv_clear P sf HI) Hroom) as (sf' & Ef & _ & _ & Eabs).
  rewrite Ef in Hs' |- *. cbn [fst] in Hs' |- *. cbn [clear_trace s_disk] in Eabs.
  split; [exact Hs'|]. rewrite <- Eabs.
  apply (chain_crash_boa P seed (s_disk sf) (s_disk sf') sp sp' sf sf' imgp HP (st_rel_disk _ _ _ Hs) Hs');
    [|exact Himg].
  exact (crash_delete P sf sf' k OOk HP HI Hroom Hbac Hbk Ef).
Qed.

(* C03, Sync: no image differs from the disk before *)
Theorem chain_crash_sync P seed (sp sp' : stp) (sf : stf) o imgp :
  params_ok P -> st_rel sp sf -> Inv P sf -> s_mem sf <> None -> bac_ok (s_disk sf) ->
  db_sync chain_ops (clear_trace sp) = (sp', o) ->
  gcrash_image chain_ops (s_disk sp) (s_trace sp') imgp ->
  exists imgf sp2 sf2,
    disk_rel imgp imgf /\ db_open chain_ops P seed (closedp imgp) = (sp2, OOpened true) /\
    st_rel sp2 sf2 /\ Inv P sf2 /\ s_mem sf2 <> None /\ answers P sp2 (abs (s_disk sf)).
Proof.
  intros HP Hs HI Hm Hbac Es Himg.
  pose proof (clear_trace_rel idx_rel _ _ Hs) as Hsc.
  destruct (sync_rel idx_rel chain_ops flat_ops idx_rel_empty _ _ Hsc) as [_ Hs'].
  rewrite Es in Hs'. cbn [fst] in Hs'.
  destruct (db_sync flat_ops (clear_trace sf)) as [sf' of] eqn:Ef. cbn [fst] in Hs'.
  apply (chain_crash_keeps P seed (s_disk sf) sp sp' sf sf' imgp HP (st_rel_disk _ _ _ Hs) Hs'); [|exact Himg].
  intros imgf Hf. destruct (crash_sync P sf sf' of HI Hm Hbac Ef imgf Hf) as (G1 & G2 & G3 & Hc & _). auto.
Qed.

(* C03, one critical section of Compact: the contents never change *)
Theorem chain_crash_compact_step P seed (sp sp' : stp) (sf : stf) c c' imgp :
  params_ok P -> st_rel sp sf -> Inv P sf -> CInv sf c -> (exists m, s_mem sf = Some m /\ room m) ->
  bac_ok (s_disk sf) ->
  compact_step chain_ops P (clear_trace sp) c = CMore sp' c' ->
  gcrash_image chain_ops (s_disk sp) (s_trace sp') imgp ->
  exists imgf sp2 sf2,
    disk_rel imgp imgf /\ db_open chain_ops P seed (closedp imgp) = (sp2, OOpened true) /\
    st_rel sp2 sf2 /\ Inv P sf2 /\ s_mem sf2 <> None /\ answers P sp2 (abs (s_disk sf)).
Proof.
  intros HP Hs HI HC Hroom Hbac Ec Himg.
  pose proof (clear_trace_rel idx_rel _ _ Hs) as Hsc.
  pose proof (sim_compact_step P (clear_trace sp) (clear_trace sf) c Hsc (Inv_clear P sf HI)) as Hstep.
  rewrite Ec in Hstep.
  destruct (compact_step flat_ops P (clear_trace sf) c) as [|sf' cf'|w] eqn:Ef; inversion Hstep; subst.
  apply (chain_crash_keeps P seed (s_disk sf) sp sp' sf sf' imgp HP (st_rel_disk _ _ _ Hs)); [assumption| |exact Himg].
  exact (crash_compact_step P sf c sf' cf' HI HC Hroom Hbac Ef).
Qed.

(* C04: a crash during the recovery itself; the next recovery succeeds with the same contents *)
Theorem chain_crash_open_recover P seed seed2 (dp : diskp) (df : diskf) imgp :
  params_ok P -> disk_rel dp df -> DiskOK df -> bac_ok df -> d_lock df = true ->
  gcrash_image chain_ops dp (s_trace (fst (db_open chain_ops P seed (closedp dp)))) imgp ->
  exists imgf sp2 sf2,
    disk_rel imgp imgf /\ db_open chain_ops P seed2 (closedp imgp) = (sp2, OOpened true) /\
    st_rel sp2 sf2 /\ Inv P sf2 /\ s_mem sf2 <> None /\ answers P sp2 (abs df).
Proof.
  intros HP Hd Hok Hbac Hlock Himg.
  destruct (sim_open_recover_so P seed (closedp dp) (closed df) (closed_rel dp df Hd) Hok Hbac Hlock) as [_ Hs'].
  apply (chain_crash_keeps P seed2 df (closedp dp) _ (closed df) _ imgp HP Hd Hs'); [|exact Himg].
  exact (crash_open_recover P seed df Hok Hbac Hlock).
Qed.

(* C03, Close: every image opens (by recovery, or cleanly when Close had finished) with the contents
   that were there before the Close *)
Theorem chain_crash_close P seed (sp sp1 : stp) (sf : stf) o imgp :
  params_ok P -> st_rel sp sf -> Inv P sf -> s_mem sf <> None -> bac_ok (s_disk sf) ->
  db_close chain_ops (clear_trace sp) = (sp1, o) ->
  gcrash_image chain_ops (s_disk sp) (s_trace sp1) imgp ->
  exists imgf sp2 sf2 b,
    disk_rel imgp imgf /\ db_open chain_ops P seed (closedp imgp) = (sp2, OOpened b) /\
    st_rel sp2 sf2 /\ Inv P sf2 /\ s_mem sf2 <> None /\ answers P sp2 (abs (s_disk sf)).
Proof.
  intros HP Hs HI Hm Hbac Ec Himg.
  pose proof (clear_trace_rel idx_rel _ _ Hs) as Hsc.
  destruct (sim_close_so _ _ Hsc) as [_ Hs1]. rewrite Ec in Hs1. cbn [fst] in Hs1.
  destruct (db_close flat_ops (clear_trace sf)) as [sf1 of] eqn:Ef. cbn [fst] in Hs1.
  destruct (sim_crash_image_st sp sp1 sf sf1 imgp (st_rel_disk _ _ _ Hs) Hs1 Himg) as (imgf & Hf & Hrel).
  pose proof (C03_close P seed sf sf1 of imgf HP HI Hm Hbac Ef Hf) as (sf2 & b & E2 & HI2 & Hm2 & _ & Ha2).
  pose proof (closed_rel imgp imgf Hrel) as Hcl.
  assert (Hso : so_rel idx_rel (db_open chain_ops P seed (closedp imgp)) (db_open flat_ops P seed (closed imgf))).
  { destruct (crash_close P sf sf1 of imgf HI Hm Hbac Ef Hf) as [(G1 & G2 & G3 & _)| ->].
    - apply sim_open_recover_so; assumption.
    - apply sim_open_clean_so; [exact Hcl|].
      destruct (s_mem sf) as [m|] eqn:Em; [|congruence].
      pose proof (close_ok P (clear_trace sf) m (Inv_clear P sf HI) Em) as Hc. rewrite Ef in Hc.
      cbn [closed s_disk]. apply Hc. }
  fold (closed imgf) in E2. rewrite E2 in Hso. destruct Hso as [Eo Hs2]. cbn [fst snd] in Eo, Hs2.
  destruct (db_open chain_ops P seed (closedp imgp)) as [sp2 o2]. cbn [fst snd] in Eo, Hs2. subst o2.
  exists imgf, sp2, sf2, b. split; [exact Hrel|]. split; [reflexivity|]. split; [exact Hs2|].
  split; [exact HI2|]. split; [exact Hm2|].
  exact (answers_abs P sp2 _ _ Ha2 (answers_of_rel P sp2 sf2 Hs2 HI2 Hm2)).
Qed.

(* C03, pickForCompaction: only Sync events *)
Theorem chain_crash_compact_pick P seed (sp sp' : stp) (sf : stf) c imgp :
  params_ok P -> st_rel sp sf -> Inv P sf -> s_mem sf <> None -> bac_ok (s_disk sf) ->
  compact_pick chain_ops P (clear_trace sp) = Some (sp', c) ->
  gcrash_image chain_ops (s_disk sp) (s_trace sp') imgp ->
  exists imgf sp2 sf2,
    disk_rel imgp imgf /\ db_open chain_ops P seed (closedp imgp) = (sp2, OOpened true) /\
    st_rel sp2 sf2 /\ Inv P sf2 /\ s_mem sf2 <> None /\ answers P sp2 (abs (s_disk sf)).
Proof.
  intros HP Hs HI Hm Hbac Ec Himg.
  pose proof (clear_trace_rel idx_rel _ _ Hs) as Hsc.
  pose proof (compact_pick_rel idx_rel chain_ops flat_ops idx_rel_empty P _ _ Hsc) as Hp.
  rewrite Ec in Hp.
  destruct (compact_pick flat_ops P (clear_trace sf)) as [[sf' cf]|] eqn:Ef; unfold pick_res_rel in Hp;
    [|contradiction].
  destruct Hp as [Hs' _].
  apply (chain_crash_keeps P seed (s_disk sf) sp sp' sf sf' imgp HP (st_rel_disk _ _ _ Hs) Hs'); [|exact Himg].
  intros imgf Hf. destruct (crash_compact_pick P sf sf' cf HI Hm Hbac Ef) as (_ & _ & H).
  destruct (H imgf Hf) as (_ & G). exact G.
Qed.

Theorem phys_sessions_flat P (l : list lop) (s1 : @DB.st phys) (sp : stp) (sf : stf) :
  params_ok P -> gst_rel PR s1 sp -> st_rel sp sf -> J P sf -> lsides P sf l ->
  (* the outputs are those of the flat-index database (Items up to order) ... *)
  Forall2 out_equiv (lrun phys_ops P s1 l) (lrun flat_ops P sf l) /\
  (* ... those of the specification ... *)
  Forall2 out_equiv' (lrun phys_ops P s1 l) (lrun_spec (abs (s_disk sf), mode_of sf) l) /\
  (* ... and EQUAL to those of the chain-index database *)
  lrun phys_ops P s1 l = lrun chain_ops P sp l /\
  gst_rel PR (lfinal phys_ops P s1 l) (lfinal chain_ops P sp l) /\
  st_rel (lfinal chain_ops P sp l) (lfinal flat_ops P sf l) /\
  J P (lfinal flat_ops P sf l).
Proof.
  intros HP H1 Hs HJ Hl.
  destruct (lrun_refines P l HP sp sf (abs (s_disk sf)) Hs HJ (meq_refl _) (abs_NoDup _) Hl)
    as (A & B & C & D & _ & _ & G).
  destruct (phys_sessions P l s1 sp H1 G) as [Eo Hf].
  rewrite Eo. exact (conj A (conj B (conj eq_refl (conj Hf (conj C D))))).
Qed.

Corollary phys_sessions_from_empty P (l : list lop) :
  params_ok P -> lsides P st0 l ->
  Forall2 out_equiv (lrun phys_ops P st0 l) (lrun flat_ops P st0 l) /\
  Forall2 out_equiv' (lrun phys_ops P st0 l) (lrun_spec ([], MClosed) l) /\
  lrun phys_ops P st0 l = lrun chain_ops P st0 l.
Proof.
  intros HP Hl.
  destruct (phys_sessions_flat P l st0 st0 st0 HP (st0_rel PR) (st0_rel idx_rel) (J_st0 P) Hl)
    as (A & B & C & _).
  exact (conj A (conj B C)).
Qed.

(* non-vacuity: the session run of DBSimExact.ExactEx *)

Module SessEx.
Definition exP : params := ExactEx.exP.
(* Open (empty directory); 40 colliding Puts (overflow bucket); Delete; Crash; Open (RECOVERY: 41 records
   replayed through ix_put / ix_del on both indexes); reads; Put; Compact; reads; Close; a read on the
   closed database; Open (clean: index read back from main.pix / index.pmt); reads; Items; Sync *)
Definition ex_ops : list lop := ExactEx.ex_ops.

Lemma exP_ok : params_ok exP.
Proof. vm_compute. reflexivity. Qed.

(* the side conditions and the slots of the final flat index from one evaluation of the flat run; the
   chain run has been evaluated in [ExactEx.ex_eval] *)
Lemma ex_eval :
  lsides_b exP st0 ex_ops = true /\
  (ExactEx.ex_slots <> SimEx.flat_slots (lfinal flat_ops exP st0 ex_ops) /\
   length ExactEx.ex_slots = 40%nat).
Proof.
  rewrite <- lwalk_lsides.
  refine (lwalk_elim flat_ops _ exP ex_ops st0 (fun b _ fin =>
            b = true /\ (ExactEx.ex_slots <> SimEx.flat_slots fin /\ length ExactEx.ex_slots = 40%nat)) _).
  vm_compute. repeat split. discriminate.
Qed.

(* the side conditions hold along the flat run: the theorems apply *)
Example ex_lsides : lsides exP st0 ex_ops.
Proof. exact (lsides_b_ok exP ex_ops st0 (proj1 ex_eval)). Qed.

Example ex_run :
  Forall2 out_equiv (lrun chain_ops exP st0 ex_ops) (lrun flat_ops exP st0 ex_ops) /\
  Forall2 out_equiv' (lrun chain_ops exP st0 ex_ops) (lrun_spec ([], MClosed) ex_ops) /\
  st_rel (lfinal chain_ops exP st0 ex_ops) (lfinal flat_ops exP st0 ex_ops) /\
  J exP (lfinal flat_ops exP st0 ex_ops).
Proof. exact (chain_sessions_from_empty exP ex_ops exP_ok ex_lsides). Qed.

Example ex_phys :
  Forall2 out_equiv (lrun phys_ops exP st0 ex_ops) (lrun flat_ops exP st0 ex_ops) /\
  Forall2 out_equiv' (lrun phys_ops exP st0 ex_ops) (lrun_spec ([], MClosed) ex_ops) /\
  lrun phys_ops exP st0 ex_ops = lrun chain_ops exP st0 ex_ops.
Proof. exact (phys_sessions_from_empty exP ex_ops exP_ok ex_lsides). Qed.

(* what the specification says for this run (positions 41..56: Delete, Crash, Open, ...) *)
Example ex_spec_outputs :
  firstn 16 (skipn 41 (lrun_spec ([], MClosed) ex_ops)) =
    [OOk; OOk; OOpened true; OVal None; OVal (Some (RunEx.val_of 32)); ONum 39; OOk;
     OCompact 0 0 0; OVal (Some (RunEx.val_of 41)); OVal (Some (RunEx.val_of 5));
     OOk; OErr EClosed; OOpened false; OVal (Some (RunEx.val_of 5)); OVal None; ONum 40].
Proof. vm_compute. reflexivity. Qed.

(* the relation is not the identity after the recovery: the slot orders of the two indexes differ at
   the end of the run (same slots: [ex_run]) *)
Example ex_final_orders :
  SimEx.chain_slots (lfinal chain_ops exP st0 ex_ops) <> SimEx.flat_slots (lfinal flat_ops exP st0 ex_ops) /\
  length (SimEx.chain_slots (lfinal chain_ops exP st0 ex_ops)) = 40%nat.
Proof.
  pose proof (proj2 ex_eval) as H. unfold exP, ex_ops in *.
  rewrite (proj2 (proj2 ExactEx.ex_eval)). exact H.
Qed.

(* a TORN Put on the chain-index database (5 bytes of the record reached the segment file), then
   recovery: chain_crash_put applies; the image is not the disk before and not the disk after *)
Definition pre_ops : list lop := [LOpen 1] ++ map ExactEx.put (seq 1 35).
Definition spX : stp := Eval vm_compute in lfinal chain_ops exP st0 pre_ops.
Definition sfX : stf := Eval vm_compute in lfinal flat_ops exP st0 pre_ops.
Definition kX : key := [77].
Definition vX : val := [7; 7; 7].
Definition spX' : stp := Eval vm_compute in fst (db_put chain_ops exP kX vX (clear_trace spX)).

Lemma spX_eq : lfinal chain_ops exP st0 pre_ops = spX. Proof. vm_compute. reflexivity. Qed.
Lemma spX'_eq : db_put chain_ops exP kX vX (clear_trace spX) = (spX', OOk). Proof. vm_compute. reflexivity. Qed.

(* side conditions and final state of the flat run from one evaluation *)
Lemma X_eval : lsides_b exP st0 pre_ops = true /\ lfinal flat_ops exP st0 pre_ops = sfX.
Proof.
  rewrite <- lwalk_lsides.
  refine (lwalk_elim flat_ops _ exP pre_ops st0 (fun b _ fin => b = true /\ fin = sfX) _).
  vm_compute. split; reflexivity.
Qed.
Lemma sfX_eq : lfinal flat_ops exP st0 pre_ops = sfX. Proof. exact (proj2 X_eval). Qed.

Lemma X_rel : st_rel spX sfX /\ J exP sfX.
Proof.
  destruct (chain_sessions_from_empty exP pre_ops exP_ok (lsides_b_ok exP pre_ops st0 (proj1 X_eval)))
    as (_ & _ & A & B).
  rewrite spX_eq, sfX_eq in A. rewrite sfX_eq in B. exact (conj A B).
Qed.

Definition imgX : option diskp := Eval vm_compute in gcrash_at chain_ops (s_disk spX) (s_trace spX') 0 (Some 5).

Example ex_torn_put :
  exists imgp, imgX = Some imgp /\ imgp <> s_disk spX /\ imgp <> s_disk spX' /\
    gcrash_image chain_ops (s_disk spX) (s_trace spX') imgp /\
    exists sp2 sf2, db_open chain_ops exP 9 (closedp imgp) = (sp2, OOpened true) /\
      st_rel sp2 sf2 /\ Inv exP sf2 /\
      (answers exP sp2 (abs (s_disk sfX)) \/ answers exP sp2 (sput (abs (s_disk sfX)) kX vX)) /\
      (* which of the two: the torn record is dropped *)
      db_get chain_ops exP kX sp2 = OVal None /\ db_count chain_ops sp2 = ONum 35.
Proof.
  destruct imgX as [imgp|] eqn:Ei; [|vm_compute in Ei; discriminate Ei].
  exists imgp. split; [reflexivity|].
  assert (Himg : gcrash_image chain_ops (s_disk spX) (s_trace spX') imgp)
    by (apply (gcrash_at_image chain_ops _ _ 0 (Some 5)); exact Ei).
  assert (Ep : imgp = match imgX with Some x => x | None => s_disk spX end) by (rewrite Ei; reflexivity).
  split.
  { intros E. rewrite Ep in E. apply (f_equal (fun d : diskp => map f_tail (d_segs d))) in E.
    vm_compute in E. discriminate E. }
  split.
  { intros E. rewrite Ep in E. apply (f_equal (fun d : diskp => map f_tail (d_segs d))) in E.
    vm_compute in E. discriminate E. }
  split; [exact Himg|].
  destruct X_rel as [Hs HJ].
  destruct HJ as [HI HM Ho Hb|? ? _ _ _ _ E _|E _ _ _|E _];
    [|vm_compute in E; discriminate E|vm_compute in E; discriminate E|vm_compute in E; discriminate E].
  assert (Hroom : exists m, s_mem sfX = Some m /\ room m) by (apply open_room_b_ok; vm_compute; reflexivity).
  assert (Hbk : Forall byte kX) by (apply forallb_byte; vm_compute; reflexivity).
  assert (Hbv : Forall byte vX) by (apply forallb_byte; vm_compute; reflexivity).
  assert (Hk : nlen kX <= max_key_len) by (vm_compute; discriminate).
  assert (Hv : nlen vX <= max_val_len) by (vm_compute; discriminate).
  destruct (chain_crash_put exP 9 spX spX' sfX kX vX OOk imgp exP_ok Hs HI Hroom Hb Hbk Hbv Hk Hv spX'_eq Himg)
    as [_ H].
  destruct H as (imgf & sp2 & sf2 & _ & _ & E2 & Hs2 & HI2 & _ & Hans).
  exists sp2, sf2. split; [exact E2|]. split; [exact Hs2|]. split; [exact HI2|]. split; [exact Hans|].
  assert (E3 : sp2 = fst (db_open chain_ops exP 9 (closedp imgp))) by (rewrite E2; reflexivity).
  rewrite E3, Ep. split; vm_compute; reflexivity.
Qed.
End SessEx.

Print Assumptions close_g.
Print Assumptions open_clean_g.
Print Assumptions sim_close.
Print Assumptions sim_close_disk.
Print Assumptions sim_open_clean.
Print Assumptions replay_fold_sim.
Print Assumptions recover_segment_sim.
Print Assumptions recover_sim.
Print Assumptions sim_open_recover.
Print Assumptions sim_open.
Print Assumptions db_open_clean_md.
Print Assumptions lstep_refines.
Print Assumptions lrun_refines.
Print Assumptions sim_lrun.
Print Assumptions chain_sessions_refine_spec.
Print Assumptions loks_of_flat.
Print Assumptions chain_sessions_from_empty.
Print Assumptions lsides_b_ok.
Print Assumptions gcrash_flat.
Print Assumptions sim_crash_at.
Print Assumptions sim_crash_image.
Print Assumptions chain_close_reopen_ok.
Print Assumptions chain_recover_image.
Print Assumptions chain_crash_recover_ok.
Print Assumptions chain_crash_put.
Print Assumptions chain_crash_delete.
Print Assumptions chain_crash_sync.
Print Assumptions chain_crash_compact_pick.
Print Assumptions chain_crash_compact_step.
Print Assumptions chain_crash_close.
Print Assumptions chain_crash_open_recover.
Print Assumptions phys_sessions_flat.
Print Assumptions phys_sessions_from_empty.
Print Assumptions SessEx.ex_lsides.
Print Assumptions SessEx.ex_run.
Print Assumptions SessEx.ex_phys.
Print Assumptions SessEx.ex_spec_outputs.
Print Assumptions SessEx.ex_final_orders.
Print Assumptions SessEx.X_rel.
Print Assumptions SessEx.ex_torn_put.
