(* PowerLoss.v -- properties C06 "synced writes survive power loss through rollover, compaction and
   recovery" and C09 "a cleanly closed database is a durable checkpoint" for the database model (DB.v)
   instantiated with the flat reference index.

   THE POWER-LOSS MODEL.  The history [es] is the list of ALL file-system events issued
   since a disk [d0] whose content is entirely durable.  Events are of three kinds ([event_kinds]):
     dir_event e          ECreate, ERename, ERemove: durable and ordered as issued, never lost;
     data_file e = Some f a write / truncation of the DATA of file f (EHeader f, EAppend -> the segment
                          file, ETrunc f, EIndex -> FMain, EGobSeg -> the side file, EGobIndex, EGobDb);
     sync_file e = Some f ESync f.
   [pl L d es L' img]  (inductive): with [L] the set of files that have already lost a write, the events
   [es] are issued on top of the durable content [d]; [img] is a directory the file system may show
   after the power failure, [L'] the files that have lost a write.  Per event:
     pl_keep   the event reaches the disk; for a data event of f, and for ESync f, this requires that f
               has not lost a write before (the durable content of a file is a PREFIX of the writes
               issued on it; data followed by a Sync of its file is durable);
     pl_drop   a data event is lost (the file is added to L: all its later writes are lost too);
     pl_tear   an append is cut: only the first c bytes, 0 < c < size, reach the file ([torn] of
               DBProofsCrash.v); the file counts as having lost a write.
   Directory events and Syncs cannot be dropped (no constructor).  A file is identified by its NAME:
   ERemove f / ERename f _ make the name forget its pending loss ([forget]: the pending data is gone with
   the file; a file created later under the same name is a new file).  Nothing else is reset: creating
   a file that exists does not truncate it.  Segment names are never reused (sequence ids are fresh), so
   for segment files "name" and "file" coincide.
   Executable forms: [pl_exec] (one choice Keep | Drop | Tear c per event; [pl_exec_sound]) and the
   function of the task statement, [pl_apply drop es d0] with the admissibility predicate [pl_ok]
   (a) (b) (c); [pl_ok_image]: every admissible [drop] is an image of [pl] (which admits more images:
   torn appends, re-created names), so all theorems below hold for [pl_apply] as well.
   Abstracted: no reordering of the writes of ONE file (prefix semantics, as specified); the content of
   *.bac files and of overflow.pix is not modelled by DB.v at all (names only).

   WHAT AN IMAGE HAS IN COMMON WITH THE REAL DISK.  [Agree L d img]: the image agrees with
   the real disk on every file that has not lost a write: segment file proper (seg_core), side file,
   main.pix, index.pmt, db.pmt; and always on the directory structure, the lock file and the *.bac
   names.  [pl_agree]: preserved by every event, whatever the history.

   THE SYNC DISCIPLINE: "Durable".  A property of the HISTORY ALONE, the
   run of a three-rule automaton [dur_step] whose state [u : option (id, seq)] is the one segment file
   that may hold unflushed data:
     - data may be written to a segment file only if no OTHER segment file is unflushed;
     - ESync of the unflushed segment file clears the state;
     - every event that is not [quiet] (creation / removal / rename of a segment file, of the lock file,
       anything that changes the *.bac names) requires that NO segment file is unflushed.
   [Durable es := dur None es <> None].  It says: at every instant at most one segment file has appends
   that are not followed by a Sync, and a segment file is created or removed (compaction!) only when
   every append issued so far is flushed.  It is inductive over events by construction; that the
   operations keep it needs the link to the in-memory state
     DurM u m := u = Some x -> x is the current segment of m and it is not sealed (sm_full = false),
   and [put_dur], [delete_dur], [sync_dur], [pick_dur], [cstep_dur] (from [seal_dur], [wr_dur],
   [do_sync_dur], [remove_segment_dur]) show, on Inv (+ CInv, room) states, by going through the events
   each operation emits: the automaton accepts the events and DurM holds again; after db_sync (or any
   Put / Delete with p_sync) the state is None: nothing is pending.  These are the places where the
   flushes of DB.v matter: the Sync in [seal] (rollover and pick), in [remove_segment] and in [do_sync].

   THE REDUCTION [pl_reduce] / [pl_is_crash_image]: for a history that keeps the discipline, every
   power-loss image is either complete on all segment files, or it coincides, on everything a recovery
   looks at ([Same]: segment files proper, lock, *.bac names), with a PROCESS-CRASH image
   ([crash_image] of DBProofsCrash.v) of the same history, namely the crash taken at the first write to
   a segment file that was lost ([frozen]: after that instant nothing a recovery looks at can change,
   because every later Sync, rollover or removal would be inadmissible).  Hence C06 follows from the
   process-crash theorems C03 for every kind of step.

   THE HISTORIES of the theorems ([xrun]): Put / Delete / Sync and the compaction micro-steps pick / step
   interleaved in any way, from a state whose disk is durable, e.g. a freshly created database or the state
   C09 ends in; run-time side conditions [room], [MetaOK] (for the pick) as in the other files.
   NOT COVERED HERE (PowerLoss2.v does): histories that contain a recovery (db_open on a locked directory)
   between the durable starting point and the power failure: recovery renames files while the newest
   segment may hold unflushed data, which the automaton (rightly: the *.bac names change) does not accept. *)
From Coq Require Import ZArith Lia ZifyN ZifyNat ZifyBool Permutation.
From Pogreb Require Import Base BaseLemmas Crc Bytes Record RecordProofs Flat Spec DB DBInv DBLemmas
  DBProofsOps DBMeta DBProofsRecovery DBProofsCompact DBProofsCrash.
Ltac Zify.zify_post_hook ::= Z.div_mod_to_equations.

Local Notation disk := (@DB.disk flat).
Local Notation st := (@DB.st flat).
Local Notation mem := (@DB.mem flat).
Local Notation fsev := (@DB.fsev flat).
Local Notation run_evs := (fold_left (apply_ev flat_ops)).


Definition dir_event (e : fsev) : bool :=
  match e with ECreate _ | ERename _ _ | ERemove _ => true | _ => false end.

Definition data_file (e : fsev) : option fname :=
  match e with
  | EHeader f => Some f
  | EAppend id seq _ _ => Some (FSeg id seq)
  | ETrunc f _ => Some f
  | EIndex _ => Some FMain
  | EGobSeg id seq _ => Some (FSegMeta id seq)
  | EGobIndex _ => Some FIndexMeta
  | EGobDb _ => Some FDbMeta
  | _ => None
  end.

Definition sync_file (e : fsev) : option fname := match e with ESync f => Some f | _ => None end.

Lemma event_kinds (e : fsev) :
  (dir_event e = true /\ data_file e = None /\ sync_file e = None) \/
  (dir_event e = false /\ data_file e <> None /\ sync_file e = None) \/
  (dir_event e = false /\ data_file e = None /\ sync_file e <> None).
Proof. destruct e; cbn; intuition discriminate. Qed.

Definition fset := fname -> bool.
Definition fnone : fset := fun _ => false.
Definition fadd (f : fname) (L : fset) : fset := fun g => fname_eqb g f || L g.
Definition fdel (f : fname) (L : fset) : fset := fun g => negb (fname_eqb g f) && L g.

Lemma fadd_same f L : fadd f L f = true.
Proof. unfold fadd. rewrite rc_fname_eqb_refl. reflexivity. Qed.
Lemma fadd_other f L g : g <> f -> fadd f L g = L g.
Proof.
  intros H. unfold fadd. destruct (fname_eqb g f) eqn:E; [|reflexivity].
  apply rc_fname_eqb_spec in E. congruence.
Qed.
Lemma fadd_mono f L g : L g = true -> fadd f L g = true.
Proof. intros H. unfold fadd. rewrite H. apply orb_true_r. Qed.
Lemma fadd_false f L g : fadd f L g = false -> L g = false.
Proof. unfold fadd. intros H. apply orb_false_iff in H. apply H. Qed.
Lemma fadd_true f L g : fadd f L g = true -> g = f \/ L g = true.
Proof.
  unfold fadd. intros H. apply orb_true_iff in H. destruct H as [H|H]; [left|right; exact H].
  apply rc_fname_eqb_spec. exact H.
Qed.
Lemma fdel_same f L : fdel f L f = false.
Proof. unfold fdel. rewrite rc_fname_eqb_refl. reflexivity. Qed.
Lemma fdel_other f L g : g <> f -> fdel f L g = L g.
Proof.
  intros H. unfold fdel. destruct (fname_eqb g f) eqn:E; [|reflexivity].
  apply rc_fname_eqb_spec in E. congruence.
Qed.
Lemma fdel_le f L g : fdel f L g = true -> L g = true.
Proof. unfold fdel. intros H. apply andb_true_iff in H. apply H. Qed.

(* a removed (or renamed away) file takes its pending data with it *)
Definition forget (e : fsev) (L : fset) : fset :=
  match e with ERemove f => fdel f L | ERename f _ => fdel f L | _ => L end.

Lemma forget_le e L g : forget e L g = true -> L g = true.
Proof. destruct e; cbn [forget]; try (intros H; exact H); apply fdel_le. Qed.

(* [pl L d es L' img]: starting from the durable content [d], with [L] the files that have already
   lost a write, the events [es] are issued and then the power fails: [img] is what is found
   afterwards and [L'] the files that have lost a write. *)
Inductive pl : fset -> disk -> list fsev -> fset -> disk -> Prop :=
| pl_nil L d : pl L d [] L d
| pl_keep L d e es L' img :
    (forall f, data_file e = Some f -> L f = false) ->
    (forall f, sync_file e = Some f -> L f = false) ->
    pl (forget e L) (apply_ev flat_ops d e) es L' img ->
    pl L d (e :: es) L' img
| pl_drop L d e f es L' img :
    data_file e = Some f ->
    pl (fadd f L) d es L' img ->
    pl L d (e :: es) L' img
| pl_tear L d id seq off r c es L' img :
    L (FSeg id seq) = false -> 0 < c -> c < rsize r ->
    pl (fadd (FSeg id seq) L) (torn d id seq r c) es L' img ->
    pl L d (EAppend id seq off r :: es) L' img.

Lemma pl_app_inv es1 : forall L d es2 L' img,
  pl L d (es1 ++ es2) L' img -> exists L1 d1, pl L d es1 L1 d1 /\ pl L1 d1 es2 L' img.
Proof.
  induction es1 as [|e es1 IH]; intros L d es2 L' img H.
  - exists L, d. split; [apply pl_nil|exact H].
  - rewrite <- app_comm_cons in H.
    inversion H as [|L0 d0 e0 es0 L0' img0 H1 H2 H3|L0 d0 e0 f es0 L0' img0 H1 H3|L0 d0 id seq off r c es0 L0' img0 H1 H2 H2' H3]; subst.
    + destruct (IH _ _ _ _ _ H3) as (L1 & d1 & A & B). exists L1, d1. split; [|exact B].
      apply pl_keep; assumption.
    + destruct (IH _ _ _ _ _ H3) as (L1 & d1 & A & B). exists L1, d1. split; [|exact B].
      eapply pl_drop; eassumption.
    + destruct (IH _ _ _ _ _ H3) as (L1 & d1 & A & B). exists L1, d1. split; [|exact B].
      eapply pl_tear; eassumption.
Qed.

Lemma pl_app es1 : forall L d es2 L1 d1 L' img,
  pl L d es1 L1 d1 -> pl L1 d1 es2 L' img -> pl L d (es1 ++ es2) L' img.
Proof.
  intros L d es2 L1 d1 L' img H. revert es2 L' img.
  induction H as [L d|L d e es L1 d1 H1 H2 H3 IH|L d e f es L1 d1 H1 H3 IH|L d id seq off r c es L1 d1 H1 H2 H2' H3 IH];
    intros es2 L' img H'.
  - exact H'.
  - rewrite <- app_comm_cons. apply pl_keep; [exact H1|exact H2|apply IH; exact H'].
  - rewrite <- app_comm_cons. eapply pl_drop; [exact H1|apply IH; exact H'].
  - rewrite <- app_comm_cons. apply (pl_tear _ _ _ _ _ _ c); [exact H1|exact H2|exact H2'|apply IH; exact H'].
Qed.

Lemma pl_full es : forall L d, (forall f, L f = false) ->
  exists L', pl L d es L' (run_evs es d) /\ forall f, L' f = false.
Proof.
  induction es as [|e es IH]; intros L d HL; [exists L; split; [apply pl_nil|exact HL]|].
  destruct (IH (forget e L) (apply_ev flat_ops d e)) as (L' & H & HL').
  { intros f. destruct (forget e L f) eqn:E; [|reflexivity]. apply forget_le in E. rewrite HL in E. discriminate. }
  exists L'. split; [|exact HL']. apply pl_keep; [intros f _; apply HL|intros f _; apply HL|exact H].
Qed.

(* executable form: one choice per event *)
Inductive plc := Keep | Drop | Tear (c : N).

Fixpoint pl_exec (cs : list plc) (L : fset) (d : disk) (es : list fsev) : option (fset * disk) :=
  match cs with
  | [] => match es with [] => Some (L, d) | _ :: _ => None end
  | c :: cs' =>
    match es with
    | [] => None
    | e :: es' =>
      match c with
      | Keep =>
          if match data_file e with Some f => L f | None => false end then None
          else if match sync_file e with Some f => L f | None => false end then None
          else pl_exec cs' (forget e L) (apply_ev flat_ops d e) es'
      | Drop =>
          match data_file e with
          | Some f => pl_exec cs' (fadd f L) d es'
          | None => None
          end
      | Tear n =>
          match e with
          | EAppend id seq off r =>
              if L (FSeg id seq) then None
              else if negb ((0 <? n) && (n <? rsize r)) then None
              else pl_exec cs' (fadd (FSeg id seq) L) (torn d id seq r n) es'
          | _ => None
          end
      end
    end
  end.

Lemma pl_exec_sound cs : forall L d es L' img,
  pl_exec cs L d es = Some (L', img) -> pl L d es L' img.
Proof.
  induction cs as [|c cs IH]; intros L d es L' img H.
  - destruct es; [|discriminate H]. cbn [pl_exec] in H. inversion H; subst. apply pl_nil.
  - destruct es as [|e es]; [discriminate H|]. destruct c as [| |c].
    + cbn [pl_exec] in H.
      destruct (match data_file e with Some f => L f | None => false end) eqn:E1; [discriminate|].
      destruct (match sync_file e with Some f => L f | None => false end) eqn:E2; [discriminate|].
      apply pl_keep; [| |apply IH; exact H].
      * intros f Hf. rewrite Hf in E1. exact E1.
      * intros f Hf. rewrite Hf in E2. exact E2.
    + cbn [pl_exec] in H. destruct (data_file e) as [f|] eqn:E1; [|discriminate].
      eapply pl_drop; [exact E1|apply IH; exact H].
    + destruct e as [f|f|id seq off r|i|id seq m|i|sd|f n|f g|f|f]; try discriminate H.
      cbn [pl_exec] in H. destruct (L (FSeg id seq)) eqn:E1; [discriminate|].
      destruct ((0 <? c) && (c <? rsize r)) eqn:E2; [|discriminate]. cbn [negb] in H.
      apply andb_true_iff in E2. destruct E2 as [A B].
      apply (pl_tear _ _ _ _ _ _ c); [exact E1|apply N.ltb_lt; exact A|apply N.ltb_lt; exact B|apply IH; exact H].
Qed.

Definition img_of (r : option (fset * disk)) : disk := match r with Some (_, img) => img | None => disk0 end.
Definition is_some {A} (r : option A) : bool := match r with Some _ => true | None => false end.

Lemma exec_image cs L (d : disk) es : is_some (pl_exec cs L d es) = true ->
  exists L', pl L d es L' (img_of (pl_exec cs L d es)).
Proof.
  intros H. destruct (pl_exec cs L d es) as [[L' img]|] eqn:E; [|discriminate H].
  exists L'. apply (pl_exec_sound cs). exact E.
Qed.

(* the same model as a function: event number i is applied unless [drop i] *)
Fixpoint pl_apply (drop : nat -> bool) (es : list fsev) (d : disk) : disk :=
  match es with
  | [] => d
  | e :: es' => pl_apply (fun i => drop (S i)) es' (if drop O then d else apply_ev flat_ops d e)
  end.

(* admissibility: (a) only data events are dropped; (b) per file, the dropped data events are a
   suffix of its data events; (c) a data event followed by a Sync of its file is not dropped *)
Definition pl_ok (drop : nat -> bool) (es : list fsev) : Prop :=
  (forall i e, nth_error es i = Some e -> drop i = true -> data_file e <> None) /\
  (forall i j e e' f, (i < j)%nat -> nth_error es i = Some e -> nth_error es j = Some e' ->
     data_file e = Some f -> data_file e' = Some f -> drop i = true -> drop j = true) /\
  (forall i j e f, (i < j)%nat -> nth_error es i = Some e -> nth_error es j = Some (ESync f) ->
     data_file e = Some f -> drop i = false).

Lemma pl_ok_tail drop e es : pl_ok drop (e :: es) -> pl_ok (fun i => drop (S i)) es.
Proof.
  intros (A & B & C). split; [|split].
  - intros i x Hi. apply (A (S i) x). exact Hi.
  - intros i j x y f Hij Hi Hj. apply (B (S i) (S j) x y f); [lia|exact Hi|exact Hj].
  - intros i j x f Hij Hi Hj. apply (C (S i) (S j) x f); [lia|exact Hi|exact Hj].
Qed.

(* every admissible [drop] yields an image of the relational model (which admits more: torn appends,
   and files that are removed and created again under the same name) *)
Lemma pl_ok_pl es : forall drop L (d : disk),
  pl_ok drop es ->
  (forall f, L f = true -> forall j e, nth_error es j = Some e ->
     (data_file e = Some f -> drop j = true) /\ e <> ESync f) ->
  exists L', pl L d es L' (pl_apply drop es d).
Proof.
  induction es as [|e es IH]; intros drop L d Hok HL; [exists L; apply pl_nil|].
  pose proof (pl_ok_tail drop e es Hok) as Hok'. destruct Hok as (A & B & C). cbn [pl_apply].
  destruct (drop O) eqn:E0.
  - destruct (data_file e) as [f|] eqn:Ef; [|exfalso; exact (A O e eq_refl E0 Ef)].
    destruct (IH (fun i => drop (S i)) (fadd f L) d Hok') as (L' & H).
    + intros g Hg j x Hj. apply fadd_true in Hg. destruct Hg as [->|Hg].
      * split.
        -- intros Hx. apply (B O (S j) e x f); [lia|reflexivity|exact Hj|exact Ef|exact Hx|exact E0].
        -- intros ->. pose proof (C O (S j) e f (Nat.lt_0_succ j) eq_refl Hj Ef) as H. congruence.
      * apply (HL g Hg (S j) x). exact Hj.
    + exists L'. apply (pl_drop L d e f); assumption.
  - destruct (IH (fun i => drop (S i)) (forget e L) (apply_ev flat_ops d e) Hok') as (L' & H).
    + intros g Hg j x Hj. apply (HL g (forget_le _ _ _ Hg) (S j) x). exact Hj.
    + exists L'. apply pl_keep; [| |exact H].
      * intros f Hf. destruct (L f) eqn:El; [|reflexivity].
        destruct (HL f El O e eq_refl) as [H1 _]. rewrite (H1 Hf) in E0. discriminate.
      * intros f Hf. destruct (L f) eqn:El; [|reflexivity].
        destruct (HL f El O e eq_refl) as [_ H2]. destruct e; try discriminate Hf. inversion Hf; subst. contradiction.
Qed.

Corollary pl_ok_image drop es (d : disk) : pl_ok drop es -> exists L', pl fnone d es L' (pl_apply drop es d).
Proof. intros H. apply pl_ok_pl; [exact H|]. intros f Hf. discriminate Hf. Qed.

Definition seg_agree (L : fset) (f f' : dseg) : Prop :=
  f_id f' = f_id f /\ f_seq f' = f_seq f /\
  (L (FSeg (f_id f) (f_seq f)) = false -> seg_core f' = seg_core f) /\
  (L (FSegMeta (f_id f) (f_seq f)) = false -> f_meta f' = f_meta f).

Definition Agree (L : fset) (d img : disk) : Prop :=
  Forall2 (seg_agree L) (d_segs d) (d_segs img) /\
  (L FMain = false -> d_index img = d_index d) /\
  d_overflow img = d_overflow d /\
  (L FIndexMeta = false -> d_imeta img = d_imeta d) /\
  (L FDbMeta = false -> d_dbmeta img = d_dbmeta d) /\
  d_lock img = d_lock d /\ d_bac img = d_bac d.

Lemma seg_agree_refl L f : seg_agree L f f.
Proof. repeat split. Qed.

Lemma F2_refl {A} (R : A -> A -> Prop) l : (forall a, R a a) -> Forall2 R l l.
Proof. intros H. induction l; constructor; auto. Qed.

Lemma Agree_refl L d : Agree L d d.
Proof. split; [apply F2_refl; apply seg_agree_refl|]. repeat split. Qed.

Lemma F2_map2 {A A' B B'} (R : A -> A' -> Prop) (R' : B -> B' -> Prop) (F : A -> B) (G : A' -> B') l l' :
  Forall2 R l l' -> (forall a b, R a b -> R' (F a) (G b)) -> Forall2 R' (map F l) (map G l').
Proof. intros H HF. induction H as [|a b l l' Hab H IH]; cbn [map]; constructor; auto. Qed.

Lemma F2_filter {A} (R R' : A -> A -> Prop) (p q : A -> bool) l l' :
  Forall2 R l l' -> (forall a b, R a b -> p a = q b) -> (forall a b, R a b -> p a = true -> R' a b) ->
  Forall2 R' (filter p l) (filter q l').
Proof.
  intros H Hpq HR. induction H as [|a b l l' Hab H IH]; cbn [filter]; [constructor|].
  rewrite <- (Hpq a b Hab). destruct (p a) eqn:E; [constructor; auto|exact IH].
Qed.

Lemma seg_agree_is_seg L id seq f f' : seg_agree L f f' -> is_seg id seq f' = is_seg id seq f.
Proof. intros (A & B & _). unfold is_seg. rewrite A, B. reflexivity. Qed.

Lemma is_seg_true id seq f : is_seg id seq f = true -> f_id f = id /\ f_seq f = seq.
Proof. unfold is_seg. intros H. apply andb_true_iff in H. destruct H as [A B]. split; apply N.eqb_eq; assumption. Qed.

Lemma is_seg_false id seq f : is_seg id seq f = false -> FSeg (f_id f) (f_seq f) <> FSeg id seq /\ FSegMeta (f_id f) (f_seq f) <> FSegMeta id seq.
Proof.
  unfold is_seg. intros H. split; intros E; inversion E; subst; rewrite !N.eqb_refl in H; discriminate.
Qed.

Lemma seg_agree_weaken (L L' : fset) f f' :
  (L' (FSeg (f_id f) (f_seq f)) = false -> L (FSeg (f_id f) (f_seq f)) = false) ->
  (L' (FSegMeta (f_id f) (f_seq f)) = false -> L (FSegMeta (f_id f) (f_seq f)) = false) ->
  seg_agree L f f' -> seg_agree L' f f'.
Proof. intros H1 H2 (A & B & C & D). split; [exact A|]. split; [exact B|]. split; auto. Qed.

(* one and the same update of the matching segment files, on both sides *)
Lemma upd_both (L L' : fset) id seq (g : dseg -> dseg) l l' :
  Forall2 (seg_agree L) l l' ->
  (forall f f', seg_agree L f f' -> is_seg id seq f = true -> seg_agree L' (g f) (g f')) ->
  (forall f f', seg_agree L f f' -> is_seg id seq f = false -> seg_agree L' f f') ->
  Forall2 (seg_agree L') (map (fun s => if is_seg id seq s then g s else s) l)
                         (map (fun s => if is_seg id seq s then g s else s) l').
Proof.
  intros H H1 H2. apply (F2_map2 _ _ _ _ _ _ H). intros f f' Hff.
  rewrite (seg_agree_is_seg _ id seq _ _ Hff). destruct (is_seg id seq f) eqn:E; auto.
Qed.

(* an update of the real disk only (the event is lost) *)
Lemma upd_left (L L' : fset) id seq (g : dseg -> dseg) l l' :
  Forall2 (seg_agree L) l l' ->
  (forall f f', seg_agree L f f' -> is_seg id seq f = true -> seg_agree L' (g f) f') ->
  (forall f f', seg_agree L f f' -> is_seg id seq f = false -> seg_agree L' f f') ->
  Forall2 (seg_agree L') (map (fun s => if is_seg id seq s then g s else s) l) l'.
Proof.
  intros H H1 H2. rewrite <- (map_id l'). apply (F2_map2 _ _ _ (fun x => x) _ _ H). intros f f' Hff.
  destruct (is_seg id seq f) eqn:E; auto.
Qed.

(* an update of the image only (a torn write) *)
Lemma upd_right (L L' : fset) id seq (g : dseg -> dseg) l l' :
  Forall2 (seg_agree L) l l' ->
  (forall f f', seg_agree L f f' -> is_seg id seq f = true -> seg_agree L' f (g f')) ->
  (forall f f', seg_agree L f f' -> is_seg id seq f = false -> seg_agree L' f f') ->
  Forall2 (seg_agree L') l (map (fun s => if is_seg id seq s then g s else s) l').
Proof.
  intros H H1 H2. rewrite <- (map_id l). apply (F2_map2 _ _ (fun x => x) _ _ _ H). intros f f' Hff.
  rewrite (seg_agree_is_seg _ id seq _ _ Hff). destruct (is_seg id seq f) eqn:E; auto.
Qed.

(* updates whose result is a function of the file proper and that leave the side file alone *)
Definition core_fun (g : dseg -> dseg) : Prop :=
  (forall s, f_id (g s) = f_id s /\ f_seq (g s) = f_seq s /\ f_meta (g s) = f_meta s) /\
  (forall s s', seg_core s' = seg_core s -> seg_core (g s') = seg_core (g s)).
(* updates of the side file only, to a fixed content *)
Definition meta_fun (g : dseg -> dseg) : Prop :=
  (forall s, f_id (g s) = f_id s /\ f_seq (g s) = f_seq s /\ seg_core (g s) = seg_core s) /\
  (forall s s', f_meta (g s') = f_meta (g s)).

Lemma core_fun_append off r : core_fun (append_seg off r).
Proof.
  split; [intros s; repeat split|]. intros s s' E. apply seg_core_inv in E.
  destruct E as (E1 & E2 & E3 & E4 & E5 & _). unfold seg_core, append_seg. cbn [f_id f_seq f_hdr f_recs f_tail].
  congruence.
Qed.

Definition hdr_on (s : dseg) : dseg :=
  {| f_id := f_id s; f_seq := f_seq s; f_hdr := true; f_recs := f_recs s; f_tail := f_tail s; f_meta := f_meta s |}.

Lemma core_fun_hdr : core_fun hdr_on.
Proof.
  split; [intros s; repeat split|]. intros s s' E. apply seg_core_inv in E.
  destruct E as (E1 & E2 & E3 & E4 & E5 & _). unfold seg_core, hdr_on. cbn [f_id f_seq f_hdr f_recs f_tail].
  congruence.
Qed.

Lemma core_fun_trunc n : core_fun (trunc_seg n).
Proof.
  split.
  - intros s. unfold trunc_seg. destruct (negb (f_hdr s)); [repeat split|].
    destruct (trunc_recs header_size n (f_recs s)) as [keep e]. repeat split.
  - intros s s' E. apply seg_core_inv in E. destruct E as (E1 & E2 & E3 & E4 & E5 & _).
    unfold trunc_seg. rewrite E3, E4, E5. destruct (negb (f_hdr s)).
    + unfold seg_core. congruence.
    + destruct (trunc_recs header_size n (f_recs s)) as [keep e].
      unfold seg_core. cbn [f_id f_seq f_hdr f_recs f_tail]. congruence.
Qed.

Lemma core_fun_torn r c :
  core_fun (fun f => {| f_id := f_id f; f_seq := f_seq f; f_hdr := f_hdr f; f_recs := f_recs f;
                        f_tail := f_tail f ++ ntake c (encode_rec r); f_meta := f_meta f |}).
Proof.
  split; [intros s; repeat split|]. intros s s' E. apply seg_core_inv in E.
  destruct E as (E1 & E2 & E3 & E4 & E5 & _). unfold seg_core. cbn [f_id f_seq f_hdr f_recs f_tail]. congruence.
Qed.

Lemma meta_fun_set x : meta_fun (set_fmeta x).
Proof. split; [intros s; repeat split|reflexivity]. Qed.

Lemma core_both (L : fset) id seq g l l' :
  core_fun g -> L (FSeg id seq) = false ->
  Forall2 (seg_agree L) l l' ->
  Forall2 (seg_agree L) (map (fun s => if is_seg id seq s then g s else s) l)
                        (map (fun s => if is_seg id seq s then g s else s) l').
Proof.
  intros (G1 & G2) HL H. apply (upd_both L L id seq g l l' H); [|auto].
  intros f f' (A & B & C & D) Hs. destruct (is_seg_true _ _ _ Hs) as [Ei Eq].
  destruct (G1 f) as (a1 & a2 & a3). destruct (G1 f') as (b1 & b2 & b3).
  split; [congruence|]. split; [congruence|]. rewrite a1, a2. split.
  - intros _. apply G2. apply C. rewrite Ei, Eq. exact HL.
  - intros H0. rewrite a3, b3. apply D. exact H0.
Qed.

Lemma meta_both (L L' : fset) id seq g l l' :
  meta_fun g ->
  (forall f, f <> FSegMeta id seq -> L' f = false -> L f = false) ->
  Forall2 (seg_agree L) l l' ->
  Forall2 (seg_agree L') (map (fun s => if is_seg id seq s then g s else s) l)
                         (map (fun s => if is_seg id seq s then g s else s) l').
Proof.
  intros (G1 & G2) HL H. apply (upd_both L L' id seq g l l' H).
  - intros f f' (A & B & C & D) Hs.
    destruct (G1 f) as (a1 & a2 & a3). destruct (G1 f') as (b1 & b2 & b3).
    split; [congruence|]. split; [congruence|]. rewrite a1, a2. split.
    + intros H0. rewrite a3, b3. apply C. apply HL; [discriminate|exact H0].
    + intros _. apply G2.
  - intros f f' Hff Hs. destruct (is_seg_false _ _ _ Hs) as [N1 N2].
    apply (seg_agree_weaken L L' f f'); [apply HL; discriminate|apply HL; exact N2|exact Hff].
Qed.

(* the event is lost: the file it writes is marked *)
Lemma core_left (L : fset) id seq g l l' :
  (forall s, f_id (g s) = f_id s /\ f_seq (g s) = f_seq s /\ f_meta (g s) = f_meta s) ->
  Forall2 (seg_agree L) l l' ->
  Forall2 (seg_agree (fadd (FSeg id seq) L)) (map (fun s => if is_seg id seq s then g s else s) l) l'.
Proof.
  intros G1 H. apply (upd_left L _ id seq g l l' H).
  - intros f f' (A & B & C & D) Hs. destruct (is_seg_true _ _ _ Hs) as [Ei Eq].
    destruct (G1 f) as (a1 & a2 & a3). split; [congruence|]. split; [congruence|]. rewrite a1, a2, a3. split.
    + rewrite Ei, Eq, fadd_same. discriminate.
    + intros H0. apply D. apply fadd_false in H0. exact H0.
  - intros f f' Hff Hs. apply (seg_agree_weaken L _ f f'); [apply fadd_false|apply fadd_false|exact Hff].
Qed.

Lemma meta_left (L : fset) id seq g l l' :
  (forall s, f_id (g s) = f_id s /\ f_seq (g s) = f_seq s /\ seg_core (g s) = seg_core s) ->
  Forall2 (seg_agree L) l l' ->
  Forall2 (seg_agree (fadd (FSegMeta id seq) L)) (map (fun s => if is_seg id seq s then g s else s) l) l'.
Proof.
  intros G1 H. apply (upd_left L _ id seq g l l' H).
  - intros f f' (A & B & C & D) Hs. destruct (is_seg_true _ _ _ Hs) as [Ei Eq].
    destruct (G1 f) as (a1 & a2 & a3). split; [congruence|]. split; [congruence|]. rewrite a1, a2, a3. split.
    + intros H0. apply C. apply fadd_false in H0. exact H0.
    + rewrite Ei, Eq, fadd_same. discriminate.
  - intros f f' Hff Hs. apply (seg_agree_weaken L _ f f'); [apply fadd_false|apply fadd_false|exact Hff].
Qed.

Lemma agree_weaken_all (L L' : fset) l l' :
  (forall f, L' f = false -> L f = false) -> Forall2 (seg_agree L) l l' -> Forall2 (seg_agree L') l l'.
Proof. intros HL H. apply (Forall2_imp _ _ _ _ H). intros f f'. apply seg_agree_weaken; apply HL. Qed.

Ltac dproj := cbn [apply_ev file_removed set_segs set_orphans set_index set_overflow set_imeta set_dbmeta set_lock
                   set_bac upd_seg d_segs d_orphans d_index d_overflow d_imeta d_dbmeta d_lock d_bac forget].

Lemma fdel_false_other f L g : g <> f -> fdel f L g = false -> L g = false.
Proof. intros H E. rewrite fdel_other in E by exact H. exact E. Qed.

Lemma weaken_segs (L L' : fset) l l' :
  (forall i q, L' (FSeg i q) = false -> L (FSeg i q) = false) ->
  (forall i q, L' (FSegMeta i q) = false -> L (FSegMeta i q) = false) ->
  Forall2 (seg_agree L) l l' -> Forall2 (seg_agree L') l l'.
Proof. intros H1 H2 H. apply (Forall2_imp _ _ _ _ H). intros f f'. apply seg_agree_weaken; [apply H1|apply H2]. Qed.

Definition is_segname (f : fname) : bool := match f with FSeg _ _ | FSegMeta _ _ => true | _ => false end.

(* a file other than a segment file or a side file disappears / is marked *)
Lemma weaken_fdel (L : fset) f l l' :
  is_segname f = false -> Forall2 (seg_agree L) l l' -> Forall2 (seg_agree (fdel f L)) l l'.
Proof.
  intros Hf. apply weaken_segs; intros i q; apply fdel_false_other; intros E; subst f; discriminate.
Qed.
Lemma weaken_fadd (L : fset) f l l' :
  Forall2 (seg_agree L) l l' -> Forall2 (seg_agree (fadd f L)) l l'.
Proof. apply weaken_segs; intros i q; apply fadd_false. Qed.

Lemma removed_both L f (d img : disk) :
  Agree L d img -> Agree (fdel f L) (file_removed f d) (file_removed f img).
Proof.
  intros (A1 & A2 & A3 & A4 & A5 & A6 & A7).
  assert (Hrest : forall g, g <> f -> fdel f L g = false -> L g = false) by (intros g; apply fdel_false_other).
  (* the segment files by kind of file; the other components: the one of f is set to the same value on both
     sides, the others are as before *)
  destruct f as [id seq|id seq| | | | | |b]; unfold Agree; dproj;
    (split; [|repeat split; try assumption; try (rewrite A7; reflexivity);
              intros H; first [apply A2|apply A4|apply A5]; revert H; apply Hrest; discriminate]).
  (* files other than a segment file or its side file: no segment file is concerned *)
  3-8: apply weaken_fdel; [reflexivity|exact A1].
  - apply (F2_filter (seg_agree L) _ _ _ _ _ A1).
    + intros f f' Hff. rewrite (seg_agree_is_seg _ id seq _ _ Hff). reflexivity.
    + intros f f' Hff Hs. apply negb_true_iff in Hs. destruct (is_seg_false _ _ _ Hs) as [N1 N2].
      apply (seg_agree_weaken L _ f f'); [apply Hrest; exact N1|apply Hrest; discriminate|exact Hff].
  - apply (meta_both L _ id seq _ _ _ (meta_fun_set GAbsent)); [|exact A1].
    intros f Hne. apply Hrest. exact Hne.
Qed.

Lemma agree_keep L (d img : disk) e :
  Agree L d img -> (forall f, data_file e = Some f -> L f = false) ->
  Agree (forget e L) (apply_ev flat_ops d e) (apply_ev flat_ops img e).
Proof.
  intros HA Hk. pose proof HA as (A1 & A2 & A3 & A4 & A5 & A6 & A7).
  destruct e as [f|f|id seq off r|i|id seq m|i|sd|f n|f g|f|f].
  - destruct f as [id seq|id seq| | | | | |b]; unfold Agree; dproj;
      try (split; [exact A1|]; repeat split; auto; congruence).
    + split; [|repeat split; auto].
      apply Forall2_app; [exact A1|]. constructor; [apply seg_agree_refl|constructor].
    + split; [|repeat split; auto].
      apply (meta_both L L id seq _ _ _ (meta_fun_set GPartial)); [auto|exact A1].
  - destruct f as [id seq|id seq| | | | | |b]; try exact HA.
    unfold Agree; dproj. split; [|repeat split; auto].
    apply (core_both L id seq hdr_on _ _ core_fun_hdr); [apply Hk; reflexivity|exact A1].
  - unfold Agree; dproj. split; [|repeat split; auto].
    apply (core_both L id seq _ _ _ (core_fun_append off r)); [apply Hk; reflexivity|exact A1].
  - unfold Agree; dproj. split; [exact A1|]. repeat split; auto.
  - unfold Agree; dproj. split; [|repeat split; auto].
    apply (meta_both L L id seq _ _ _ (meta_fun_set (GOk m))); [auto|exact A1].
  - unfold Agree; dproj. split; [exact A1|]. repeat split; auto.
  - unfold Agree; dproj. split; [exact A1|]. repeat split; auto.
  - destruct f as [id seq|id seq| | | | | |b]; try exact HA; unfold Agree; dproj.
    + split; [|repeat split; auto].
      apply (core_both L id seq _ _ _ (core_fun_trunc n)); [apply Hk; reflexivity|exact A1].
    + split; [|repeat split; auto].
      apply (meta_both L L id seq _ _ _ (meta_fun_set GPartial)); [auto|exact A1].
    + split; [exact A1|]. repeat split; auto.
    + split; [exact A1|]. repeat split; auto.
  - destruct (removed_both L f d img HA) as (B1 & B2 & B3 & B4 & B5 & B6 & B7).
    unfold Agree. cbn [apply_ev forget]. unfold set_bac at 1 3.
    cbn [d_segs d_index d_overflow d_imeta d_dbmeta d_lock d_bac].
    split; [exact B1|]. split; [exact B2|]. split; [exact B3|]. split; [exact B4|]. split; [exact B5|].
    split; [exact B6|]. rewrite B7. reflexivity.
  - apply removed_both. exact HA.
  - exact HA.
Qed.

Lemma agree_drop L (d img : disk) e f :
  Agree L d img -> data_file e = Some f -> Agree (fadd f L) (apply_ev flat_ops d e) img.
Proof.
  intros HA Hf. pose proof HA as (A1 & A2 & A3 & A4 & A5 & A6 & A7).
  assert (Hw : forall g, fadd f L g = false -> L g = false) by (intros g; apply fadd_false).
  assert (HW : Agree (fadd f L) d img).
  { split; [apply weaken_fadd; exact A1|]. repeat split; auto. }
  destruct e as [f0|f0|id seq off r|i|id seq m|i|sd|f0 n|f0 g|f0|f0]; try discriminate Hf;
    cbn [data_file] in Hf; inversion Hf; subst f; clear Hf.
  - destruct f0 as [id seq|id seq| | | | | |b]; try exact HW.
    unfold Agree; dproj. split; [|repeat split; auto].
    apply (core_left L id seq hdr_on); [intros s; repeat split|exact A1].
  - unfold Agree; dproj. split; [|repeat split; auto].
    apply (core_left L id seq (append_seg off r)); [intros s; repeat split|exact A1].
  - unfold Agree; dproj. split; [apply weaken_fadd; exact A1|].
    split; [rewrite fadd_same; discriminate|]. repeat split; auto.
  - unfold Agree; dproj. split; [|repeat split; auto].
    apply (meta_left L id seq (set_fmeta (GOk m))); [intros s; repeat split|exact A1].
  - unfold Agree; dproj. split; [apply weaken_fadd; exact A1|].
    split; [auto|]. split; [auto|]. split; [rewrite fadd_same; discriminate|]. repeat split; auto.
  - unfold Agree; dproj. split; [apply weaken_fadd; exact A1|].
    split; [auto|]. split; [auto|]. split; [auto|]. split; [rewrite fadd_same; discriminate|]. repeat split; auto.
  - destruct f0 as [id seq|id seq| | | | | |b]; try exact HW; unfold Agree; dproj.
    + split; [|repeat split; auto].
      apply (core_left L id seq (trunc_seg n)); [apply core_fun_trunc|exact A1].
    + split; [|repeat split; auto].
      apply (meta_left L id seq (set_fmeta GPartial)); [intros s; repeat split|exact A1].
    + split; [apply weaken_fadd; exact A1|].
      split; [auto|]. split; [auto|]. split; [rewrite fadd_same; discriminate|]. repeat split; auto.
    + split; [apply weaken_fadd; exact A1|].
      split; [auto|]. split; [auto|]. split; [auto|]. split; [rewrite fadd_same; discriminate|]. repeat split; auto.
Qed.

Lemma agree_tear L (d img : disk) id seq off r c :
  Agree L d img ->
  Agree (fadd (FSeg id seq) L) (apply_ev flat_ops d (EAppend id seq off r)) (torn img id seq r c).
Proof.
  intros HA. pose proof HA as (A1 & A2 & A3 & A4 & A5 & A6 & A7).
  assert (Hw : forall g, fadd (FSeg id seq) L g = false -> L g = false) by (intros g; apply fadd_false).
  unfold Agree, torn; dproj. split; [|repeat split; auto].
  apply (upd_right (fadd (FSeg id seq) L) _ id seq).
  - apply (core_left L id seq (append_seg off r)); [intros s; repeat split|exact A1].
  - intros f f' (B1 & B2 & B3 & B4) Hs. destruct (is_seg_true _ _ _ Hs) as [Ei Eq].
    split; [exact B1|]. split; [exact B2|]. split; [|exact B4].
    rewrite Ei, Eq, fadd_same. discriminate.
  - auto.
Qed.

Theorem pl_agree L img es L' img' :
  pl L img es L' img' -> forall d, Agree L d img -> Agree L' (run_evs es d) img'.
Proof.
  intros H. induction H as [L d0|L d0 e es L1 d1 H1 H2 H3 IH|L d0 e f es L1 d1 H1 H3 IH|L d0 id seq off r c es L1 d1 H1 H2 H2' H3 IH];
    intros d HA; cbn [fold_left].
  - exact HA.
  - apply IH. apply agree_keep; assumption.
  - apply IH. apply (agree_drop L d d0 e f HA H1).
  - apply IH. apply agree_tear. exact HA.
Qed.


Definition seg_data (e : fsev) : option (N * N) :=
  match e with
  | EHeader (FSeg i q) | ETrunc (FSeg i q) _ => Some (i, q)
  | EAppend i q _ _ => Some (i, q)
  | _ => None
  end.

Definition quiet (e : fsev) : bool := negb (touches_log e) && negb (touches_lock e) && negb (touches_bac e).

Definition pair_eqb (a b : N * N) : bool := (fst a =? fst b) && (snd a =? snd b).
Lemma pair_eqb_eq a b : pair_eqb a b = true <-> a = b.
Proof.
  destruct a as [a1 a2], b as [b1 b2]. unfold pair_eqb. cbn [fst snd]. rewrite andb_true_iff, !N.eqb_eq.
  split; [intros [-> ->]; reflexivity|intros E; inversion E; auto].
Qed.
Lemma pair_eqb_refl a : pair_eqb a a = true.
Proof. apply pair_eqb_eq. reflexivity. Qed.

Definition dur_step (u : option (N * N)) (e : fsev) : option (option (N * N)) :=
  match seg_data e with
  | Some x => match u with
              | None => Some (Some x)
              | Some y => if pair_eqb x y then Some (Some x) else None
              end
  | None =>
    match e with
    | ESync (FSeg i q) => Some (match u with
                                | Some y => if pair_eqb (i, q) y then None else u
                                | None => None
                                end)
    | _ => if quiet e then Some u else match u with None => Some None | Some _ => None end
    end
  end.

Fixpoint dur (u : option (N * N)) (es : list fsev) : option (option (N * N)) :=
  match es with
  | [] => Some u
  | e :: es' => match dur_step u e with Some u' => dur u' es' | None => None end
  end.

Definition Durable (es : list fsev) : Prop := dur None es <> None.

Lemma dur_app es1 : forall u es2,
  dur u (es1 ++ es2) = match dur u es1 with Some u1 => dur u1 es2 | None => None end.
Proof.
  induction es1 as [|e es1 IH]; intros u es2; [reflexivity|]. cbn [app dur].
  destruct (dur_step u e) as [u1|]; [apply IH|reflexivity].
Qed.

Lemma dur_prefix es1 es2 u : dur u (es1 ++ es2) <> None -> dur u es1 <> None.
Proof. rewrite dur_app. destruct (dur u es1); [discriminate|auto]. Qed.

Lemma seg_data_file e x : seg_data e = Some x <-> data_file e = Some (FSeg (fst x) (snd x)).
Proof.
  destruct x as [i q]. cbn [fst snd].
  destruct e as [f|f|id seq off r|j|id seq m|j|sd|f n|f g|f|f]; cbn [seg_data data_file];
    try (split; discriminate); try (destruct f; split; intros E; inversion E; reflexivity).
  split; intros E; inversion E; reflexivity.
Qed.

Lemma seg_data_none_file e i q : seg_data e = None -> data_file e <> Some (FSeg i q).
Proof.
  intros H E. assert (E' : seg_data e = Some (i, q)) by (apply seg_data_file; exact E). congruence.
Qed.

Lemma data_nonseg_quiet e f : data_file e = Some f -> seg_data e = None -> quiet e = true.
Proof.
  destruct e as [f0|f0|id seq off r|j|id seq m|j|sd|f0 n|f0 g|f0|f0]; cbn [seg_data data_file]; intros H1 H2;
    try discriminate; try reflexivity; destruct f0; try discriminate; reflexivity.
Qed.

Lemma touches_log_seg_data e : touches_log e = false -> seg_data e = None.
Proof. destruct e as [f|f|id seq off r|j|id seq m|j|sd|f n|f g|f|f]; cbn; try reflexivity; try discriminate; destruct f; try reflexivity; discriminate. Qed.

Lemma nolog_forget e L i j : touches_log e = false -> forget e L (FSeg i j) = L (FSeg i j).
Proof.
  destruct e as [f|f|id seq off r|k|id seq m|k|sd|f n|f g|f|f]; cbn [forget]; try reflexivity;
    (destruct f; [discriminate|..]; intros _; apply fdel_other; discriminate).
Qed.

Lemma quiet_nolog e : quiet e = true -> touches_log e = false.
Proof.
  unfold quiet. intros H. apply andb_true_iff in H. destruct H as [H _]. apply andb_true_iff in H.
  apply negb_true_iff. apply H.
Qed.

Definition seg_clean (L : fset) : Prop := forall i q, L (FSeg i q) = false.

Definition Same (d img : disk) : Prop := same_log d img /\ d_lock img = d_lock d /\ d_bac img = d_bac d.

Lemma Same_refl d : Same d d.
Proof. split; [apply same_log_refl|split; reflexivity]. Qed.
Lemma Same_trans a b c : Same a b -> Same b c -> Same a c.
Proof.
  intros (A1 & A2 & A3) (B1 & B2 & B3). split; [eapply same_log_trans; eassumption|]. split; congruence.
Qed.

Lemma quiet_same (d : disk) e : quiet e = true -> Same d (apply_ev flat_ops d e).
Proof.
  unfold quiet. intros H. apply andb_true_iff in H. destruct H as [H H3]. apply andb_true_iff in H.
  destruct H as [H1 H2]. apply negb_true_iff in H1, H2, H3.
  split; [apply apply_ev_same_log; exact H1|]. split; [apply apply_ev_d_lock; exact H2|apply apply_ev_d_bac; exact H3].
Qed.

Lemma Agree_same_log L (d img : disk) : seg_clean L -> Agree L d img -> same_log d img.
Proof.
  intros HL (A1 & _). unfold same_log. induction A1 as [|f f' l l' (_ & _ & C & _) _ IH]; [reflexivity|].
  cbn [map]. rewrite IH, (C (HL _ _)). reflexivity.
Qed.

Lemma Agree_Same L (d img : disk) : seg_clean L -> Agree L d img -> Same d img.
Proof.
  intros HL HA. split; [exact (Agree_same_log L d img HL HA)|]. destruct HA as (_ & _ & _ & _ & _ & A6 & A7). split; assumption.
Qed.

Lemma Same_Good (d img : disk) : Same d img -> Good d -> Good img.
Proof. intros (A & B & C). apply Good_same_log; assumption. Qed.

Lemma Same_cont (d img : disk) : Same d img -> olog img = olog d /\ abs img = abs d.
Proof. intros (A & _). split; [apply same_log_olog; exact A|apply same_log_abs; exact A]. Qed.

Lemma core_fun_map_core id seq g (l l' : list dseg) :
  core_fun g -> map seg_core l = map seg_core l' ->
  map seg_core (map (fun s => if is_seg id seq s then g s else s) l) =
  map seg_core (map (fun s => if is_seg id seq s then g s else s) l').
Proof.
  intros (G1 & G2). revert l'. induction l as [|f l IH]; intros l' E; destruct l' as [|f' l']; try discriminate E; [reflexivity|].
  cbn [map] in *. pose proof (f_equal (@tl _) E) as E2. pose proof (f_equal (hd (seg_core f)) E) as E1.
  cbn [tl hd] in E1, E2. rewrite (IH _ E2). f_equal.
  assert (Es : is_seg id seq f = is_seg id seq f').
  { apply seg_core_inv in E1. destruct E1 as (a & b & _). unfold is_seg. rewrite a, b. reflexivity. }
  rewrite Es. destruct (is_seg id seq f'); [|exact E1]. symmetry. apply G2. symmetry. exact E1.
Qed.

Lemma same_log_torn (d img : disk) id seq r c : same_log d img -> same_log (torn d id seq r c) (torn img id seq r c).
Proof.
  intros A. unfold same_log, torn. rewrite !d_segs_upd_seg. apply core_fun_map_core; [apply core_fun_torn|exact A].
Qed.

Lemma Same_torn (d img : disk) id seq r c : Same d img -> Same (torn d id seq r c) (torn img id seq r c).
Proof. intros (A & B & C). split; [apply same_log_torn; exact A|split; assumption]. Qed.

(* The automaton and the reduction for both disciplines at once.  [q]: the events that are harmless while a
   segment file is unflushed ([quiet] here, the weaker [quiet2] in PowerLoss2.v); [R]: what an image has in
   common with a process-crash image ([Same], resp. [same_log]).  [dur_step], [dur] and their PowerLoss2.v
   counterparts are [gdur_step q], [gdur q] by conversion. *)
Section Discipline.
Variable q : fsev -> bool.
Variable R : disk -> disk -> Prop.
Hypothesis q_nolog : forall e, q e = true -> touches_log e = false.
Hypothesis q_data : forall e f, data_file e = Some f -> seg_data e = None -> q e = true.
Hypothesis q_sync : forall f, q (ESync f) = true.
Hypothesis R_refl : forall d, R d d.
Hypothesis R_trans : forall a b c, R a b -> R b c -> R a c.
Hypothesis R_q : forall d e, q e = true -> R d (apply_ev flat_ops d e).
Hypothesis R_torn : forall d img id seq r c, R d img -> R (torn d id seq r c) (torn img id seq r c).
Hypothesis Agree_R : forall L d img, seg_clean L -> Agree L d img -> R d img.

Definition gdur_step (u : option (N * N)) (e : fsev) : option (option (N * N)) :=
  match seg_data e with
  | Some x => match u with
              | None => Some (Some x)
              | Some y => if pair_eqb x y then Some (Some x) else None
              end
  | None =>
    match e with
    | ESync (FSeg i j) => Some (match u with
                                | Some y => if pair_eqb (i, j) y then None else u
                                | None => None
                                end)
    | _ => if q e then Some u else match u with None => Some None | Some _ => None end
    end
  end.

Fixpoint gdur (u : option (N * N)) (es : list fsev) : option (option (N * N)) :=
  match es with
  | [] => Some u
  | e :: es' => match gdur_step u e with Some u' => gdur u' es' | None => None end
  end.

(* the accepted steps, by kind of event (a Sync of a segment file other than the unflushed one is quiet) *)
Inductive gstep_spec (u : option (N * N)) (e : fsev) : option (option (N * N)) -> Prop :=
| gs_data x : seg_data e = Some x -> u = None \/ u = Some x -> gstep_spec u e (Some (Some x))
| gs_sync i j : e = ESync (FSeg i j) -> u = Some (i, j) -> gstep_spec u e (Some None)
| gs_quiet : seg_data e = None -> q e = true -> gstep_spec u e (Some u)
| gs_loud : seg_data e = None -> q e = false -> u = None -> gstep_spec u e (Some None)
| gs_rej : gstep_spec u e None.

Lemma gdur_step_spec u e : gstep_spec u e (gdur_step u e).
Proof.
  unfold gdur_step. destruct (seg_data e) as [x|] eqn:Ex.
  - destruct u as [y|]; [|apply (gs_data _ _ x Ex); left; reflexivity].
    destruct (pair_eqb x y) eqn:E; [|apply gs_rej]. apply pair_eqb_eq in E. subst y.
    apply (gs_data _ _ x Ex). right. reflexivity.
  - assert (Ho : gstep_spec u e (if q e then Some u else match u with None => Some None | Some _ => None end)).
    { destruct (q e) eqn:Eq; [apply gs_quiet; assumption|]. destruct u; [apply gs_rej|apply gs_loud; auto]. }
    destruct e as [f|f|id seq off r|k|id seq m|k|sd|f n|f g|f|f]; try exact Ho.
    destruct f as [i j| | | | | | |]; try exact Ho.
    destruct u as [y|]; [|apply gs_quiet; [reflexivity|apply q_sync]].
    destruct (pair_eqb (i, j) y) eqn:E; [|apply gs_quiet; [reflexivity|apply q_sync]].
    apply pair_eqb_eq in E. subst y. apply (gs_sync _ _ i j); reflexivity.
Qed.

(* an accepted event that writes data to file f (one that may be lost) *)
Lemma gdur_step_lost u e f u1 : data_file e = Some f -> gdur_step u e = Some u1 ->
  (exists x, f = FSeg (fst x) (snd x) /\ u1 = Some x /\ (u = None \/ u = Some x)) \/
  ((forall i j, f <> FSeg i j) /\ u1 = u).
Proof.
  intros Hf. destruct (gdur_step_spec u e) as [x Hx Hu|i j -> _|Hn Hq|Hn Hq _|]; intros E; try discriminate;
    inversion E; subst u1.
  - left. exists x. apply seg_data_file in Hx. split; [congruence|auto].
  - right. split; [|reflexivity]. intros i j ->. exact (seg_data_none_file e i j Hn Hf).
  - rewrite (q_data e f Hf Hn) in Hq. discriminate.
Qed.

(* a file that has lost a write is the one the automaton knows as unflushed *)
Lemma pl_gdur L img es L' img' :
  pl L img es L' img' -> forall u u',
  gdur u es = Some u' -> (forall i j, L (FSeg i j) = true -> u = Some (i, j)) ->
  forall i j, L' (FSeg i j) = true -> u' = Some (i, j).
Proof.
  assert (Hlost : forall (L0 : fset) u e f u1, data_file e = Some f -> gdur_step u e = Some u1 ->
            (forall i j, L0 (FSeg i j) = true -> u = Some (i, j)) ->
            forall i j, fadd f L0 (FSeg i j) = true -> u1 = Some (i, j)).
  { intros L0 u e f u1 Hf Es HL i j Hl.
    destruct (gdur_step_lost u e f u1 Hf Es) as [(x & -> & -> & Hu)|(Hnf & ->)].
    - apply fadd_true in Hl. destruct Hl as [E|Hl]; [inversion E; destruct x; reflexivity|].
      rewrite (HL i j Hl) in Hu. destruct Hu as [Hu|Hu]; [discriminate|symmetry; exact Hu].
    - apply HL. rewrite fadd_other in Hl; [exact Hl|]. intros E. apply (Hnf i j). symmetry. exact E. }
  intros H. induction H as [L d0|L d0 e es L1 d1 H1 H2 H3 IH|L d0 e f es L1 d1 H1 H3 IH|L d0 id seq off r c es L1 d1 H1 H2 H2' H3 IH];
    intros u u' Hd HL; cbn [gdur] in Hd.
  - inversion Hd; subst. exact HL.
  - destruct (gdur_step u e) as [u1|] eqn:Es; [|discriminate]. apply (IH u1 u' Hd).
    intros i j Hl. pose proof (HL i j (forget_le _ _ _ Hl)) as Eu. revert Es.
    destruct (gdur_step_spec u e) as [x Hx Hu|i' j' -> Hu|Hn Hq|Hn Hq Hu|]; intros Es; inversion Es; subst u1; try congruence.
    + destruct Hu; congruence.
    + (* a Sync of the unflushed file is kept only if that file has lost nothing *)
      exfalso. rewrite Hu in Eu. inversion Eu; subst i' j'. cbn [forget] in Hl. rewrite (H2 _ eq_refl) in Hl. discriminate.
  - destruct (gdur_step u e) as [u1|] eqn:Es; [|discriminate]. apply (IH u1 u' Hd). exact (Hlost L u e f u1 H1 Es HL).
  - destruct (gdur_step u (EAppend id seq off r)) as [u1|] eqn:Es; [|discriminate]. apply (IH u1 u' Hd).
    exact (Hlost L u (EAppend id seq off r) (FSeg id seq) u1 eq_refl Es HL).
Qed.

(* once a segment file has lost a write, nothing that [R] compares changes any more *)
Lemma gfrozen L img es L' img' :
  pl L img es L' img' -> forall x, L (FSeg (fst x) (snd x)) = true -> gdur (Some x) es <> None ->
  R img img' /\ L' (FSeg (fst x) (snd x)) = true /\ gdur (Some x) es = Some (Some x).
Proof.
  intros H. induction H as [L d0|L d0 e es L1 d1 H1 H2 H3 IH|L d0 e f es L1 d1 H1 H3 IH|L d0 id seq off r c es L1 d1 H1 H2 H2' H3 IH];
    intros x HL Hd; cbn [gdur] in Hd |- *.
  - split; [apply R_refl|split; [exact HL|reflexivity]].
  - destruct (gdur_step (Some x) e) as [u1|] eqn:Es; [|congruence]. revert Es.
    destruct (gdur_step_spec (Some x) e) as [y Hy Hu|i j -> Hu|Hn Hq|Hn Hq Hu|]; intros Es; inversion Es; subst u1; try discriminate.
    + destruct Hu as [Hu|Hu]; [discriminate|]. inversion Hu; subst y.
      apply seg_data_file in Hy. rewrite (H1 _ Hy) in HL. discriminate.
    + inversion Hu; subst x. cbn [fst snd] in HL. rewrite (H2 _ eq_refl) in HL. discriminate.
    + destruct (IH x) as (S1 & S2 & S3); [rewrite nolog_forget by (apply q_nolog; exact Hq); exact HL|exact Hd|].
      split; [eapply R_trans; [apply R_q; exact Hq|exact S1]|split; assumption].
  - destruct (gdur_step (Some x) e) as [u1|] eqn:Es; [|congruence].
    assert (Eu : u1 = Some x).
    { destruct (gdur_step_lost _ _ _ _ H1 Es) as [(y & _ & -> & [Hu|Hu])|(_ & ->)]; [discriminate|inversion Hu; reflexivity|reflexivity]. }
    subst u1. apply (IH x); [apply fadd_mono; exact HL|exact Hd].
  - destruct (gdur_step (Some x) (EAppend id seq off r)) as [u1|] eqn:Es; [|congruence]. exfalso.
    destruct (gdur_step_lost _ (EAppend id seq off r) (FSeg id seq) _ eq_refl Es) as [(y & Ey & _ & [Hu|Hu])|(Hnf & _)]; [discriminate| |exact (Hnf id seq eq_refl)].
    inversion Hu; subst y. rewrite <- Ey in HL. congruence.
Qed.

(* THE REDUCTION.  Under the sync discipline, a power-loss image of a history is either complete on
   every segment file, or it is (up to [R]) a process-crash image of the same history: the crash taken at
   the first write to a segment file that was lost. *)
Theorem pl_greduce L img es L' img' :
  pl L img es L' img' -> forall d u, seg_clean L -> Agree L d img -> gdur u es <> None ->
  (seg_clean L' /\ Agree L' (run_evs es d) img') \/
  (exists cimg x, crash_image d es cimg /\ R cimg img' /\ L' (FSeg (fst x) (snd x)) = true /\
                  gdur u es = Some (Some x)).
Proof.
  intros H. induction H as [L d0|L d0 e es L1 d1 H1 H2 H3 IH|L d0 e f es L1 d1 H1 H3 IH|L d0 id seq off r c es L1 d1 H1 H2 H2' H3 IH];
    intros d u HL HA Hd; cbn [gdur fold_left] in *.
  - left. split; assumption.
  - destruct (gdur_step u e) as [u1|] eqn:Es; [|congruence].
    destruct (IH (apply_ev flat_ops d e) u1) as [Hl|(cimg & x & C1 & C2 & C3 & C4)].
    + intros i j. destruct (forget e L (FSeg i j)) eqn:E; [|reflexivity]. apply forget_le in E. rewrite HL in E. discriminate.
    + apply agree_keep; assumption.
    + exact Hd.
    + left. exact Hl.
    + right. exists cimg, x. split; [apply ci_step; exact C1|split; [assumption|split; assumption]].
  - destruct (gdur_step u e) as [u1|] eqn:Es; [|congruence].
    destruct (gdur_step_lost _ _ _ _ H1 Es) as [(x & -> & -> & _)|(Hnf & ->)].
    + (* the first lost write to a segment file *)
      destruct (gfrozen _ _ _ _ _ H3 x (fadd_same _ _) Hd) as (S1 & S2 & S3).
      right. exists d, x. split; [apply ci_here|]. split; [|split; [exact S2|exact S3]].
      eapply R_trans; [apply (Agree_R L); eassumption|exact S1].
    + destruct (IH (apply_ev flat_ops d e) u) as [Hl|(cimg & x & C1 & C2 & C3 & C4)].
      * intros i j. rewrite fadd_other; [apply HL|]. intros E. apply (Hnf i j). symmetry. exact E.
      * apply (agree_drop L d d0 e f HA H1).
      * exact Hd.
      * left. exact Hl.
      * right. exists cimg, x. split; [apply ci_step; exact C1|split; [assumption|split; assumption]].
  - destruct (gdur_step u (EAppend id seq off r)) as [u1|] eqn:Es; [|congruence].
    destruct (gdur_step_lost _ (EAppend id seq off r) (FSeg id seq) _ eq_refl Es) as [([a b] & Ex & -> & _)|(Hnf & _)]; [|destruct (Hnf id seq eq_refl)].
    cbn [fst snd] in Ex. inversion Ex; subst a b.
    destruct (gfrozen _ _ _ _ _ H3 (id, seq) (fadd_same _ _) Hd) as (S1 & S2 & S3).
    right. exists (torn d id seq r c), (id, seq). split; [apply ci_torn; assumption|]. split; [|split; [exact S2|exact S3]].
    eapply R_trans; [apply R_torn; apply (Agree_R L); eassumption|exact S1].
Qed.

(* in both cases: up to [R], a crash image of the history *)
Corollary pl_gcrash_image L img es L' img' d u :
  pl L img es L' img' -> seg_clean L -> Agree L d img -> gdur u es <> None ->
  exists cimg, crash_image d es cimg /\ R cimg img'.
Proof.
  intros H HL HA Hd. destruct (pl_greduce _ _ _ _ _ H d u HL HA Hd) as [[HL' HA']|(cimg & x & C1 & C2 & _)].
  - exists (run_evs es d). split; [apply crash_image_full|apply (Agree_R L'); assumption].
  - exists cimg. split; assumption.
Qed.
End Discipline.

Lemma gdur_mono (q q' : fsev -> bool) : (forall e, q e = true -> q' e = true) ->
  forall es u u', gdur q u es = Some u' -> gdur q' u es = Some u'.
Proof.
  intros Hq.
  assert (Hs : forall u e u', gdur_step q u e = Some u' -> gdur_step q' u e = Some u').
  { intros u e u'. unfold gdur_step. destruct (seg_data e); [auto|].
    assert (Ho : (if q e then Some u else match u with None => Some None | Some _ => None end) = Some u' ->
                 (if q' e then Some u else match u with None => Some None | Some _ => None end) = Some u').
    { destruct (q e) eqn:E; [rewrite (Hq e E); auto|]. destruct (q' e); [|auto]. destruct u; [discriminate|auto]. }
    destruct e as [f|f|id seq off r|k|id seq m|k|sd|f n|f g|f|f]; try exact Ho. destruct f; try exact Ho. auto. }
  induction es as [|e es IH]; intros u u' H; [exact H|]. cbn [gdur] in *.
  destruct (gdur_step q u e) as [u1|] eqn:E; [|discriminate]. rewrite (Hs _ _ _ E). apply IH. exact H.
Qed.

Lemma pl_dur L img es L' img' :
  pl L img es L' img' -> forall u u',
  dur u es = Some u' -> (forall i q, L (FSeg i q) = true -> u = Some (i, q)) ->
  forall i q, L' (FSeg i q) = true -> u' = Some (i, q).
Proof. exact (pl_gdur quiet data_nonseg_quiet (fun _ => eq_refl) L img es L' img'). Qed.

(* once a segment file has lost a write, nothing a recovery looks at changes any more *)
Lemma frozen L img es L' img' :
  pl L img es L' img' -> forall x, L (FSeg (fst x) (snd x)) = true -> dur (Some x) es <> None ->
  Same img img' /\ L' (FSeg (fst x) (snd x)) = true.
Proof.
  intros H x HL Hd.
  destruct (gfrozen quiet Same quiet_nolog data_nonseg_quiet (fun _ => eq_refl) Same_refl Same_trans quiet_same
              L img es L' img' H x HL Hd) as (A & B & _).
  split; assumption.
Qed.

(* THE REDUCTION for [dur]: a power-loss image of a history that keeps the discipline is either complete on
   every segment file, or it is, in all that a recovery looks at, a process-crash image of the same history *)
Theorem pl_reduce L img es L' img' :
  pl L img es L' img' -> forall d u, seg_clean L -> Agree L d img -> dur u es <> None ->
  (seg_clean L' /\ Agree L' (run_evs es d) img') \/
  (exists cimg x, crash_image d es cimg /\ Same cimg img' /\ L' (FSeg (fst x) (snd x)) = true).
Proof.
  intros H d u HL HA Hd.
  destruct (pl_greduce quiet Same quiet_nolog data_nonseg_quiet (fun _ => eq_refl) Same_refl Same_trans quiet_same
              Same_torn Agree_Same L img es L' img' H d u HL HA Hd) as [Hl|(cimg & x & C1 & C2 & C3 & _)]; [left; exact Hl|].
  right. exists cimg, x. split; [exact C1|split; assumption].
Qed.

Corollary pl_crash_image L img es L' img' d u :
  pl L img es L' img' -> seg_clean L -> Agree L d img -> dur u es <> None ->
  exists cimg, crash_image d es cimg /\ Same cimg img'.
Proof.
  exact (pl_gcrash_image quiet Same quiet_nolog data_nonseg_quiet (fun _ => eq_refl) Same_refl Same_trans quiet_same
           Same_torn Agree_Same L img es L' img' d u).
Qed.

Corollary pl_is_crash_image es (d img : disk) L' :
  Durable es -> pl fnone d es L' img -> exists cimg, crash_image d es cimg /\ Same cimg img.
Proof. intros Hd Hp. exact (pl_crash_image _ _ _ _ _ d None Hp (fun _ _ => eq_refl) (Agree_refl _ _) Hd). Qed.

(* a locked directory whose segment files are those of a well-formed one is recovered, with its contents *)
Lemma recover_image P seed (cimg img' : disk) :
  params_ok P -> same_log cimg img' -> DiskOK cimg -> bac_ok img' -> d_lock img' = true ->
  exists s2, db_open flat_ops P seed (closed img') = (s2, OOpened true) /\ Inv P s2 /\ s_mem s2 <> None /\
    ceq (cont (s_disk s2)) (cont cimg).
Proof.
  intros HP Hsame G1 G2 G3.
  destruct (crash_then_recover P seed img' HP (same_log_DiskOK _ _ Hsame G1) G2 G3) as (s2 & E2 & HI2 & Hm2 & _ & Ha2).
  exists s2. split; [exact E2|]. split; [exact HI2|]. split; [exact Hm2|].
  intros k. unfold cont. rewrite Ha2, (same_log_abs _ _ Hsame). reflexivity.
Qed.


(* the invariant that links the automaton to the in-memory state: the segment file that may be
   unflushed is the current segment, and it still accepts writes (it has not been sealed) *)
Definition DurM (u : option (N * N)) (m : mem) : Prop :=
  forall x, u = Some x ->
  exists g, cur_seg m = Some g /\ sm_full (g_meta g) = false /\ x = (g_id g, g_seq g).

Lemma DurM_None m : DurM None m.
Proof. intros x E. discriminate E. Qed.

Lemma find_mseg_map (G : mseg -> mseg) id l :
  (forall g, g_id (G g) = g_id g) -> find_mseg id (map G l) = option_map G (find_mseg id l).
Proof.
  intros HG. unfold find_mseg. induction l as [|g l IH]; [reflexivity|]. cbn [map find].
  rewrite HG. destruct (g_id g =? id); [reflexivity|exact IH].
Qed.

Lemma cur_seg_map (G : mseg -> mseg) (m m' : mem) :
  (forall g, g_id (G g) = g_id g /\ g_seq (G g) = g_seq g) ->
  m_segs m' = map G (m_segs m) -> m_cur m' = m_cur m -> m_cur_removed m' = m_cur_removed m ->
  cur_seg m' = option_map G (cur_seg m).
Proof.
  intros HG E1 E2 E3. unfold cur_seg. rewrite E1, E2, E3. destruct (m_cur_removed m); [reflexivity|].
  rewrite find_mseg_map by (intros g; apply HG). destruct (find_mseg (fst (m_cur m)) (m_segs m)) as [g|]; [|reflexivity].
  cbn [option_map]. rewrite (proj2 (HG g)). destruct (g_seq g =? snd (m_cur m)); reflexivity.
Qed.

Lemma cur_seg_find (m : mem) g :
  cur_seg m = Some g -> find_mseg (g_id g) (m_segs m) = Some g /\ m_cur_removed m = false.
Proof.
  unfold cur_seg. destruct (m_cur_removed m); [discriminate|].
  destruct (find_mseg (fst (m_cur m)) (m_segs m)) as [g0|] eqn:Ef; [|discriminate].
  destruct (g_seq g0 =? snd (m_cur m)); [|discriminate]. intros E. inversion E; subst g0.
  destruct (find_mseg_In _ _ _ Ef) as [_ Hid]. rewrite Hid. split; [exact Ef|reflexivity].
Qed.

Lemma DurM_map (G : mseg -> mseg) u (m m' : mem) :
  (forall g, g_id (G g) = g_id g /\ g_seq (G g) = g_seq g) ->
  m_segs m' = map G (m_segs m) -> m_cur m' = m_cur m -> m_cur_removed m' = m_cur_removed m ->
  (forall g, cur_seg m = Some g -> sm_full (g_meta g) = false -> sm_full (g_meta (G g)) = false) ->
  DurM u m -> DurM u m'.
Proof.
  intros HG E1 E2 E3 Hnf HD x Ex. destruct (HD x Ex) as (g & Ec & Hf & Hx).
  exists (G g). rewrite (cur_seg_map G m m' HG E1 E2 E3), Ec. split; [reflexivity|].
  split; [apply Hnf; assumption|]. destruct (HG g) as [a b]. rewrite a, b. exact Hx.
Qed.

Lemma DurM_cur u (m : mem) g : DurM u m -> cur_seg m = Some g ->
  u = None \/ (u = Some (g_id g, g_seq g) /\ sm_full (g_meta g) = false).
Proof.
  intros HD Ec. destruct u as [x|]; [|left; reflexivity]. right.
  destruct (HD x eq_refl) as (g' & Ec' & Hf & Hx). rewrite Ec in Ec'. inversion Ec'; subst g'.
  split; [rewrite Hx; reflexivity|exact Hf].
Qed.

Lemma DurM_nocur u (m : mem) : DurM u m -> cur_seg m = None -> u = None.
Proof.
  intros HD Ec. destruct u as [x|]; [|reflexivity]. destruct (HD x eq_refl) as (g' & Ec' & _). congruence.
Qed.

Lemma dur_sync_cur u i q : u = None \/ u = Some (i, q) -> dur u [ESync (FSeg i q)] = Some None.
Proof.
  intros [->| ->]; cbn [dur dur_step seg_data]; [reflexivity|]. rewrite pair_eqb_refl. reflexivity.
Qed.

Lemma dur_data u e x : seg_data e = Some x -> u = None \/ u = Some x -> dur_step u e = Some (Some x).
Proof.
  intros E [->| ->]; unfold dur_step; rewrite E; [reflexivity|]. rewrite pair_eqb_refl. reflexivity.
Qed.

Lemma dur_snoc u es e u1 u2 : dur u es = Some u1 -> dur_step u1 e = Some u2 -> dur u (es ++ [e]) = Some u2.
Proof. intros H1 H2. rewrite dur_app, H1. cbn [dur]. rewrite H2. reflexivity. Qed.

Lemma dur_cat u es1 es2 u1 u2 : dur u es1 = Some u1 -> dur u1 es2 = Some u2 -> dur u (es1 ++ es2) = Some u2.
Proof. intros H1 H2. rewrite dur_app, H1. exact H2. Qed.

Lemma seal_dur u id (s : st) (m : mem) s0 m0 :
  DurM u m -> seal flat_ops id s m = (s0, m0) ->
  exists tr u0, s_trace s0 = s_trace s ++ tr /\ dur u tr = Some u0 /\ DurM u0 m0 /\
    (forall g, cur_seg m = Some g -> g_id g = id -> u0 = None).
Proof.
  intros HD. unfold seal. destruct (find_mseg id (m_segs m)) as [g|] eqn:Ef.
  - destruct (sm_full (g_meta g)) eqn:Efull; intros E; inversion E; subst s0 m0; clear E.
    + exists [], u. rewrite app_nil_r. split; [reflexivity|]. split; [reflexivity|]. split; [exact HD|].
      intros g' Ec Hid. destruct (cur_seg_find _ _ Ec) as [Ef' _]. rewrite Hid, Ef in Ef'. inversion Ef'; subst g'.
      destruct (DurM_cur _ _ _ HD Ec) as [->|[_ Hnf]]; [reflexivity|congruence].
    + set (G := fun g0 : mseg => if g_id g0 =? id then set_gmeta g0 (set_full (g_meta g0)) else g0).
      assert (HG : forall g0, g_id (G g0) = g_id g0 /\ g_seq (G g0) = g_seq g0).
      { intros g0. unfold G. destruct (g_id g0 =? id); split; reflexivity. }
      exists [ESync (FSeg (g_id g) (g_seq g))].
      exists (match u with Some y => if pair_eqb (g_id g, g_seq g) y then None else u | None => None end).
      split; [apply s_trace_emit|]. split; [reflexivity|]. split.
      * intros x Ex. destruct u as [y|]; [|discriminate].
        destruct (pair_eqb (g_id g, g_seq g) y) eqn:Ep; [discriminate|]. inversion Ex; subst y.
        destruct (HD x eq_refl) as (gc & Ec & Hnf & Hx).
        assert (Hne : g_id gc <> id).
        { intros Hid. destruct (cur_seg_find _ _ Ec) as [Ef' _]. rewrite Hid, Ef in Ef'. inversion Ef'; subst gc.
          rewrite Hx, pair_eqb_refl in Ep. discriminate. }
        exists gc. split; [|split; assumption].
        match goal with |- cur_seg ?mm = _ => rewrite (cur_seg_map G m mm HG eq_refl eq_refl eq_refl) end.
        rewrite Ec. cbn [option_map]. unfold G.
        destruct (N.eqb_spec (g_id gc) id); [contradiction|reflexivity].
      * intros g' Ec Hid. destruct (cur_seg_find _ _ Ec) as [Ef' _]. rewrite Hid, Ef in Ef'. inversion Ef'; subst g'.
        destruct (DurM_cur _ _ _ HD Ec) as [->|[-> _]]; [reflexivity|]. rewrite pair_eqb_refl. reflexivity.
  - intros E; inversion E; subst s0 m0; clear E.
    exists [], u. rewrite app_nil_r. split; [reflexivity|]. split; [reflexivity|]. split; [exact HD|].
    intros g' Ec Hid. destruct (cur_seg_find _ _ Ec) as [Ef' _]. rewrite Hid, Ef in Ef'. discriminate.
Qed.

(* pickForCompaction: the fold of seals *)
Lemma seal_all_dur picked : forall u (s : st) (m : mem) s1 m1,
  DurM u m ->
  fold_left (fun sm g => seal flat_ops (g_id g) (fst sm) (snd sm)) picked (s, m) = (s1, m1) ->
  exists tr u1, s_trace s1 = s_trace s ++ tr /\ dur u tr = Some u1 /\ DurM u1 m1.
Proof.
  induction picked as [|g picked IH]; intros u s m s1 m1 HD E.
  - cbn [fold_left] in E. inversion E; subst. exists [], u. rewrite app_nil_r. repeat split; auto.
  - cbn [fold_left fst snd] in E. destruct (seal flat_ops (g_id g) s m) as [s0 m0] eqn:E0.
    destruct (seal_dur u (g_id g) s m s0 m0 HD E0) as (tr0 & u0 & T0 & D0 & HD0 & _).
    destruct (IH u0 s0 m0 s1 m1 HD0 E) as (tr1 & u1 & T1 & D1 & HD1).
    exists (tr0 ++ tr1), u1. split; [rewrite T1, T0, app_assoc; reflexivity|].
    split; [apply (dur_cat _ _ _ _ _ D0 D1)|exact HD1].
Qed.

Lemma do_sync_dur u (s : st) (m : mem) :
  DurM u m -> exists tr, s_trace (do_sync flat_ops s m) = s_trace s ++ tr /\ dur u tr = Some None /\
                         s_disk (do_sync flat_ops s m) = s_disk s /\ s_mem (do_sync flat_ops s m) = s_mem s.
Proof.
  intros HD. unfold do_sync. destruct (cur_seg m) as [g|] eqn:Ec.
  - exists [ESync (FSeg (g_id g) (g_seq g))]. split; [apply s_trace_emit|]. split; [|split; reflexivity].
    apply dur_sync_cur. destruct (DurM_cur _ _ _ HD Ec) as [->|[-> _]]; auto.
  - exists []. rewrite app_nil_r. split; [reflexivity|]. rewrite (DurM_nocur _ _ HD Ec). repeat split.
Qed.

Lemma DurM_cur_eq u (m m' : mem) : cur_seg m' = cur_seg m -> DurM u m -> DurM u m'.
Proof. intros E HD x Ex. rewrite E. apply HD. exact Ex. Qed.

Lemma DurM_upd u (m : mem) id (F : mseg -> mseg) :
  (forall g, g_id (F g) = g_id g /\ g_seq (F g) = g_seq g /\ sm_full (g_meta (F g)) = sm_full (g_meta g)) ->
  DurM u m -> DurM u (set_msegs m (upd_mseg id F (m_segs m))).
Proof.
  intros HF. apply (DurM_map (fun g => if g_id g =? id then F g else g)); try reflexivity.
  - intros g. destruct (g_id g =? id); [|split; reflexivity]. destruct (HF g) as (a & b & _). split; assumption.
  - intros g _ Hnf. destruct (g_id g =? id); [|exact Hnf]. destruct (HF g) as (_ & _ & c). congruence.
Qed.

Lemma DurM_track_del u sl (m : mem) : DurM u m -> DurM u (track_del sl m).
Proof. unfold track_del. apply DurM_upd. intros g. repeat split. Qed.

Lemma DurM_add_delbytes u id n (m : mem) : DurM u m -> DurM u (add_delbytes id n m).
Proof. unfold add_delbytes. apply DurM_upd. intros g. repeat split. Qed.

(* swapSegment while nothing is unflushed: at most a new, empty segment file, which becomes the current segment *)
Lemma swap_dur (s0 : st) (m0 : mem) :
  InvLog m0 (s_disk s0) -> room m0 ->
  exists s1 m1 g1 pre u1,
    swap_segment flat_ops s0 m0 = (s1, m1) /\ cur_seg m1 = Some g1 /\ sm_full (g_meta g1) = false /\
    s_trace s1 = s_trace s0 ++ pre /\ dur None pre = Some u1 /\ (u1 = None \/ u1 = Some (g_id g1, g_seq g1)).
Proof.
  intros HI0 Hroom0.
  destruct (swap_spec s0 m0 HI0 Hroom0) as (s1 & m1 & g1 & pre & E1 & _ & _ & Ec1 & Hnf1 & _ & _ & _ & _ & _ & T1 & _ & Hp1).
  exists s1, m1, g1, pre, (match pre with [] => None | _ => Some (g_id g1, g_seq g1) end).
  split; [exact E1|]. split; [exact Ec1|]. split; [exact Hnf1|]. split; [exact T1|].
  destruct Hp1 as [->| ->]; (split; [reflexivity|]); [left|right]; reflexivity.
Qed.

Lemma wr_dur P r u (s : st) (m : mem) s' m' id off :
  InvLog m (s_disk s) -> room m -> DurM u m ->
  write_record flat_ops P r s m = Some (s', m', id, off) ->
  exists tr x, s_trace s' = s_trace s ++ tr /\ dur u tr = Some (Some x) /\ DurM (Some x) m'.
Proof.
  intros HI Hroom HD. rewrite write_record_eq.
  (* the segment chosen: the current one, or (after the Sync of [seal], which leaves nothing unflushed) that of swapSegment *)
  assert (Hpre : exists s1 m1 g1 pre u1,
            wr_prelude P r s m = (s1, m1) /\ cur_seg m1 = Some g1 /\ sm_full (g_meta g1) = false /\
            s_trace s1 = s_trace s ++ pre /\ dur u pre = Some u1 /\ (u1 = None \/ u1 = Some (g_id g1, g_seq g1))).
  { unfold wr_prelude. destruct (cur_seg m) as [g|] eqn:Ec.
    - destruct (sm_full (g_meta g) || (p_maxseg P <? g_size g + rsize r)) eqn:En.
      + destruct (cur_seg_Some _ _ Ec) as (_ & Hg & _).
        destruct (seal_spec s m g (proj1 (proj2 (proj2 HI))) Hg) as (s0 & m0 & pre0 & E0 & Hsim & _ & _ & Ed0 & _).
        rewrite E0.
        destruct (seal_dur u (g_id g) s m s0 m0 HD E0) as (tr0 & u0 & T0 & D0 & _ & Hu0).
        rewrite (Hu0 g Ec eq_refl) in D0.
        destruct (swap_dur s0 m0) as (s1 & m1 & g1 & pre & u1 & E1 & Ec1 & Hnf1 & T1 & D1 & Hu1);
          [rewrite Ed0; eapply mem_sim_InvLog; eassumption|eapply mem_sim_room; eassumption|].
        exists s1, m1, g1, (tr0 ++ pre), u1. split; [exact E1|]. split; [exact Ec1|]. split; [exact Hnf1|].
        split; [rewrite T1, T0, app_assoc; reflexivity|]. split; [exact (dur_cat _ _ _ _ _ D0 D1)|exact Hu1].
      + apply orb_false_iff in En. destruct En as [Hnf _].
        exists s, m, g, [], u. rewrite app_nil_r. split; [reflexivity|]. split; [exact Ec|]. split; [exact Hnf|].
        split; [reflexivity|]. split; [reflexivity|].
        destruct (DurM_cur _ _ _ HD Ec) as [->|[-> _]]; auto.
    - rewrite (DurM_nocur _ _ HD Ec). exact (swap_dur s m HI Hroom). }
  destruct Hpre as (s1 & m1 & g1 & pre & u1 & E1 & Ec1 & Hnf1 & T1 & D1 & Hu1). rewrite E1.
  unfold wr_tail. rewrite Ec1. destruct (find_dseg (g_id g1) (s_disk s1)) as [f|]; [|discriminate].
  destruct (negb ((f_seq f =? g_seq g1) && (flen f =? g_size g1))); [discriminate|].
  intros E. inversion E; subst s' m' id off; clear E.
  exists (pre ++ [EAppend (g_id g1) (g_seq g1) (g_size g1) r]), (g_id g1, g_seq g1).
  split; [rewrite s_trace_emit, T1, app_assoc; reflexivity|].
  split; [apply (dur_snoc _ _ _ _ _ D1); apply dur_data; [reflexivity|exact Hu1]|].
  apply DurM_upd; [intros g; repeat split; apply count_rec_full|].
  intros x Ex. inversion Ex; subst x. exists g1. repeat split; assumption.
Qed.

Lemma dur_step_index u i : dur_step u (EIndex i) = Some u.
Proof. reflexivity. Qed.

Lemma finish_dur P u (s : st) (m : mem) :
  DurM u m ->
  exists s' tr u', finish flat_ops P s m = (s', OOk) /\ s_mem s' = Some m /\ s_trace s' = s_trace s ++ tr /\
    dur u tr = Some u' /\ DurM u' m /\ (p_sync P = true -> u' = None).
Proof.
  intros HD. unfold finish. destruct (p_sync P).
  - destruct (do_sync_dur u s m HD) as (tr & T & D & _).
    eexists _, tr, None. split; [reflexivity|]. split; [reflexivity|]. split; [exact T|].
    split; [exact D|]. split; [apply DurM_None|reflexivity].
  - eexists _, [], u. split; [reflexivity|]. split; [reflexivity|]. cbn [with_mem s_trace]. rewrite app_nil_r.
    split; [reflexivity|]. split; [reflexivity|]. split; [exact HD|discriminate].
Qed.

Definition op_dur (P : params) (u : option (N * N)) (s s' : st) (synced : Prop) : Prop :=
  exists tr u' m', s_trace s' = s_trace s ++ tr /\ dur u tr = Some u' /\ s_mem s' = Some m' /\ DurM u' m' /\
                   (synced -> u' = None).

Lemma op_dur_same P u (s : st) (m : mem) synced : s_mem s = Some m -> DurM u m -> ~ synced -> op_dur P u s s synced.
Proof. intros Em HD Hn. exists [], u, m. rewrite app_nil_r. repeat split; auto. intros H. destruct (Hn H). Qed.

(* the end of Put and Delete: after the record (events tr1 from s), the index is written and the
   operation finishes (with a Sync if p_sync) *)
Lemma index_finish_dur P u (s s1 : st) tr1 x (m2 : mem) i s' o :
  s_trace s1 = s_trace s ++ tr1 -> dur u tr1 = Some (Some x) -> DurM (Some x) m2 ->
  finish flat_ops P (emit flat_ops (EIndex i) s1) m2 = (s', o) -> op_dur P u s s' (o = OOk /\ p_sync P = true).
Proof.
  intros T1 D1 HD2.
  destruct (finish_dur P _ (emit flat_ops (EIndex i) s1) m2 HD2) as (sf & trf & uf & Ef & Emf & Tf & Df & HDf & Hsf).
  rewrite Ef. intros E. inversion E; subst s' o. exists (tr1 ++ [EIndex i] ++ trf), uf, m2.
  split; [rewrite Tf, s_trace_emit, T1, <- !app_assoc; reflexivity|].
  split; [apply (dur_cat _ _ _ _ _ D1); cbn [app dur]; rewrite dur_step_index; exact Df|].
  split; [exact Emf|]. split; [exact HDf|]. intros [_ H]. apply Hsf. exact H.
Qed.

Theorem put_dur P u (s s' : st) (m : mem) k v o :
  Inv P s -> s_mem s = Some m -> room m -> DurM u m ->
  db_put flat_ops P k v s = (s', o) -> op_dur P u s s' (o = OOk /\ p_sync P = true).
Proof.
  intros HI Em Hroom HD. unfold db_put. rewrite Em.
  assert (Hsame : forall o', o' <> OOk -> (s, o') = (s', o) -> op_dur P u s s' (o = OOk /\ p_sync P = true)).
  { intros o' Ho E. inversion E; subst s' o. apply (op_dur_same P u s m _ Em HD). intros [H _]. exact (Ho H). }
  destruct (max_key_len <? nlen k); [apply Hsame; discriminate|].
  destruct (max_val_len <? nlen v); [apply Hsame; discriminate|].
  destruct (write_record flat_ops P (mkput k v) s m) as [[[[s1 m1] id] off]|] eqn:Ew; [|apply Hsame; discriminate].
  destruct (wr_dur P _ u s m s1 m1 id off (Inv_InvLog P s m Em HI) Hroom HD Ew) as (tr1 & x & T1 & D1 & HD1).
  destruct (ix_put flat_ops (p_grow P) (m_idx m1) _ (matchf (s_disk s1) k)) as [i2 old].
  apply (index_finish_dur P u s s1 tr1 x _ i2 s' o T1 D1).
  apply (DurM_cur_eq _ (match old with Some o0 => track_del o0 m1 | None => m1 end)); [reflexivity|].
  destruct old; [apply DurM_track_del|]; exact HD1.
Qed.

Theorem delete_dur P u (s s' : st) (m : mem) k o :
  Inv P s -> s_mem s = Some m -> room m -> DurM u m ->
  db_delete flat_ops P k s = (s', o) -> op_dur P u s s' (o = OOk /\ p_sync P = true).
Proof.
  intros HI Em Hroom HD. unfold db_delete. rewrite Em.
  destruct (ix_del flat_ops (m_idx m) _ (matchf (s_disk s) k)) as [i1 old].
  destruct old as [o0|].
  - pose proof (Inv_InvLog P s m Em HI) as HL.
    destruct (write_record flat_ops P (mkdel k) s (track_del o0 m)) as [[[[s1 m1] id] off]|] eqn:Ew.
    + destruct (wr_dur P _ u s (track_del o0 m) s1 m1 id off (track_del_InvLog _ _ _ HL) (track_del_room _ _ Hroom)
                  (DurM_track_del _ _ _ HD) Ew) as (tr1 & x & T1 & D1 & HD1).
      apply (index_finish_dur P u s s1 tr1 x _ i1 s' o T1 D1).
      apply (DurM_cur_eq _ (add_delbytes id (u32 (rsize (mkdel k))) m1)); [reflexivity|]. apply DurM_add_delbytes. exact HD1.
    + intros E. inversion E; subst s' o. apply (op_dur_same P u s m _ Em HD). intros [H _]. discriminate H.
  - destruct (finish_dur P u s m HD) as (sf & trf & uf & Ef & Emf & Tf & Df & HDf & Hsf).
    rewrite Ef. intros E. inversion E; subst s' o. exists trf, uf, m.
    split; [exact Tf|]. split; [exact Df|]. split; [exact Emf|]. split; [exact HDf|]. intros [_ H]. apply Hsf. exact H.
Qed.

Theorem sync_dur P u (s s' : st) (m : mem) o :
  s_mem s = Some m -> DurM u m -> db_sync flat_ops s = (s', o) -> op_dur P u s s' True.
Proof.
  intros Em HD. unfold db_sync. rewrite Em. intros E. inversion E; subst s' o.
  destruct (do_sync_dur u s m HD) as (tr & T & D & _ & Em').
  exists tr, None, m. split; [exact T|]. split; [exact D|]. split; [congruence|]. split; [apply DurM_None|reflexivity].
Qed.

Theorem pick_dur P u (s s' : st) (m : mem) c :
  s_mem s = Some m -> DurM u m -> compact_pick flat_ops P s = Some (s', c) -> op_dur P u s s' False.
Proof.
  intros Em HD. unfold compact_pick. rewrite Em.
  destruct (fold_left (fun sm g => seal flat_ops (g_id g) (fst sm) (snd sm)) (pick P m) (s, m)) as [s1 m1] eqn:Ef.
  intros E. inversion E; subst s' c.
  destruct (seal_all_dur _ u s m s1 m1 HD Ef) as (tr & u1 & T & D & HD1).
  exists tr, u1, m1. split; [exact T|]. split; [exact D|]. split; [reflexivity|]. split; [exact HD1|intros []].
Qed.

Lemma remove_segment_dur u id seq (s : st) (m : mem) :
  DurM u m ->
  exists tr, s_trace (remove_segment flat_ops id seq s m) = s_trace s ++ tr /\ dur u tr = Some None.
Proof.
  intros HD. unfold remove_segment.
  destruct (do_sync_dur u s m HD) as (tr & T & D & _).
  set (s1 := do_sync flat_ops s m) in *.
  destruct (exists_file (s_disk s1) (FSegMeta id seq)).
  - exists (tr ++ [ERemove (FSegMeta id seq); ERemove (FSeg id seq)]).
    split; [cbn [with_mem s_trace]; rewrite !s_trace_emit, T, <- !app_assoc; reflexivity|].
    apply (dur_cat _ _ _ _ _ D). reflexivity.
  - exists (tr ++ [ERemove (FSeg id seq)]).
    split; [cbn [with_mem s_trace]; rewrite !s_trace_emit, T, <- !app_assoc; reflexivity|].
    apply (dur_cat _ _ _ _ _ D). reflexivity.
Qed.

Theorem cstep_dur P u (s : st) (c : cursor) (m : mem) s' c' :
  Inv P s -> CInv s c -> s_mem s = Some m -> room m -> DurM u m ->
  compact_step flat_ops P s c = CMore s' c' -> op_dur P u s s' False.
Proof.
  intros HI HC Em Hroom HD E. pose proof (Inv_InvLog P s m Em HI) as HL.
  destruct (compact_step_inv flat_ops P s c m s' c' Em E)
    as [id seq todo Esrc Etodo|id seq off f r _ _ _ _|id seq off f r i1 s1 m1 nid noff i2 _ _ _ _ _ Ew _|id seq off f _ _ _ _ _].
  - (* the next source is sealed in memory: it is not the unflushed segment, which is not sealed *)
    eexists [], u, _. rewrite app_nil_r. split; [reflexivity|]. split; [reflexivity|].
    split; [reflexivity|]. split; [|intros []].
    destruct HC as (m0 & Em0 & C1 & _). assert (m0 = m) by congruence. subst m0.
    destruct (C1 (id, seq)) as (gs & Hgs & Hid & _ & Hfull).
    { unfold crem. rewrite Esrc, Etodo. left. reflexivity. }
    cbn [fst] in Hid.
    apply (DurM_map (fun g => if g_id g =? id then set_gmeta g (set_full (g_meta g)) else g) u m); try reflexivity; [| |exact HD].
    + intros g. destruct (g_id g =? id); split; reflexivity.
    + intros g Ec Hnf. destruct (N.eqb_spec (g_id g) id) as [Eid|_]; [|exact Hnf]. exfalso.
      destruct (cur_seg_Some _ _ Ec) as (_ & Hg & _).
      assert (g = gs) by (apply (ids_increasing_unique (m_segs m)); [apply HL|exact Hg|exact Hgs|congruence]).
      subst g. congruence.
  - apply (op_dur_same P u s m _ Em HD). auto.
  - destruct (wr_dur P r u s m s1 m1 nid noff HL Hroom HD Ew) as (tr1 & x & T1 & D1 & HD1).
    exists (tr1 ++ [EIndex i2]), (Some x), (set_idx m1 i2).
    split; [cbn [with_mem s_trace]; rewrite s_trace_emit, T1, app_assoc; reflexivity|].
    split; [apply (dur_snoc _ _ _ _ _ D1); apply dur_step_index|]. split; [reflexivity|]. split; [exact HD1|intros []].
  - destruct (remove_segment_dur u id seq s m HD) as (tr & T & D).
    unfold remove_segment in *. eexists tr, None, _. split; [exact T|]. split; [exact D|].
    split; [reflexivity|]. split; [apply DurM_None|intros []].
Qed.


Inductive xop := XOp (o : op) | XPick | XStep.
Definition cfg := (st * option cursor)%type.

Inductive xstep (P : params) : cfg -> xop -> cfg -> Prop :=
| xs_op s c o : op_pre o s -> xstep P (s, c) (XOp o) (run_op P o s, c)
| xs_pick s s' c : MetaOK s -> compact_pick flat_ops P (clear_trace s) = Some (s', c) ->
    xstep P (s, None) XPick (s', Some c)
| xs_step s c s' c' : (exists m, s_mem s = Some m /\ room m) ->
    compact_step flat_ops P (clear_trace s) c = CMore s' c' -> xstep P (s, Some c) XStep (s', Some c')
| xs_done s c : compact_step flat_ops P (clear_trace s) c = CDone -> xstep P (s, Some c) XStep (clear_trace s, None).

Definition XOpen (P : params) (cf : cfg) : Prop :=
  Open P (fst cf) /\ match snd cf with Some c => CInv (fst cf) c | None => True end.

Definition xspec (o : xop) (c : cmap) : cmap := match o with XOp o => spec_op o c | _ => c end.
Definition xspec_hist (h : list xop) (c : cmap) : cmap := fold_left (fun c o => xspec o c) h c.

Lemma xspec_ceq o a b : ceq a b -> ceq (xspec o a) (xspec o b).
Proof. destruct o; [apply spec_op_ceq|auto|auto]. Qed.
Lemma xspec_hist_ceq h : forall a b, ceq a b -> ceq (xspec_hist h a) (xspec_hist h b).
Proof.
  induction h as [|o h IH]; intros a b H; [exact H|]. unfold xspec_hist. cbn [fold_left].
  apply IH. apply xspec_ceq. exact H.
Qed.

Lemma run_syncs es : forall d : disk, Forall is_sync es -> run_evs es d = d.
Proof.
  induction es as [|e es IH]; intros d H; [reflexivity|]. inversion H as [|? ? (i & q & ->) H']; subst.
  cbn [fold_left apply_ev]. apply IH. exact H'.
Qed.

Lemma CInv_mem (s : st) c : CInv s c -> s_mem s <> None.
Proof. intros (m & Em & _). congruence. Qed.

Lemma xstep_ok P cf o cf' :
  params_ok P -> XOpen P cf -> xstep P cf o cf' ->
  XOpen P cf' /\ ceq (cont (s_disk (fst cf'))) (xspec o (cont (s_disk (fst cf)))) /\
  s_disk (fst cf') = run_evs (s_trace (fst cf')) (s_disk (fst cf)).
Proof.
  intros HP [HO HC] Hs. destruct Hs as [s c o Hpre|s s' c HM E|s c s' c' Hroom E|s c E]; unfold XOpen; cbn [fst snd] in *.
  - destruct (op_ok P o s HP HO Hpre) as [HO' Hc']. destruct HO as (HI & Hm & Hb).
    split; [split; [exact HO'|]|split; [exact Hc'|]].
    + destruct c as [cc|]; [|exact Logic.I].
      destruct o as [k v|k|]; cbn [run_op op_pre] in *.
      * destruct Hpre as (Hroom & Hbk & Hbv & Hk & Hv).
        apply (put_preserves_CInv P (clear_trace s) cc k v (Inv_clear P s HI) Hroom Hbk Hbv Hk Hv HC).
      * destruct Hpre as (Hroom & Hbk).
        apply (delete_preserves_CInv P (clear_trace s) cc k (Inv_clear P s HI) Hroom Hbk HC).
      * apply (sync_preserves_CInv (clear_trace s) cc HC).
    + apply (op_disk_run P o s HP (conj HI (conj Hm Hb)) Hpre).
  - destruct HO as (HI & Hm & Hb).
    destruct (compact_pick_ok P (clear_trace s) (Inv_clear P s HI) HM Hm) as (s1 & c1 & E1 & HI1 & HC1 & Ed1 & _ & _ & (es & Et & Hes) & _).
    rewrite E in E1. inversion E1; subst s1 c1. cbn [clear_trace s_disk s_trace app] in Ed1, Et.
    split; [split; [split; [exact HI1|split; [apply (CInv_mem s' c HC1)|rewrite Ed1; exact Hb]]|exact HC1]|].
    split; [rewrite Ed1; apply ceq_refl|]. rewrite Et, Ed1, (run_syncs es _ Hes). reflexivity.
  - destruct HO as (HI & Hm & Hb).
    assert (HC' : CInv (clear_trace s) c) by exact HC.
    pose proof (compact_step_ok_ex P (clear_trace s) c (Inv_clear P s HI) HC' Hroom) as Hpost.
    rewrite E in Hpost. destruct Hpost as (HI' & HC1 & Hm' & Habs & _ & _ & _ & Hbac').
    cbn [clear_trace s_disk] in Habs, Hbac'.
    split; [split; [split; [exact HI'|split; [exact Hm'|unfold bac_ok; rewrite Hbac'; exact Hb]]|exact HC1]|].
    split; [exact Habs|].
    destruct (compact_step_shape P (clear_trace s) c s' c' (Inv_clear P s HI) Hroom E)
      as [(T & D)|[(r & nid & sq & noff & pre & i2 & _ & _ & T & D)|(es & id & seq & _ & T & D)]];
      cbn [clear_trace s_trace s_disk] in T, D; try rewrite app_nil_l in T; rewrite T, D; reflexivity.
  - split; [split; [|exact Logic.I]|split; [apply ceq_refl|reflexivity]].
    destruct HO as (HI & Hm & Hb). split; [apply Inv_clear; exact HI|split; assumption].
Qed.

(* process-crash images of one step (C03 for every kind of step) *)
Lemma xstep_crash P cf o cf' img :
  params_ok P -> XOpen P cf -> xstep P cf o cf' ->
  crash_image (s_disk (fst cf)) (s_trace (fst cf')) img ->
  Good img /\ (ceq (cont img) (cont (s_disk (fst cf))) \/ ceq (cont img) (cont (s_disk (fst cf')))).
Proof.
  intros HP HX Hs Himg. destruct (xstep_ok P cf o cf' HP HX Hs) as (_ & Hspec & _). destruct HX as [HO HC].
  destruct Hs as [s c o Hpre|s s' c HM E|s c s' c' Hroom E|s c E]; cbn [fst snd xspec] in *.
  - destruct (op_crash P o s img HP HO Hpre Himg) as [Hg [Hc|Hc]]; (split; [exact Hg|]); [left; exact Hc|right].
    eapply ceq_trans; [exact Hc|apply ceq_sym; exact Hspec].
  - destruct HO as (HI & Hm & Hb). destruct (crash_compact_pick P s s' c HI Hm Hb E) as (_ & _ & H).
    destruct (H img Himg) as (_ & G1 & G2 & G3 & Hc). split; [split; [exact G1|split; assumption]|left; exact Hc].
  - destruct HO as (HI & Hm & Hb).
    destruct (crash_compact_step P s c s' c' HI HC Hroom Hb E img Himg) as (G1 & G2 & G3 & Hc).
    split; [split; [exact G1|split; assumption]|left; exact Hc].
  - cbn [clear_trace s_trace] in Himg. inversion Himg; subst. destruct HO as (HI & Hm & Hb).
    split; [apply (Inv_Good P s HI Hm Hb)|left; apply ceq_refl].
Qed.

(* the points at which everything written so far is durable *)
Definition sync_point (P : params) (o : xop) : Prop :=
  match o with XOp OpSync => True | XOp _ => p_sync P = true | _ => False end.

Definition DurS (u : option (N * N)) (s : st) : Prop := exists m, s_mem s = Some m /\ DurM u m.

Lemma open_DurS_None P cf : XOpen P cf -> DurS None (fst cf).
Proof.
  intros [(_ & Hm & _) _]. destruct (s_mem (fst cf)) as [m|] eqn:Em; [|congruence]. exists m. split; [exact Em|apply DurM_None].
Qed.

Lemma xstep_dur P cf o cf' u :
  params_ok P -> XOpen P cf -> xstep P cf o cf' -> DurS u (fst cf) ->
  exists u', dur u (s_trace (fst cf')) = Some u' /\ DurS u' (fst cf') /\ (sync_point P o -> u' = None).
Proof.
  intros HP [HO HC] Hs (m & Em & HD). destruct HO as (HI & Hm & Hb).
  assert (Hfin : forall s' synced, op_dur P u (clear_trace (fst cf)) s' synced ->
            exists u', dur u (s_trace s') = Some u' /\ DurS u' s' /\ (synced -> u' = None)).
  { intros s' synced (tr & u' & m' & T & D & Em' & HD' & Hsy). cbn [clear_trace s_trace app] in T.
    exists u'. rewrite T. split; [exact D|]. split; [exists m'; split; assumption|exact Hsy]. }
  destruct Hs as [s c o Hpre|s s' c HM E|s c s' c' Hroom E|s c E]; cbn [fst snd] in *.
  - destruct o as [k v|k|]; cbn [run_op op_pre sync_point] in *.
    + destruct Hpre as ((m0 & Em0 & Hroom) & Hbk & Hbv & Hk & Hv). assert (m0 = m) by congruence. subst m0.
      pose proof (put_ok P (clear_trace s) k v HP (Inv_clear P s HI) (ex_intro _ m (conj Em Hroom)) Hbk Hbv Hk Hv) as Hp.
      destruct (db_put flat_ops P k v (clear_trace s)) as [s' o'] eqn:E. destruct Hp as (Ho & _). cbn [fst].
      destruct (Hfin s' _ (put_dur P u (clear_trace s) s' m k v o' (Inv_clear P s HI) Em Hroom HD E)) as (u' & A & B & C).
      exists u'. split; [exact A|]. split; [exact B|]. intros Hsy. apply C. split; assumption.
    + destruct Hpre as ((m0 & Em0 & Hroom) & Hbk). assert (m0 = m) by congruence. subst m0.
      pose proof (delete_ok P (clear_trace s) k HP (Inv_clear P s HI) (ex_intro _ m (conj Em Hroom)) Hbk) as Hp.
      destruct (db_delete flat_ops P k (clear_trace s)) as [s' o'] eqn:E. destruct Hp as (Ho & _). cbn [fst].
      destruct (Hfin s' _ (delete_dur P u (clear_trace s) s' m k o' (Inv_clear P s HI) Em Hroom HD E)) as (u' & A & B & C).
      exists u'. split; [exact A|]. split; [exact B|]. intros Hsy. apply C. split; assumption.
    + destruct (db_sync flat_ops (clear_trace s)) as [s' o'] eqn:E. cbn [fst].
      destruct (Hfin s' _ (sync_dur P u (clear_trace s) s' m o' Em HD E)) as (u' & A & B & C).
      exists u'. split; [exact A|]. split; [exact B|]. intros _. apply C. exact Logic.I.
  - destruct (Hfin s' _ (pick_dur P u (clear_trace s) s' m c Em HD E)) as (u' & A & B & _).
    exists u'. split; [exact A|]. split; [exact B|intros []].
  - destruct Hroom as (m0 & Em0 & Hroom). assert (m0 = m) by congruence. subst m0.
    assert (HC' : CInv (clear_trace s) c) by exact HC.
    destruct (Hfin s' _ (cstep_dur P u (clear_trace s) c m s' c' (Inv_clear P s HI) HC' Em Hroom HD E)) as (u' & A & B & _).
    exists u'. split; [exact A|]. split; [exact B|intros []].
  - exists u. split; [reflexivity|]. split; [exists m; split; assumption|intros []].
Qed.

(* a history: the configurations after each step, and all the events *)
Inductive xrun (P : params) : cfg -> list xop -> list cfg -> list fsev -> cfg -> Prop :=
| xr_nil cf : xrun P cf [] [] [] cf
| xr_cons cf o cf1 os cfs tr cf' : xstep P cf o cf1 -> xrun P cf1 os cfs tr cf' ->
    xrun P cf (o :: os) (cf1 :: cfs) (s_trace (fst cf1) ++ tr) cf'.

Lemma xrun_ok P cf os cfs tr cf' :
  params_ok P -> xrun P cf os cfs tr cf' -> XOpen P cf ->
  XOpen P cf' /\ s_disk (fst cf') = run_evs tr (s_disk (fst cf)) /\
  ceq (cont (s_disk (fst cf'))) (xspec_hist os (cont (s_disk (fst cf)))) /\ length cfs = length os.
Proof.
  intros HP H. induction H as [cf|cf o cf1 os cfs tr cf' Hs H IH]; intros HX.
  - split; [exact HX|]. split; [reflexivity|]. split; [apply ceq_refl|reflexivity].
  - destruct (xstep_ok P cf o cf1 HP HX Hs) as (HX1 & Hc1 & Ed1). destruct (IH HX1) as (HX' & Ed' & Hc' & Hlen).
    split; [exact HX'|]. split; [rewrite Ed', Ed1, fold_left_app; reflexivity|]. split; [|cbn [length]; congruence].
    eapply ceq_trans; [exact Hc'|]. unfold xspec_hist at 2. cbn [fold_left]. apply xspec_hist_ceq. exact Hc1.
Qed.

Lemma xrun_dur P cf os cfs tr cf' :
  params_ok P -> xrun P cf os cfs tr cf' -> XOpen P cf -> forall u, DurS u (fst cf) ->
  exists u', dur u tr = Some u' /\ DurS u' (fst cf').
Proof.
  intros HP H. induction H as [cf|cf o cf1 os cfs tr cf' Hs H IH]; intros HX u HD.
  - exists u. split; [reflexivity|exact HD].
  - destruct (xstep_ok P cf o cf1 HP HX Hs) as (HX1 & _).
    destruct (xstep_dur P cf o cf1 u HP HX Hs HD) as (u1 & D1 & HD1 & _).
    destruct (IH HX1 u1 HD1) as (u' & D' & HD'). exists u'. split; [apply (dur_cat _ _ _ _ _ D1 D')|exact HD'].
Qed.

Lemma xrun_crash P cf os cfs tr cf' :
  params_ok P -> xrun P cf os cfs tr cf' -> XOpen P cf ->
  forall img, crash_image (s_disk (fst cf)) tr img ->
  Good img /\ exists j, (j <= length os)%nat /\ ceq (cont img) (xspec_hist (firstn j os) (cont (s_disk (fst cf)))).
Proof.
  intros HP H. induction H as [cf|cf o cf1 os cfs tr cf' Hs H IH]; intros HX img Himg.
  - inversion Himg; subst. destruct HX as [(HI & Hm & Hb) _].
    split; [apply (Inv_Good P _ HI Hm Hb)|]. exists O. split; [apply Nat.le_refl|apply ceq_refl].
  - destruct (xstep_ok P cf o cf1 HP HX Hs) as (HX1 & Hc1 & Ed1).
    destruct (crash_image_split _ _ _ _ Himg) as [Hl|Hr].
    + destruct (xstep_crash P cf o cf1 img HP HX Hs Hl) as [Hg [Hc|Hc]]; (split; [exact Hg|]).
      * exists O. split; [apply Nat.le_0_l|exact Hc].
      * exists 1%nat. split; [cbn [length]; lia|]. cbn [firstn]. unfold xspec_hist. cbn [fold_left].
        eapply ceq_trans; [exact Hc|exact Hc1].
    + rewrite <- Ed1 in Hr. destruct (IH HX1 img Hr) as [Hg (j & Hj & Hc)]. split; [exact Hg|].
      exists (S j). split; [cbn [length]; lia|]. cbn [firstn]. unfold xspec_hist. cbn [fold_left].
      eapply ceq_trans; [exact Hc|]. apply xspec_hist_ceq. exact Hc1.
Qed.


(* the power fails at any point of a history that started with nothing pending on any segment file: the
   image is, in all that a recovery looks at, a process-crash image of the history *)
Lemma C06_crash_image P cf os cfs tr cf' u L img es1 es2 L' img' :
  params_ok P -> XOpen P cf -> xrun P cf os cfs tr cf' -> DurS u (fst cf) ->
  seg_clean L -> Agree L (s_disk (fst cf)) img ->
  tr = es1 ++ es2 -> pl L img es1 L' img' ->
  exists cimg, crash_image (s_disk (fst cf)) tr cimg /\ Same cimg img'.
Proof.
  intros HP HX Hr HD HL HA Etr Hpl.
  destruct (xrun_dur P cf os cfs tr cf' HP Hr HX u HD) as (u' & Hdur & _).
  assert (Hd1 : dur u es1 <> None) by (apply (dur_prefix es1 es2); rewrite <- Etr, Hdur; discriminate).
  destruct (pl_crash_image _ _ _ _ _ _ u Hpl HL HA Hd1) as (cimg & C1 & C2).
  exists cimg. split; [rewrite Etr; apply crash_image_app_l; exact C1|exact C2].
Qed.

(* Power fails at any point of a history that started in a state with nothing pending on any segment
   file: the image is recoverable and holds the contents after some prefix of the steps. *)
Theorem C06_image P cf os cfs tr cf' u L img es1 es2 L' img' :
  params_ok P -> XOpen P cf -> xrun P cf os cfs tr cf' -> DurS u (fst cf) ->
  seg_clean L -> Agree L (s_disk (fst cf)) img ->
  tr = es1 ++ es2 -> pl L img es1 L' img' ->
  Good img' /\ exists j, (j <= length os)%nat /\
                         ceq (cont img') (xspec_hist (firstn j os) (cont (s_disk (fst cf)))).
Proof.
  intros HP HX Hr HD HL HA Etr Hpl.
  destruct (C06_crash_image P cf os cfs tr cf' u L img es1 es2 L' img' HP HX Hr HD HL HA Etr Hpl) as (cimg & Hci & Hsame).
  destruct (xrun_crash P cf os cfs tr cf' HP Hr HX cimg Hci) as [Hg (j & Hj & Hc)].
  split; [apply (Same_Good cimg); assumption|]. exists j. split; [exact Hj|].
  intros k. unfold cont. rewrite (proj2 (Same_cont _ _ Hsame)). apply Hc.
Qed.


(* a history that ends with a sync point leaves nothing pending on any segment file *)
Lemma sync_point_clean P cf0 os0 cfs0 tr0 cfa osync cf1 es L1 img1 :
  params_ok P -> XOpen P cf0 -> xrun P cf0 os0 cfs0 tr0 cfa -> xstep P cfa osync cf1 -> sync_point P osync ->
  es = tr0 ++ s_trace (fst cf1) ->
  pl fnone (s_disk (fst cf0)) es L1 img1 ->
  XOpen P cf1 /\ dur None es = Some None /\ seg_clean L1 /\ Agree L1 (s_disk (fst cf1)) img1.
Proof.
  intros HP HX0 Hr0 Hs Hsp Ees Hpl.
  destruct (xrun_ok P _ _ _ _ _ HP Hr0 HX0) as (HXa & Eda & _).
  destruct (xstep_ok P _ _ _ HP HXa Hs) as (HX1 & _ & Ed1).
  destruct (xrun_dur P _ _ _ _ _ HP Hr0 HX0 None (open_DurS_None P cf0 HX0)) as (ua & Da & HDa).
  destruct (xstep_dur P _ _ _ ua HP HXa Hs HDa) as (u1 & D1 & _ & Hu1). rewrite (Hu1 Hsp) in D1.
  assert (Hdur : dur None es = Some None) by (rewrite Ees; apply (dur_cat _ _ _ _ _ Da D1)).
  split; [exact HX1|]. split; [exact Hdur|].
  assert (Hcl : seg_clean L1).
  { intros i q. destruct (L1 (FSeg i q)) eqn:E; [|reflexivity].
    assert (Hx : None = Some (i, q)); [|discriminate Hx].
    apply (pl_dur _ _ _ _ _ Hpl None None Hdur); [intros i' q' H'; discriminate H'|exact E]. }
  split; [exact Hcl|].
  assert (Edisk : s_disk (fst cf1) = run_evs es (s_disk (fst cf0))) by (rewrite Ees, fold_left_app, <- Eda; exact Ed1).
  rewrite Edisk. apply (pl_agree _ _ _ _ _ Hpl). apply Agree_refl.
Qed.

(* C06.  A history from a state with a durable disk; a Sync (or, with p_sync, any Put / Delete) completes
   with contents A0 := cont (s_disk (fst cf1)); any further steps [os] (writers and compaction micro-steps
   in any interleaving); the power fails after any prefix [es1] of their events.  Whatever the file
   system kept (any admissible image), recovery succeeds and yields the contents after some prefix of
   [os] applied to A0: nothing that was synced is lost, later operations are kept in order. *)
Theorem C06_synced_writes_survive P seed cf0 os0 cfs0 tr0 cfa osync cf1 os cfs tr cf' es1 es2 L' img' :
  params_ok P -> XOpen P cf0 ->
  xrun P cf0 os0 cfs0 tr0 cfa -> xstep P cfa osync cf1 -> sync_point P osync ->
  xrun P cf1 os cfs tr cf' -> tr = es1 ++ es2 ->
  pl fnone (s_disk (fst cf0)) (tr0 ++ s_trace (fst cf1) ++ es1) L' img' ->
  exists s2, db_open flat_ops P seed (closed img') = (s2, OOpened true) /\ Inv P s2 /\ s_mem s2 <> None /\
    exists j, (j <= length os)%nat /\
      ceq (cont (s_disk s2)) (xspec_hist (firstn j os) (cont (s_disk (fst cf1)))).
Proof.
  intros HP HX0 Hr0 Hs Hsp Hr Etr Hpl. rewrite app_assoc in Hpl.
  destruct (pl_app_inv _ _ _ _ _ _ Hpl) as (L1 & img1 & Hpl1 & Hpl2).
  destruct (sync_point_clean P _ _ _ _ _ _ _ _ L1 img1 HP HX0 Hr0 Hs Hsp eq_refl Hpl1) as (HX1 & _ & Hcl & HA).
  destruct (C06_image P cf1 os cfs tr cf' None L1 img1 es1 es2 L' img' HP HX1 Hr (open_DurS_None P cf1 HX1) Hcl HA Etr Hpl2)
    as ((G1 & G2 & G3) & j & Hj & Hc).
  destruct (crash_then_recover P seed img' HP G1 G2 G3) as (s2 & E2 & HI2 & Hm2 & _ & Ha2).
  exists s2. split; [exact E2|]. split; [exact HI2|]. split; [exact Hm2|]. exists j. split; [exact Hj|].
  intros k. unfold cont at 1. rewrite Ha2. apply Hc.
Qed.

(* per key: the value at the sync point, or the value after one of the later operations *)
Corollary C06_per_key P seed cf0 os0 cfs0 tr0 cfa osync cf1 os cfs tr cf' es1 es2 L' img' :
  params_ok P -> XOpen P cf0 ->
  xrun P cf0 os0 cfs0 tr0 cfa -> xstep P cfa osync cf1 -> sync_point P osync ->
  xrun P cf1 os cfs tr cf' -> tr = es1 ++ es2 ->
  pl fnone (s_disk (fst cf0)) (tr0 ++ s_trace (fst cf1) ++ es1) L' img' ->
  exists s2, db_open flat_ops P seed (closed img') = (s2, OOpened true) /\ Inv P s2 /\
    forall k, exists j, (j <= length os)%nat /\
      sget (abs (s_disk s2)) k = xspec_hist (firstn j os) (cont (s_disk (fst cf1))) k.
Proof.
  intros HP HX0 Hr0 Hs Hsp Hr Etr Hpl.
  destruct (C06_synced_writes_survive P seed _ _ _ _ _ _ _ _ _ _ _ _ _ _ _ HP HX0 Hr0 Hs Hsp Hr Etr Hpl)
    as (s2 & E2 & HI2 & _ & j & Hj & Hc).
  exists s2. split; [exact E2|]. split; [exact HI2|]. intros k. exists j. split; [exact Hj|apply Hc].
Qed.

(* histories of writer operations only (Put / Delete / Sync, with rollover) *)
Fixpoint htrace (P : params) (h : list op) (s : st) : list fsev :=
  match h with
  | [] => []
  | o :: h' => s_trace (run_op P o s) ++ htrace P h' (run_op P o s)
  end.

Lemma history_xrun P s h s' :
  history P s h s' -> exists cfs, xrun P (s, None) (map XOp h) cfs (htrace P h s) (s', None).
Proof.
  intros H. induction H as [s|s o h s' Hpre H (cfs & IH)].
  - exists []. apply xr_nil.
  - exists ((run_op P o s, None) :: cfs). cbn [map htrace].
    apply (xr_cons P (s, None) (XOp o) (run_op P o s, None)); [apply xs_op; exact Hpre|exact IH].
Qed.

Lemma xspec_hist_map h c : xspec_hist (map XOp h) c = spec_hist h c.
Proof. revert c. induction h as [|o h IH]; intros c; [reflexivity|]. apply IH. Qed.

Theorem C06_no_compaction P seed s0 h0 sa o h s' es1 es2 L' img' :
  params_ok P -> Open P s0 ->
  history P s0 h0 sa -> op_pre o sa -> (o = OpSync \/ p_sync P = true) ->
  history P (run_op P o sa) h s' -> htrace P h (run_op P o sa) = es1 ++ es2 ->
  pl fnone (s_disk s0) (htrace P h0 s0 ++ s_trace (run_op P o sa) ++ es1) L' img' ->
  exists s2, db_open flat_ops P seed (closed img') = (s2, OOpened true) /\ Inv P s2 /\ s_mem s2 <> None /\
    exists j, (j <= length h)%nat /\
      ceq (cont (s_disk s2)) (spec_hist (firstn j h) (cont (s_disk (run_op P o sa)))).
Proof.
  intros HP HO H0 Hpre Hsy H Etr Hpl.
  destruct (history_xrun P _ _ _ H0) as (cfs0 & R0). destruct (history_xrun P _ _ _ H) as (cfs & R).
  assert (Hsp : sync_point P (XOp o)) by (destruct Hsy as [->|E]; [exact Logic.I|destruct o; try exact E; exact Logic.I]).
  destruct (C06_synced_writes_survive P seed (s0, None) _ _ _ (sa, None) (XOp o) (run_op P o sa, None) _ _ _ _ es1 es2 L' img'
              HP (conj HO Logic.I) R0 (xs_op P sa None o Hpre) Hsp R Etr Hpl) as (s2 & E2 & HI2 & Hm2 & j & Hj & Hc).
  exists s2. split; [exact E2|]. split; [exact HI2|]. split; [exact Hm2|]. exists j. rewrite map_length in Hj.
  split; [exact Hj|]. cbn [fst] in Hc. rewrite firstn_map, xspec_hist_map in Hc. exact Hc.
Qed.

(* The log itself, for histories of writer operations: the image's log contains the log as of the sync point
   and is a prefix of the current log.  With compaction this fails: the log of the image is the log at the
   crash point of the reduction, in which a removed source segment is missing (its live records are in newer
   segments, flushed before the removal); the statement that holds then is the one on contents, C06_image. *)
Lemma op_crash_olog P o (s : st) img :
  params_ok P -> Open P s -> op_pre o s ->
  crash_image (s_disk s) (s_trace (run_op P o s)) img ->
  Good img /\ (olog img = olog (s_disk s) \/ olog img = olog (s_disk (run_op P o s))) /\
  exists l, olog (s_disk (run_op P o s)) = olog (s_disk s) ++ l.
Proof.
  intros HP HO Hpre Himg. pose proof HO as (HI & Hm & Hb). pose proof (Inv_Good P s HI Hm Hb) as Hg.
  destruct (op_shape P o s HP HO Hpre)
    as (HI' & Hm' & _ & [(Ed & Et)|(r & id & seq & off & pre & i & post & Hr & Hsh & Hpost & Et & Ed & Eo)]).
  - rewrite (sync_images (s_disk s) _ img Et Himg). split; [exact Hg|]. split; [left; reflexivity|].
    exists []. rewrite Ed, app_nil_r. reflexivity.
  - rewrite Et in Himg. destruct (Inv_open' P _ HI' Hm') as (m' & _ & Hok' & _).
    destruct (write_crash (s_disk s) _ r id seq off pre i post img Hg Hsh Hpost Ed Hok' (Inv_tails_nil P _ HI' Hm') Hr Himg)
      as (G & Ho).
    split; [exact G|]. split; [exact Ho|]. eexists. exact Eo.
Qed.

Lemma history_crash_olog P s h s' :
  params_ok P -> history P s h s' -> Open P s ->
  (exists l, olog (s_disk s') = olog (s_disk s) ++ l) /\
  forall img, crash_image (s_disk s) (htrace P h s) img ->
  Good img /\ exists l1 l2, olog img = olog (s_disk s) ++ l1 /\ olog (s_disk s') = olog img ++ l2.
Proof.
  intros HP H. induction H as [s|s o h s' Hpre H IH]; intros HO.
  - split; [exists []; rewrite app_nil_r; reflexivity|]. intros img Himg. cbn [htrace] in Himg. inversion Himg; subst.
    destruct HO as (HI & Hm & Hb). split; [apply (Inv_Good P s HI Hm Hb)|].
    exists [], []. rewrite !app_nil_r. split; reflexivity.
  - destruct (op_ok P o s HP HO Hpre) as [HO1 _]. destruct (IH HO1) as [(lr & Elr) IHc].
    destruct (op_crash_olog P o s _ HP HO Hpre (op_final_image P o s HP HO Hpre)) as (_ & _ & l & El).
    split; [exists (l ++ lr); rewrite Elr, El, app_assoc; reflexivity|].
    intros img Himg. cbn [htrace] in Himg. destruct (crash_image_split _ _ _ _ Himg) as [Hl|Hr].
    + destruct (op_crash_olog P o s img HP HO Hpre Hl) as (Hg & [Ho|Ho] & _); (split; [exact Hg|]).
      * exists [], (l ++ lr). rewrite Ho, app_nil_r, Elr, El, app_assoc. split; reflexivity.
      * exists l, lr. rewrite Ho. split; [exact El|exact Elr].
    + destruct (xstep_ok P (s, None) (XOp o) (run_op P o s, None) HP (conj HO Logic.I) (xs_op P s None o Hpre)) as (_ & _ & Ed).
      cbn [fst] in Ed. rewrite <- Ed in Hr. destruct (IHc img Hr) as (Hg & l1 & l2 & E1 & E2).
      split; [exact Hg|]. exists (l ++ l1), l2. split; [rewrite E1, El, app_assoc; reflexivity|exact E2].
Qed.

Theorem C06_image_is_log_prefix P s0 h0 sa o h s' es1 es2 L' img' :
  params_ok P -> Open P s0 ->
  history P s0 h0 sa -> op_pre o sa -> (o = OpSync \/ p_sync P = true) ->
  history P (run_op P o sa) h s' -> htrace P h (run_op P o sa) = es1 ++ es2 ->
  pl fnone (s_disk s0) (htrace P h0 s0 ++ s_trace (run_op P o sa) ++ es1) L' img' ->
  DiskOK img' /\ bac_ok img' /\ d_lock img' = true /\
  exists l1 l2, olog img' = olog (s_disk (run_op P o sa)) ++ l1 /\ olog (s_disk s') = olog img' ++ l2.
Proof.
  intros HP HO H0 Hpre Hsy H Etr Hpl.
  destruct (history_xrun P _ _ _ H0) as (cfs0 & R0). destruct (history_xrun P _ _ _ H) as (cfs & R).
  assert (Hsp : sync_point P (XOp o)) by (destruct Hsy as [->|E]; [exact Logic.I|destruct o; try exact E; exact Logic.I]).
  rewrite app_assoc in Hpl. destruct (pl_app_inv _ _ _ _ _ _ Hpl) as (L1 & img1 & Hpl1 & Hpl2).
  destruct (sync_point_clean P (s0, None) _ _ _ (sa, None) (XOp o) (run_op P o sa, None) _ L1 img1 HP (conj HO Logic.I) R0
              (xs_op P sa None o Hpre) Hsp eq_refl Hpl1) as (HX1 & _ & Hcl & HA).
  destruct (C06_crash_image P (run_op P o sa, None) _ _ _ _ None L1 img1 es1 es2 L' img' HP HX1 R (open_DurS_None P _ HX1) Hcl HA Etr Hpl2)
    as (cimg & Hci & Hsame).
  destruct (history_crash_olog P _ _ _ HP H (proj1 HX1)) as [_ Hc]. cbn [fst] in Hci.
  destruct (Hc cimg Hci) as (Hg & l1 & l2 & E1 & E2).
  destruct (Same_Good _ _ Hsame Hg) as (G1 & G2 & G3). split; [exact G1|]. split; [exact G2|]. split; [exact G3|].
  exists l1, l2. rewrite (proj1 (Same_cont _ _ Hsame)). split; assumption.
Qed.


(* [clr f es b]: scanning [es], is file [f] free of unflushed data at the end?  ([b]: at the start) *)
Definition fname_opt_eqb (o : option fname) (f : fname) : bool :=
  match o with Some g => fname_eqb g f | None => false end.

Fixpoint clr (f : fname) (es : list fsev) (b : bool) : bool :=
  match es with
  | [] => b
  | e :: es' => clr f es' (if fname_opt_eqb (sync_file e) f then true
                           else if fname_opt_eqb (data_file e) f then false else b)
  end.

Lemma clr_app f es1 : forall es2 b, clr f (es1 ++ es2) b = clr f es2 (clr f es1 b).
Proof. induction es1 as [|e es1 IH]; intros es2 b; [reflexivity|]. cbn [app clr]. apply IH. Qed.

Lemma clr_mono f es : clr f es false = true -> forall b, clr f es b = true.
Proof.
  induction es as [|e es IH]; cbn [clr]; intros H b; [discriminate|].
  destruct (fname_opt_eqb (sync_file e) f); [exact H|].
  destruct (fname_opt_eqb (data_file e) f); [exact H|]. apply IH. exact H.
Qed.

Lemma fname_opt_eqb_true o f : fname_opt_eqb o f = true <-> o = Some f.
Proof.
  destruct o as [g|]; cbn [fname_opt_eqb]; [|split; discriminate].
  rewrite rc_fname_eqb_spec. split; [intros ->; reflexivity|intros E; inversion E; reflexivity].
Qed.

(* a file that the scan finds flushed has lost nothing *)
Lemma pl_clr L img es L' img' :
  pl L img es L' img' -> forall f b, (b = true -> L f = false) -> clr f es b = true -> L' f = false.
Proof.
  intros H. induction H as [L d0|L d0 e es L1 d1 H1 H2 H3 IH|L d0 e g es L1 d1 H1 H3 IH|L d0 id seq off r c es L1 d1 H1 H2 H2' H3 IH];
    intros f b Hb Hc; cbn [clr] in Hc.
  - apply Hb. exact Hc.
  - refine (IH f _ _ Hc). intros Hb'.
    assert (Hl : L f = false).
    { destruct (fname_opt_eqb (sync_file e) f) eqn:Es; [apply fname_opt_eqb_true in Es; apply H2; exact Es|].
      destruct (fname_opt_eqb (data_file e) f) eqn:Ed; [discriminate|]. apply Hb. exact Hb'. }
    destruct (forget e L f) eqn:E; [|reflexivity]. apply forget_le in E. congruence.
  - refine (IH f _ _ Hc). intros Hb'.
    assert (Es : fname_opt_eqb (sync_file e) f = false) by (destruct e; try reflexivity; discriminate H1).
    rewrite Es in Hb'. destruct (fname_opt_eqb (data_file e) f) eqn:Ed; [discriminate|].
    rewrite fadd_other; [apply Hb; exact Hb'|]. intros E. subst g.
    rewrite H1 in Ed. cbn [fname_opt_eqb] in Ed. rewrite rc_fname_eqb_refl in Ed. discriminate.
  - cbn [sync_file data_file fname_opt_eqb] in Hc. refine (IH f _ _ Hc). intros Hb'.
    destruct (fname_eqb (FSeg id seq) f) eqn:Ed; [discriminate|].
    rewrite fadd_other; [apply Hb; exact Hb'|]. intros E. subst f. rewrite rc_fname_eqb_refl in Ed. discriminate.
Qed.

(* pieces of code every write of which is flushed before the piece ends, and that flush [F] *)
Definition tidy (es : list fsev) : Prop := forall f, clr f es true = true.
Definition cl_run (F : fname -> Prop) (s s' : st) : Prop :=
  exists es, s_trace s' = s_trace s ++ es /\ s_disk s' = run_evs es (s_disk s) /\ s_mem s' = s_mem s /\
             tidy es /\ forall f, F f -> clr f es false = true.

Lemma cl_run_refl (s : st) : cl_run (fun _ => False) s s.
Proof. exists []. rewrite app_nil_r. repeat split. intros f []. Qed.

Lemma cl_run_trans F1 F2 (a b c : st) :
  cl_run F1 a b -> cl_run F2 b c -> cl_run (fun f => F1 f \/ F2 f) a c.
Proof.
  intros (e1 & T1 & D1 & M1 & Y1 & C1) (e2 & T2 & D2 & M2 & Y2 & C2). exists (e1 ++ e2).
  split; [rewrite T2, T1, app_assoc; reflexivity|]. split; [rewrite D2, D1, fold_left_app; reflexivity|].
  split; [congruence|]. split.
  - intros f. rewrite clr_app, Y1. apply Y2.
  - intros f [H|H]; rewrite clr_app; [rewrite (C1 f H); apply Y2|apply clr_mono; apply C2; exact H].
Qed.

Lemma cl_run_weaken (F F' : fname -> Prop) (a b : st) : (forall f, F' f -> F f) -> cl_run F a b -> cl_run F' a b.
Proof. intros H (es & T & D & M & Y & C). exists es. repeat split; auto. Qed.

Lemma cl_run_sync f (s : st) : cl_run (eq f) s (emit flat_ops (ESync f) s).
Proof.
  exists [ESync f]. split; [reflexivity|]. split; [reflexivity|]. split; [reflexivity|]. split.
  - intros g. cbn [clr sync_file data_file fname_opt_eqb]. destruct (fname_eqb f g); reflexivity.
  - intros g <-. cbn [clr sync_file fname_opt_eqb]. rewrite rc_fname_eqb_refl. reflexivity.
Qed.

Lemma cl_run_gob f body (s : st) :
  data_file body = Some f -> sync_file body = None -> cl_run (eq f) s (gob_write flat_ops f body s).
Proof.
  intros Hb Hs. unfold gob_write.
  set (e0 := if exists_file (s_disk s) f then @ETrunc flat f 0 else @ECreate flat f).
  assert (E0 : (if exists_file (s_disk s) f then emit flat_ops (ETrunc f 0) s else emit flat_ops (ECreate f) s)
               = emit flat_ops e0 s) by (unfold e0; destruct (exists_file (s_disk s) f); reflexivity).
  rewrite E0. exists [e0; EHeader f; body; ESync f].
  split; [rewrite s_trace_emits, s_trace_emit, <- app_assoc; reflexivity|].
  split; [rewrite s_disk_emits, s_disk_emit; reflexivity|]. split; [rewrite s_mem_emits; reflexivity|].
  assert (Hlast : forall g b, clr g [ESync f] b = if fname_eqb f g then true else b).
  { intros g b. cbn [clr sync_file data_file fname_opt_eqb]. destruct (fname_eqb f g); reflexivity. }
  assert (Hne : forall g b, fname_eqb f g = false -> clr g [e0; EHeader f; body] b = b).
  { intros g b Hg. cbn [clr]. rewrite Hb, Hs.
    assert (A : fname_opt_eqb (sync_file e0) g = false) by (unfold e0; destruct (exists_file (s_disk s) f); reflexivity).
    assert (B : fname_opt_eqb (data_file e0) g = false).
    { unfold e0; destruct (exists_file (s_disk s) f); cbn [data_file fname_opt_eqb]; [exact Hg|reflexivity]. }
    rewrite A, B. cbn [sync_file data_file fname_opt_eqb]. rewrite Hg. reflexivity. }
  split.
  - intros g. change [e0; EHeader f; body; ESync f] with ([e0; EHeader f; body] ++ [ESync f]).
    rewrite clr_app, Hlast. destruct (fname_eqb f g) eqn:Hg; [reflexivity|apply Hne; exact Hg].
  - intros g <-. change [e0; EHeader f; body; ESync f] with ([e0; EHeader f; body] ++ [ESync f]).
    rewrite clr_app, Hlast, rc_fname_eqb_refl. reflexivity.
Qed.

Lemma cl_run_remove f (s : st) : cl_run (fun _ => False) s (emit flat_ops (ERemove f) s).
Proof. exists [ERemove f]. repeat split. intros g []. Qed.

(* the files Close flushes *)
Definition CloseF (G : list mseg) (f : fname) : Prop :=
  f = FDbMeta \/ f = FIndexMeta \/ f = FMain \/ f = FOverflow \/
  exists g, In g G /\ (f = FSeg (g_id g) (g_seq g) \/ f = FSegMeta (g_id g) (g_seq g)).

Lemma cl_run_close_segs G : forall s : st,
  cl_run (fun f => exists g, In g G /\ (f = FSeg (g_id g) (g_seq g) \/ f = FSegMeta (g_id g) (g_seq g)))
    s (fold_left (fun s g =>
            gob_write flat_ops (FSegMeta (g_id g) (g_seq g)) (EGobSeg (g_id g) (g_seq g) (g_meta g))
                      (emit flat_ops (ESync (FSeg (g_id g) (g_seq g))) s)) G s).
Proof.
  induction G as [|g G IH]; intros s.
  - cbn [fold_left]. eapply cl_run_weaken; [|apply cl_run_refl]. intros f (g & [] & _).
  - cbn [fold_left].
    pose proof (cl_run_sync (FSeg (g_id g) (g_seq g)) s) as R1.
    pose proof (cl_run_gob (FSegMeta (g_id g) (g_seq g)) (EGobSeg (g_id g) (g_seq g) (g_meta g))
                  (emit flat_ops (ESync (FSeg (g_id g) (g_seq g))) s) eq_refl eq_refl) as R2.
    eapply cl_run_weaken; [|exact (cl_run_trans _ _ _ _ _ (cl_run_trans _ _ _ _ _ R1 R2) (IH _))].
    intros f (g0 & [<-|Hg0] & Hf).
    + left. destruct Hf as [->| ->]; [left|right]; reflexivity.
    + right. exists g0. split; assumption.
Qed.

Lemma close_cl_run (s : st) m : s_mem s = Some m ->
  exists es, s_trace (fst (db_close flat_ops s)) = s_trace s ++ es /\
             s_disk (fst (db_close flat_ops s)) = run_evs es (s_disk s) /\
             forall f, CloseF (m_segs m) f -> clr f es false = true.
Proof.
  intros Em. unfold db_close. rewrite Em. cbn [fst s_trace s_disk].
  set (s1 := gob_write flat_ops FDbMeta (EGobDb (m_seed m)) s).
  set (s2 := fold_left _ (m_segs m) s1).
  set (s3 := gob_write flat_ops FIndexMeta (EGobIndex (m_idx m)) s2).
  assert (R1 : cl_run (eq FDbMeta) s s1) by (apply cl_run_gob; reflexivity).
  assert (R2 : cl_run _ s1 s2) by apply cl_run_close_segs.
  assert (R3 : cl_run (eq FIndexMeta) s2 s3) by (apply cl_run_gob; reflexivity).
  pose proof (cl_run_sync FMain s3) as R4.
  pose proof (cl_run_sync FOverflow (emit flat_ops (ESync FMain) s3)) as R5.
  pose proof (cl_run_remove FLock (emit flat_ops (ESync FOverflow) (emit flat_ops (ESync FMain) s3))) as R6.
  pose proof (cl_run_trans _ _ _ _ _ (cl_run_trans _ _ _ _ _ (cl_run_trans _ _ _ _ _ (cl_run_trans _ _ _ _ _ (cl_run_trans _ _ _ _ _ R1 R2) R3) R4) R5) R6) as R.
  destruct R as (es & T & D & _ & _ & C). exists es. split; [exact T|]. split; [exact D|].
  intros f Hf. apply C. unfold CloseF in Hf.
  destruct Hf as [->|[->|[->|[->|Hg]]]]; tauto.
Qed.

(* the model's list of orphaned side files is never read by a clean Open *)
Definition osim (l : list (N * N)) (s : st) : st :=
  {| s_mem := s_mem s; s_disk := set_orphans (s_disk s) l; s_trace := s_trace s |}.

Definition orph_free (e : fsev) : bool :=
  match e with
  | ERemove (FSeg _ _) | ERemove (FSegMeta _ _) | ERename _ _ => false
  | _ => true
  end.

Lemma apply_ev_orph l (d : disk) e :
  orph_free e = true -> apply_ev flat_ops (set_orphans d l) e = set_orphans (apply_ev flat_ops d e) l.
Proof.
  destruct e as [f|f|id seq off r|i|id seq m|i|sd|f n|f g|f|f]; cbn [orph_free]; intros H;
    try discriminate H; try reflexivity; destruct f; try discriminate H; reflexivity.
Qed.

Lemma emit_orph l e (s : st) : orph_free e = true -> emit flat_ops e (osim l s) = osim l (emit flat_ops e s).
Proof. intros H. unfold emit, osim. cbn [s_mem s_disk s_trace]. rewrite (apply_ev_orph l _ e H). reflexivity. Qed.

Lemma emits_orph l es : forall s : st, forallb orph_free es = true ->
  emits flat_ops es (osim l s) = osim l (emits flat_ops es s).
Proof.
  induction es as [|e es IH]; intros s H; [reflexivity|]. cbn [forallb] in H. apply andb_true_iff in H.
  destruct H as [H1 H2]. rewrite !rc_emits_cons, (emit_orph l e s H1). apply IH. exact H2.
Qed.

Lemma open_index_orph l (s : st) :
  open_index flat_ops (osim l s) =
  match open_index flat_ops s with Some (s2, i) => Some (osim l s2, i) | None => None end.
Proof.
  unfold open_index. change (d_index (s_disk (osim l s))) with (d_index (s_disk s)).
  destruct (d_index (s_disk s)) as [i0|] eqn:Ei.
  - change (d_overflow (s_disk (osim l s))) with (d_overflow (s_disk s)).
    destruct (d_overflow (s_disk s)) eqn:Eo.
    + change (d_index (s_disk (osim l s))) with (d_index (s_disk s)).
      change (d_imeta (s_disk (osim l s))) with (d_imeta (s_disk s)). rewrite Ei.
      destruct (d_imeta (s_disk s)); reflexivity.
    + rewrite (emits_orph l) by reflexivity.
      set (s2 := emits flat_ops [ECreate FOverflow; EHeader FOverflow] s).
      change (d_index (s_disk (osim l s2))) with (d_index (s_disk s2)).
      change (d_imeta (s_disk (osim l s2))) with (d_imeta (s_disk s2)).
      destruct (d_index (s_disk s2)); [|reflexivity]. destruct (d_imeta (s_disk s2)); reflexivity.
  - rewrite (emits_orph l) by reflexivity.
    set (s1 := emits flat_ops [ECreate FMain; EHeader FMain] s).
    change (d_overflow (s_disk (osim l s1))) with (d_overflow (s_disk s1)).
    destruct (d_overflow (s_disk s1)).
    + rewrite (emits_orph l) by reflexivity. reflexivity.
    + rewrite !(emits_orph l) by reflexivity. reflexivity.
Qed.

Lemma open_segments_orph l (s : st) :
  open_segments flat_ops (osim l s) = (osim l (fst (open_segments flat_ops s)), snd (open_segments flat_ops s)).
Proof.
  unfold open_segments. change (d_segs (s_disk (osim l s))) with (d_segs (s_disk s)).
  generalize (sort_segs (d_segs (s_disk s))) as L. generalize (@nil mseg) as acc. revert s.
  intros s acc L. revert s acc. induction L as [|f L IH]; intros s acc; [reflexivity|].
  cbn [fold_left]. destruct (f_hdr f).
  - change (find_dseg (f_id f) (s_disk (osim l s))) with (find_dseg (f_id f) (s_disk s)). apply IH.
  - rewrite (emit_orph l) by reflexivity.
    change (find_dseg (f_id f) (s_disk (osim l (emit flat_ops (EHeader (FSeg (f_id f) (f_seq f))) s))))
      with (find_dseg (f_id f) (s_disk (emit flat_ops (EHeader (FSeg (f_id f) (f_seq f))) s))). apply IH.
Qed.

Lemma swap_orph l (s : st) (m : mem) :
  swap_segment flat_ops (osim l s) m = (osim l (fst (swap_segment flat_ops s m)), snd (swap_segment flat_ops s m)).
Proof.
  unfold swap_segment. destruct (find (fun g => negb (sm_full (g_meta g))) (m_segs m)); [reflexivity|].
  rewrite (emits_orph l) by reflexivity. reflexivity.
Qed.

Lemma db_open_orph P seed l (d : disk) :
  d_lock d = false ->
  db_open flat_ops P seed (closed (set_orphans d l)) =
  (osim l (fst (db_open flat_ops P seed (closed d))), snd (db_open flat_ops P seed (closed d))).
Proof.
  intros Hl. unfold db_open. cbn [closed s_mem s_disk]. change (d_lock (set_orphans d l)) with (d_lock d). rewrite Hl.
  change (closed (set_orphans d l)) with (osim l (closed d)).
  rewrite (emit_orph l) by reflexivity. rewrite open_index_orph.
  destruct (open_index flat_ops (emit flat_ops (ECreate FLock) (closed d))) as [[s2 i]|]; [|reflexivity].
  rewrite open_segments_orph. destruct (open_segments flat_ops s2) as [s3 segs]. cbn [fst snd].
  rewrite swap_orph.
  destruct (swap_segment flat_ops s3 _) as [s4 m1]. cbn [fst snd].
  change (d_dbmeta (s_disk (osim l s4))) with (d_dbmeta (s_disk s4)).
  destruct (if ix_count flat_ops i =? 0 then Some seed else match d_dbmeta (s_disk s4) with GOk sd => Some sd | _ => None end);
    reflexivity.
Qed.

Lemma dseg_eq (f f' : dseg) : seg_core f' = seg_core f -> f_meta f' = f_meta f -> f' = f.
Proof.
  destruct f as [a b c d e g], f' as [a' b' c' d' e' g']. unfold seg_core. cbn [f_id f_seq f_hdr f_recs f_tail f_meta].
  intros E1 E2. inversion E1; subst. reflexivity.
Qed.

Lemma agree_segs_eq (L : fset) l l' :
  Forall2 (seg_agree L) l l' ->
  (forall f, In f l -> L (FSeg (f_id f) (f_seq f)) = false /\ L (FSegMeta (f_id f) (f_seq f)) = false) ->
  l' = l.
Proof.
  intros H. induction H as [|f f' l l' (_ & _ & C & D) _ IH]; intros HL; [reflexivity|].
  destruct (HL f (or_introl eq_refl)) as [H1 H2].
  rewrite (dseg_eq f f' (C H1) (D H2)), IH; [reflexivity|]. intros x Hx. apply HL. right. exact Hx.
Qed.

Lemma disk_eq_orph (d img : disk) :
  d_segs img = d_segs d -> d_index img = d_index d -> d_overflow img = d_overflow d ->
  d_imeta img = d_imeta d -> d_dbmeta img = d_dbmeta d -> d_lock img = d_lock d -> d_bac img = d_bac d ->
  img = set_orphans d (d_orphans img).
Proof.
  destruct d as [a1 a2 a3 a4 a5 a6 a7 a8], img as [b1 b2 b3 b4 b5 b6 b7 b8].
  cbn [d_segs d_orphans d_index d_overflow d_imeta d_dbmeta d_lock d_bac set_orphans].
  intros -> -> -> -> -> -> ->. reflexivity.
Qed.

(* the events of a complete Close, issued on a disk d = s_disk s of which the image so far keeps all that is
   not pending (Agree): every file Close writes is flushed before the lock file is removed, so nothing of
   it can be lost *)
Lemma close_image P (s : st) (m : mem) s1 o L1 img1 L' img' :
  Inv P s -> s_mem s = Some m -> db_close flat_ops (clear_trace s) = (s1, o) ->
  Agree L1 (s_disk s) img1 -> pl L1 img1 (s_trace s1) L' img' ->
  img' = set_orphans (s_disk s1) (d_orphans img') /\
  d_segs img' = d_segs (s_disk s1) /\ d_index img' = d_index (s_disk s1) /\ d_overflow img' = d_overflow (s_disk s1) /\
  d_imeta img' = d_imeta (s_disk s1) /\ d_dbmeta img' = d_dbmeta (s_disk s1) /\ d_lock img' = false /\
  d_bac img' = d_bac (s_disk s1).
Proof.
  intros HI Em Ec HA1 Hpl2.
  destruct (close_cl_run (clear_trace s) m Em) as (es & T & D & Hcov). rewrite Ec in T, D. cbn [fst clear_trace s_trace s_disk app] in T, D.
  rewrite T in Hpl2.
  assert (HA : Agree L' (s_disk s1) img') by (rewrite D; apply (pl_agree _ _ _ _ _ Hpl2 _ HA1)).
  assert (HL : forall f, CloseF (m_segs m) f -> L' f = false).
  { intros f Hf. apply (pl_clr _ _ _ _ _ Hpl2 f false); [discriminate|apply Hcov; exact Hf]. }
  destruct (close_reopen_master P 0 (clear_trace s) m (Inv_clear P s HI) Em)
    as (s1' & _ & _ & Ec' & _ & _ & _ & _ & _ & _ & _ & _ & _ & _ & Hsegs & _).
  rewrite Ec in Ec'. inversion Ec'; subst s1' o.
  destruct (rc_close_char (clear_trace s) m Em) as (s1' & Ec'' & _ & _ & _ & _ & _ & _ & _ & El & _).
  rewrite Ec in Ec''. inversion Ec''; subst s1'.
  destruct HA as (A1 & A2 & A3 & A4 & A5 & A6 & A7).
  assert (B1 : d_segs img' = d_segs (s_disk s1)).
  { apply (agree_segs_eq L' _ _ A1). intros f Hf. destruct (Hsegs f Hf) as (g & Hg & E1 & E2 & _).
    rewrite E1, E2. split; apply HL; unfold CloseF; do 4 right; exists g; split; auto. }
  assert (B2 : d_index img' = d_index (s_disk s1)) by (apply A2; apply HL; unfold CloseF; tauto).
  assert (B4 : d_imeta img' = d_imeta (s_disk s1)) by (apply A4; apply HL; unfold CloseF; tauto).
  assert (B5 : d_dbmeta img' = d_dbmeta (s_disk s1)) by (apply A5; apply HL; unfold CloseF; tauto).
  split; [apply disk_eq_orph; assumption|]. repeat (split; [assumption|]). split; [congruence|assumption].
Qed.

(* C09, first part.  After a complete Close, EVERY admissible power-loss image of the whole history is
   the closed disk itself: all segment files, their side files, the index files and both metadata
   files are flushed before the lock file is removed.  (The model's bookkeeping list of orphaned side
   files, which nothing reads, is left out of the comparison.) *)
Theorem C09_closed_is_durable P cf0 os cfs tr (s : st) c (m : mem) s1 o L' img' :
  params_ok P -> XOpen P cf0 -> xrun P cf0 os cfs tr (s, c) -> s_mem s = Some m ->
  db_close flat_ops (clear_trace s) = (s1, o) ->
  pl fnone (s_disk (fst cf0)) (tr ++ s_trace s1) L' img' ->
  img' = set_orphans (s_disk s1) (d_orphans img') /\
  d_segs img' = d_segs (s_disk s1) /\ d_index img' = d_index (s_disk s1) /\ d_overflow img' = d_overflow (s_disk s1) /\
  d_imeta img' = d_imeta (s_disk s1) /\ d_dbmeta img' = d_dbmeta (s_disk s1) /\ d_lock img' = false /\
  d_bac img' = d_bac (s_disk s1).
Proof.
  intros HP HX0 Hr Em Ec Hpl.
  destruct (xrun_ok P _ _ _ _ _ HP Hr HX0) as ([(HI & _ & _) _] & Ed & _). cbn [fst] in HI, Ed.
  destruct (pl_app_inv _ _ _ _ _ _ Hpl) as (L1 & img1 & Hp1 & Hp2).
  apply (close_image P s m s1 o L1 img1 L' img' HI Em Ec); [|exact Hp2].
  rewrite Ed. apply (pl_agree _ _ _ _ _ Hp1). apply Agree_refl.
Qed.


(* ... hence the next Open is a clean one and finds exactly the closed contents *)
Lemma closed_reopen P seed' (s : st) (m : mem) s1 o (img' : disk) :
  Inv P s -> s_mem s = Some m -> db_close flat_ops (clear_trace s) = (s1, o) ->
  img' = set_orphans (s_disk s1) (d_orphans img') ->
  exists s2, db_open flat_ops P seed' (closed img') = (s2, OOpened false) /\ Inv P s2 /\
    ceq (cont (s_disk s2)) (cont (s_disk s)) /\
    exists m2, s_mem s2 = Some m2 /\ m_idx m2 = m_idx m /\ (forall g, In g (m_segs m) -> In g (m_segs m2)).
Proof.
  intros HI Em Ec Eimg.
  pose proof (close_reopen_ok_nometa P seed' (clear_trace s) m (Inv_clear P s HI) Em) as H.
  pose proof (close_ok P (clear_trace s) m (Inv_clear P s HI) Em) as Hc.
  rewrite Ec in H, Hc. destruct Hc as (_ & Hm1 & _ & _ & Hl1 & _).
  assert (E : clear_trace s1 = closed (s_disk s1)) by (unfold clear_trace, closed; rewrite Hm1; reflexivity).
  rewrite E in H. rewrite Eimg, (db_open_orph P seed' _ _ Hl1).
  destruct (db_open flat_ops P seed' (closed (s_disk s1))) as [s2 o2]. cbn [fst snd].
  destruct H as (-> & HI2 & Ha2 & m2 & Em2 & Hidx & Hsegs & _).
  exists (osim (d_orphans img') s2). split; [reflexivity|]. split; [exact HI2|].
  split; [exact Ha2|]. exists m2. split; [exact Em2|]. split; assumption.
Qed.

Theorem C09_reopen P seed' cf0 os cfs tr (s : st) c (m : mem) s1 o L' img' :
  params_ok P -> XOpen P cf0 -> xrun P cf0 os cfs tr (s, c) -> s_mem s = Some m ->
  db_close flat_ops (clear_trace s) = (s1, o) ->
  pl fnone (s_disk (fst cf0)) (tr ++ s_trace s1) L' img' ->
  exists s2, db_open flat_ops P seed' (closed img') = (s2, OOpened false) /\ Inv P s2 /\
    ceq (cont (s_disk s2)) (cont (s_disk s)) /\
    exists m2, s_mem s2 = Some m2 /\ m_idx m2 = m_idx m /\ (forall g, In g (m_segs m) -> In g (m_segs m2)).
Proof.
  intros HP HX0 Hr Em Ec Hpl.
  destruct (C09_closed_is_durable P _ _ _ _ _ _ _ _ _ _ _ HP HX0 Hr Em Ec Hpl) as (Eimg & _).
  destruct (xrun_ok P _ _ _ _ _ HP Hr HX0) as ([(HI & _ & _) _] & _).
  apply (closed_reopen P seed' s m s1 o img' HI Em Ec Eimg).
Qed.

Lemma Inv_segs_clean P (s : st) m : Inv P s -> s_mem s = Some m ->
  forall f, In f (d_segs (s_disk s)) -> f_hdr f = true /\ f_tail f = [].
Proof.
  intros HI Em. destruct (Inv_open P s m Em HI) as ((Hd & (HA & HB) & _) & _).
  intros f Hf. destruct (HB f Hf) as (g & Hg & E1 & E2).
  destruct (HA g Hg) as (f' & Hf' & F1 & F2 & F3 & F4 & F5).
  assert (E : f' = f).
  { apply (NoDup_map_inj f_id (d_segs (s_disk s))); [apply Hd|exact Hf'|exact Hf|congruence]. }
  subst f'. split; assumption.
Qed.

Lemma closed_facts P (s : st) (m : mem) s1 o :
  Inv P s -> s_mem s = Some m -> bac_ok (s_disk s) -> db_close flat_ops (clear_trace s) = (s1, o) ->
  o = OOk /\ s_mem s1 = None /\ DiskOK (s_disk s1) /\ bac_ok (s_disk s1) /\ d_lock (s_disk s1) = false /\
  d_index (s_disk s1) = Some (m_idx m) /\ d_overflow (s_disk s1) = true /\ d_imeta (s_disk s1) = GOk (m_idx m) /\
  (forall f, In f (d_segs (s_disk s1)) -> f_hdr f = true) /\ ceq (cont (s_disk s1)) (cont (s_disk s)) /\
  s_disk s1 = run_evs (s_trace s1) (s_disk s).
Proof.
  intros HI Em Hb Ec.
  pose proof (close_ok P (clear_trace s) m (Inv_clear P s HI) Em) as Hc. rewrite Ec in Hc.
  destruct Hc as (Ho & Hm1 & Hok1 & Hlog1 & Hl1 & Hi1 & Hov1 & Him1 & _).
  destruct (rc_close_char (clear_trace s) m Em) as (s1' & Ec' & _ & Es1 & _ & _ & _ & _ & _ & _ & Eb1 & _).
  rewrite Ec in Ec'. inversion Ec'; subst s1'. cbn [clear_trace s_disk] in Es1, Eb1, Hlog1.
  destruct (close_cl_run (clear_trace s) m Em) as (es & T & D & _). rewrite Ec in T, D. cbn [fst clear_trace s_trace s_disk app] in T, D.
  split; [congruence|]. split; [exact Hm1|]. split; [exact Hok1|]. split; [unfold bac_ok; rewrite Eb1; exact Hb|].
  split; [exact Hl1|]. split; [exact Hi1|]. split; [exact Hov1|]. split; [exact Him1|]. split; [|split].
  - intros f Hf. rewrite Es1 in Hf. apply in_map_iff in Hf. destruct Hf as (f0 & <- & Hf0).
    pose proof (rc_wmetas_core (m_segs m) f0) as Ecore. apply seg_core_inv in Ecore. destruct Ecore as (_ & _ & Eh & _).
    rewrite Eh. apply (Inv_segs_clean P s m HI Em f0 Hf0).
  - intros k. unfold cont, abs. rewrite Hlog1. reflexivity.
  - rewrite T. exact D.
Qed.

Lemma swap_trace (s : st) (m : mem) :
  let id := lowest_free 0 (m_segs m) in let seq := m_maxseq m + 1 in
  exists pre, s_trace (fst (swap_segment flat_ops s m)) = s_trace s ++ pre /\
              s_disk (fst (swap_segment flat_ops s m)) = run_evs pre (s_disk s) /\
    ((pre = [] /\ exists g, In g (m_segs m) /\ sm_full (g_meta g) = false) \/
     (pre = [ECreate (FSeg id seq); EHeader (FSeg id seq)] /\ forall g, In g (m_segs m) -> sm_full (g_meta g) = true)).
Proof.
  cbv zeta. unfold swap_segment. destruct (find (fun g => negb (sm_full (g_meta g))) (m_segs m)) as [g|] eqn:Ef.
  - exists []. cbn [fst]. rewrite app_nil_r. split; [reflexivity|]. split; [reflexivity|]. left. split; [reflexivity|].
    apply find_some in Ef. destruct Ef as [Hg Hn]. apply negb_true_iff in Hn. exists g. auto.
  - eexists. cbn [fst]. split; [apply s_trace_emits|]. split; [apply s_disk_emits|]. right. split; [reflexivity|].
    intros g Hg. pose proof (find_none _ _ Ef g Hg) as Hn. cbn beta in Hn. apply negb_false_iff in Hn. exact Hn.
Qed.

(* The clean Open of a closed directory: the lock file is created, then at most one new, empty segment file
   (when every segment is full), newer than all others; every prefix of these events leaves a recoverable directory with the same
   log; the strict automaton accepts them, and the new file, if any, is the current segment. *)
Lemma clean_open_trace P seed (d : disk) i j :
  DiskOK d -> bac_ok d -> d_lock d = false -> d_index d = Some i -> d_overflow d = true -> d_imeta d = GOk j ->
  (forall f, In f (d_segs d) -> f_hdr f = true) ->
  exists pre, s_trace (fst (db_open flat_ops P seed (closed d))) = ECreate FLock :: pre /\
              safe_run (apply_ev flat_ops d (ECreate FLock)) pre /\
              (pre = [] \/ exists a b, pre = [ECreate (FSeg a b); EHeader (FSeg a b)] /\
                                        forall f, In f (d_segs d) -> f_seq f <= b) /\
              forall s2, db_open flat_ops P seed (closed d) = (s2, OOpened false) -> Inv P s2 ->
                exists u', dur None (s_trace s2) = Some u' /\ DurS u' s2 /\ s_disk s2 = run_evs (s_trace s2) d.
Proof.
  intros Hok Hbac Hlock Hi Hov Him Hhdr.
  unfold db_open. change (s_mem (closed d)) with (@None mem). cbv iota.
  change (d_lock (s_disk (closed d))) with (d_lock d). rewrite Hlock. cbv iota.
  set (s0 := emit flat_ops (ECreate FLock) (closed d)).
  assert (Hg0 : Good (s_disk s0)) by (split; [exact Hok|split; [exact Hbac|reflexivity]]).
  rewrite (rc_open_index_existing s0 i j Hi Hov Him).
  destruct (rc_open_segments_spec s0 (proj1 (proj2 Hok))) as (s3 & segs & E3 & _ & _ & _ & Es3 & Hsegs & Hincs).
  assert (Es30 : fold_left rc_hdr_step (sort_segs (d_segs (s_disk s0))) s0 = s0).
  { apply rc_hdr_fold_all_hdr. intros f Hf. apply Hhdr. apply (Permutation_in _ (rc_sort_segs_perm _)). exact Hf. }
  rewrite Es30 in Es3. subst s3. rewrite E3.
  match goal with |- context [swap_segment flat_ops s0 ?m] => set (m0 := m) end.
  assert (Hmag : rc_magree (m_segs m0) (s_disk s0)).
  { cbn [m0 m_segs]. split.
    - intros g Hg. apply Hsegs in Hg. destruct Hg as (f & Hf & ->). exists f. split; [exact Hf|].
      cbn [rc_mkseg g_id g_seq g_size]. split; [reflexivity|]. split; [reflexivity|]. apply rc_flen_hdr. apply Hhdr. exact Hf.
    - intros f Hf. exists (rc_mkseg f). split; [apply Hsegs; exists f; split; [exact Hf|reflexivity]|]. split; reflexivity. }
  assert (S4 : srun s0 (fst (swap_segment flat_ops s0 m0))).
  { apply srun_swap; [exact Hg0|exact Hmag|exact Hincs|]. intros g Hin. apply (rc_fold_max_ge segs 0). exact Hin. }
  destruct (swap_trace s0 m0) as (pre & T4 & D4 & Hpre). cbv zeta in Hpre.
  destruct (rc_swap_spec s0 m0 Hmag Hincs) as (s4 & m1 & E4 & Hcase). rewrite E4 in *. cbn [fst] in T4, D4, S4.
  change (s_trace s0) with [@ECreate flat FLock] in T4. cbn [app] in T4.
  assert (Hsafe : safe_run (s_disk s0) pre).
  { destruct S4 as (es & T4' & _ & Hsafe). rewrite T4 in T4'. injection T4' as <-. exact Hsafe. }
  assert (Hsh : pre = [] \/ exists a b, pre = [@ECreate flat (FSeg a b); EHeader (FSeg a b)] /\
                                         forall f, In f (d_segs d) -> f_seq f <= b).
  { destruct Hpre as [[-> _]|[-> _]]; [left; reflexivity|right; eexists _, _; split; [reflexivity|]].
    intros f Hf. apply N.le_trans with (m_maxseq m0); [|lia].
    apply (proj2 (rc_fold_max_ge segs 0) (rc_mkseg f)). apply Hsegs. exists f. split; [exact Hf|reflexivity]. }
  exists pre.
  destruct (if ix_count flat_ops i =? 0 then Some seed else match d_dbmeta (s_disk s4) with GOk sd => Some sd | _ => None end) as [sd|];
    cbn [fst with_mem s_trace]; (split; [exact T4|split; [exact Hsafe|split; [exact Hsh|]]]); intros s2 E HI2; [|discriminate E].
  inversion E; subst s2; clear E. cbn [with_mem s_trace s_mem s_disk]. rewrite T4.
  assert (D4' : s_disk s4 = run_evs (ECreate FLock :: pre) d) by (rewrite D4; reflexivity).
  destruct Hpre as [[-> _]|[-> Hfull]].
  - exists None. split; [reflexivity|]. split; [|exact D4']. eexists. split; [reflexivity|apply DurM_None].
  - (* the new segment file is unflushed: it is the current segment *)
    set (id := lowest_free 0 (m_segs m0)) in *. set (seq := m_maxseq m0 + 1) in *.
    exists (Some (id, seq)). split; [reflexivity|]. split; [|exact D4'].
    eexists. split; [reflexivity|]. intros x Ex. inversion Ex; subst x.
    destruct Hcase as [(g & Hg & Hnf & _)|(_ & Em1 & _)]; [rewrite (Hfull g Hg) in Hnf; discriminate|].
    cbv zeta in Em1. fold id seq in Em1.
    exists (rc_newg id seq). split; [|split; reflexivity].
    apply cur_seg_intro.
    + unfold Inv in HI2. cbn [with_mem s_mem] in HI2. destruct HI2 as (_ & _ & Hinc & _). exact Hinc.
    + rewrite Em1. reflexivity.
    + rewrite Em1. cbn [m_segs set_cur set_maxseq set_msegs]. apply insert_mseg_In. left. reflexivity.
    + rewrite Em1. reflexivity.
Qed.

(* The power fails during the clean Open of the closed directory d, after the creation of the lock file: the
   image is a locked directory whose segment files are those of a process-crash image of that Open, all of which
   have the log of d; it is recovered, with the contents of d. *)
Lemma clean_open_power_loss P seed seed' (d : disk) i j L img a e1 e2 L' img' :
  params_ok P ->
  DiskOK d -> bac_ok d -> d_lock d = false -> d_index d = Some i -> d_overflow d = true -> d_imeta d = GOk j ->
  (forall f, In f (d_segs d) -> f_hdr f = true) ->
  s_trace (fst (db_open flat_ops P seed (closed d))) = (a :: e1) ++ e2 ->
  seg_clean L -> Agree L d img -> pl L img (a :: e1) L' img' ->
  exists s3, db_open flat_ops P seed' (closed img') = (s3, OOpened true) /\ Inv P s3 /\ s_mem s3 <> None /\
    ceq (cont (s_disk s3)) (cont d).
Proof.
  intros HP Hok Hbac Hlock Hi Hov Him Hhdr Etr HL HA Hpl.
  destruct (clean_open_trace P seed d i j Hok Hbac Hlock Hi Hov Him Hhdr) as (pre & T & Hsafe & Hpre & _).
  rewrite T in Etr. cbn [app] in Etr. injection Etr as <- Epre.
  set (d1 := apply_ev flat_ops d (ECreate FLock)) in *.
  assert (Hg1 : Good d1) by (split; [exact Hok|split; [exact Hbac|reflexivity]]).
  assert (Himg : forall x, crash_image d1 e1 x -> Good x /\ olog x = olog d1).
  { intros x Hx. apply (safe_run_images pre d1 x Hsafe Hg1). rewrite Epre. apply crash_image_app_l. exact Hx. }
  assert (Hd : dur None (ECreate FLock :: e1) <> None).
  { apply (dur_prefix _ e2). cbn [app]. rewrite <- Epre. destruct Hpre as [->|(x & y & -> & _)]; discriminate. }
  destruct (pl_crash_image _ _ _ _ _ d None Hpl HL HA Hd) as (cimg & C1 & C2 & _).
  assert (Hc : DiskOK cimg /\ abs cimg = abs d).
  { inversion C1 as [|d0 e0 es0 img0 C1'|]; subst; [split; [exact Hok|reflexivity]|].
    destruct (Himg cimg C1') as ((G1 & _) & Ho). split; [exact G1|].
    rewrite (olog_abs _ _ Ho). apply same_log_abs. apply apply_ev_same_log. reflexivity. }
  (* lock file and *.bac names of the image are those of the real disk *)
  pose proof (pl_agree _ _ _ _ _ Hpl _ HA) as (_ & _ & _ & _ & _ & A6 & A7). cbn [fold_left] in A6, A7.
  destruct (Himg _ (crash_image_full e1 d1)) as ((_ & Ge2 & Ge3) & _).
  destruct (recover_image P seed' cimg img' HP C2 (proj1 Hc)) as (s3 & E3 & HI3 & Hm3 & Hc3);
    [unfold bac_ok; rewrite A7; exact Ge2|rewrite A6; exact Ge3|].
  exists s3. split; [exact E3|]. split; [exact HI3|]. split; [exact Hm3|].
  eapply ceq_trans; [exact Hc3|]. intros k. unfold cont. rewrite (proj2 Hc). reflexivity.
Qed.

(* C09, second part: the power fails during the next (clean) Open.  The directory is then either still the
   closed one or a locked one with fully durable segments; a further db_open yields Inv and the closed contents. *)
Theorem C09_power_loss_during_reopen P seed' seed'' cf0 os cfs tr (s : st) c (m : mem) s1 o L' img' es1 es2 L'' img'' :
  params_ok P -> XOpen P cf0 -> xrun P cf0 os cfs tr (s, c) -> s_mem s = Some m ->
  db_close flat_ops (clear_trace s) = (s1, o) ->
  pl fnone (s_disk (fst cf0)) (tr ++ s_trace s1) L' img' ->
  (* the next Open, on what the first power failure (if any) left, is interrupted by a power failure *)
  s_trace (fst (db_open flat_ops P seed' (closed img'))) = es1 ++ es2 ->
  pl fnone img' es1 L'' img'' ->
  exists s3 b, db_open flat_ops P seed'' (closed img'') = (s3, OOpened b) /\ Inv P s3 /\ s_mem s3 <> None /\
    ceq (cont (s_disk s3)) (cont (s_disk s)).
Proof.
  intros HP HX0 Hr Em Ec Hpl Etr Hpl2.
  destruct es1 as [|e es1].
  - (* nothing was issued yet: the directory is still the cleanly closed one *)
    inversion Hpl2; subst.
    destruct (C09_reopen P seed'' _ _ _ _ _ _ _ _ _ _ _ HP HX0 Hr Em Ec Hpl) as (s3 & E3 & HI3 & Hc3 & m3 & Em3 & _).
    exists s3, false. split; [exact E3|]. split; [exact HI3|]. split; [congruence|exact Hc3].
  - destruct (C09_closed_is_durable P _ _ _ _ _ _ _ _ _ _ _ HP HX0 Hr Em Ec Hpl) as (_ & B1 & B2 & B3 & B4 & _ & B6 & B7).
    destruct (xrun_ok P _ _ _ _ _ HP Hr HX0) as ([(HI & _ & Hb) _] & _). cbn [fst] in HI, Hb.
    destruct (closed_facts P s m s1 o HI Em Hb Ec) as (_ & _ & Hok1 & Hb1 & _ & Hi1 & Hov1 & Him1 & Hh1 & Hc1 & _).
    assert (Hsl : same_log (s_disk s1) img') by (apply same_log_segs; exact B1).
    destruct (clean_open_power_loss P seed' seed'' img' (m_idx m) (m_idx m) fnone img' e es1 es2 L'' img'' HP)
      as (s3 & E3 & HI3 & Hm3 & Hc3);
      [exact (same_log_DiskOK _ _ Hsl Hok1)|unfold bac_ok; rewrite B7; exact Hb1|exact B6|exact (eq_trans B2 Hi1)
      |exact (eq_trans B3 Hov1)|exact (eq_trans B4 Him1)|rewrite B1; exact Hh1|exact Etr|intros ? ?; reflexivity
      |apply Agree_refl|exact Hpl2|].
    exists s3, true. split; [exact E3|]. split; [exact HI3|]. split; [exact Hm3|].
    eapply ceq_trans; [exact Hc3|]. intros k. unfold cont. rewrite (same_log_abs _ _ Hsl). apply Hc1.
Qed.

(* Sensitivity: the two flushes the theorems rest on are necessary *)

(* (a) sealSegment without the Sync *)
Definition seal_nosync (id : N) (s : st) (m : mem) : st * mem :=
  match find_mseg id (m_segs m) with
  | Some g => if sm_full (g_meta g) then (s, m)
              else (s, set_msegs m (upd_mseg id (fun g => set_gmeta g (set_full (g_meta g))) (m_segs m)))
  | None => (s, m)
  end.

Definition write_record_nosync (P : params) (r : rec) (s : st) (m : mem) : option (st * mem * N * N) :=
  let need_swap := match cur_seg m with
                   | None => true
                   | Some g => sm_full (g_meta g) || (p_maxseg P <? g_size g + rsize r)
                   end in
  let '(s1, m1) :=
    if need_swap
    then let '(s0, m0) := match cur_seg m with Some g => seal_nosync (g_id g) s m | None => (s, m) end in
         swap_segment flat_ops s0 m0
    else (s, m) in
  wr_tail r s1 m1.

(* db_put with the log writer as a parameter *)
Definition db_put_with (wr : params -> rec -> st -> mem -> option (st * mem * N * N))
  (P : params) (k : key) (v : val) (s : st) : st * out :=
  match s_mem s with
  | None => (s, OErr EClosed)
  | Some m =>
    if max_key_len <? nlen k then (s, OErr EKeyTooLarge)
    else if max_val_len <? nlen v then (s, OErr EValueTooLarge)
    else
      let h := p_hash P (m_seed m) k in
      match wr P (mkput k v) s m with
      | None => (s, OBroken 1)
      | Some (s1, m1, id, off) =>
        let sl := {| sl_h := h; sl_seg := id; sl_ks := u16 (nlen k); sl_vs := u32 (nlen v); sl_off := off |} in
        let '(i2, old) := ix_put flat_ops (p_grow P) (m_idx m1) sl (matchf (s_disk s1) k) in
        let m2 := match old with Some o => track_del o m1 | None => m1 end in
        let s2 := emit flat_ops (EIndex i2) s1 in
        finish flat_ops P s2 (set_idx m2 i2)
      end
  end.

Lemma db_put_with_real P k v (s : st) : db_put_with (write_record flat_ops) P k v s = db_put flat_ops P k v s.
Proof. reflexivity. Qed.

(* every segment is eligible for compaction; a segment holds one small record *)
Definition pl_P : params :=
  {| p_maxseg := 530; p_minseg := 0; p_frag := fun _ _ => true; p_sync := false;
     p_grow := fun _ _ => false; p_hash := fun _ _ => 0 |}.

(* a freshly created database; its disk is the durable starting point of the histories below *)
Definition pl_q0 : st := Eval vm_compute in clear_trace (fst (db_open flat_ops pl_P 7 (closed disk0))).

(* Put [1]:=[2] ; Put [3]:=[4] (does not fit: rollover) ; Sync.  The trace is never cleared, so the
   final state carries the whole history. *)
Definition run_a (wr : params -> rec -> st -> mem -> option (st * mem * N * N)) : st :=
  let q1 := fst (db_put_with wr pl_P [1] [2] pl_q0) in
  let q2 := fst (db_put_with wr pl_P [3] [4] q1) in
  fst (db_sync flat_ops q2).

Definition lose_first : list plc := [Drop; Keep; Keep; Keep; Keep; Keep; Keep].
Definition lose_first_real : list plc := [Drop; Keep; Keep; Keep; Keep; Keep; Keep; Keep].

Theorem seal_without_sync_refuted :
  let es := s_trace (run_a write_record_nosync) in
  let res := pl_exec lose_first fnone (s_disk pl_q0) es in
  (* the rollover does not flush the sealed segment, ... *)
  es = [EAppend 0 1 512 (mkput [1] [2]); EIndex [{| sl_h := 0; sl_seg := 0; sl_ks := 1; sl_vs := 1; sl_off := 512 |}];
        ECreate (FSeg 1 2); EHeader (FSeg 1 2); EAppend 1 2 512 (mkput [3] [4]);
        EIndex [{| sl_h := 0; sl_seg := 0; sl_ks := 1; sl_vs := 1; sl_off := 512 |};
                {| sl_h := 0; sl_seg := 1; sl_ks := 1; sl_vs := 1; sl_off := 512 |}];
        ESync (FSeg 1 2)] /\
  (* ... the history violates the discipline, ... *)
  dur None es = None /\
  (* ... Sync completed with both keys present, ... *)
  abs (s_disk (run_a write_record_nosync)) = [([3], [4]); ([1], [2])] /\
  (* ... and this image (the first append never reached the disk) is admissible and has lost key [1] *)
  is_some res = true /\ (exists L, pl fnone (s_disk pl_q0) es L (img_of res)) /\
  sget (abs (img_of res)) [1] = None /\ sget (abs (img_of res)) [3] = Some [4] /\
  (* with the real sealSegment the history keeps the discipline and the same loss is NOT admissible *)
  dur None (s_trace (run_a (write_record flat_ops))) = Some None /\
  pl_exec lose_first_real fnone (s_disk pl_q0) (s_trace (run_a (write_record flat_ops))) = None.
Proof.
  cbv zeta. split; [vm_compute; reflexivity|]. split; [vm_compute; reflexivity|]. split; [vm_compute; reflexivity|].
  split; [vm_compute; reflexivity|]. split.
  - apply exec_image. vm_compute. reflexivity.
  - split; [vm_compute; reflexivity|]. split; [vm_compute; reflexivity|]. split; vm_compute; reflexivity.
Qed.

(* (b) removeSegment without the Sync of the current segment *)
Definition remove_segment_nosync (id seq : N) (s : st) (m : mem) : st :=
  let m1 := set_msegs m (filter (fun g => negb (g_id g =? id)) (m_segs m)) in
  let m2 := if (fst (m_cur m) =? id) && (snd (m_cur m) =? seq) then set_cur m1 (m_cur m) true else m1 in
  let s2 := if exists_file (s_disk s) (FSegMeta id seq) then emit flat_ops (ERemove (FSegMeta id seq)) s else s in
  with_mem m2 (emit flat_ops (ERemove (FSeg id seq)) s2).

(* the history (a) with the real writer, then Compact: pick (both segments), and the three micro-steps
   of the first segment: start, promotion of its live record, removal *)
Definition run_b (rm : N -> N -> st -> mem -> st) : st :=
  let q3 := run_a (write_record flat_ops) in
  match compact_pick flat_ops pl_P q3 with
  | None => q3
  | Some (q4, c) => compact_run_with rm pl_P 3 q4 c
  end.

Definition lose_copy : list plc :=
  [Keep; Keep; Keep; Keep; Keep; Keep; Keep; Keep; Keep; Keep; Keep; Drop; Keep; Keep].
Definition lose_copy_real : list plc :=
  [Keep; Keep; Keep; Keep; Keep; Keep; Keep; Keep; Keep; Keep; Keep; Drop; Keep; Keep; Keep].

Theorem remove_before_sync_refuted :
  let es := s_trace (run_b remove_segment_nosync) in
  let res := pl_exec lose_copy fnone (s_disk pl_q0) es in
  (* the events after the completed Sync: seal of the picked current segment, a new segment, the copy
     of the live record of segment 0, the index, and the removal of segment 0 with nothing in between *)
  skipn 8 es = [ESync (FSeg 1 2); ECreate (FSeg 2 3); EHeader (FSeg 2 3); EAppend 2 3 512 (mkput [1] [2]);
                EIndex [{| sl_h := 0; sl_seg := 2; sl_ks := 1; sl_vs := 1; sl_off := 512 |};
                        {| sl_h := 0; sl_seg := 1; sl_ks := 1; sl_vs := 1; sl_off := 512 |}];
                ERemove (FSeg 0 1)] /\
  dur None es = None /\
  (* key [1] was synced long before the compaction started *)
  sget (abs (s_disk (run_a (write_record flat_ops)))) [1] = Some [2] /\
  dur None (s_trace (run_a (write_record flat_ops))) = Some None /\
  (* the image in which the copy never reached the disk is admissible; the record is gone *)
  is_some res = true /\ (exists L, pl fnone (s_disk pl_q0) es L (img_of res)) /\
  sget (abs (img_of res)) [1] = None /\ sget (abs (img_of res)) [3] = Some [4] /\
  (* with the real removeSegment: discipline kept, the loss is not admissible *)
  dur None (s_trace (run_b (remove_segment flat_ops))) = Some None /\
  pl_exec lose_copy_real fnone (s_disk pl_q0) (s_trace (run_b (remove_segment flat_ops))) = None.
Proof.
  cbv zeta. split; [vm_compute; reflexivity|]. split; [vm_compute; reflexivity|]. split; [vm_compute; reflexivity|].
  split; [vm_compute; reflexivity|]. split; [vm_compute; reflexivity|]. split.
  - apply exec_image. vm_compute. reflexivity.
  - split; [vm_compute; reflexivity|]. split; [vm_compute; reflexivity|]. split; vm_compute; reflexivity.
Qed.

(* Non-vacuity: a concrete history with a rollover and a Sync, and admissible images *)

(* segments of 540 bytes: the first Put fills segment 0, the second rolls over, the third fits *)
Definition px_P2 : params :=
  {| p_maxseg := 540; p_minseg := 0; p_frag := fun _ _ => true; p_sync := false;
     p_grow := fun _ _ => false; p_hash := fun _ _ => 0 |}.
Definition px_v1 : val := [2; 2; 2; 2; 2; 2; 2; 2; 2; 2; 2; 2; 2; 2; 2].
Lemma pl_params_ok : params_ok px_P2. Proof. reflexivity. Qed.

Lemma pl_inv0 P : Inv P pl_q0.
Proof.
  unfold Inv, pl_q0. cbn [s_mem s_disk].
  split; [|split; [|split; [|split; [|split; [|split; [|split; [reflexivity|split; reflexivity]]]]]]].
  - unfold DiskOK. cbn [d_segs map f_id f_seq]. split; [|split].
    + constructor; [|constructor]. unfold dseg_ok. cbn [f_recs f_tail f_hdr].
      split; [constructor|]. split; [apply tail_stuck_nil|]. split; [constructor|].
      split; [discriminate|reflexivity].
    + constructor; [intros []|constructor].
    + constructor; [intros []|constructor].
  - split.
    + intros g [<-|[]]. eexists. split; [left; reflexivity|]. repeat split.
    + intros f [<-|[]]. eexists. split; [left; reflexivity|]. repeat split.
  - split; [intros g' []|exact Logic.I].
  - split.
    + intros g [<-|[]]. cbn [g_seq m_maxseq]. lia.
    + intros g g' [<-|[]] [<-|[]] _. cbn [g_seq]. lia.
  - intros _. eexists. split; [left; reflexivity|]. split; reflexivity.
  - unfold index_agrees. cbn [m_idx map find option_map]. split; [constructor|]. split; [constructor|].
    intros k. reflexivity.
Qed.

Lemma pl_open0 P : Open P pl_q0.
Proof. split; [apply pl_inv0|]. split; [discriminate|constructor]. Qed.

Lemma pl_put_pre k v (s : st) :
  match s_mem s with Some m => room_b m | None => false end = true ->
  forallb (fun b => b <? 256) k = true -> forallb (fun b => b <? 256) v = true ->
  (nlen k <=? max_key_len) = true -> (nlen v <=? max_val_len) = true -> op_pre (OpPut k v) s.
Proof.
  intros H1 H2 H3 H4 H5. split; [apply open_room_b_ok; exact H1|]. split; [apply forallb_byte; exact H2|].
  split; [apply forallb_byte; exact H3|]. split; apply N.leb_le; assumption.
Qed.

Definition px_h0 : list op := [OpPut [1] px_v1; OpPut [3] [4]].     (* the second Put rolls over *)
Definition px_h : list op := [OpPut [5] [6]].                       (* after the Sync *)
Definition px_sA : st := Eval vm_compute in run_op px_P2 (OpPut [1] px_v1) pl_q0.
Definition px_sa : st := Eval vm_compute in run_op px_P2 (OpPut [3] [4]) px_sA.
Definition px_s1 : st := Eval vm_compute in run_op px_P2 OpSync px_sa.
Definition px_s' : st := Eval vm_compute in run_op px_P2 (OpPut [5] [6]) px_s1.
Lemma px_EA : run_op px_P2 (OpPut [1] px_v1) pl_q0 = px_sA. Proof. vm_compute. reflexivity. Qed.
Lemma px_Ea : run_op px_P2 (OpPut [3] [4]) px_sA = px_sa. Proof. vm_compute. reflexivity. Qed.
Lemma px_E1 : run_op px_P2 OpSync px_sa = px_s1. Proof. vm_compute. reflexivity. Qed.
Lemma px_E' : run_op px_P2 (OpPut [5] [6]) px_s1 = px_s'. Proof. vm_compute. reflexivity. Qed.

Lemma px_hist0 : history px_P2 pl_q0 px_h0 px_sa.
Proof.
  apply h_cons; [apply pl_put_pre; vm_compute; reflexivity|]. rewrite px_EA.
  apply h_cons; [apply pl_put_pre; vm_compute; reflexivity|]. rewrite px_Ea. apply h_nil.
Qed.

Lemma px_hist : history px_P2 (run_op px_P2 OpSync px_sa) px_h px_s'.
Proof. rewrite px_E1. apply h_cons; [apply pl_put_pre; vm_compute; reflexivity|]. rewrite px_E'. apply h_nil. Qed.

Definition px_events : list fsev :=
  htrace px_P2 px_h0 pl_q0 ++ s_trace (run_op px_P2 OpSync px_sa) ++ htrace px_P2 px_h (run_op px_P2 OpSync px_sa).

(* image A: the append after the Sync is lost, although the index write that followed it was kept;
   image B: the append is cut after 5 of its 12 bytes *)
Definition px_lostA : list plc := [Keep; Keep; Keep; Keep; Keep; Keep; Keep; Keep; Drop; Keep].
Definition px_lostB : list plc := [Keep; Keep; Keep; Keep; Keep; Keep; Keep; Keep; Tear 5; Drop].

Example C06_nonvacuous :
  (* the history: two Puts with a rollover (the sealed segment is flushed), Sync, one more Put *)
  px_events =
    [EAppend 0 1 512 (mkput [1] px_v1); EIndex [{| sl_h := 0; sl_seg := 0; sl_ks := 1; sl_vs := 15; sl_off := 512 |}];
     ESync (FSeg 0 1); ECreate (FSeg 1 2); EHeader (FSeg 1 2); EAppend 1 2 512 (mkput [3] [4]);
     EIndex [{| sl_h := 0; sl_seg := 0; sl_ks := 1; sl_vs := 15; sl_off := 512 |};
             {| sl_h := 0; sl_seg := 1; sl_ks := 1; sl_vs := 1; sl_off := 512 |}];
     ESync (FSeg 1 2);
     EAppend 1 2 524 (mkput [5] [6]);
     EIndex [{| sl_h := 0; sl_seg := 0; sl_ks := 1; sl_vs := 15; sl_off := 512 |};
             {| sl_h := 0; sl_seg := 1; sl_ks := 1; sl_vs := 1; sl_off := 512 |};
             {| sl_h := 0; sl_seg := 1; sl_ks := 1; sl_vs := 1; sl_off := 524 |}]] /\
  Durable px_events /\
  (* both images are admissible *)
  (exists L, pl fnone (s_disk pl_q0) px_events L (img_of (pl_exec px_lostA fnone (s_disk pl_q0) px_events))) /\
  (exists L, pl fnone (s_disk pl_q0) px_events L (img_of (pl_exec px_lostB fnone (s_disk pl_q0) px_events))) /\
  (* they hold exactly the contents as of the Sync; the later Put is lost; image B has a torn tail *)
  abs (s_disk px_s1) = [([3], [4]); ([1], px_v1)] /\ abs (s_disk px_s') = [([5], [6]); ([3], [4]); ([1], px_v1)] /\
  abs (img_of (pl_exec px_lostA fnone (s_disk pl_q0) px_events)) = [([3], [4]); ([1], px_v1)] /\
  abs (img_of (pl_exec px_lostB fnone (s_disk pl_q0) px_events)) = [([3], [4]); ([1], px_v1)] /\
  map (fun f => nlen (f_tail f)) (d_segs (img_of (pl_exec px_lostB fnone (s_disk pl_q0) px_events))) = [0; 5] /\
  (* whereas losing the append BEFORE the Sync is not admissible *)
  pl_exec [Keep; Keep; Keep; Keep; Keep; Drop; Keep; Keep; Keep; Keep] fnone (s_disk pl_q0) px_events = None.
Proof.
  split; [vm_compute; reflexivity|]. split; [vm_compute; discriminate|].
  split; [apply exec_image; vm_compute; reflexivity|]. split; [apply exec_image; vm_compute; reflexivity|].
  split; [vm_compute; reflexivity|]. split; [vm_compute; reflexivity|]. split; [vm_compute; reflexivity|].
  split; [vm_compute; reflexivity|]. split; vm_compute; reflexivity.
Qed.

(* the hypotheses of C06_no_compaction / C06_image_is_log_prefix hold for this history and these images *)
Example C06_nonvacuous_recover :
  forall cs, is_some (pl_exec cs fnone (s_disk pl_q0) px_events) = true ->
  let img := img_of (pl_exec cs fnone (s_disk pl_q0) px_events) in
  (exists s2, db_open flat_ops px_P2 9 (closed img) = (s2, OOpened true) /\ Inv px_P2 s2 /\ s_mem s2 <> None /\
     exists j, (j <= 1)%nat /\ ceq (cont (s_disk s2)) (spec_hist (firstn j px_h) (cont (s_disk (run_op px_P2 OpSync px_sa))))) /\
  DiskOK img /\ bac_ok img /\ d_lock img = true /\
  exists l1 l2, olog img = olog (s_disk (run_op px_P2 OpSync px_sa)) ++ l1 /\ olog (s_disk px_s') = olog img ++ l2.
Proof.
  intros cs Hcs img. destruct (exec_image cs _ _ _ Hcs) as (L & Hpl). fold img in Hpl.
  assert (Hpre : op_pre OpSync px_sa) by exact Logic.I.
  assert (Etr : htrace px_P2 px_h (run_op px_P2 OpSync px_sa) = htrace px_P2 px_h (run_op px_P2 OpSync px_sa) ++ []) by (rewrite app_nil_r; reflexivity).
  split.
  - apply (C06_no_compaction px_P2 9 pl_q0 px_h0 px_sa OpSync px_h px_s' (htrace px_P2 px_h (run_op px_P2 OpSync px_sa)) [] L img pl_params_ok (pl_open0 px_P2) px_hist0 Hpre
             (or_introl eq_refl) px_hist Etr Hpl).
  - apply (C06_image_is_log_prefix px_P2 pl_q0 px_h0 px_sa OpSync px_h px_s' (htrace px_P2 px_h (run_op px_P2 OpSync px_sa)) [] L img pl_params_ok (pl_open0 px_P2) px_hist0 Hpre
             (or_introl eq_refl) px_hist Etr Hpl).
Qed.

(* a concrete history WITH compaction (parameters pl_P: every Put rolls over, every segment is
   eligible): Put, Put, Sync; then pick, start of segment 0, promotion of its live record into a new
   segment, removal of segment 0.  The power fails after the promotion. *)
Definition cy1 : st := Eval vm_compute in run_op pl_P (OpPut [1] [2]) pl_q0.
Definition cy2 : st := Eval vm_compute in run_op pl_P (OpPut [3] [4]) cy1.
Definition cy3 : st := Eval vm_compute in run_op pl_P OpSync cy2.
Definition cy4 : st := Eval vm_compute in match compact_pick flat_ops pl_P (clear_trace cy3) with Some (s, _) => s | None => cy3 end.
Definition cc4 : cursor := Eval vm_compute in
  match compact_pick flat_ops pl_P (clear_trace cy3) with Some (_, c) => c
  | None => {| c_todo := []; c_src := None; c_segs := 0; c_recs := 0; c_bytes := 0 |} end.
Definition cstep_st (s : st) (c : cursor) : st := match compact_step flat_ops pl_P (clear_trace s) c with CMore s' _ => s' | _ => s end.
Definition cstep_cu (s : st) (c : cursor) : cursor := match compact_step flat_ops pl_P (clear_trace s) c with CMore _ c' => c' | _ => c end.
Definition cy5 : st := Eval vm_compute in cstep_st cy4 cc4.
Definition cc5 : cursor := Eval vm_compute in cstep_cu cy4 cc4.
Definition cy6 : st := Eval vm_compute in cstep_st cy5 cc5.
Definition cc6 : cursor := Eval vm_compute in cstep_cu cy5 cc5.
Definition cy7 : st := Eval vm_compute in cstep_st cy6 cc6.
Definition cc7 : cursor := Eval vm_compute in cstep_cu cy6 cc6.

Lemma cy_E1 : run_op pl_P (OpPut [1] [2]) pl_q0 = cy1. Proof. vm_compute. reflexivity. Qed.
Lemma cy_E2 : run_op pl_P (OpPut [3] [4]) cy1 = cy2. Proof. vm_compute. reflexivity. Qed.
Lemma cy_E3 : run_op pl_P OpSync cy2 = cy3. Proof. vm_compute. reflexivity. Qed.
Lemma cy_E4 : compact_pick flat_ops pl_P (clear_trace cy3) = Some (cy4, cc4). Proof. vm_compute. reflexivity. Qed.
Lemma cy_E5 : compact_step flat_ops pl_P (clear_trace cy4) cc4 = CMore cy5 cc5. Proof. vm_compute. reflexivity. Qed.
Lemma cy_E6 : compact_step flat_ops pl_P (clear_trace cy5) cc5 = CMore cy6 cc6. Proof. vm_compute. reflexivity. Qed.
Lemma cy_E7 : compact_step flat_ops pl_P (clear_trace cy6) cc6 = CMore cy7 cc7. Proof. vm_compute. reflexivity. Qed.

Lemma cy_MetaOK3 : MetaOK cy3.
Proof.
  unfold MetaOK, cy3. cbn [s_mem s_disk m_segs].
  intros g f [<-|[<-|[]]] E; vm_compute in E; inversion E; subst f; reflexivity.
Qed.

Lemma cy_run0 : xrun pl_P (pl_q0, None) [XOp (OpPut [1] [2]); XOp (OpPut [3] [4])] [(cy1, None); (cy2, None)]
                     (s_trace cy1 ++ s_trace cy2 ++ []) (cy2, None).
Proof.
  apply (xr_cons pl_P (pl_q0, None) _ (cy1, None)).
  { rewrite <- cy_E1. apply xs_op. apply pl_put_pre; vm_compute; reflexivity. }
  apply (xr_cons pl_P (cy1, None) _ (cy2, None)).
  { rewrite <- cy_E2. apply xs_op. apply pl_put_pre; vm_compute; reflexivity. }
  apply xr_nil.
Qed.

Lemma cy_sync : xstep pl_P (cy2, None) (XOp OpSync) (cy3, None).
Proof. rewrite <- cy_E3. apply xs_op. exact Logic.I. Qed.

Definition cy_os : list xop := [XPick; XStep; XStep; XStep].
Definition cy_tr : list fsev := s_trace cy4 ++ s_trace cy5 ++ s_trace cy6 ++ s_trace cy7 ++ [].

Lemma cy_run : xrun pl_P (cy3, None) cy_os [(cy4, Some cc4); (cy5, Some cc5); (cy6, Some cc6); (cy7, Some cc7)]
                    cy_tr (cy7, Some cc7).
Proof.
  apply (xr_cons pl_P (cy3, None) XPick (cy4, Some cc4)); [apply xs_pick; [exact cy_MetaOK3|exact cy_E4]|].
  apply (xr_cons pl_P (cy4, Some cc4) XStep (cy5, Some cc5)); [apply xs_step; [apply open_room_b_ok; vm_compute; reflexivity|exact cy_E5]|].
  apply (xr_cons pl_P (cy5, Some cc5) XStep (cy6, Some cc6)); [apply xs_step; [apply open_room_b_ok; vm_compute; reflexivity|exact cy_E6]|].
  apply (xr_cons pl_P (cy6, Some cc6) XStep (cy7, Some cc7)); [apply xs_step; [apply open_room_b_ok; vm_compute; reflexivity|exact cy_E7]|].
  apply xr_nil.
Qed.

(* the events up to and including the promotion (5 of the 7 events of the compaction) *)
Definition cy_events : list fsev := (s_trace cy1 ++ s_trace cy2 ++ []) ++ s_trace cy3 ++ firstn 5 cy_tr.
Definition cy_lost : list plc := [Keep; Keep; Keep; Keep; Keep; Keep; Keep; Keep; Keep; Keep; Keep; Drop; Drop].

Example C06_nonvacuous_compaction :
  cy_tr = [ESync (FSeg 1 2); ECreate (FSeg 2 3); EHeader (FSeg 2 3); EAppend 2 3 512 (mkput [1] [2]);
           EIndex [{| sl_h := 0; sl_seg := 2; sl_ks := 1; sl_vs := 1; sl_off := 512 |};
                   {| sl_h := 0; sl_seg := 1; sl_ks := 1; sl_vs := 1; sl_off := 512 |}];
           ESync (FSeg 2 3); ERemove (FSeg 0 1)] /\
  Durable ((s_trace cy1 ++ s_trace cy2 ++ []) ++ s_trace cy3 ++ cy_tr) /\
  let img := img_of (pl_exec cy_lost fnone (s_disk pl_q0) cy_events) in
  (* the copy of the live record did not reach the new segment: admissible as long as the removal of
     the source (which is preceded by the Sync of the new segment) has not been issued *)
  (exists L, pl fnone (s_disk pl_q0) cy_events L img) /\
  map (fun f => (f_id f, length (f_recs f))) (d_segs img) = [(0, 1%nat); (1, 1%nat); (2, 0%nat)] /\
  (* the theorem applies: recovery yields the contents as of the Sync (compaction is invisible) *)
  exists s2, db_open flat_ops pl_P 9 (closed img) = (s2, OOpened true) /\ Inv pl_P s2 /\ s_mem s2 <> None /\
    exists j, (j <= 4)%nat /\ ceq (cont (s_disk s2)) (xspec_hist (firstn j cy_os) (cont (s_disk cy3))).
Proof.
  split; [vm_compute; reflexivity|]. split; [vm_compute; discriminate|]. cbv zeta.
  assert (Hpl : exists L, pl fnone (s_disk pl_q0) cy_events L (img_of (pl_exec cy_lost fnone (s_disk pl_q0) cy_events)))
    by (apply exec_image; vm_compute; reflexivity).
  split; [exact Hpl|]. split; [vm_compute; reflexivity|]. destruct Hpl as (L & Hpl).
  apply (C06_synced_writes_survive pl_P 9 (pl_q0, None) _ _ _ (cy2, None) (XOp OpSync) (cy3, None) cy_os _ cy_tr (cy7, Some cc7)
           (firstn 5 cy_tr) (skipn 5 cy_tr) L _ eq_refl (conj (pl_open0 pl_P) Logic.I) cy_run0 cy_sync Logic.I cy_run
           (eq_sym (firstn_skipn 5 cy_tr)) Hpl).
Qed.

Print Assumptions pl_exec_sound.
Print Assumptions pl_ok_image.
Print Assumptions pl_agree.
Print Assumptions pl_dur.
Print Assumptions frozen.
Print Assumptions pl_reduce.
Print Assumptions pl_is_crash_image.
Print Assumptions seal_dur.
Print Assumptions wr_dur.
Print Assumptions put_dur.
Print Assumptions delete_dur.
Print Assumptions sync_dur.
Print Assumptions pick_dur.
Print Assumptions cstep_dur.
Print Assumptions xstep_dur.
Print Assumptions xrun_dur.
Print Assumptions xrun_crash.
Print Assumptions C06_image.
Print Assumptions C06_synced_writes_survive.
Print Assumptions C06_per_key.
Print Assumptions C06_no_compaction.
Print Assumptions C06_image_is_log_prefix.
Print Assumptions db_open_orph.
Print Assumptions C09_closed_is_durable.
Print Assumptions C09_reopen.
Print Assumptions C09_power_loss_during_reopen.
Print Assumptions seal_without_sync_refuted.
Print Assumptions remove_before_sync_refuted.
Print Assumptions C06_nonvacuous.
Print Assumptions C06_nonvacuous_recover.
Print Assumptions C06_nonvacuous_compaction.
