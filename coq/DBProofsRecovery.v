(* DBProofsRecovery.v -- recovery, clean close and clean reopen of the database model (DB.v) instantiated
   with the flat reference index:  open_recover_ok, recover_idempotent, close_ok, close_reopen_ok,
   reopen_close_same_log, and the executable refutation sealed_empty_refuted of the PINNED behaviour of
   openSegment (defect D12: the side file of an empty segment was ignored).

   Extra hypothesis of the recovery theorems: [bac_ok d] -- the model's [d_bac] holds names of the form
   [FBac _] only (a typing condition of the model; preserved by every event the model issues:
   [apply_ev_bac_ok]).  Without it removeRecoveryBackupFiles would emit ERemove FMain / ERemove FLock.
   No axioms; auxiliary names are prefixed rc_ (rf_ for the refutation scenario). *)
From Coq Require Import ZArith Lia ZifyN ZifyNat ZifyBool Permutation Sorted.
From Pogreb Require Import Base BaseLemmas Crc Bytes Record RecordProofs Flat Spec DB DBInv DBLemmas DBMeta.
Ltac Zify.zify_post_hook ::= Z.div_mod_to_equations.

Local Notation disk := (@DB.disk flat).
Local Notation st := (@DB.st flat).
Local Notation mem := (@DB.mem flat).
Local Notation fsev := (@DB.fsev flat).

Lemma rc_emits_nil (s : st) : emits flat_ops [] s = s. Proof. reflexivity. Qed.
Lemma rc_emits_cons e es (s : st) : emits flat_ops (e :: es) s = emits flat_ops es (emit flat_ops e s).
Proof. reflexivity. Qed.
Lemma rc_disk_with_mem m (s : st) : s_disk (with_mem m s) = s_disk s. Proof. reflexivity. Qed.
Lemma rc_mem_with_mem m (s : st) : s_mem (with_mem m s) = Some m. Proof. reflexivity. Qed.
Lemma rc_trace_with_mem m (s : st) : s_trace (with_mem m s) = s_trace s. Proof. reflexivity. Qed.
Lemma rc_disk_clear (s : st) : s_disk (clear_trace s) = s_disk s. Proof. reflexivity. Qed.
Lemma rc_mem_clear (s : st) : s_mem (clear_trace s) = s_mem s. Proof. reflexivity. Qed.

(* the events a piece of code adds to the trace do not contain the removal of the lock *)
Definition rc_text (s s' : st) : Prop :=
  exists es, s_trace s' = s_trace s ++ es /\ ~ In (ERemove FLock) es.

Lemma rc_text_refl s : rc_text s s.
Proof. exists []. rewrite app_nil_r. split; [reflexivity|intros []]. Qed.
Lemma rc_text_trans a b c : rc_text a b -> rc_text b c -> rc_text a c.
Proof.
  intros (e1 & E1 & N1) (e2 & E2 & N2). exists (e1 ++ e2). rewrite E2, E1, app_assoc. split; [reflexivity|].
  intros H. apply in_app_or in H. tauto.
Qed.
Lemma rc_text_emit e (s : st) : e <> ERemove FLock -> rc_text s (emit flat_ops e s).
Proof. intros H. exists [e]. split; [reflexivity|]. intros [E|[]]. congruence. Qed.
Lemma rc_text_eq (s s' : st) : s_trace s' = s_trace s -> rc_text s s'.
Proof. intros E. exists []. rewrite app_nil_r. split; [exact E|intros []]. Qed.

Definition rc_wmeta (g : mseg) (f : dseg) : dseg :=
  if is_seg (g_id g) (g_seq g) f then set_fmeta (GOk (g_meta g)) f else f.
Definition rc_wmetas (G : list mseg) (f : dseg) : dseg := fold_left (fun f g => rc_wmeta g f) G f.

Definition rc_close_seg_step_def (s : st) (g : mseg) : st :=
  gob_write flat_ops (FSegMeta (g_id g) (g_seq g)) (EGobSeg (g_id g) (g_seq g) (g_meta g))
            (emit flat_ops (ESync (FSeg (g_id g) (g_seq g))) s).

Lemma rc_wmetas_core G f : seg_core (rc_wmetas G f) = seg_core f.
Proof.
  apply (fold_inv (fun f g => rc_wmeta g f) (fun x => seg_core x = seg_core f) (fun _ => True));
    [|apply Forall_forall; trivial|reflexivity].
  intros x g _ <-. unfold rc_wmeta. destruct (is_seg _ _ x); reflexivity.
Qed.

(* ids are unique in [G]: at most one element of [G] rewrites the side file of [f] *)
Lemma rc_wmetas_hit G f g :
  NoDup (map g_id G) -> In g G -> f_id f = g_id g -> f_seq f = g_seq g ->
  rc_wmetas G f = set_fmeta (GOk (g_meta g)) f.
Proof.
  intros Hnd Hg Hid Hseq.
  assert (Hu : forall b, In b G -> is_seg (g_id b) (g_seq b) f = true -> b = g).
  { intros b Hb Hs. apply andb_true_iff in Hs. destruct Hs as [Hs _]. apply N.eqb_eq in Hs.
    apply (NoDup_map_inj g_id G); try assumption. congruence. }
  etransitivity;
    [exact (fold_cond (fun g f => is_seg (g_id g) (g_seq g) f) (fun g f => set_fmeta (GOk (g_meta g)) f) G f
              (set_fmeta (GOk (g_meta g)) f)
              (fun b Hb Hs => f_equal (fun x => set_fmeta (GOk (g_meta x)) f) (Hu b Hb Hs))
              (fun b Hb Hs => f_equal (fun x => set_fmeta (GOk (g_meta x)) (set_fmeta (GOk (g_meta g)) f)) (Hu b Hb Hs)))|].
  replace (existsb _ G) with true; [reflexivity|]. symmetry. apply existsb_exists. exists g. split; [exact Hg|].
  unfold is_seg. rewrite Hid, Hseq, !N.eqb_refl. reflexivity.
Qed.

(* gob_write f body: truncate or create [f], then header, body, sync *)
Lemma rc_gob_write_text f body (s : st) : body <> ERemove FLock ->
  s_mem (gob_write flat_ops f body s) = s_mem s /\ rc_text s (gob_write flat_ops f body s).
Proof.
  intros Hb. unfold gob_write. destruct (exists_file (s_disk s) f).
  all: split; [reflexivity|]; eexists; split; [cbn [emits fold_left emit s_trace]; rewrite <- !app_assoc; reflexivity|].
  all: cbn [app In]; intros [H|[H|[H|[H|[]]]]]; try discriminate H; exact (Hb H).
Qed.

Lemma rc_gob_dbmeta sd (s : st) : s_disk (gob_write flat_ops FDbMeta (EGobDb sd) s) = set_dbmeta (s_disk s) (GOk sd).
Proof. unfold gob_write. destruct (exists_file _ _); reflexivity. Qed.

Lemma rc_gob_imeta i (s : st) : s_disk (gob_write flat_ops FIndexMeta (EGobIndex i) s) = set_imeta (s_disk s) (GOk i).
Proof. unfold gob_write. destruct (exists_file _ _); reflexivity. Qed.

Lemma rc_close_seg_step (s : st) g :
  let s' := rc_close_seg_step_def s g in
  d_segs (s_disk s') = map (rc_wmeta g) (d_segs (s_disk s)) /\ same_rest (s_disk s) (s_disk s') /\
  s_mem s' = s_mem s /\ rc_text s s'.
Proof.
  unfold rc_close_seg_step_def. set (s0 := emit flat_ops (ESync (FSeg (g_id g) (g_seq g))) s).
  destruct (rc_gob_write_text (FSegMeta (g_id g) (g_seq g)) (EGobSeg (g_id g) (g_seq g) (g_meta g)) s0) as [Em Ht];
    [discriminate|].
  split; [|split; [|split; [exact Em|]]].
  - (* the side file goes through GPartial on the way *)
    unfold gob_write. destruct (exists_file _ _); cbn [emits fold_left emit s_disk apply_ev s0].
    all: rewrite !d_segs_upd_seg, map_map; apply map_ext; intros f; unfold rc_wmeta.
    all: destruct (is_seg (g_id g) (g_seq g) f) eqn:Ef; [|rewrite Ef; reflexivity].
    all: change (is_seg (g_id g) (g_seq g) (set_fmeta GPartial f)) with (is_seg (g_id g) (g_seq g) f); rewrite Ef; reflexivity.
  - unfold gob_write. destruct (exists_file _ _); repeat split.
  - apply (rc_text_trans _ s0); [apply rc_text_emit; discriminate|exact Ht].
Qed.

Lemma rc_close_seg_fold G : forall s : st,
  let s' := fold_left rc_close_seg_step_def G s in
  d_segs (s_disk s') = map (rc_wmetas G) (d_segs (s_disk s)) /\ same_rest (s_disk s) (s_disk s') /\
  s_mem s' = s_mem s /\ rc_text s s'.
Proof.
  induction G as [|g G IH]; intros s.
  - cbn [fold_left]. split; [symmetry; apply map_id|]. split; [apply same_rest_refl|]. split; [reflexivity|apply rc_text_refl].
  - cbn [fold_left]. destruct (rc_close_seg_step s g) as (A1 & A2 & A3 & A4).
    destruct (IH (rc_close_seg_step_def s g)) as (B1 & B2 & B3 & B4). cbv zeta in *.
    split; [|split; [|split]].
    + rewrite B1, A1, map_map. apply map_ext. intros f. reflexivity.
    + eapply same_rest_trans; eassumption.
    + congruence.
    + eapply rc_text_trans; eassumption.
Qed.

Lemma rc_close_char (s : st) m : s_mem s = Some m ->
  exists s', db_close flat_ops s = (s', OOk) /\ s_mem s' = None /\
    d_segs (s_disk s') = map (rc_wmetas (m_segs m)) (d_segs (s_disk s)) /\
    d_orphans (s_disk s') = d_orphans (s_disk s) /\ d_index (s_disk s') = d_index (s_disk s) /\
    d_overflow (s_disk s') = d_overflow (s_disk s) /\ d_imeta (s_disk s') = GOk (m_idx m) /\
    d_dbmeta (s_disk s') = GOk (m_seed m) /\ d_lock (s_disk s') = false /\ d_bac (s_disk s') = d_bac (s_disk s) /\
    exists es, s_trace s' = s_trace s ++ es ++ [ERemove FLock] /\ ~ In (ERemove FLock) es.
Proof.
  intros Hm. unfold db_close. rewrite Hm.
  set (s1 := gob_write flat_ops FDbMeta (EGobDb (m_seed m)) s).
  pose proof (rc_gob_dbmeta (m_seed m) s) as A1. fold s1 in A1.
  destruct (rc_gob_write_text FDbMeta (EGobDb (m_seed m)) s) as [_ A3]; [discriminate|]. fold s1 in A3.
  change (fold_left _ (m_segs m) s1) with (fold_left rc_close_seg_step_def (m_segs m) s1).
  set (s2 := fold_left rc_close_seg_step_def (m_segs m) s1).
  destruct (rc_close_seg_fold (m_segs m) s1) as (B1 & B2 & B3 & B4). fold s2 in B1, B2, B3, B4.
  set (s3 := gob_write flat_ops FIndexMeta (EGobIndex (m_idx m)) s2).
  pose proof (rc_gob_imeta (m_idx m) s2) as C1. fold s3 in C1.
  destruct (rc_gob_write_text FIndexMeta (EGobIndex (m_idx m)) s2) as [_ C3]; [discriminate|]. fold s3 in C3.
  eexists. split; [reflexivity|]. cbn [s_mem s_disk s_trace].
  destruct B2 as (R1 & R2 & R3 & R4 & R5 & R6 & R7).
  cbn [emits fold_left emit s_disk s_trace apply_ev file_removed].
  rewrite C1. cbn [set_lock set_imeta d_segs d_orphans d_index d_overflow d_imeta d_dbmeta d_lock d_bac].
  rewrite B1, R1, R2, R3, R5, R7, A1. cbn [set_dbmeta d_segs d_orphans d_index d_overflow d_imeta d_dbmeta d_lock d_bac].
  repeat (split; [reflexivity|]).
  destruct (rc_text_trans _ _ _ A3 (rc_text_trans _ _ _ B4 C3)) as (es & E & Hn).
  exists (es ++ [ESync FMain; ESync FOverflow]). split.
  - rewrite E, <- !app_assoc. reflexivity.
  - intros H. apply in_app_or in H. destruct H as [H|H]; [exact (Hn H)|].
    cbn [In] in H. repeat (destruct H as [H|H]; [discriminate|]). exact H.
Qed.

Section CloseOk.
Variable P : params.

Theorem close_ok (s : st) m : Inv P s -> s_mem s = Some m ->
  let '(s', o) := db_close flat_ops s in
  o = OOk /\ s_mem s' = None /\ DiskOK (s_disk s') /\ olog (s_disk s') = olog (s_disk s) /\
  d_lock (s_disk s') = false /\ d_index (s_disk s') = Some (m_idx m) /\ d_overflow (s_disk s') = true /\
  d_imeta (s_disk s') = GOk (m_idx m) /\ d_dbmeta (s_disk s') = GOk (m_seed m) /\
  (forall g, In g (m_segs m) -> exists f, In f (d_segs (s_disk s')) /\ f_id f = g_id g /\ f_seq f = g_seq g /\ f_meta f = GOk (g_meta g)) /\
  exists es, s_trace s' = s_trace s ++ es ++ [ERemove FLock] /\ ~ In (ERemove FLock) es.
Proof.
  intros HI Hm. unfold Inv in HI. rewrite Hm in HI.
  destruct HI as (Hok & Hmda & Hinc & Hseq & Hcur & Hidx & Hlock & Hdi & Hov).
  destruct (rc_close_char s m Hm) as (s' & E & Em & Es & Eo & Ei & Eov & Eim & Edb & El & Eb & Htr).
  rewrite E.
  assert (Hsl : same_log (s_disk s) (s_disk s')).
  { unfold same_log. rewrite Es, map_map. apply map_ext. intros f. symmetry. apply rc_wmetas_core. }
  split; [reflexivity|]. split; [exact Em|]. split; [eapply same_log_DiskOK; eassumption|].
  split; [apply same_log_olog; exact Hsl|]. split; [exact El|]. split; [congruence|]. split; [congruence|].
  split; [exact Eim|]. split; [exact Edb|]. split; [|exact Htr].
  intros g Hg. destruct (proj1 Hmda g Hg) as (f & Hf & F1 & F2 & _).
  exists (rc_wmetas (m_segs m) f). split; [rewrite Es; apply in_map; exact Hf|].
  rewrite (rc_wmetas_hit (m_segs m) f g (ids_increasing_NoDup _ Hinc) Hg F1 F2).
  cbn [set_fmeta f_id f_seq f_meta]. auto.
Qed.
End CloseOk.

(* the part of the disk that recovery's replay depends on: ids, sequence ids and complete records *)
Definition rc_rcore (f : dseg) : N * N * list rec := (f_id f, f_seq f, f_recs f).
Definition rc_rsim (d d' : disk) : Prop := map rc_rcore (d_segs d) = map rc_rcore (d_segs d').
Definition rc_rnorm (f : dseg) : dseg :=
  {| f_id := f_id f; f_seq := f_seq f; f_hdr := true; f_recs := f_recs f; f_tail := []; f_meta := GAbsent |}.

Lemma rc_rsim_refl d : rc_rsim d d. Proof. reflexivity. Qed.
Lemma rc_rsim_sym d d' : rc_rsim d d' -> rc_rsim d' d. Proof. unfold rc_rsim. congruence. Qed.
Lemma rc_rsim_trans a b c : rc_rsim a b -> rc_rsim b c -> rc_rsim a c. Proof. unfold rc_rsim. congruence. Qed.
Lemma rc_rsim_segs (d d' : disk) : d_segs d' = d_segs d -> rc_rsim d d'.
Proof. unfold rc_rsim. intros ->. reflexivity. Qed.
Lemma rc_same_log_rsim d d' : same_log d d' -> rc_rsim d d'.
Proof.
  unfold same_log, rc_rsim. intros H.
  transitivity (map (fun t : N * N * bool * list rec * bytes =>
                       let '(i, q, _, rs, _) := t in (i, q, rs)) (map seg_core (d_segs d))).
  - rewrite map_map. apply map_ext. intros f. reflexivity.
  - rewrite H, map_map. apply map_ext. intros f. reflexivity.
Qed.

Lemma rc_rsim_norm d d' : rc_rsim d d' -> map rc_rnorm (d_segs d) = map rc_rnorm (d_segs d').
Proof.
  intros H.
  assert (E : forall l, map rc_rnorm l =
            map (fun t : N * N * list rec => let '(i, q, rs) := t in
                   {| f_id := i; f_seq := q; f_hdr := true; f_recs := rs; f_tail := []; f_meta := GAbsent |})
                (map rc_rcore l)).
  { intros l. rewrite map_map. apply map_ext. intros f. reflexivity. }
  rewrite !E. unfold rc_rsim in H. rewrite H. reflexivity.
Qed.

Lemma rc_olog_of_rnorm l : olog_of (map rc_rnorm l) = olog_of l.
Proof. apply olog_of_map; intros x; reflexivity. Qed.

Lemma rc_rsim_olog d d' : rc_rsim d d' -> olog d' = olog d.
Proof.
  intros H. rewrite !olog_eq, <- (rc_olog_of_rnorm (d_segs d')), <- (rc_olog_of_rnorm (d_segs d)).
  rewrite (rc_rsim_norm _ _ H). reflexivity.
Qed.
Lemma rc_rsim_abs d d' : rc_rsim d d' -> abs d' = abs d.
Proof. intros H. unfold abs. rewrite (rc_rsim_olog _ _ H). reflexivity. Qed.
Lemma rc_rsim_rec_of d d' id off : rc_rsim d d' -> rec_of d' id off = rec_of d id off.
Proof.
  intros H. unfold rec_of, find_dseg.
  assert (E : forall l : list dseg,
            match find (fun s => f_id s =? id) l with None => None | Some f => rec_at off (seg_entries f) end =
            match find (fun s => f_id s =? id) (map rc_rnorm l) with None => None | Some f => rec_at off (seg_entries f) end).
  { intros l. rewrite (find_map_id rc_rnorm) by reflexivity.
    destruct (find _ l); reflexivity. }
  rewrite (E (d_segs d')), (E (d_segs d)), (rc_rsim_norm _ _ H). reflexivity.
Qed.
Lemma rc_rsim_read_kv d d' sl : rc_rsim d d' -> read_kv d' sl = read_kv d sl.
Proof. intros H. rewrite !read_kv_rec_of, (rc_rsim_rec_of _ _ _ _ H). reflexivity. Qed.
Lemma rc_rsim_matchf d d' k sl : rc_rsim d d' -> matchf d' k sl = matchf d k sl.
Proof. intros H. unfold matchf. rewrite (rc_rsim_read_kv _ _ _ H). reflexivity. Qed.
Lemma rc_rsim_slot_key d d' sl : rc_rsim d d' -> slot_key d' sl = slot_key d sl.
Proof. intros H. unfold slot_key. rewrite (rc_rsim_read_kv _ _ _ H). reflexivity. Qed.
Lemma rc_upd_seg_rsim id seq g (d : disk) : (forall s, rc_rcore (g s) = rc_rcore s) -> rc_rsim d (upd_seg id seq g d).
Proof.
  intros Hg. unfold rc_rsim. rewrite d_segs_upd_seg, map_map. apply map_ext.
  intros s. destruct (is_seg id seq s); [symmetry; apply Hg|reflexivity].
Qed.

(* replay_rec implements upd_ptr *)
Section Replay.
Variable P : params.

Definition rc_pfold (l : list entry) : key -> option (N * N) := fold_left upd_ptr l (fun _ => None).

Definition rc_IdxInv (d : disk) (seed : N) (l : list entry) (i : flat) : Prop :=
  Forall (slot_ok P d seed) i /\ NoDup (map (slot_key d) i) /\
  forall k, rc_pfold l k = option_map (fun sl => (sl_seg sl, sl_off sl))
                                   (find (fun sl => key_eqb k (slot_key d sl)) i).

Definition rc_replay_idx (d' : disk) (seed : N) (e : entry) (i : flat) : flat :=
  let r := snd e in
  let h := p_hash P seed (rk r) in
  if rdel r then fst (fl_del i h (matchf d' (rk r)))
  else fst (fl_put (p_grow P) i
             {| sl_h := h; sl_seg := fst (fst e); sl_ks := u16 (nlen (rk r)); sl_vs := u32 (nlen (rv r));
                sl_off := u32 (snd (fst e)) |} (matchf d' (rk r))).

Definition rc_entry_ok (d : disk) (e : entry) : Prop :=
  rec_of d (fst (fst e)) (snd (fst e)) = Some (snd e) /\ rec_fits (snd e) /\ snd (fst e) < 4294967296.

Lemma rc_IdxInv_nil d seed : rc_IdxInv d seed [] [].
Proof. split; [constructor|]. split; [constructor|]. intros k. reflexivity. Qed.

Lemma rc_IdxInv_eq d seed l i : rc_IdxInv d seed l i = idxl_agrees P seed i d l.
Proof. reflexivity. Qed.

Lemma rc_IdxInv_step d d' seed l i e :
  rc_IdxInv d seed l i -> rc_rsim d d' -> rc_entry_ok d e -> rc_IdxInv d seed (l ++ [e]) (rc_replay_idx d' seed e i).
Proof.
  rewrite !rc_IdxInv_eq. intros HI Hsim (Hrec & Hfit & Hoff).
  destruct e as [[id off] r]. cbn [fst snd] in *.
  destruct Hfit as (_ & _ & Hkl & Hvl).
  assert (Hhit : forall s, In s i ->
            fl_hit (p_hash P seed (rk r)) (matchf d' (rk r)) s = khit (slot_key d) (rk r) s).
  { intros s Hs. rewrite <- (hit_key_len P d seed (rk r) s); [|exact (proj1 (Forall_forall _ _) (proj1 HI) s Hs)|intros _; exact Hkl].
    unfold fl_hit. rewrite (rc_rsim_matchf _ _ _ _ Hsim). reflexivity. }
  unfold rc_replay_idx. cbn [fst snd]. destruct (rdel r) eqn:Hdel.
  - exact (idxl_del_step P seed i d l (id, off, r) _ _ HI Hdel Hhit).
  - set (new := {| sl_h := p_hash P seed (rk r); sl_seg := id; sl_ks := u16 (nlen (rk r));
                   sl_vs := u32 (nlen (rv r)); sl_off := u32 off |}).
    assert (Hoff' : u32 off = off) by (apply u32_small; exact Hoff).
    assert (Hnew : slot_ok P d seed new).
    { apply slot_ok_rec_of. exists r. cbn [new sl_seg sl_off sl_ks sl_vs sl_h]. rewrite Hoff'.
      split; [exact Hrec|]. split; [exact Hdel|].
      split; [apply u16_small; rewrite max_key_len_eq in Hkl; lia|].
      split; [apply u32_small; rewrite max_val_len_eq in Hvl; lia|reflexivity]. }
    assert (Hkey : slot_key d new = rk r).
    { destruct (slot_ok_read P d seed new Hnew) as (r' & E' & _ & _ & _ & _ & _ & Ek).
      cbn [new sl_seg sl_off] in E'. rewrite Hoff', Hrec in E'. inversion E'; subst. exact Ek. }
    exact (idxl_put_step P seed i d l (id, off, r) new _ _ HI Hnew Hkey Hdel eq_refl Hoff' Hhit).
Qed.

Definition rc_msig (g : mseg) : N * N * N * bool := (g_id g, g_seq g, g_size g, sm_full (g_meta g)).

Lemma rc_msig_upd_mseg id F l : (forall g, rc_msig (F g) = rc_msig g) -> map rc_msig (upd_mseg id F l) = map rc_msig l.
Proof.
  intros HF. unfold upd_mseg. rewrite map_map. apply map_ext. intros g.
  destruct (g_id g =? id); [apply HF|reflexivity].
Qed.

Lemma rc_msig_track_del sl (m : mem) : map rc_msig (m_segs (track_del sl m)) = map rc_msig (m_segs m).
Proof. unfold track_del. cbn [set_msegs m_segs]. apply rc_msig_upd_mseg. intros g. reflexivity. Qed.

Lemma rc_replay_rec_frame (d : disk) id off r (m : mem) :
  let m' := replay_rec flat_ops P d id off r m in
  m_idx m' = rc_replay_idx d (m_seed m) (id, off, r) (m_idx m) /\
  map rc_msig (m_segs m') = map rc_msig (m_segs m) /\
  m_cur m' = m_cur m /\ m_cur_removed m' = m_cur_removed m /\ m_maxseq m' = m_maxseq m /\
  m_seed m' = m_seed m.
Proof.
  unfold replay_rec, rc_replay_idx. cbn [fst snd ix_del ix_put flat_ops]. destruct (rdel r).
  - destruct (fl_del (m_idx m) (p_hash P (m_seed m) (rk r)) (matchf d (rk r))) as [i1 old]. cbn [fst].
    destruct old as [o|]; cbn [set_msegs set_idx m_idx m_segs m_cur m_cur_removed m_maxseq m_seed track_del].
    all: split; [reflexivity|]; split; [|repeat split].
    all: rewrite !rc_msig_upd_mseg by (intros g; reflexivity); reflexivity.
  - match goal with |- context [fl_put ?a ?b ?c ?e] => destruct (fl_put a b c e) as [i1 old] end. cbn [fst].
    destruct old as [o|]; cbn [set_msegs set_idx m_idx m_segs m_cur m_cur_removed m_maxseq m_seed track_del].
    all: split; [reflexivity|]; split; [|repeat split].
    all: rewrite !rc_msig_upd_mseg by (intros g; reflexivity); reflexivity.
Qed.

Lemma rc_matchf_rec_of_ext (d d' : disk) k sl :
  (forall i off, rec_of d' i off = rec_of d i off) -> matchf d' k sl = matchf d k sl.
Proof. intros H. unfold matchf. rewrite !read_kv_rec_of, H. reflexivity. Qed.

Lemma rc_replay_idx_ext (d d' : disk) seed e i :
  (forall i off, rec_of d' i off = rec_of d i off) -> rc_replay_idx d' seed e i = rc_replay_idx d seed e i.
Proof.
  intros H. unfold rc_replay_idx. destruct (rdel (snd e)).
  - unfold fl_del. rewrite (fl_remove_ext_in _ (fl_hit (p_hash P seed (rk (snd e))) (matchf d (rk (snd e))))); [reflexivity|].
    intros s _. unfold fl_hit. rewrite (rc_matchf_rec_of_ext d d' _ _ H). reflexivity.
  - unfold fl_put. cbn [sl_h].
    rewrite (fl_replace_ext_in _ (fl_hit (p_hash P seed (rk (snd e))) (matchf d (rk (snd e))))); [reflexivity|].
    intros s _. unfold fl_hit. rewrite (rc_matchf_rec_of_ext d d' _ _ H). reflexivity.
Qed.

(* the index a recovery of disk [d] builds *)
Definition rc_ridx (d : disk) (seed : N) (l : list entry) (i : flat) : flat :=
  fold_left (fun i e => rc_replay_idx d seed e i) l i.

Lemma rc_ridx_ext (d d' : disk) seed l : forall i,
  (forall i off, rec_of d' i off = rec_of d i off) -> rc_ridx d' seed l i = rc_ridx d seed l i.
Proof.
  induction l as [|e l IH]; intros i H; [reflexivity|].
  unfold rc_ridx. cbn [fold_left]. rewrite (rc_replay_idx_ext d d' seed e i H). apply IH. exact H.
Qed.

Lemma rc_ridx_app d seed l1 l2 i : rc_ridx d seed (l1 ++ l2) i = rc_ridx d seed l2 (rc_ridx d seed l1 i).
Proof. unfold rc_ridx. apply fold_left_app. Qed.

End Replay.

Lemma rc_fold_map_pointwise {A B} (h : B -> A -> A) (R : list B) : forall l : list A,
  fold_left (fun l b => map (h b) l) R l = map (fun a => fold_left (fun a b => h b a) R a) l.
Proof.
  induction R as [|b R IH]; intros l; cbn [fold_left].
  - symmetry. apply map_id.
  - rewrite IH, map_map. reflexivity.
Qed.

Lemma rc_fold_established {A S} (step : S -> A -> S) (Q : S -> Prop) (good : A -> Prop) f0 (L : list A) :
  (forall s, Q (step s f0)) -> (forall s f, good f -> Q s -> Q (step s f)) -> Forall good L -> In f0 L ->
  forall s, Q (fold_left step L s).
Proof.
  intros H0 Hstep HL. induction HL as [|f L Hf HL IH]; intros HIn s; [destruct HIn|].
  cbn [fold_left]. destruct HIn as [->|HIn].
  - apply (fold_inv step Q good); [exact Hstep|exact HL|apply H0].
  - apply IH. exact HIn.
Qed.

Lemma rc_disk_fold_emit {A} (ev : A -> fsev) (L : list A) : forall s : st,
  s_disk (fold_left (fun s x => emit flat_ops (ev x) s) L s) =
  fold_left (fun d x => apply_ev flat_ops d (ev x)) L (s_disk s) /\
  s_mem (fold_left (fun s x => emit flat_ops (ev x) s) L s) = s_mem s.
Proof.
  induction L as [|x L IH]; intros s; [split; reflexivity|].
  cbn [fold_left]. destruct (IH (emit flat_ops (ev x) s)) as [A1 A2]. rewrite A1, A2. split; reflexivity.
Qed.

Lemma rc_fname_eqb_spec a : forall b, fname_eqb a b = true <-> a = b.
Proof.
  induction a as [i s|i s| | | | | |a IH]; intros b; destruct b as [j t|j t| | | | | |b]; cbn [fname_eqb];
    try (split; [discriminate|congruence]); try (split; reflexivity).
  - rewrite andb_true_iff, !N.eqb_eq. split; [intros [-> ->]; reflexivity|intros E; inversion E; auto].
  - rewrite andb_true_iff, !N.eqb_eq. split; [intros [-> ->]; reflexivity|intros E; inversion E; auto].
  - rewrite IH. split; [congruence|intros E; inversion E; reflexivity].
Qed.
Lemma rc_fname_eqb_refl a : fname_eqb a a = true.
Proof. apply rc_fname_eqb_spec. reflexivity. Qed.

Lemma rc_remove_name_In f l x : In x (remove_name f l) -> In x l.
Proof.
  induction l as [|g l IH]; [intros []|]. cbn [remove_name]. destruct (fname_eqb f g).
  - intros H. right. exact H.
  - intros [H|H]; [left; exact H|right; apply IH; exact H].
Qed.

Lemma rc_remove_name_perm f l : In f l -> Permutation l (f :: remove_name f l).
Proof.
  induction l as [|g l IH]; [intros []|]. cbn [remove_name]. intros HIn.
  destruct (fname_eqb f g) eqn:E.
  - apply rc_fname_eqb_spec in E. subst g. reflexivity.
  - destruct HIn as [->|HIn]; [rewrite rc_fname_eqb_refl in E; discriminate|].
    rewrite (IH HIn) at 1. apply perm_swap.
Qed.

Lemma rc_remove_all_perm L : forall B, Permutation L B -> fold_left (fun b f => remove_name f b) L B = [].
Proof.
  induction L as [|f L IH]; intros B Hp.
  - apply Permutation_nil in Hp. subst B. reflexivity.
  - cbn [fold_left]. apply IH.
    assert (HIn : In f B) by (apply (Permutation_in _ Hp); left; reflexivity).
    apply (Permutation_cons_inv (a := f)). rewrite Hp. apply rc_remove_name_perm. exact HIn.
Qed.

Lemma rc_sort_names_perm l : Permutation (sort_names l) l.
Proof. exact (fold_right_ins_perm (fun f g => lex_ltb (name_str f) (name_str g)) l). Qed.

Lemma rc_sort_segs_perm l : Permutation (sort_segs l) l.
Proof.
  exact (fold_right_ins_perm
           (fun f g => lex_ltb (name_str (FSeg (f_id f) (f_seq f))) (name_str (FSeg (f_id g) (f_seq g)))) l).
Qed.

Local Notation gseq_lt := (fun a b : mseg => g_seq a <? g_seq b).

Lemma rc_by_seq_perm l : Permutation (by_seq l) l.
Proof. exact (isort_perm gseq_lt l). Qed.
Lemma rc_by_seq_In l g : In g (by_seq l) <-> In g l.
Proof. exact (isort_In gseq_lt l g). Qed.
Lemma rc_by_seq_sorted l : StronglySorted (fun a b => g_seq a <= g_seq b) (by_seq l).
Proof. exact (isort_sorted g_seq l). Qed.

Lemma rc_NoDup_map_inj_on {A B} (h : A -> B) (l : list A) :
  NoDup l -> (forall a b, In a l -> In b l -> h a = h b -> a = b) -> NoDup (map h l).
Proof.
  induction l as [|x l IH]; intros Hnd Hinj; [constructor|].
  inversion Hnd as [|? ? Hx Hnd']; subst. cbn [map]. constructor.
  - intros HIn. apply in_map_iff in HIn. destruct HIn as (y & E & Hy).
    assert (y = x) by (apply Hinj; [right; exact Hy|left; reflexivity|exact E]). subst y. exact (Hx Hy).
  - apply IH; [exact Hnd'|]. intros a b Ha Hb. apply Hinj; right; assumption.
Qed.

(* the model's d_bac holds names of the form FBac _ only *)
Definition is_bac (f : fname) : Prop := match f with FBac _ => True | _ => False end.
Definition bac_ok (d : disk) : Prop := Forall is_bac (d_bac d).
(* the only renames the model issues are  name -> name.bac *)
Definition ev_bac_ok (e : fsev) : Prop := match e with ERename _ g => is_bac g | _ => True end.

Lemma rc_Forall_remove_name (Q : fname -> Prop) f l : Forall Q l -> Forall Q (remove_name f l).
Proof.
  intros H. apply Forall_forall. intros x Hx. apply rc_remove_name_In in Hx.
  exact (proj1 (Forall_forall _ _) H x Hx).
Qed.

Lemma rc_file_removed_bac_ok f (d : disk) : bac_ok d -> bac_ok (file_removed f d).
Proof.
  unfold bac_ok. intros H. destruct f; cbn [file_removed set_orphans set_segs upd_seg set_index set_overflow
    set_imeta set_dbmeta set_lock set_bac d_bac]; try exact H.
  apply rc_Forall_remove_name. exact H.
Qed.

Theorem apply_ev_bac_ok (d : disk) e : bac_ok d -> ev_bac_ok e -> bac_ok (apply_ev flat_ops d e).
Proof.
  intros H He. destruct e as [f|f|id seq off r|i|id seq m|i|sd|f n|f g|f|f]; cbn [apply_ev]; try exact H.
  - destruct f; try exact H. unfold bac_ok. cbn [set_bac d_bac]. apply Forall_app. split; [exact H|].
    constructor; [exact Logic.I|constructor].
  - destruct f; exact H.
  - destruct f; exact H.
  - unfold bac_ok. cbn [set_bac d_bac]. apply Forall_app. split.
    + apply rc_Forall_remove_name. apply rc_file_removed_bac_ok. exact H.
    + constructor; [exact He|constructor].
  - apply rc_file_removed_bac_ok. exact H.
Qed.

(* removeRecoveryBackupFiles *)
Lemma rc_remove_bac_fold L : forall d : disk, Forall is_bac L ->
  fold_left (fun d f => apply_ev flat_ops d (ERemove f)) L d =
  set_bac d (fold_left (fun b f => remove_name f b) L (d_bac d)).
Proof.
  induction L as [|f L IH]; intros d HL; [destruct d; reflexivity|].
  inversion HL as [|? ? Hf HL']; subst. cbn [fold_left]. rewrite (IH _ HL').
  destruct f; try destruct Hf. reflexivity.
Qed.

Lemma rc_remove_bac_spec (s : st) : bac_ok (s_disk s) ->
  s_disk (remove_bac flat_ops s) = set_bac (s_disk s) [] /\ s_mem (remove_bac flat_ops s) = s_mem s.
Proof.
  intros Hb. unfold remove_bac.
  destruct (rc_disk_fold_emit (fun f => ERemove f) (sort_names (d_bac (s_disk s))) s) as [E1 E2].
  cbv beta in E1. rewrite E1, E2. split; [|reflexivity]. rewrite rc_remove_bac_fold.
  - f_equal. apply rc_remove_all_perm, rc_sort_names_perm.
  - apply Forall_forall. intros x Hx. apply (Permutation_in _ (rc_sort_names_perm _)) in Hx.
    exact (proj1 (Forall_forall _ _) Hb x Hx).
Qed.

(* backupNonsegmentFiles *)
Definition rc_bstep (d : disk) (f : fname) : disk := apply_ev flat_ops d (ERename f (FBac f)).
Definition rc_bgood (f : fname) : Prop := is_segfile f = false /\ f <> FLock.
Definition rc_Qseg (id seq : N) (d : disk) : Prop :=
  forall f, In f (d_segs d) -> is_seg id seq f = true -> f_meta f = GAbsent.

Lemma rc_bstep_same_log d f : rc_bgood f -> same_log d (rc_bstep d f).
Proof. intros [H _]. apply apply_ev_same_log. destruct f; try reflexivity. discriminate. Qed.
Lemma rc_bstep_lock d f : rc_bgood f -> d_lock (rc_bstep d f) = d_lock d.
Proof. intros [_ H]. destruct f; try reflexivity. congruence. Qed.
Lemma rc_bstep_bac d f : bac_ok d -> bac_ok (rc_bstep d f).
Proof. intros H. apply apply_ev_bac_ok; [exact H|exact Logic.I]. Qed.
Lemma rc_bstep_index_none d f : d_index d = None -> d_index (rc_bstep d f) = None.
Proof. intros H. destruct f; try exact H. reflexivity. Qed.
Lemma rc_bstep_index_main d : d_index (rc_bstep d FMain) = None.
Proof. reflexivity. Qed.

Lemma rc_d_segs_bstep d f :
  d_segs (rc_bstep d f) =
  match f with
  | FSegMeta id seq => map (fun s => if is_seg id seq s then set_fmeta GAbsent s else s) (d_segs d)
  | FSeg id seq => filter (fun s => negb (is_seg id seq s)) (d_segs d)
  | _ => d_segs d
  end.
Proof. destruct f; reflexivity. Qed.

Lemma rc_bstep_Qseg_est id seq d : rc_Qseg id seq (rc_bstep d (FSegMeta id seq)).
Proof.
  intros f Hf Hs. rewrite rc_d_segs_bstep in Hf. apply in_map_iff in Hf. destruct Hf as (x & E & Hx).
  destruct (is_seg id seq x) eqn:Ex; subst f; [reflexivity|congruence].
Qed.
Lemma rc_bstep_Qseg_pres id seq d f : rc_bgood f -> rc_Qseg id seq d -> rc_Qseg id seq (rc_bstep d f).
Proof.
  intros [Hg _] HQ x Hx Hs. rewrite rc_d_segs_bstep in Hx. destruct f; try (apply HQ; assumption); [discriminate|].
  apply in_map_iff in Hx. destruct Hx as (y & E & Hy). destruct (is_seg id0 seq0 y); subst x; [reflexivity|].
  apply HQ; assumption.
Qed.

Lemma rc_dir_segmeta (d : disk) f :
  In f (d_segs d) -> gob_present (f_meta f) = true -> In (FSegMeta (f_id f) (f_seq f)) (dir d).
Proof.
  intros Hf Hp. unfold dir. apply in_or_app. left. unfold seg_names. apply in_concat.
  exists [FSeg (f_id f) (f_seq f); FSegMeta (f_id f) (f_seq f)]. split; [|right; left; reflexivity].
  apply in_map_iff. exists f. rewrite Hp. split; [reflexivity|exact Hf].
Qed.
Lemma rc_dir_main (d : disk) i : d_index d = Some i -> In FMain (dir d).
Proof.
  intros E. unfold dir. rewrite E. apply in_or_app. right. apply in_or_app. right. left. reflexivity.
Qed.

Lemma rc_backup_spec (s : st) :
  DiskOK (s_disk s) -> bac_ok (s_disk s) ->
  let s' := backup_nonseg flat_ops s in
  same_log (s_disk s) (s_disk s') /\ d_lock (s_disk s') = d_lock (s_disk s) /\ bac_ok (s_disk s') /\
  d_index (s_disk s') = None /\ (forall f, In f (d_segs (s_disk s')) -> f_meta f = GAbsent) /\
  s_mem s' = s_mem s.
Proof.
  intros Hok Hb. unfold backup_nonseg.
  set (nsl := fun f => negb (is_segfile f || fname_eqb f FLock)).
  set (L := sort_names (filter nsl (dir (s_disk s)))).
  destruct (rc_disk_fold_emit (fun f => ERename f (FBac f)) L s) as [E1 E2]. cbv zeta. rewrite E1, E2.
  change (fold_left _ L (s_disk s)) with (fold_left rc_bstep L (s_disk s)).
  set (d := s_disk s) in *.
  assert (HinL : forall f, In f (dir d) -> nsl f = true -> In f L).
  { intros f Hf Hn. apply (Permutation_in _ (Permutation_sym (rc_sort_names_perm _))). apply filter_In. auto. }
  assert (HL : Forall rc_bgood L).
  { apply Forall_forall. intros f Hf. apply (Permutation_in _ (rc_sort_names_perm _)) in Hf.
    apply filter_In in Hf. destruct Hf as [_ Hn]. unfold nsl in Hn. apply negb_true_iff, orb_false_iff in Hn.
    destruct Hn as [H1 H2]. split; [exact H1|]. intros ->. discriminate. }
  assert (Hsl : same_log d (fold_left rc_bstep L d)).
  { apply (fold_inv rc_bstep (same_log d) rc_bgood L); [|exact HL|apply same_log_refl].
    intros x f Hf Hx. eapply same_log_trans; [exact Hx|apply rc_bstep_same_log; exact Hf]. }
  split; [exact Hsl|]. split.
  { apply (fold_inv rc_bstep (fun x => d_lock x = d_lock d) rc_bgood L); [|exact HL|reflexivity].
    intros x f Hf Hx. rewrite rc_bstep_lock; assumption. }
  split.
  { apply (fold_inv rc_bstep bac_ok rc_bgood L); [|exact HL|exact Hb]. intros x f _ Hx. apply rc_bstep_bac. exact Hx. }
  split.
  { destruct (d_index d) as [i|] eqn:Ei.
    - apply (rc_fold_established rc_bstep (fun x => d_index x = None) rc_bgood FMain L); [apply rc_bstep_index_main| |exact HL|].
      + intros x f _ Hx. apply rc_bstep_index_none. exact Hx.
      + apply HinL; [eapply rc_dir_main; exact Ei|reflexivity].
    - apply (fold_inv rc_bstep (fun x => d_index x = None) rc_bgood L); [|exact HL|exact Ei].
      intros x f _ Hx. apply rc_bstep_index_none. exact Hx. }
  split; [|reflexivity].
  intros f1 Hf1. destruct (same_log_In _ _ f1 (same_log_sym _ _ Hsl) Hf1) as (f & Hf & Ec).
  apply seg_core_inv in Ec. destruct Ec as (Eid & Eseq & _).
  assert (HQ : rc_Qseg (f_id f) (f_seq f) (fold_left rc_bstep L d)).
  { destruct (gob_present (f_meta f)) eqn:Hp.
    - apply (rc_fold_established rc_bstep (rc_Qseg (f_id f) (f_seq f)) rc_bgood (FSegMeta (f_id f) (f_seq f)) L);
        [apply rc_bstep_Qseg_est| |exact HL|].
      + intros x g Hg Hx. apply rc_bstep_Qseg_pres; assumption.
      + apply HinL; [apply rc_dir_segmeta; assumption|reflexivity].
    - apply (fold_inv rc_bstep (rc_Qseg (f_id f) (f_seq f)) rc_bgood L); [|exact HL|].
      + intros x g Hg Hx. apply rc_bstep_Qseg_pres; assumption.
      + intros x Hx Hs. unfold is_seg in Hs. apply andb_true_iff in Hs. destruct Hs as [Hs _].
        apply N.eqb_eq in Hs. assert (x = f).
        { apply (NoDup_map_inj f_id (d_segs d)); [apply Hok|assumption|assumption|exact Hs]. }
        subst x. destruct (f_meta f); [reflexivity|discriminate|discriminate]. }
  apply HQ; [exact Hf1|]. unfold is_seg. rewrite Eid, Eseq, !N.eqb_refl. reflexivity.
Qed.

(* openIndex after the index files were moved away *)
Lemma rc_open_index_fresh (s : st) : d_index (s_disk s) = None ->
  exists s', open_index flat_ops s = Some (s', []) /\
    d_segs (s_disk s') = d_segs (s_disk s) /\ d_lock (s_disk s') = d_lock (s_disk s) /\
    d_bac (s_disk s') = d_bac (s_disk s) /\ d_index (s_disk s') = Some [] /\ d_overflow (s_disk s') = true /\
    s_mem s' = s_mem s.
Proof.
  intros E. unfold open_index. rewrite E.
  destruct (d_overflow (s_disk (emits flat_ops [ECreate FMain; EHeader FMain] s))) eqn:Eo.
  - eexists. split; [reflexivity|]. cbn [emits fold_left emit s_disk s_mem apply_ev] in *.
    repeat split. exact Eo.
  - eexists. split; [reflexivity|]. repeat split.
Qed.

(* openDatalog *)
Definition rc_hlen (f : dseg) : N := header_size + recs_len (f_recs f) + nlen (f_tail f).
Definition rc_mkseg (f : dseg) : mseg :=
  {| g_id := f_id f; g_seq := f_seq f; g_size := rc_hlen f;
     g_meta := match f_meta f with GOk m => m | _ => smeta0 end |}.
Definition rc_hon (f : dseg) : dseg :=
  {| f_id := f_id f; f_seq := f_seq f; f_hdr := true; f_recs := f_recs f; f_tail := f_tail f; f_meta := f_meta f |}.
Definition rc_hdr_step (s : st) (f : dseg) : st :=
  if f_hdr f then s else emit flat_ops (EHeader (FSeg (f_id f) (f_seq f))) s.
Definition rc_hstep (x f : dseg) : dseg := if is_seg (f_id x) (f_seq x) f && negb (f_hdr x) then rc_hon f else f.
Definition rc_hons (L : list dseg) (f : dseg) : dseg := fold_left (fun f x => rc_hstep x f) L f.

Definition rc_ostep (acc : st * list mseg) (f : dseg) : st * list mseg :=
  let '(s, l) := acc in
  let s1 := if f_hdr f then s else emit flat_ops (EHeader (FSeg (f_id f) (f_seq f))) s in
  let size := match find_dseg (f_id f) (s_disk s1) with Some f' => flen f' | None => 0 end in
  let meta := match f_meta f with GOk m => m | _ => smeta0 end in
  (s1, insert_mseg {| g_id := f_id f; g_seq := f_seq f; g_size := size; g_meta := meta |} l).

Lemma rc_open_segments_eq (s : st) :
  open_segments flat_ops s = fold_left rc_ostep (sort_segs (d_segs (s_disk s))) (s, []).
Proof. reflexivity. Qed.

Lemma rc_flen_hdr f : f_hdr f = true -> flen f = rc_hlen f.
Proof. intros H. unfold flen, rc_hlen. rewrite H. reflexivity. Qed.

Lemma rc_ostep_eq (s : st) l f :
  NoDup (map f_id (d_segs (s_disk s))) -> In f (d_segs (s_disk s)) ->
  rc_ostep (s, l) f = (rc_hdr_step s f, insert_mseg (rc_mkseg f) l).
Proof.
  intros Hnd Hf. unfold rc_ostep, rc_hdr_step, rc_mkseg.
  destruct (f_hdr f) eqn:Hh.
  - rewrite (find_dseg_unique _ f Hnd Hf), (rc_flen_hdr f Hh). reflexivity.
  - change (s_disk (emit flat_ops (EHeader (FSeg (f_id f) (f_seq f))) s))
      with (upd_seg (f_id f) (f_seq f) rc_hon (s_disk s)).
    rewrite (find_dseg_upd_seg_same (f_id f) (f_seq f) rc_hon (s_disk s) f);
      [|reflexivity|apply find_dseg_unique; assumption|reflexivity].
    reflexivity.
Qed.

Lemma rc_hdr_step_disk (s : st) x :
  d_segs (s_disk (rc_hdr_step s x)) = map (rc_hstep x) (d_segs (s_disk s)) /\
  same_rest (s_disk s) (s_disk (rc_hdr_step s x)) /\ s_mem (rc_hdr_step s x) = s_mem s.
Proof.
  unfold rc_hdr_step, rc_hstep. destruct (f_hdr x).
  - split; [|split; [apply same_rest_refl|reflexivity]].
    rewrite <- (map_id (d_segs (s_disk s))) at 1. apply map_ext. intros f. rewrite andb_false_r. reflexivity.
  - split; [|split; [repeat split|reflexivity]].
    change (s_disk (emit flat_ops (EHeader (FSeg (f_id x) (f_seq x))) s))
      with (upd_seg (f_id x) (f_seq x) rc_hon (s_disk s)).
    rewrite d_segs_upd_seg. apply map_ext. intros f. rewrite andb_true_r. reflexivity.
Qed.

Lemma rc_hdr_fold_disk L : forall s : st,
  d_segs (s_disk (fold_left rc_hdr_step L s)) = map (rc_hons L) (d_segs (s_disk s)) /\
  same_rest (s_disk s) (s_disk (fold_left rc_hdr_step L s)) /\ s_mem (fold_left rc_hdr_step L s) = s_mem s.
Proof.
  induction L as [|x L IH]; intros s.
  - cbn [fold_left]. split; [symmetry; apply map_id|]. split; [apply same_rest_refl|reflexivity].
  - cbn [fold_left]. destruct (rc_hdr_step_disk s x) as (A1 & A2 & A3).
    destruct (IH (rc_hdr_step s x)) as (B1 & B2 & B3).
    split; [|split; [eapply same_rest_trans; eassumption|congruence]].
    rewrite B1, A1, map_map. apply map_ext. intros f. reflexivity.
Qed.

Lemma rc_hons_eq L f :
  rc_hons L f = if existsb (fun x => is_seg (f_id x) (f_seq x) f && negb (f_hdr x)) L then rc_hon f else f.
Proof. exact (fold_cond_idem (fun x f => is_seg (f_id x) (f_seq x) f && negb (f_hdr x)) rc_hon L f (fun _ => eq_refl)). Qed.

Lemma rc_hons_fields L f :
  f_id (rc_hons L f) = f_id f /\ f_seq (rc_hons L f) = f_seq f /\ f_recs (rc_hons L f) = f_recs f /\
  f_tail (rc_hons L f) = f_tail f /\ f_meta (rc_hons L f) = f_meta f /\ (f_hdr f = true -> f_hdr (rc_hons L f) = true).
Proof. rewrite rc_hons_eq. destruct (existsb _ L); repeat split; auto. Qed.

Lemma rc_hons_hdr L f : In f L -> f_hdr (rc_hons L f) = true.
Proof.
  intros Hf. rewrite rc_hons_eq. destruct (f_hdr f) eqn:Eh; [destruct (existsb _ L); [reflexivity|exact Eh]|].
  rewrite (existsb_In _ L f Hf); [reflexivity|]. unfold is_seg. rewrite Eh, !N.eqb_refl. reflexivity.
Qed.

Lemma rc_hdr_fold_all_hdr L (s : st) : (forall f, In f L -> f_hdr f = true) -> fold_left rc_hdr_step L s = s.
Proof.
  revert s. induction L as [|x L IH]; intros s H; [reflexivity|].
  cbn [fold_left]. unfold rc_hdr_step at 2. rewrite (H x (or_introl eq_refl)). apply IH.
  intros f Hf. apply H. right. exact Hf.
Qed.

Lemma rc_ostep_fold L : forall (s : st) l,
  NoDup (map f_id (d_segs (s_disk s))) -> (forall x, In x L -> In x (d_segs (s_disk s))) -> NoDup (map f_id L) ->
  fold_left rc_ostep L (s, l) = (fold_left rc_hdr_step L s, fold_left (fun l f => insert_mseg (rc_mkseg f) l) L l).
Proof.
  induction L as [|f L IH]; intros s l Hnd Hin HndL; [reflexivity|].
  cbn [fold_left]. rewrite (rc_ostep_eq s l f Hnd (Hin f (or_introl eq_refl))).
  cbn [map] in HndL. inversion HndL as [|? ? HfL HndL']; subst.
  destruct (rc_hdr_step_disk s f) as (A1 & _ & _).
  apply IH; [| |exact HndL'].
  - rewrite A1, map_map. erewrite map_ext; [exact Hnd|]. intros x. unfold rc_hstep. destruct (_ && _); reflexivity.
  - intros x Hx. rewrite A1. apply in_map_iff. exists x. split; [|apply Hin; right; exact Hx].
    unfold rc_hstep, is_seg. destruct (N.eqb_spec (f_id x) (f_id f)) as [E|_]; [|reflexivity].
    exfalso. apply HfL. rewrite <- E. apply in_map. exact Hx.
Qed.

Lemma rc_mkseg_fold_In L : forall l g,
  In g (fold_left (fun l f => insert_mseg (rc_mkseg f) l) L l) <-> In g l \/ exists f, In f L /\ g = rc_mkseg f.
Proof.
  induction L as [|f L IH]; intros l g; cbn [fold_left].
  - split; [auto|]. intros [H|(f & [] & _)]. exact H.
  - rewrite IH, insert_mseg_In. split.
    + intros [[->|H]|(x & Hx & E)]; [right; exists f; split; [left|]; reflexivity|left; exact H|].
      right. exists x. split; [right; exact Hx|exact E].
    + intros [H|(x & [->|Hx] & E)]; [left; right; exact H|left; left; exact E|].
      right. exists x. split; assumption.
Qed.

Lemma rc_mkseg_fold_inc L : forall l,
  ids_increasing l -> NoDup (map f_id L) -> (forall g f, In g l -> In f L -> g_id g <> f_id f) ->
  ids_increasing (fold_left (fun l f => insert_mseg (rc_mkseg f) l) L l).
Proof.
  induction L as [|f L IH]; intros l Hinc Hnd Hdis; [exact Hinc|].
  cbn [fold_left]. cbn [map] in Hnd. inversion Hnd as [|? ? HfL Hnd']; subst. apply IH; [|exact Hnd'|].
  - apply insert_mseg_increasing; [exact Hinc|]. intros x Hx. apply (Hdis x f Hx). left. reflexivity.
  - intros g x Hg Hx. apply insert_mseg_In in Hg. destruct Hg as [->|Hg].
    + cbn [rc_mkseg g_id]. intros E. apply HfL. rewrite E. apply in_map. exact Hx.
    + apply Hdis; [exact Hg|right; exact Hx].
Qed.

Lemma rc_open_segments_spec (s : st) :
  NoDup (map f_id (d_segs (s_disk s))) ->
  exists s' segs, open_segments flat_ops s = (s', segs) /\
    d_segs (s_disk s') = map (rc_hons (sort_segs (d_segs (s_disk s)))) (d_segs (s_disk s)) /\
    same_rest (s_disk s) (s_disk s') /\ s_mem s' = s_mem s /\
    s' = fold_left rc_hdr_step (sort_segs (d_segs (s_disk s))) s /\
    (forall g, In g segs <-> exists f, In f (d_segs (s_disk s)) /\ g = rc_mkseg f) /\
    ids_increasing segs.
Proof.
  intros Hnd. set (L := sort_segs (d_segs (s_disk s))).
  assert (HL : forall x, In x L <-> In x (d_segs (s_disk s))).
  { intros x. split; apply Permutation_in; [|symmetry]; apply rc_sort_segs_perm. }
  assert (HndL : NoDup (map f_id L)).
  { apply (Permutation_NoDup (l := map f_id (d_segs (s_disk s)))); [|exact Hnd].
    apply Permutation_map. symmetry. apply rc_sort_segs_perm. }
  rewrite rc_open_segments_eq. fold L. rewrite (rc_ostep_fold L s [] Hnd (fun x Hx => proj1 (HL x) Hx) HndL).
  eexists. eexists. split; [reflexivity|].
  destruct (rc_hdr_fold_disk L s) as (A1 & A2 & A3).
  split; [exact A1|]. split; [exact A2|]. split; [exact A3|]. split; [reflexivity|]. split.
  - intros g. rewrite rc_mkseg_fold_In. split.
    + intros [[]|(f & Hf & E)]. exists f. split; [apply HL; exact Hf|exact E].
    + intros (f & Hf & E). right. exists f. split; [apply HL; exact Hf|exact E].
  - apply rc_mkseg_fold_inc; [exact Logic.I|exact HndL|intros g f []].
Qed.

Definition rc_clean (f : dseg) : dseg :=
  {| f_id := f_id f; f_seq := f_seq f; f_hdr := true; f_recs := f_recs f; f_tail := []; f_meta := f_meta f |}.
Definition rc_cstep (id seq : N) (f : dseg) : dseg := if is_seg id seq f then rc_clean f else f.

(* memory and disk agree on ids, sequence ids and sizes (mem_disk_agree without "rc_clean") *)
Definition rc_magree (l : list mseg) (d : disk) : Prop :=
  (forall g, In g l -> exists f, In f (d_segs d) /\ f_id f = g_id g /\ f_seq f = g_seq g /\ flen f = g_size g) /\
  (forall f, In f (d_segs d) -> exists g, In g l /\ g_id g = f_id f /\ g_seq g = f_seq f).

Lemma rc_tail_stuck_parse t : tail_stuck t ->
  exists why, parse_tail t = ([], 0, why) /\ (why = SEnd -> t = []).
Proof.
  unfold tail_stuck. rewrite parse_tail_step, decode_next_eq. destruct t as [|x t].
  - intros _. exists SEnd. split; reflexivity.
  - destruct (decode_body (x :: t)) as [| | |r len rest] eqn:E.
    + exfalso. unfold decode_body in E.
      destruct (nlen (x :: t) <? 6); [discriminate|]. destruct (nlen (x :: t) <? hsize (x :: t)); [discriminate|].
      destruct (negb _); discriminate.
    + intros _. exists SShort. split; [reflexivity|discriminate].
    + intros _. exists SCorrupt. split; [reflexivity|discriminate].
    + destruct (parse_tail rest) as [[rs n] why]. cbn [fst snd]. intros [H _]. discriminate.
Qed.

Lemma rc_tail_stuck_nil : tail_stuck [].
Proof. exact tail_stuck_nil. Qed.

Lemma rc_reframe_nil id seq (s : st) : reframe id seq [] 0 s = s.
Proof.
  destruct s as [m d t]. unfold reframe. cbn [s_mem s_disk s_trace]. f_equal.
  destruct d as [segs orph ix ov im dm lk bac]. unfold upd_seg.
  cbn [d_segs d_orphans d_index d_overflow d_imeta d_dbmeta d_lock d_bac]. f_equal.
  rewrite <- (map_id segs) at 2. apply map_ext. intros f. destruct (is_seg id seq f); [|reflexivity].
  destruct f as [i q h rs tl mt]. cbn [f_id f_seq f_hdr f_recs f_tail f_meta]. rewrite app_nil_r. reflexivity.
Qed.

Lemma rc_trunc_recs_all rs : forall o n, o + recs_len rs <= n -> trunc_recs o n rs = (rs, o + recs_len rs).
Proof.
  induction rs as [|r rs IH]; intros o n H.
  - cbn [trunc_recs]. rewrite recs_len_nil, N.add_0_r. reflexivity.
  - cbn [trunc_recs]. rewrite recs_len_cons in *.
    assert (E : (o + rsize r <=? n) = true) by (apply N.leb_le; lia). rewrite E.
    rewrite (IH (o + rsize r) n) by lia. rewrite N.add_assoc. reflexivity.
Qed.

Lemma rc_trunc_seg_all f : f_hdr f = true -> trunc_seg (header_size + recs_len (f_recs f) + 0) f = rc_clean f.
Proof.
  intros H. unfold trunc_seg. rewrite H. cbn [negb].
  rewrite (rc_trunc_recs_all (f_recs f) header_size) by lia.
  rewrite skipn_all. unfold file_bytes_from. cbn [map concat app].
  replace (header_size + recs_len (f_recs f) + 0 - (header_size + recs_len (f_recs f))) with 0 by lia.
  reflexivity.
Qed.

Lemma rc_clean_id f : f_hdr f = true -> f_tail f = [] -> rc_clean f = f.
Proof. destruct f as [i q h rs tl mt]. cbn [f_hdr f_tail]. intros -> ->. reflexivity. Qed.

Lemma rc_flen_clean' f : flen (rc_clean f) = header_size + recs_len (f_recs f) + 0.
Proof. reflexivity. Qed.

Lemma rc_is_seg_unique (d : disk) id seq f x :
  NoDup (map f_id (d_segs d)) -> find_dseg id d = Some f -> In x (d_segs d) -> is_seg id seq x = true -> x = f.
Proof.
  intros Hnd Hf Hx Hs. apply find_dseg_In in Hf. destruct Hf as [Hf Eid].
  unfold is_seg in Hs. apply andb_true_iff in Hs. destruct Hs as [Hs _]. apply N.eqb_eq in Hs.
  apply (NoDup_map_inj f_id (d_segs d)); try assumption. congruence.
Qed.

Lemma rc_magree_cstep (l l' : list mseg) (d d1 : disk) id seq f :
  rc_magree l d -> NoDup (map f_id (d_segs d)) -> find_dseg id d = Some f -> f_seq f = seq ->
  d_segs d1 = map (rc_cstep id seq) (d_segs d) ->
  (forall g', In g' l' -> exists g, In g l /\ g_id g' = g_id g /\ g_seq g' = g_seq g /\
                           g_size g' = if g_id g =? id then flen (rc_clean f) else g_size g) ->
  (forall g, In g l -> exists g', In g' l' /\ g_id g' = g_id g /\ g_seq g' = g_seq g) ->
  rc_magree l' d1.
Proof.
  intros [M1 M2] Hnd Hf Hseq Ed H1 H2. pose proof (find_dseg_In _ _ _ Hf) as [HfIn Eid]. split.
  - intros g' Hg'. destruct (H1 g' Hg') as (g & Hg & A1 & A2 & A3).
    destruct (M1 g Hg) as (x & Hx & B1 & B2 & B3).
    exists (rc_cstep id seq x). split; [rewrite Ed; apply in_map; exact Hx|].
    destruct (N.eqb_spec (g_id g) id) as [E|Hne].
    + assert (x = f) by (apply (NoDup_map_inj f_id (d_segs d)); try assumption; congruence). subst x.
      unfold rc_cstep, is_seg. rewrite Eid, Hseq, !N.eqb_refl. cbn [andb rc_clean f_id f_seq].
      repeat split; congruence.
    + unfold rc_cstep, is_seg. destruct (N.eqb_spec (f_id x) id) as [E|_]; [congruence|]. cbn [andb].
      repeat split; congruence.
  - intros f1 Hf1. rewrite Ed in Hf1. apply in_map_iff in Hf1. destruct Hf1 as (x & <- & Hx).
    destruct (M2 x Hx) as (g & Hg & B1 & B2). destruct (H2 g Hg) as (g' & Hg' & C1 & C2).
    exists g'. split; [exact Hg'|]. unfold rc_cstep. destruct (is_seg id seq x); cbn [rc_clean f_id f_seq]; split; congruence.
Qed.

Definition rc_msig0 (g : mseg) : N * N * bool := (g_id g, g_seq g, sm_full (g_meta g)).

Lemma rc_msig_msig0 l l' : map rc_msig l = map rc_msig l' -> map rc_msig0 l = map rc_msig0 l'.
Proof.
  intros H. transitivity (map (fun t : N * N * N * bool => let '(i, q, _, b) := t in (i, q, b)) (map rc_msig l)).
  - rewrite map_map. apply map_ext. intros g. reflexivity.
  - rewrite H, map_map. apply map_ext. intros g. reflexivity.
Qed.

(* the DeleteRecords counter (MetaOK) *)
Definition rc_dsig (g : mseg) : N * N := (g_id g, sm_delrec (g_meta g)).
Definition rc_dstep (b : bool) (c : N) : N := if b then u32 (c + 1) else c.
Definition rc_csum (c : N) (es : list (N * rec)) : N := fold_left (fun c e => rc_dstep (rdel (snd e)) c) es c.
Definition rc_hdel (id : N) (es : list (N * rec)) (t : N * N) : N * N :=
  if fst t =? id then (fst t, rc_csum (snd t) es) else t.

Lemma rc_dsig_upd_mseg id F (c' : N -> N) l :
  (forall g, rc_dsig (F g) = (g_id g, c' (sm_delrec (g_meta g)))) ->
  map rc_dsig (upd_mseg id F l) = map (fun t => if fst t =? id then (fst t, c' (snd t)) else t) (map rc_dsig l).
Proof.
  intros HF. unfold upd_mseg. rewrite !map_map. apply map_ext. intros g. cbn [rc_dsig fst snd].
  destruct (g_id g =? id); [apply HF|reflexivity].
Qed.

Lemma rc_dsig_upd_mseg_same id F l : (forall g, rc_dsig (F g) = rc_dsig g) -> map rc_dsig (upd_mseg id F l) = map rc_dsig l.
Proof.
  intros HF. unfold upd_mseg. rewrite map_map. apply map_ext. intros g. destruct (g_id g =? id); [apply HF|reflexivity].
Qed.

Lemma rc_dsig_track_del sl (m : mem) : map rc_dsig (m_segs (track_del sl m)) = map rc_dsig (m_segs m).
Proof. unfold track_del. cbn [set_msegs m_segs]. apply rc_dsig_upd_mseg_same. intros g. reflexivity. Qed.

Lemma rc_dsig_map_In (h : N * N -> N * N) l l' g' :
  map rc_dsig l' = map h (map rc_dsig l) -> In g' l' -> exists g, In g l /\ rc_dsig g' = h (rc_dsig g).
Proof.
  intros E Hg'. apply (in_map rc_dsig) in Hg'. rewrite E, map_map in Hg'. apply in_map_iff in Hg'.
  destruct Hg' as (g & Eg & Hg). exists g. split; [exact Hg|symmetry; exact Eg].
Qed.

Lemma rc_csum_count es : forall c,
  c + nlen (filter (fun e : N * rec => rdel (snd e)) es) < 4294967296 ->
  rc_csum c es = c + nlen (filter (fun e : N * rec => rdel (snd e)) es).
Proof.
  induction es as [|e es IH]; intros c H.
  - cbn [rc_csum fold_left filter nlen]. lia.
  - unfold rc_csum. cbn [fold_left filter] in *. fold (rc_csum (rc_dstep (rdel (snd e)) c) es).
    unfold rc_dstep. destruct (rdel (snd e)).
    + rewrite nlen_cons in *. rewrite u32_small by lia. rewrite IH by lia. lia.
    + apply IH. exact H.
Qed.

Lemma rc_ndel_entries f :
  nlen (filter (fun e : N * rec => rdel (snd e)) (seg_entries f)) = nlen (filter rdel (f_recs f)).
Proof.
  unfold seg_entries. generalize header_size as o. induction (f_recs f) as [|r rs IH]; intros o; [reflexivity|].
  rewrite with_offsets_cons. cbn [filter snd]. destruct (rdel r); [rewrite !nlen_cons, IH; reflexivity|apply IH].
Qed.

Lemma rc_ndel_bound rs : 10 * nlen (filter rdel rs) <= recs_len rs.
Proof.
  induction rs as [|r rs IH]; [cbn [filter nlen]; rewrite recs_len_nil; lia|].
  rewrite recs_len_cons. cbn [filter]. pose proof (rsize_ge r). destruct (rdel r); [rewrite nlen_cons|]; lia.
Qed.

Section RecSeg.
Variable P : params.

Lemma rc_recover_segment_spec id seq (s : st) (m : mem) f :
  NoDup (map f_id (d_segs (s_disk s))) -> find_dseg id (s_disk s) = Some f -> f_seq f = seq ->
  f_hdr f = true -> tail_stuck (f_tail f) -> rc_magree (m_segs m) (s_disk s) ->
  exists s1 m1,
    recover_segment flat_ops P id seq s m =
      (s1, fold_left (fun m e => replay_rec flat_ops P (s_disk s1) id (fst e) (snd e) m) (seg_entries f) m1) /\
    d_segs (s_disk s1) = map (rc_cstep id seq) (d_segs (s_disk s)) /\ same_rest (s_disk s) (s_disk s1) /\
    s_mem s1 = s_mem s /\
    m_idx m1 = m_idx m /\ m_seed m1 = m_seed m /\ m_cur m1 = m_cur m /\ m_cur_removed m1 = m_cur_removed m /\
    m_maxseq m1 = m_maxseq m /\ map rc_msig0 (m_segs m1) = map rc_msig0 (m_segs m) /\
    rc_magree (m_segs m1) (s_disk s1) /\ map rc_dsig (m_segs m1) = map rc_dsig (m_segs m).
Proof.
  intros Hnd Hf Hseq Hh Hst Hag.
  destruct (rc_tail_stuck_parse _ Hst) as (why & Ep & Hend).
  unfold recover_segment. rewrite Hf, Ep. cbv beta iota zeta. rewrite rc_reframe_nil, app_nil_r.
  fold (seg_entries f).
  assert (Hsend : why = SEnd -> d_segs (s_disk s) = map (rc_cstep id seq) (d_segs (s_disk s))).
  { intros Hw. rewrite <- (map_id (d_segs (s_disk s))) at 1. apply map_ext_in. intros x Hx.
    unfold rc_cstep. destruct (is_seg id seq x) eqn:Ex; [|reflexivity].
    rewrite (rc_is_seg_unique _ _ _ _ _ Hnd Hf Hx Ex). symmetry. apply rc_clean_id; [exact Hh|apply Hend; exact Hw]. }
  assert (Htr : d_segs (s_disk (emit flat_ops (ETrunc (FSeg id seq) (header_size + recs_len (f_recs f) + 0)) s)) =
                map (rc_cstep id seq) (d_segs (s_disk s))).
  { change (s_disk (emit flat_ops (ETrunc (FSeg id seq) (header_size + recs_len (f_recs f) + 0)) s))
      with (upd_seg id seq (trunc_seg (header_size + recs_len (f_recs f) + 0)) (s_disk s)).
    rewrite d_segs_upd_seg. apply map_ext_in. intros x Hx. unfold rc_cstep.
    destruct (is_seg id seq x) eqn:Ex; [|reflexivity].
    rewrite (rc_is_seg_unique _ _ _ _ _ Hnd Hf Hx Ex). apply rc_trunc_seg_all. exact Hh. }
  assert (Hag_end : why = SEnd -> forall d1 : disk, d_segs d1 = map (rc_cstep id seq) (d_segs (s_disk s)) ->
                    rc_magree (m_segs m) d1).
  { intros Hw d1 Ed. apply (rc_magree_cstep (m_segs m) (m_segs m) (s_disk s) d1 id seq f Hag Hnd Hf Hseq Ed).
    - intros g Hg. exists g. split; [exact Hg|]. split; [reflexivity|]. split; [reflexivity|].
      destruct (N.eqb_spec (g_id g) id) as [E|_]; [|reflexivity].
      destruct (proj1 Hag g Hg) as (x & Hx & B1 & B2 & B3).
      pose proof (find_dseg_In _ _ _ Hf) as [HfIn Eid].
      assert (x = f) by (apply (NoDup_map_inj f_id (d_segs (s_disk s))); try assumption; congruence). subst x.
      rewrite <- B3. rewrite (rc_clean_id f Hh (Hend Hw)). reflexivity.
    - intros g Hg. exists g. auto. }
  assert (Hag_tr : forall d1 : disk, d_segs d1 = map (rc_cstep id seq) (d_segs (s_disk s)) ->
     rc_magree (upd_mseg id (fun g => set_gsize g (header_size + recs_len (f_recs f) + 0)) (m_segs m)) d1).
  { intros d1 Ed. apply (rc_magree_cstep (m_segs m) _ (s_disk s) d1 id seq f Hag Hnd Hf Hseq Ed).
    - intros g' Hg'. apply In_upd_mseg in Hg'. destruct Hg' as (g & Hg & ->). exists g. split; [exact Hg|].
      destruct (g_id g =? id); cbn [set_gsize g_id g_seq g_size]; auto.
    - intros g Hg. exists (if g_id g =? id then set_gsize g (header_size + recs_len (f_recs f) + 0) else g).
      split; [apply In_upd_mseg; exists g; auto|]. destruct (g_id g =? id); auto. }
  assert (Hsig : map rc_msig0 (upd_mseg id (fun g => set_gsize g (header_size + recs_len (f_recs f) + 0)) (m_segs m)) =
                 map rc_msig0 (m_segs m)).
  { unfold upd_mseg. rewrite map_map. apply map_ext. intros g. destruct (g_id g =? id); reflexivity. }
  assert (Hdsig : map rc_dsig (upd_mseg id (fun g => set_gsize g (header_size + recs_len (f_recs f) + 0)) (m_segs m)) =
                  map rc_dsig (m_segs m)).
  { apply rc_dsig_upd_mseg_same. intros g. reflexivity. }
  destruct why.
  (* every reason to stop but the end of the file: the file is truncated to its complete records *)
  2-4: eexists; eexists; split; [reflexivity|]; split; [exact Htr|]; split; [repeat split|].
  2-4: repeat (split; [reflexivity|]); split; [exact Hsig|]; split; [apply Hag_tr; exact Htr|exact Hdsig].
  exists s, m. split; [reflexivity|]. split; [apply Hsend; reflexivity|]. split; [apply same_rest_refl|].
  repeat (split; [reflexivity|]). split; [|reflexivity]. apply Hag_end; [reflexivity|]. apply Hsend. reflexivity.
Qed.

End RecSeg.

Lemma rc_rsim_find (d d' : disk) id f : rc_rsim d d' -> find_dseg id d = Some f ->
  exists f', find_dseg id d' = Some f' /\ rc_rcore f' = rc_rcore f.
Proof.
  unfold rc_rsim, find_dseg. generalize (d_segs d') as l'. generalize (d_segs d) as l.
  induction l as [|x l IH]; intros l' H Hf; [discriminate|].
  destruct l' as [|y l']; [discriminate|]. cbn [map] in H.
  pose proof (f_equal (@hd _ (rc_rcore x)) H) as Exy. pose proof (f_equal (@tl _) H) as Ht. cbn [hd tl] in Exy, Ht.
  cbn [find] in *.
  assert (Eid : f_id y = f_id x) by (unfold rc_rcore in Exy; congruence). rewrite Eid.
  destruct (f_id x =? id).
  - inversion Hf; subst. exists y. split; [reflexivity|symmetry; exact Exy].
  - apply IH; assumption.
Qed.

Lemma rc_rsim_ids (d d' : disk) : rc_rsim d d' -> map f_id (d_segs d') = map f_id (d_segs d).
Proof. exact (map_factor rc_rcore (fun t => fst (fst t)) _ _). Qed.
Lemma rc_rsim_seqs (d d' : disk) : rc_rsim d d' -> map f_seq (d_segs d') = map f_seq (d_segs d).
Proof. exact (map_factor rc_rcore (fun t => snd (fst t)) _ _). Qed.

Lemma rc_magree_msig l l' (d : disk) : map rc_msig l = map rc_msig l' -> rc_magree l d -> rc_magree l' d.
Proof.
  intros E [M1 M2]. split.
  - intros g' Hg'. apply (in_map rc_msig) in Hg'. rewrite <- E in Hg'. apply in_map_iff in Hg'.
    destruct Hg' as (g & Eg & Hg). destruct (M1 g Hg) as (f & Hf & A1 & A2 & A3).
    unfold rc_msig in Eg. exists f. repeat split; congruence.
  - intros f Hf. destruct (M2 f Hf) as (g & Hg & A1 & A2).
    apply (in_map rc_msig) in Hg. rewrite E in Hg. apply in_map_iff in Hg.
    destruct Hg as (g' & Eg & Hg'). unfold rc_msig in Eg. exists g'. repeat split; congruence.
Qed.

Lemma rc_fold_left_map {A B C} (h : A -> B) (step : C -> B -> C) (l : list A) : forall c,
  fold_left step (map h l) c = fold_left (fun c a => step c (h a)) l c.
Proof. induction l as [|a l IH]; intros c; [reflexivity|]. cbn [map fold_left]. apply IH. Qed.

Definition rc_cleans (Lp : list (N * N)) (f : dseg) : dseg := fold_left (fun f p => rc_cstep (fst p) (snd p) f) Lp f.

Lemma rc_cstep_fields id seq f :
  f_id (rc_cstep id seq f) = f_id f /\ f_seq (rc_cstep id seq f) = f_seq f /\ f_recs (rc_cstep id seq f) = f_recs f /\
  f_meta (rc_cstep id seq f) = f_meta f /\ (f_hdr f = true -> f_hdr (rc_cstep id seq f) = true) /\
  (f_tail (rc_cstep id seq f) = [] \/ f_tail (rc_cstep id seq f) = f_tail f) /\
  (f_tail f = [] -> f_tail (rc_cstep id seq f) = []).
Proof. unfold rc_cstep. destruct (is_seg id seq f); cbn [rc_clean f_id f_seq f_recs f_meta f_hdr f_tail]; repeat split; auto. Qed.

Lemma rc_cleans_eq Lp f :
  rc_cleans Lp f = if existsb (fun p => is_seg (fst p) (snd p) f) Lp then rc_clean f else f.
Proof. exact (fold_cond_idem (fun p f => is_seg (fst p) (snd p) f) rc_clean Lp f (fun _ => eq_refl)). Qed.

Lemma rc_cleans_all Lp l : (forall x, In x l -> In (f_id x, f_seq x) Lp) -> map (rc_cleans Lp) l = map rc_clean l.
Proof.
  intros H. apply map_ext_in. intros x Hx.
  rewrite rc_cleans_eq, (existsb_In _ Lp _ (H x Hx)); [reflexivity|]. unfold is_seg. cbn [fst snd]. rewrite !N.eqb_refl. reflexivity.
Qed.

Lemma rc_clean_DiskOK (d d' : disk) : d_segs d' = map rc_clean (d_segs d) -> DiskOK d -> DiskOK d'.
Proof.
  intros E (Hok & Hnd & Hnq). unfold DiskOK. rewrite E, !map_map. split; [|split; assumption].
  apply Forall_map. revert Hok. apply Forall_impl. intros f (D1 & _ & _ & _ & D5).
  split; [exact D1|]. split; [apply tail_stuck_nil|]. split; [constructor|]. split; [discriminate|exact D5].
Qed.

(* rc_magree is mem_disk_agree up to "every file has its header and no incomplete tail" *)
Lemma rc_magree_mda (m : mem) (d : disk) :
  rc_magree (m_segs m) d -> (forall f, In f (d_segs d) -> f_hdr f = true /\ f_tail f = []) -> mem_disk_agree m d.
Proof.
  intros [M1 M2] Hc. split; [|exact M2]. intros g Hg. destruct (M1 g Hg) as (f & Hf & A1 & A2 & A3).
  exists f. destruct (Hc f Hf). auto 6.
Qed.

Lemma rc_magree_map (F : mseg -> mseg) l (d : disk) :
  (forall g, mseg_sim g (F g)) -> rc_magree l d -> rc_magree (map F l) d.
Proof.
  intros HF [M1 M2]. split.
  - intros g' Hg'. apply in_map_iff in Hg'. destruct Hg' as (g & <- & Hg). destruct (HF g) as (F1 & F2 & F3 & _).
    rewrite F1, F2, F3. apply M1. exact Hg.
  - intros f Hf. destruct (M2 f Hf) as (g & Hg & A1 & A2). destruct (HF g) as (F1 & F2 & _).
    exists (F g). split; [apply in_map; exact Hg|]. split; congruence.
Qed.

Section Loop.
Variable P : params.

Lemma rc_replay_seg_fold (d4 d1 : disk) seed id (es : list (N * rec)) : forall l (m : mem),
  rc_IdxInv P d4 seed l (m_idx m) -> m_seed m = seed -> rc_rsim d4 d1 ->
  (forall e, In e es -> rc_entry_ok d4 (id, fst e, snd e)) ->
  let m' := fold_left (fun m e => replay_rec flat_ops P d1 id (fst e) (snd e) m) es m in
  rc_IdxInv P d4 seed (l ++ map (fun p => (id, fst p, snd p)) es) (m_idx m') /\
  map rc_msig (m_segs m') = map rc_msig (m_segs m) /\ m_cur m' = m_cur m /\ m_cur_removed m' = m_cur_removed m /\
  m_maxseq m' = m_maxseq m /\ m_seed m' = seed /\
  m_idx m' = rc_ridx P d4 seed (map (fun p => (id, fst p, snd p)) es) (m_idx m).
Proof.
  induction es as [|e es IH]; intros l m HI Hseed Hsim Hok.
  - cbn [fold_left map]. rewrite app_nil_r. split; [exact HI|]. repeat split; auto.
  - cbn [fold_left map].
    destruct (rc_replay_rec_frame P d1 id (fst e) (snd e) m) as (A1 & A2 & A3 & A4 & A5 & A6). cbv zeta in *.
    set (m1 := replay_rec flat_ops P d1 id (fst e) (snd e) m) in *.
    assert (HI1 : rc_IdxInv P d4 seed (l ++ [(id, fst e, snd e)]) (m_idx m1)).
    { rewrite A1, Hseed. apply rc_IdxInv_step; [exact HI|exact Hsim|]. apply Hok. left. reflexivity. }
    destruct (IH (l ++ [(id, fst e, snd e)]) m1 HI1 (eq_trans A6 Hseed) Hsim
                 (fun x Hx => Hok x (or_intror Hx))) as (B1 & B2 & B3 & B4 & B5 & B6 & B7).
    cbv zeta in *. rewrite <- app_assoc in B1. cbn [app] in B1.
    split; [exact B1|]. repeat split; try congruence.
    rewrite B7. unfold rc_ridx. cbn [fold_left]. f_equal. rewrite A1, Hseed.
    apply rc_replay_idx_ext. intros i off. apply rc_rsim_rec_of. exact Hsim.
Qed.

Lemma rc_replay_rec_dsig (d : disk) id off r (m : mem) :
  map rc_dsig (m_segs (replay_rec flat_ops P d id off r m)) = map (rc_hdel id [(off, r)]) (map rc_dsig (m_segs m)).
Proof.
  unfold replay_rec. cbn [ix_del ix_put flat_ops]. destruct (rdel r) eqn:Hdel.
  - destruct (fl_del (m_idx m) (p_hash P (m_seed m) (rk r)) (matchf d (rk r))) as [i1 old].
    assert (E : forall l, map rc_dsig (upd_mseg id
        (fun g => set_gmeta g
          {| sm_full := sm_full (g_meta g); sm_put := sm_put (g_meta g);
             sm_delrec := u32 (sm_delrec (g_meta g) + 1); sm_delkeys := sm_delkeys (g_meta g);
             sm_delbytes := u32 (sm_delbytes (g_meta g) + u32 (rsize r)) |}) l) =
        map (rc_hdel id [(off, r)]) (map rc_dsig l)).
    { intros l. rewrite (rc_dsig_upd_mseg id _ (fun c => u32 (c + 1))) by (intros g; reflexivity).
      apply map_ext. intros t. unfold rc_hdel, rc_csum, rc_dstep. cbn [fold_left snd]. rewrite Hdel. reflexivity. }
    destruct old as [o|]; cbn [set_msegs set_idx m_segs]; rewrite E; [rewrite rc_dsig_track_del|]; reflexivity.
  - match goal with |- context [fl_put ?a ?b ?c ?e] => destruct (fl_put a b c e) as [i1 old] end.
    assert (E : forall l, map rc_dsig (upd_mseg id
        (fun g => set_gmeta g
          {| sm_full := sm_full (g_meta g); sm_put := u32 (sm_put (g_meta g) + 1);
             sm_delrec := sm_delrec (g_meta g); sm_delkeys := sm_delkeys (g_meta g);
             sm_delbytes := sm_delbytes (g_meta g) |}) l) =
        map (rc_hdel id [(off, r)]) (map rc_dsig l)).
    { intros l. rewrite (rc_dsig_upd_mseg id _ (fun c => c)) by (intros g; reflexivity).
      apply map_ext. intros t. unfold rc_hdel, rc_csum, rc_dstep. cbn [fold_left snd]. rewrite Hdel. reflexivity. }
    destruct old as [o|]; cbn [set_msegs set_idx m_segs]; rewrite E; [rewrite rc_dsig_track_del|]; reflexivity.
Qed.

Lemma rc_replay_seg_dsig (d1 : disk) id (es : list (N * rec)) : forall m : mem,
  map rc_dsig (m_segs (fold_left (fun m e => replay_rec flat_ops P d1 id (fst e) (snd e) m) es m)) =
  map (rc_hdel id es) (map rc_dsig (m_segs m)).
Proof.
  induction es as [|e es IH]; intros m.
  - cbn [fold_left]. rewrite <- (map_id (map rc_dsig (m_segs m))) at 1. apply map_ext. intros t.
    unfold rc_hdel, rc_csum. cbn [fold_left]. destruct (fst t =? id); [destruct t|]; reflexivity.
  - cbn [fold_left]. rewrite IH, rc_replay_rec_dsig, map_map. apply map_ext. intros t.
    unfold rc_hdel. destruct (fst t =? id) eqn:E; cbn [fst snd]; rewrite E; [|reflexivity].
    destruct e as [off r]. reflexivity.
Qed.

Definition rc_rstep (sm : st * mem) (p : N * N) : st * mem :=
  recover_segment flat_ops P (fst p) (snd p) (fst sm) (snd sm).

Definition rc_seg_pre (f : dseg) : Prop := f_hdr f = true /\ tail_stuck (f_tail f).

Lemma rc_entries_ok (d4 : disk) f0 : DiskOK d4 -> In f0 (d_segs d4) ->
  forall e, In e (seg_entries f0) -> rc_entry_ok d4 (f_id f0, fst e, snd e).
Proof.
  intros (Hok & Hnd & _) Hf0 [off r] He. cbn [fst snd]. unfold rc_entry_ok. cbn [fst snd].
  pose proof (proj1 (Forall_forall _ _) Hok f0 Hf0) as (Hfit & _ & _ & _ & Hlen).
  split; [|split].
  - unfold rec_of. rewrite (find_dseg_unique d4 f0 Hnd Hf0). apply rec_at_with_offsets. exact He.
  - apply seg_entries_In_rec in He. exact (proj1 (Forall_forall _ _) Hfit r He).
  - apply seg_entries_range in He. pose proof (rsize_pos r). lia.
Qed.

Lemma rc_recover_loop (d4 : disk) seed (D : list dseg) : DiskOK d4 -> (forall f0, In f0 D -> In f0 (d_segs d4)) ->
  forall (s : st) (m : mem) lpre,
  rc_rsim d4 (s_disk s) -> Forall rc_seg_pre (d_segs (s_disk s)) -> rc_magree (m_segs m) (s_disk s) ->
  rc_IdxInv P d4 seed lpre (m_idx m) -> m_seed m = seed ->
  exists s' m', fold_left rc_rstep (map (fun f => (f_id f, f_seq f)) D) (s, m) = (s', m') /\
    rc_rsim d4 (s_disk s') /\
    d_segs (s_disk s') = map (rc_cleans (map (fun f => (f_id f, f_seq f)) D)) (d_segs (s_disk s)) /\
    same_rest (s_disk s) (s_disk s') /\ s_mem s' = s_mem s /\ rc_magree (m_segs m') (s_disk s') /\
    rc_IdxInv P d4 seed (lpre ++ concat (map dseg_entries D)) (m_idx m') /\ m_seed m' = seed /\
    m_cur m' = m_cur m /\ m_cur_removed m' = m_cur_removed m /\ m_maxseq m' = m_maxseq m /\
    map rc_msig0 (m_segs m') = map rc_msig0 (m_segs m) /\
    m_idx m' = rc_ridx P d4 seed (concat (map dseg_entries D)) (m_idx m) /\
    (* the DeleteRecords counters: rebuilt for the segments replayed, untouched otherwise *)
    (NoDup (map f_id D) ->
     (forall g f0, In g (m_segs m) -> In f0 D -> g_id g = f_id f0 -> sm_delrec (g_meta g) = 0) ->
     forall g', In g' (m_segs m') ->
       (exists f0, In f0 D /\ g_id g' = f_id f0 /\ sm_delrec (g_meta g') = nlen (filter rdel (f_recs f0))) \/
       ((forall f0, In f0 D -> g_id g' <> f_id f0) /\
        exists g, In g (m_segs m) /\ g_id g = g_id g' /\ sm_delrec (g_meta g) = sm_delrec (g_meta g'))).
Proof.
  intros Hok. induction D as [|f0 D IH]; intros HD s m lpre Hsim Hpre Hag HI Hseed.
  - exists s, m. cbn [map fold_left concat]. rewrite app_nil_r.
    split; [reflexivity|]. split; [exact Hsim|]. split; [symmetry; apply map_id|].
    split; [apply same_rest_refl|]. split; [reflexivity|]. split; [exact Hag|]. split; [exact HI|].
    split; [exact Hseed|]. repeat (split; [reflexivity|]).
    intros _ _ g' Hg'. right. split; [intros f0 []|]. exists g'. auto.
  - cbn [map fold_left]. unfold rc_rstep at 2. cbn [fst snd].
    assert (Hf0 : In f0 (d_segs d4)) by (apply HD; left; reflexivity).
    destruct Hok as (Hdok & Hnd4 & Hnq4).
    assert (Hnd : NoDup (map f_id (d_segs (s_disk s)))) by (rewrite (rc_rsim_ids _ _ Hsim); exact Hnd4).
    destruct (rc_rsim_find d4 (s_disk s) (f_id f0) f0 Hsim (find_dseg_unique d4 f0 Hnd4 Hf0)) as (f & Hf & Ec).
    assert (Efs : f_seq f = f_seq f0) by (unfold rc_rcore in Ec; congruence).
    assert (Efr : f_recs f = f_recs f0) by (unfold rc_rcore in Ec; congruence).
    pose proof (find_dseg_In _ _ _ Hf) as [HfIn _].
    pose proof (proj1 (Forall_forall _ _) Hpre f HfIn) as [Hh Hst].
    destruct (rc_recover_segment_spec P (f_id f0) (f_seq f0) s m f Hnd Hf Efs Hh Hst Hag)
      as (s1 & m1 & Er & Ed & Erest & Emem & A1 & A2 & A3 & A4 & A5 & A6 & A7 & A8).
    rewrite Er.
    assert (Hsim1 : rc_rsim (s_disk s) (s_disk s1)).
    { unfold rc_rsim. rewrite Ed, map_map. apply map_ext. intros x.
      destruct (rc_cstep_fields (f_id f0) (f_seq f0) x) as (B1 & B2 & B3 & _). unfold rc_rcore. congruence. }
    assert (Hsim41 : rc_rsim d4 (s_disk s1)) by (eapply rc_rsim_trans; eassumption).
    assert (Ese : seg_entries f = seg_entries f0) by (unfold seg_entries; rewrite Efr; reflexivity).
    rewrite Ese.
    assert (HI1 : rc_IdxInv P d4 seed lpre (m_idx m1)) by (rewrite A1; exact HI).
    destruct (rc_replay_seg_fold d4 (s_disk s1) seed (f_id f0) (seg_entries f0) lpre m1 HI1 (eq_trans A2 Hseed)
                Hsim41 (rc_entries_ok d4 f0 (conj Hdok (conj Hnd4 Hnq4)) Hf0))
      as (C1 & C2 & C3 & C4 & C5 & C6 & C7). cbv zeta in *.
    set (m2 := fold_left (fun m e => replay_rec flat_ops P (s_disk s1) (f_id f0) (fst e) (snd e) m)
                         (seg_entries f0) m1) in *.
    assert (Hpre1 : Forall rc_seg_pre (d_segs (s_disk s1))).
    { rewrite Ed. apply Forall_forall. intros y Hy. apply in_map_iff in Hy. destruct Hy as (x & <- & Hx).
      pose proof (proj1 (Forall_forall _ _) Hpre x Hx) as [Hxh Hxt].
      destruct (rc_cstep_fields (f_id f0) (f_seq f0) x) as (_ & _ & _ & _ & B5 & B6 & _).
      split; [apply B5; exact Hxh|]. destruct B6 as [-> | ->]; [apply rc_tail_stuck_nil|exact Hxt]. }
    assert (Hag1 : rc_magree (m_segs m2) (s_disk s1)) by (apply (rc_magree_msig (m_segs m1)); [symmetry; exact C2|exact A7]).
    destruct (IH (fun x Hx => HD x (or_intror Hx)) s1 m2 (lpre ++ dseg_entries f0) Hsim41 Hpre1 Hag1 C1 C6)
      as (s' & m' & E' & R1 & R2 & R3 & R4 & R5 & R6 & R7 & R8 & R9 & R10 & R11 & R12 & R13).
    exists s', m'. split; [exact E'|]. split; [exact R1|]. split.
    { rewrite R2, Ed, map_map. apply map_ext. intros x. reflexivity. }
    split; [eapply same_rest_trans; eassumption|]. split; [congruence|]. split; [exact R5|]. split.
    { cbn [map concat]. rewrite app_assoc. exact R6. }
    split; [exact R7|]. split; [congruence|]. split; [congruence|]. split; [congruence|].
    split; [rewrite R11, (rc_msig_msig0 _ _ C2); exact A6|].
    split; [cbn [map concat]; rewrite rc_ridx_app, R12, C7, A1; reflexivity|].
    intros HndD Hzero g' Hg'. cbn [map] in HndD. inversion HndD as [|? ? Hf0D HndD']; subst.
    assert (Edsig : map rc_dsig (m_segs m2) = map (rc_hdel (f_id f0) (seg_entries f0)) (map rc_dsig (m_segs m))).
    { unfold m2. rewrite rc_replay_seg_dsig, A8. reflexivity. }
    assert (Hfrom : forall g2, In g2 (m_segs m2) -> exists g, In g (m_segs m) /\ g_id g2 = g_id g /\
              sm_delrec (g_meta g2) = if g_id g =? f_id f0 then rc_csum (sm_delrec (g_meta g)) (seg_entries f0)
                                       else sm_delrec (g_meta g)).
    { intros g2 Hg2. destruct (rc_dsig_map_In _ _ _ g2 Edsig Hg2) as (g & Hg & Eg). exists g. split; [exact Hg|].
      unfold rc_hdel, rc_dsig in Eg. cbn [fst snd] in Eg. destruct (g_id g =? f_id f0); inversion Eg; auto. }
    assert (Hcnt : rc_csum 0 (seg_entries f0) = nlen (filter rdel (f_recs f0))).
    { pose proof (proj1 (Forall_forall _ _) Hdok f0 Hf0) as (_ & _ & _ & _ & Hlen).
      pose proof (rc_ndel_bound (f_recs f0)) as Hb. rewrite <- (rc_ndel_entries f0) in *.
      rewrite rc_csum_count; lia. }
    assert (Hzero2 : forall g2 f, In g2 (m_segs m2) -> In f D -> g_id g2 = f_id f -> sm_delrec (g_meta g2) = 0).
    { intros g2 fx Hg2 Hfx Eid. destruct (Hfrom g2 Hg2) as (g & Hg & E1 & E2).
      destruct (N.eqb_spec (g_id g) (f_id f0)) as [E|Hne].
      - exfalso. apply Hf0D. rewrite <- E, <- E1, Eid. apply in_map. exact Hfx.
      - rewrite E2. apply (Hzero g fx Hg (or_intror Hfx)). congruence. }
    destruct (R13 HndD' Hzero2 g' Hg') as [(fx & Hfx & B1 & B2)|(Hno & g2 & Hg2 & B1 & B2)].
    + left. exists fx. split; [right; exact Hfx|auto].
    + destruct (Hfrom g2 Hg2) as (g & Hg & E1 & E2).
      destruct (N.eqb_spec (g_id g) (f_id f0)) as [E|Hne].
      * left. exists f0. split; [left; reflexivity|]. split; [congruence|].
        rewrite <- B2, E2, (Hzero g f0 Hg (or_introl eq_refl) E). exact Hcnt.
      * right. split.
        -- intros fx [<-|Hfx]; [congruence|apply Hno; exact Hfx].
        -- exists g. split; [exact Hg|]. split; congruence.
Qed.

End Loop.

Definition rc_gpair (g : mseg) : N * N := (g_id g, g_seq g).
Definition rc_fpair (f : dseg) : N * N := (f_id f, f_seq f).

Lemma rc_magree_seq_inj (l : list mseg) (d : disk) a b :
  ids_increasing l -> rc_magree l d -> NoDup (map f_seq (d_segs d)) ->
  In a l -> In b l -> g_seq a = g_seq b -> a = b.
Proof.
  intros Hinc [M1 _] Hnq Ha Hb E.
  destruct (M1 a Ha) as (fa & Hfa & A1 & A2 & _). destruct (M1 b Hb) as (fb & Hfb & B1 & B2 & _).
  assert (fa = fb) by (apply (NoDup_map_inj f_seq (d_segs d)); try assumption; congruence). subst fb.
  apply (ids_increasing_unique l); try assumption. congruence.
Qed.

(* both sides are the list of (id, sequence id) pairs sorted by sequence id *)
Lemma rc_order_pairs (l : list mseg) (d : disk) :
  ids_increasing l -> rc_magree l d -> NoDup (map f_seq (d_segs d)) ->
  map rc_gpair (by_seq l) = map rc_fpair (dby_seq (d_segs d)).
Proof.
  intros Hinc Hag Hnq.
  transitivity (isort (fun a b : N * N => snd a <? snd b) (map rc_gpair l));
    [symmetry; apply (isort_map gseq_lt); reflexivity|].
  transitivity (isort (fun a b : N * N => snd a <? snd b) (map rc_fpair (d_segs d)));
    [|apply (isort_map (fun a b => f_seq a <? f_seq b)); reflexivity].
  apply (isort_ext snd).
  - rewrite map_map. apply rc_NoDup_map_inj_on.
    + apply (NoDup_map_inv g_id). apply ids_increasing_NoDup. exact Hinc.
    + intros a b Ha Hb E. eapply rc_magree_seq_inj; eassumption.
  - rewrite map_map. exact Hnq.
  - intros p. rewrite !in_map_iff. split.
    + intros (g & <- & Hg). destruct (proj1 Hag g Hg) as (f & Hf & A1 & A2 & _).
      exists f. split; [unfold rc_fpair, rc_gpair; congruence|exact Hf].
    + intros (f & <- & Hf). destruct (proj2 Hag f Hf) as (g & Hg & A1 & A2).
      exists g. split; [unfold rc_fpair, rc_gpair; congruence|exact Hg].
Qed.

Definition rc_fullg (g : mseg) : mseg := set_gmeta g (set_full (g_meta g)).
Definition rc_sealstep (g0 g : mseg) : mseg := if g_id g =? g_id g0 then rc_fullg g else g.
Definition rc_sealf (R : list mseg) (g : mseg) : mseg := fold_left (fun g g0 => rc_sealstep g0 g) R g.

Lemma rc_seal_fold_spec R : forall m : mem,
  let m' := fold_left (fun (m : mem) g => set_msegs m (upd_mseg (g_id g) rc_fullg (m_segs m))) R m in
  m_segs m' = map (rc_sealf R) (m_segs m) /\ m_cur m' = m_cur m /\ m_cur_removed m' = m_cur_removed m /\
  m_maxseq m' = m_maxseq m /\ m_idx m' = m_idx m /\ m_seed m' = m_seed m.
Proof.
  induction R as [|g0 R IH]; intros m.
  - cbn [fold_left]. split; [symmetry; apply map_id|repeat split].
  - cbn [fold_left]. destruct (IH (set_msegs m (upd_mseg (g_id g0) rc_fullg (m_segs m)))) as (A1 & A2 & A3 & A4 & A5 & A6).
    cbv zeta in *. rewrite A1, A2, A3, A4, A5, A6. cbn [set_msegs m_segs m_cur m_cur_removed m_maxseq m_idx m_seed].
    split; [|repeat split]. unfold upd_mseg. rewrite map_map. apply map_ext. intros g. reflexivity.
Qed.

Lemma rc_seal_all_spec order (m : mem) :
  let m' := seal_all_but_last order m in
  m_segs m' = map (rc_sealf (removelast order)) (m_segs m) /\ m_cur m' = m_cur m /\
  m_cur_removed m' = m_cur_removed m /\ m_maxseq m' = m_maxseq m /\ m_idx m' = m_idx m /\ m_seed m' = m_seed m.
Proof. apply (rc_seal_fold_spec (removelast order) m). Qed.

Lemma rc_sealf_eq R g : rc_sealf R g = if existsb (fun g0 => g_id g =? g_id g0) R then rc_fullg g else g.
Proof. exact (fold_cond_idem (fun g0 g => g_id g =? g_id g0) rc_fullg R g (fun _ => eq_refl)). Qed.

Lemma rc_sealf_fields R g :
  g_id (rc_sealf R g) = g_id g /\ g_seq (rc_sealf R g) = g_seq g /\ g_size (rc_sealf R g) = g_size g /\
  sm_full (g_meta (rc_sealf R g)) = sm_full (g_meta g) || existsb (fun g0 => g_id g =? g_id g0) R.
Proof.
  rewrite rc_sealf_eq. destruct (existsb _ R); repeat split; symmetry; [apply orb_true_r|apply orb_false_r].
Qed.

Lemma rc_ids_increasing_ids (l l' : list mseg) : map g_id l = map g_id l' -> ids_increasing l -> ids_increasing l'.
Proof.
  revert l'. induction l as [|g l IH]; intros l' E H; destruct l' as [|g' l']; try discriminate; [exact Logic.I|].
  cbn [map] in E. injection E as E1 E2. destruct H as [H1 H2]. split; [|apply IH; assumption].
  intros x Hx. apply (in_map g_id) in Hx. rewrite <- E2 in Hx. apply in_map_iff in Hx.
  destruct Hx as (y & Ey & Hy). specialize (H1 y Hy). lia.
Qed.

Lemma rc_msig0_ids l l' : map rc_msig0 l = map rc_msig0 l' -> map g_id l = map g_id l'.
Proof.
  intros H. transitivity (map (fun t : N * N * bool => fst (fst t)) (map rc_msig0 l)).
  - rewrite map_map. reflexivity.
  - rewrite H, map_map. reflexivity.
Qed.

Lemma rc_msig0_In l l' g : map rc_msig0 l = map rc_msig0 l' -> In g l ->
  exists g', In g' l' /\ g_id g' = g_id g /\ g_seq g' = g_seq g /\ sm_full (g_meta g') = sm_full (g_meta g).
Proof.
  intros E Hg. apply (in_map rc_msig0) in Hg. rewrite E in Hg. apply in_map_iff in Hg.
  destruct Hg as (g' & Eg & Hg'). unfold rc_msig0 in Eg. exists g'. repeat split; congruence.
Qed.

Lemma rc_sealf_delrec R g : sm_delrec (g_meta (rc_sealf R g)) = sm_delrec (g_meta g).
Proof. rewrite rc_sealf_eq. destruct (existsb _ R); reflexivity. Qed.

Lemma rc_by_seq_ids_NoDup (l : list mseg) : ids_increasing l -> NoDup (map g_id (by_seq l)).
Proof.
  intros Hinc. apply (Permutation_NoDup (l := map g_id l)); [apply Permutation_map; symmetry; apply rc_by_seq_perm|].
  apply ids_increasing_NoDup. exact Hinc.
Qed.

(* D13: when no segment was full before, sealing all but the newest leaves the newest writable: swapSegment
   picks a segment and emits nothing *)
Lemma rc_swap_after_seal (s1 : st) (m m1 : mem) :
  ids_increasing (m_segs m) -> (forall g, In g (m_segs m) -> sm_full (g_meta g) = false) -> m_segs m <> [] ->
  map rc_msig0 (m_segs m1) = map rc_msig0 (m_segs m) ->
  let m2 := seal_all_but_last (by_seq (m_segs m)) m1 in
  exists gc, In gc (m_segs m2) /\ sm_full (g_meta gc) = false /\
    swap_segment flat_ops s1 m2 = (s1, set_cur m2 (g_id gc, g_seq gc) false).
Proof.
  intros Hinc Hnf Hne0 R11. set (order := by_seq (m_segs m)).
  destruct (rc_seal_all_spec order m1) as (S1 & _). cbv zeta in *.
  set (m2 := seal_all_but_last order m1) in *.
  assert (Hex : exists gl, In gl (m_segs m2) /\ sm_full (g_meta gl) = false).
  { assert (Hneo : order <> []).
    { intros E. apply Hne0. apply Permutation_nil. rewrite <- E. apply rc_by_seq_perm. }
    destruct (exists_last Hneo) as (R' & g0 & Eo).
    assert (Hg0o : In g0 order) by (rewrite Eo; apply in_or_app; right; left; reflexivity).
    pose proof (proj1 (rc_by_seq_In _ _) Hg0o) as Hg0.
    destruct (rc_msig0_In _ _ g0 (eq_sym R11) Hg0) as (g1 & Hg1 & C1 & C2 & C3).
    exists (rc_sealf (removelast order) g1). split; [rewrite S1; apply in_map; exact Hg1|].
    destruct (rc_sealf_fields (removelast order) g1) as (_ & _ & _ & F4). rewrite F4, C3, (Hnf g0 Hg0), C1. cbn [orb].
    apply (removelast_existsb_key g_id order g0 (rc_by_seq_ids_NoDup _ Hinc) Hg0o). rewrite Eo. symmetry. apply last_last. }
  destruct Hex as (gl & Hgl & Hglf). unfold swap_segment.
  destruct (find (fun g => negb (sm_full (g_meta g))) (m_segs m2)) as [gc|] eqn:Ef.
  - apply find_some in Ef. destruct Ef as [Hgc Hn]. apply negb_true_iff in Hn. exists gc. auto.
  - exfalso. pose proof (find_none _ _ Ef gl Hgl) as Hn. cbn beta in Hn. rewrite Hglf in Hn. discriminate.
Qed.

Section Recover.
Variable P : params.

Lemma rc_recover_spec (s : st) (m : mem) :
  DiskOK (s_disk s) -> Forall rc_seg_pre (d_segs (s_disk s)) -> rc_magree (m_segs m) (s_disk s) ->
  ids_increasing (m_segs m) -> m_idx m = [] -> (forall g, In g (m_segs m) -> sm_full (g_meta g) = false) ->
  (forall g, In g (m_segs m) -> g_seq g <= m_maxseq m) ->
  bac_ok (s_disk s) -> d_lock (s_disk s) = true -> d_overflow (s_disk s) = true ->
  m_segs m <> [] -> (forall g, In g (m_segs m) -> sm_delrec (g_meta g) = 0) ->
  exists s' m', recover flat_ops P s m = (s', m') /\ Inv P (with_mem m' s') /\
    olog (s_disk s') = olog (s_disk s) /\ d_bac (s_disk s') = [] /\ m_seed m' = m_seed m /\
    s_mem s' = s_mem s /\
    (forall i off, rec_of (s_disk s') i off = rec_of (s_disk s) i off) /\
    m_idx m' = rc_ridx P (s_disk s') (m_seed m) (olog (s_disk s')) [] /\
    (* D13: the newest segment is the current one and accepts writes *)
    m_cur_removed m' = false /\
    (exists g, In g (m_segs m') /\ (g_id g, g_seq g) = m_cur m' /\ sm_full (g_meta g) = false /\
               forall g', In g' (m_segs m') -> g_seq g' <= g_seq g) /\
    MetaOK (with_mem m' s').
Proof.
  intros Hok Hpre Hag Hinc Hidx Hnf Hmax Hbac Hlock Hov Hne0 Hzero.
  set (d4 := s_disk s) in *. pose proof Hok as (Hdok & Hnd4 & Hnq4).
  unfold recover.
  set (order := by_seq (m_segs m)).
  assert (Efold : fold_left (fun sm g => recover_segment flat_ops P (g_id g) (g_seq g) (fst sm) (snd sm)) order (s, m) =
                  fold_left (rc_rstep P) (map rc_fpair (dby_seq (d_segs d4))) (s, m)).
  { rewrite <- (rc_order_pairs (m_segs m) d4 Hinc Hag Hnq4). fold order. rewrite rc_fold_left_map. reflexivity. }
  rewrite Efold.
  assert (HI0 : rc_IdxInv P d4 (m_seed m) [] (m_idx m)) by (rewrite Hidx; apply rc_IdxInv_nil).
  destruct (rc_recover_loop P d4 (m_seed m) (dby_seq (d_segs d4)) Hok (fun f Hf => proj1 (dby_seq_In _ _) Hf)
              s m [] (rc_rsim_refl d4) Hpre Hag HI0 eq_refl)
    as (s1 & m1 & E1 & R1 & R2 & R3 & R4 & R5 & R6 & R7 & R8 & R9 & R10 & R11 & R12 & R13).
  change (map (fun f => (f_id f, f_seq f)) (dby_seq (d_segs d4))) with (map rc_fpair (dby_seq (d_segs d4))) in *.
  rewrite E1. cbn [app] in R6. change (concat (map dseg_entries (dby_seq (d_segs d4)))) with (olog d4) in R6.
  destruct (rc_seal_all_spec order m1) as (S1 & S2 & S3 & S4 & S5 & S6). cbv zeta in *.
  set (m2 := seal_all_but_last order m1) in *.
  pose proof (rc_by_seq_ids_NoDup _ Hinc) as Hndo. fold order in Hndo.
  destruct (rc_swap_after_seal s1 m m1 Hinc Hnf Hne0 R11) as (gc & Hgc & Hgcf & Eswap). fold order m2 in Hgc, Eswap.
  rewrite Eswap.
  set (m3 := set_cur m2 (g_id gc, g_seq gc) false).
  set (s2 := emit flat_ops (EIndex (m_idx m2)) s1).
  destruct R3 as (Q1 & Q2 & Q3 & Q4 & Q5 & Q6 & Q7).
  assert (Hbac2 : bac_ok (s_disk s2)) by (unfold bac_ok; cbn [s2 emit s_disk apply_ev set_index d_bac]; rewrite Q7; exact Hbac).
  destruct (rc_remove_bac_spec s2 Hbac2) as (Ed3 & B6).
  set (s3 := remove_bac flat_ops s2) in *.
  exists s3, m3. split; [reflexivity|].
  assert (Esegs : d_segs (s_disk s3) = d_segs (s_disk s1)) by (rewrite Ed3; reflexivity).
  (* every segment file has been cleaned *)
  assert (Eclean : d_segs (s_disk s3) = map rc_clean (d_segs d4)).
  { rewrite Esegs, R2. apply rc_cleans_all. intros x Hx. apply (in_map rc_fpair), dby_seq_In, Hx. }
  assert (Hsim3 : rc_rsim d4 (s_disk s3)) by (unfold rc_rsim; rewrite Eclean, map_map; reflexivity).
  pose proof (rc_clean_DiskOK d4 (s_disk s3) Eclean Hok) as Hdok3.
  assert (Hseg2 : forall g, In g (m_segs m2) -> exists g1, In g1 (m_segs m1) /\ g = rc_sealf (removelast order) g1).
  { intros g Hg. rewrite S1 in Hg. apply in_map_iff in Hg. destruct Hg as (g1 & <- & Hg1). exists g1. auto. }
  assert (Hmda : mem_disk_agree m2 (s_disk s3)).
  { apply rc_magree_mda.
    - rewrite S1. apply rc_magree_map; [|unfold rc_magree; rewrite Esegs; exact R5].
      intros g. destruct (rc_sealf_fields (removelast order) g) as (F1 & F2 & F3 & F4).
      repeat split; try assumption. intros E. rewrite F4, E. reflexivity.
    - intros f Hf. rewrite Eclean in Hf. apply in_map_iff in Hf. destruct Hf as (x & <- & _). split; reflexivity. }
  assert (Hinc2 : ids_increasing (m_segs m2)).
  { rewrite S1. apply ids_increasing_map; [intros g; apply rc_sealf_fields|].
    apply (rc_ids_increasing_ids (m_segs m)); [symmetry; apply rc_msig0_ids; exact R11|exact Hinc]. }
  assert (Hseqo : seq_order m2).
  { split.
    - intros g Hg. destruct (Hseg2 g Hg) as (g1 & Hg1 & ->).
      destruct (rc_sealf_fields (removelast order) g1) as (_ & F2 & _).
      destruct (rc_msig0_In _ _ g1 R11 Hg1) as (g0 & Hg0 & _ & A2 & _). rewrite S4, R10, F2, <- A2. apply Hmax. exact Hg0.
    - intros g g' Hg Hg' Hfull. destruct (Hseg2 g Hg) as (g1 & Hg1 & ->). destruct (Hseg2 g' Hg') as (g1' & Hg1' & ->).
      destruct (rc_sealf_fields (removelast order) g1) as (F1 & F2 & _ & F4).
      destruct (rc_sealf_fields (removelast order) g1') as (_ & F2' & _).
      rewrite F4 in Hfull. apply orb_false_iff in Hfull. destruct Hfull as [_ Hnot].
      destruct (rc_msig0_In _ _ g1 R11 Hg1) as (g0 & Hg0 & A1 & A2 & _).
      destruct (rc_msig0_In _ _ g1' R11 Hg1') as (g0' & Hg0' & A1' & A2' & _).
      apply (proj2 (rc_by_seq_In _ _)) in Hg0. apply (proj2 (rc_by_seq_In _ _)) in Hg0'. fold order in Hg0, Hg0'.
      assert (Hlast : g0 = last order g0)
        by (apply (removelast_existsb_key g_id order g0 Hndo Hg0); rewrite A1; exact Hnot).
      rewrite F2, F2', <- A2, <- A2', Hlast.
      destruct (sorted_last_max _ order g0' g0 (rc_by_seq_sorted (m_segs m)) Hg0') as [<-|Hle]; [lia|exact Hle]. }
  assert (Hcur2 : cur_ok m3).
  { intros _. exists gc. split; [exact Hgc|]. split; reflexivity. }
  assert (Hia : index_agrees P m2 (s_disk s3)).
  { change (idxl_agrees P (m_seed m2) (m_idx m2) (s_disk s3) (olog (s_disk s3))). rewrite (rc_rsim_olog _ _ Hsim3).
    apply (idxl_agrees_reads P (m_seed m2) _ _ d4); [intros i off; apply rc_rsim_rec_of; exact Hsim3|left; reflexivity|].
    rewrite S5, S6, R7. exact R6. }
  split.
  { unfold Inv. cbn [with_mem s_mem s_disk].
    split; [exact Hdok3|]. split; [exact Hmda|]. split; [exact Hinc2|]. split; [exact Hseqo|].
    split; [exact Hcur2|]. split; [exact Hia|].
    rewrite Ed3. cbn [set_bac s2 emit s_disk apply_ev set_index d_lock d_index d_overflow]. rewrite Q6, Q3. auto. }
  split; [apply rc_rsim_olog; exact Hsim3|]. split; [rewrite Ed3; reflexivity|].
  split; [change (m_seed m3) with (m_seed m2); rewrite S6; exact R7|].
  split; [rewrite B6; cbn [s2 emit s_mem]; exact R4|].
  split; [intros i off; apply rc_rsim_rec_of; exact Hsim3|].
  split.
  { change (m_idx m3) with (m_idx m2). rewrite S5, R12, Hidx, (rc_rsim_olog _ _ Hsim3).
    change (concat (map dseg_entries (dby_seq (d_segs d4)))) with (olog d4).
    symmetry. apply rc_ridx_ext. intros i off. apply rc_rsim_rec_of. exact Hsim3. }
  split; [reflexivity|]. split.
  { exists gc. split; [exact Hgc|]. split; [reflexivity|]. split; [exact Hgcf|].
    intros g' Hg'. apply (proj2 Hseqo); assumption. }
  unfold MetaOK. cbn [with_mem s_mem s_disk]. intros g f Hg Hfind.
  destruct (Hseg2 g Hg) as (g1 & Hg1 & ->). rewrite rc_sealf_delrec.
  destruct (rc_sealf_fields (removelast order) g1) as (F1 & _). rewrite F1 in Hfind.
  assert (HndD : NoDup (map f_id (dby_seq (d_segs d4)))).
  { apply (Permutation_NoDup (l := map f_id (d_segs d4))); [apply Permutation_map; symmetry; apply dby_seq_perm|exact Hnd4]. }
  destruct (R13 HndD (fun g0 f0 Hg0 _ _ => Hzero g0 Hg0) g1 Hg1) as [(f0 & Hf0 & B7 & B8)|(Hno & g0 & Hg0 & B7 & _)].
  - apply (proj1 (dby_seq_In _ _)) in Hf0.
    destruct (rc_rsim_find d4 (s_disk s3) (f_id f0) f0 Hsim3 (find_dseg_unique d4 f0 Hnd4 Hf0)) as (f' & Hf' & Ec).
    rewrite B7, Hf' in Hfind. inversion Hfind; subst f'. rewrite B8. unfold rc_rcore in Ec. congruence.
  - exfalso. destruct (proj1 Hag g0 Hg0) as (fx & Hfx & A1 & _).
    apply (Hno fx); [apply (proj2 (dby_seq_In _ _)); exact Hfx|congruence].
Qed.

End Recover.

Definition rc_newf (id seq : N) : dseg :=
  {| f_id := id; f_seq := seq; f_hdr := true; f_recs := []; f_tail := []; f_meta := GAbsent |}.
Definition rc_newg (id seq : N) : mseg := {| g_id := id; g_seq := seq; g_size := header_size; g_meta := smeta0 |}.

Lemma rc_fold_max_ge (l : list mseg) : forall n,
  n <= fold_left (fun n g => N.max n (g_seq g)) l n /\
  forall g, In g l -> g_seq g <= fold_left (fun n g => N.max n (g_seq g)) l n.
Proof.
  induction l as [|x l IH]; intros n; cbn [fold_left]; [split; [lia|intros g []]|].
  destruct (IH (N.max n (g_seq x))) as [A1 A2]. split; [lia|].
  intros g [->|Hg]; [lia|apply A2; exact Hg].
Qed.

Lemma rc_swap_spec (s : st) (m : mem) :
  rc_magree (m_segs m) (s_disk s) -> ids_increasing (m_segs m) ->
  exists s' m', swap_segment flat_ops s m = (s', m') /\
    ((exists g, In g (m_segs m) /\ sm_full (g_meta g) = false /\ s' = s /\ m' = set_cur m (g_id g, g_seq g) false)
     \/ ((forall g, In g (m_segs m) -> sm_full (g_meta g) = true) /\
         let id := lowest_free 0 (m_segs m) in let seq := m_maxseq m + 1 in
         m' = set_cur (set_maxseq (set_msegs m (insert_mseg (rc_newg id seq) (m_segs m))) seq) (id, seq) false /\
         d_segs (s_disk s') = d_segs (s_disk s) ++ [rc_newf id seq] /\ same_rest (s_disk s) (s_disk s') /\
         s_mem s' = s_mem s /\ (forall g, In g (m_segs m) -> g_id g <> id))).
Proof.
  intros Hag Hinc. unfold swap_segment.
  destruct (find (fun g => negb (sm_full (g_meta g))) (m_segs m)) as [g|] eqn:Ef.
  - apply find_some in Ef. destruct Ef as [Hg Hn]. apply negb_true_iff in Hn.
    eexists. eexists. split; [reflexivity|]. left. exists g. auto.
  - eexists. eexists. split; [reflexivity|]. right.
    assert (Hfull : forall g, In g (m_segs m) -> sm_full (g_meta g) = true).
    { intros g Hg. pose proof (find_none _ _ Ef g Hg) as Hn. cbn beta in Hn. apply negb_false_iff in Hn. exact Hn. }
    split; [exact Hfull|]. cbv zeta.
    assert (Hfresh : forall g, In g (m_segs m) -> g_id g <> lowest_free 0 (m_segs m)).
    { intros g Hg. apply lowest_free_fresh; assumption. }
    split; [reflexivity|]. split; [|split; [repeat split|split; [reflexivity|exact Hfresh]]].
    apply (d_segs_create_header (s_disk s)). intros f Hf E.
    destruct (proj2 Hag f Hf) as (g & Hg & A1 & _). apply (Hfresh g Hg). congruence.
Qed.

Lemma rc_create_spec (d d' : disk) (l : list mseg) maxseq id seq :
  DiskOK d -> rc_magree l d -> ids_increasing l -> (forall g, In g l -> g_seq g <= maxseq) -> seq = maxseq + 1 ->
  (forall g, In g l -> g_id g <> id) -> d_segs d' = d_segs d ++ [rc_newf id seq] ->
  DiskOK d' /\ rc_magree (insert_mseg (rc_newg id seq) l) d' /\ ids_increasing (insert_mseg (rc_newg id seq) l) /\
  olog d' = olog d /\ (forall i off, rec_of d' i off = rec_of d i off).
Proof.
  intros (Hdok & Hnd & Hnq) Hag Hinc Hmax Hseq Hfresh Ed.
  assert (Hidf : forall f, In f (d_segs d) -> f_id f <> id /\ f_seq f <> seq).
  { intros f Hf. destruct (proj2 Hag f Hf) as (g & Hg & A1 & A2). split.
    - rewrite <- A1. apply Hfresh. exact Hg.
    - pose proof (Hmax g Hg). lia. }
  split; [|split; [|split; [|split]]].
  - exact (DiskOK_snoc_empty d d' id seq (conj Hdok (conj Hnd Hnq)) Hidf Ed).
  - split.
    + intros g Hg. apply insert_mseg_In in Hg. destruct Hg as [->|Hg].
      * exists (rc_newf id seq). split; [rewrite Ed; apply in_or_app; right; left; reflexivity|].
        unfold flen, rc_newf, rc_newg. cbn [f_id f_seq f_hdr f_recs f_tail g_id g_seq g_size nlen].
        rewrite recs_len_nil. repeat split.
      * destruct (proj1 Hag g Hg) as (f & Hf & A). exists f. split; [rewrite Ed; apply in_or_app; left; exact Hf|exact A].
    + intros f Hf. rewrite Ed in Hf. apply in_app_or in Hf. destruct Hf as [Hf|[<-|[]]].
      * destruct (proj2 Hag f Hf) as (g & Hg & A). exists g. split; [apply insert_mseg_In; right; exact Hg|exact A].
      * exists (rc_newg id seq). split; [apply insert_mseg_In; left; reflexivity|split; reflexivity].
  - apply insert_mseg_increasing; [exact Hinc|]. intros x Hx. cbn [rc_newg g_id]. apply Hfresh. exact Hx.
  - rewrite !olog_eq, Ed. apply olog_of_snoc_empty. reflexivity.
  - intros i off. unfold rec_of, find_dseg. rewrite Ed, find_app.
    destruct (find (fun s => f_id s =? i) (d_segs d)) as [f|]; [reflexivity|].
    cbn [find rc_newf f_id]. destruct (id =? i); reflexivity.
Qed.

Lemma rc_open_segments_recovery (s2 : st) :
  DiskOK (s_disk s2) -> (forall f, In f (d_segs (s_disk s2)) -> f_meta f = GAbsent) ->
  exists s3 segs, open_segments flat_ops s2 = (s3, segs) /\
    DiskOK (s_disk s3) /\ Forall rc_seg_pre (d_segs (s_disk s3)) /\ rc_magree segs (s_disk s3) /\
    ids_increasing segs /\ (forall g, In g segs -> g_meta g = smeta0) /\
    rc_rsim (s_disk s2) (s_disk s3) /\ same_rest (s_disk s2) (s_disk s3) /\ s_mem s3 = s_mem s2.
Proof.
  intros (Hdok & Hnd & Hnq) Hmeta.
  destruct (rc_open_segments_spec s2 Hnd) as (s3 & segs & E & Ed & Erest & Emem & _ & Hsegs & Hinc).
  set (L := sort_segs (d_segs (s_disk s2))) in *.
  assert (HL : forall x, In x L <-> In x (d_segs (s_disk s2))).
  { intros x. split; apply Permutation_in; [|symmetry]; apply rc_sort_segs_perm. }
  exists s3, segs. split; [exact E|].
  assert (Hsim : rc_rsim (s_disk s2) (s_disk s3)).
  { unfold rc_rsim. rewrite Ed, map_map. apply map_ext. intros f.
    destruct (rc_hons_fields L f) as (A1 & A2 & A3 & _). unfold rc_rcore. congruence. }
  assert (Hh : forall f, In f (d_segs (s_disk s2)) -> f_hdr (rc_hons L f) = true).
  { intros f Hf. apply rc_hons_hdr. apply HL. exact Hf. }
  split.
  { split; [|split; [rewrite (rc_rsim_ids _ _ Hsim); exact Hnd|rewrite (rc_rsim_seqs _ _ Hsim); exact Hnq]].
    rewrite Ed. apply Forall_forall. intros y Hy. apply in_map_iff in Hy. destruct Hy as (f & <- & Hf).
    pose proof (proj1 (Forall_forall _ _) Hdok f Hf) as (D1 & D2 & D3 & D4 & D5).
    destruct (rc_hons_fields L f) as (_ & _ & A3 & A4 & _). unfold dseg_ok. rewrite A3, A4, (Hh f Hf).
    split; [exact D1|]. split; [exact D2|]. split; [exact D3|]. split; [discriminate|exact D5]. }
  split.
  { rewrite Ed. apply Forall_forall. intros y Hy. apply in_map_iff in Hy. destruct Hy as (f & <- & Hf).
    pose proof (proj1 (Forall_forall _ _) Hdok f Hf) as (_ & D2 & _).
    destruct (rc_hons_fields L f) as (_ & _ & _ & A4 & _). split; [apply Hh; exact Hf|rewrite A4; exact D2]. }
  split.
  { split.
    - intros g Hg. apply Hsegs in Hg. destruct Hg as (f & Hf & ->). exists (rc_hons L f).
      split; [rewrite Ed; apply in_map; exact Hf|].
      destruct (rc_hons_fields L f) as (A1 & A2 & A3 & A4 & _).
      rewrite (rc_flen_hdr _ (Hh f Hf)). unfold rc_hlen, rc_mkseg. cbn [g_id g_seq g_size]. rewrite A3, A4. auto.
    - intros y Hy. rewrite Ed in Hy. apply in_map_iff in Hy. destruct Hy as (f & <- & Hf).
      exists (rc_mkseg f). split; [apply Hsegs; exists f; auto|].
      destruct (rc_hons_fields L f) as (A1 & A2 & _). cbn [rc_mkseg g_id g_seq]. auto. }
  split; [exact Hinc|]. split.
  { intros g Hg. apply Hsegs in Hg. destruct Hg as (f & Hf & ->). cbn [rc_mkseg g_meta]. rewrite (Hmeta f Hf). reflexivity. }
  split; [exact Hsim|]. split; [exact Erest|exact Emem].
Qed.

(* the recovering Open up to the call of recover(): the state it reaches, with what recover() needs there *)
Lemma open_recover_pre seed (s0 : st) :
  DiskOK (s_disk s0) -> bac_ok (s_disk s0) ->
  match open_index flat_ops (backup_nonseg flat_ops s0) with
  | None => False
  | Some (s2, i) =>
    let '(s3, segs) := open_segments flat_ops s2 in
    let '(s4, m1) := swap_segment flat_ops s3
                       {| m_segs := segs; m_cur := (0, 0); m_cur_removed := true;
                          m_maxseq := fold_left (fun n g => N.max n (g_seq g)) segs 0; m_idx := i; m_seed := seed |} in
    i = [] /\ (forall g, In g (m_segs m1) -> g_meta g = smeta0) /\
    DiskOK (s_disk s4) /\ Forall rc_seg_pre (d_segs (s_disk s4)) /\ rc_magree (m_segs m1) (s_disk s4) /\
    ids_increasing (m_segs m1) /\ m_idx m1 = [] /\
    (forall g, In g (m_segs m1) -> g_seq g <= m_maxseq m1) /\ m_segs m1 <> [] /\
    bac_ok (s_disk s4) /\ d_lock (s_disk s4) = d_lock (s_disk s0) /\ d_overflow (s_disk s4) = true /\
    olog (s_disk s4) = olog (s_disk s0) /\
    (forall i off, rec_of (s_disk s4) i off = rec_of (s_disk s0) i off)
  end.
Proof.
  intros Hok Hbac.
  destruct (rc_backup_spec s0 Hok Hbac) as (A1 & A2 & A3 & A4 & A5 & A6). cbv zeta in A1, A2, A3, A4, A5, A6.
  set (s1 := backup_nonseg flat_ops s0) in *.
  destruct (rc_open_index_fresh s1 A4) as (s2 & E2 & B1 & B2 & B3 & B4 & B5 & B6). rewrite E2.
  assert (Hsl2 : same_log (s_disk s0) (s_disk s2)).
  { eapply same_log_trans; [exact A1|]. apply same_log_segs. exact B1. }
  assert (Hok2 : DiskOK (s_disk s2)) by (eapply same_log_DiskOK; eassumption).
  assert (Hmeta2 : forall f, In f (d_segs (s_disk s2)) -> f_meta f = GAbsent) by (rewrite B1; exact A5).
  destruct (rc_open_segments_recovery s2 Hok2 Hmeta2) as (s3 & segs & E3 & C1 & C2 & C3 & C4 & C5 & C6 & C7 & C8).
  rewrite E3.
  set (maxseq := fold_left (fun n g => N.max n (g_seq g)) segs 0).
  set (m0 := {| m_segs := segs; m_cur := (0, 0); m_cur_removed := true; m_maxseq := maxseq;
                m_idx := (@nil slot : flat); m_seed := seed |}).
  destruct (rc_swap_spec s3 m0 C3 C4) as (s4 & m1 & E4 & Hcase). rewrite E4.
  destruct C7 as (Q1 & Q2 & Q3 & Q4 & Q5 & Q6 & Q7).
  assert (Hmaxseq : forall g, In g segs -> g_seq g <= maxseq) by (apply (rc_fold_max_ge segs 0)).
  assert (H3 : bac_ok (s_disk s3) /\ d_lock (s_disk s3) = d_lock (s_disk s0) /\ d_overflow (s_disk s3) = true /\
               olog (s_disk s3) = olog (s_disk s0) /\ forall i off, rec_of (s_disk s3) i off = rec_of (s_disk s0) i off).
  { split; [unfold bac_ok; rewrite Q7, B3; exact A3|]. split; [rewrite Q6, B2; exact A2|]. split; [rewrite Q3; exact B5|].
    split; [rewrite (rc_rsim_olog _ _ C6); apply same_log_olog; exact Hsl2|].
    intros i off. rewrite (rc_rsim_rec_of _ _ _ _ C6). apply same_log_rec_of. exact Hsl2. }
  split; [reflexivity|].
  (* the two cases of swapSegment *)
  destruct Hcase as [(g & Hg & Hnf & -> & ->)|(Hfull & Em1 & Ed4 & Erest4 & Emem4 & Hfresh)].
  - cbn [set_cur m_segs m_maxseq m_idx m0].
    split; [exact C5|]. split; [exact C1|]. split; [exact C2|]. split; [exact C3|]. split; [exact C4|].
    split; [reflexivity|]. split; [exact Hmaxseq|]. split; [intros E; apply (in_nil (a := g)); rewrite <- E; exact Hg|exact H3].
  - cbv zeta in Em1, Ed4, Hfresh. cbn [m0 m_segs m_maxseq] in Em1, Ed4, Hfresh.
    destruct (rc_create_spec (s_disk s3) (s_disk s4) segs maxseq (lowest_free 0 segs) (maxseq + 1)
                C1 C3 C4 Hmaxseq eq_refl Hfresh Ed4) as (K1 & K2 & K3 & K4 & K5).
    destruct Erest4 as (_ & _ & R3 & _ & _ & R6 & R7). destruct H3 as (Hb3 & Hl3 & Ho3 & Hlog3 & Hrec3).
    rewrite Em1. cbn [set_cur set_maxseq set_msegs m_segs m_maxseq m_idx m0].
    split; [intros x Hx; apply insert_mseg_In in Hx; destruct Hx as [->|Hx]; [reflexivity|exact (C5 x Hx)]|].
    split; [exact K1|]. split.
    { rewrite Ed4. apply Forall_app. split; [exact C2|]. constructor; [|constructor].
      split; [reflexivity|apply rc_tail_stuck_nil]. }
    split; [exact K2|]. split; [exact K3|]. split; [reflexivity|].
    split.
    { intros x Hx. apply insert_mseg_In in Hx. destruct Hx as [->|Hx]; [cbn [rc_newg g_seq]; lia|].
      pose proof (Hmaxseq x Hx). lia. }
    split.
    { intros E. apply (in_nil (a := rc_newg (lowest_free 0 segs) (maxseq + 1))). rewrite <- E. apply insert_mseg_In. left. reflexivity. }
    split; [unfold bac_ok; rewrite R7; exact Hb3|]. split; [rewrite R6; exact Hl3|]. split; [rewrite R3; exact Ho3|].
    split; [rewrite K4; exact Hlog3|]. intros i off. rewrite K5. apply Hrec3.
Qed.

Section OpenRecover.
Variable P : params.

Lemma open_recover_gen seed (s0 : st) :
  s_mem s0 = None -> DiskOK (s_disk s0) -> bac_ok (s_disk s0) -> d_lock (s_disk s0) = true ->
  let '(s', o) := db_open flat_ops P seed s0 in
  o = OOpened true /\ Inv P s' /\ s_mem s' <> None /\
  (forall k, sget (abs (s_disk s')) k = sget (abs (s_disk s0)) k) /\
  d_bac (s_disk s') = [] /\
  olog (s_disk s') = olog (s_disk s0) /\
  (exists m', s_mem s' = Some m' /\ m_seed m' = seed /\
              (* the index is the canonical replay of the log of the recovered disk *)
              m_idx m' = rc_ridx P (s_disk s') seed (olog (s_disk s')) [] /\
              (* D13: the current segment after a recovery is the newest one and accepts writes *)
              m_cur_removed m' = false /\
              (exists g, In g (m_segs m') /\ (g_id g, g_seq g) = m_cur m' /\ sm_full (g_meta g) = false /\
                         forall g', In g' (m_segs m') -> g_seq g' <= g_seq g)) /\
  (forall i off, rec_of (s_disk s') i off = rec_of (s_disk s0) i off) /\
  MetaOK s'.
Proof.
  intros Hmem0 Hok Hbac Hlock.
  unfold db_open. rewrite Hmem0, Hlock. cbv beta iota zeta.
  pose proof (open_recover_pre seed s0 Hok Hbac) as Hpre.
  destruct (open_index flat_ops (backup_nonseg flat_ops s0)) as [[s2 i]|]; [|destruct Hpre].
  destruct (open_segments flat_ops s2) as [s3 segs]. destruct (swap_segment flat_ops s3 _) as [s4 m1].
  destruct Hpre as (-> & P0 & P1 & P2 & P3 & P4 & P5 & P7 & Hne2 & Hbac4 & Hlock4 & Hov4 & P13 & P15).
  change (ix_count flat_ops [] =? 0) with true. cbv beta iota.
  set (m2 := {| m_segs := m_segs m1; m_cur := m_cur m1; m_cur_removed := m_cur_removed m1;
                m_maxseq := m_maxseq m1; m_idx := m_idx m1; m_seed := seed |}).
  rewrite Hlock in Hlock4.
  (* the loaded segments all carry the initial meta: not full, no delete records counted *)
  destruct (rc_recover_spec P s4 m2 P1 P2 P3 P4 P5 (fun g Hg => f_equal sm_full (P0 g Hg)) P7 Hbac4 Hlock4 Hov4 Hne2
              (fun g Hg => f_equal sm_delrec (P0 g Hg)))
    as (s5 & m3 & E5 & HI & Holog & Hb5 & Hseed & Hmem5 & Hrec5 & Hridx & Hrm & Hcurg & Hmeta).
  rewrite E5.
  assert (Hlog : olog (s_disk s5) = olog (s_disk s0)) by (rewrite Holog; exact P13).
  split; [reflexivity|]. split; [exact HI|]. split; [discriminate|].
  split; [intros k; unfold abs; cbn [with_mem s_disk]; rewrite Hlog; reflexivity|].
  split; [exact Hb5|]. split; [exact Hlog|].
  split; [exists m3; split; [reflexivity|]; split; [exact Hseed|]; split; [exact Hridx|]; split; [exact Hrm|exact Hcurg]|].
  split; [|exact Hmeta].
  intros i off. cbn [with_mem s_disk]. rewrite Hrec5. apply P15.
Qed.

Theorem open_recover_ok seed (d : disk) :
  params_ok P -> DiskOK d -> bac_ok d -> d_lock d = true ->
  let '(s', o) := db_open flat_ops P seed {| s_mem := None; s_disk := d; s_trace := [] |} in
  o = OOpened true /\ Inv P s' /\ s_mem s' <> None /\
  (forall k, sget (abs (s_disk s')) k = sget (abs d) k) /\
  d_bac (s_disk s') = [] /\
  (* more: the log itself is unchanged, the seed is the fresh one, the index is the canonical replay *)
  olog (s_disk s') = olog d /\
  (exists m', s_mem s' = Some m' /\ m_seed m' = seed /\
              m_idx m' = rc_ridx P (s_disk s') seed (olog (s_disk s')) [] /\
              (* D13: the current segment after a recovery is the newest one and accepts writes *)
              m_cur_removed m' = false /\
              (exists g, In g (m_segs m') /\ (g_id g, g_seq g) = m_cur m' /\ sm_full (g_meta g) = false /\
                         forall g', In g' (m_segs m') -> g_seq g' <= g_seq g)) /\
  (forall i off, rec_of (s_disk s') i off = rec_of d i off) /\
  (* recovery rebuilds the DeleteRecords counters *)
  MetaOK s'.
Proof.
  intros _ Hok Hbac Hlock.
  apply (open_recover_gen seed {| s_mem := None; s_disk := d; s_trace := [] |}); [reflexivity|exact Hok|exact Hbac|exact Hlock].
Qed.

(* crash right after a completed recovery, recover again *)
Theorem recover_idempotent seed seed2 (d : disk) :
  params_ok P -> DiskOK d -> bac_ok d -> d_lock d = true ->
  let '(s1, _) := db_open flat_ops P seed {| s_mem := None; s_disk := d; s_trace := [] |} in
  let '(s2, o2) := db_open flat_ops P seed2 {| s_mem := None; s_disk := s_disk s1; s_trace := s_trace s1 |} in
  o2 = OOpened true /\ Inv P s2 /\ s_mem s2 <> None /\
  (forall k, sget (abs (s_disk s2)) k = sget (abs (s_disk s1)) k) /\
  (forall k, sget (abs (s_disk s2)) k = sget (abs d) k) /\
  olog (s_disk s2) = olog (s_disk s1) /\ d_bac (s_disk s2) = [] /\
  (* with the same hash seed the rebuilt index is the same list of slots *)
  (seed2 = seed -> exists m1 m2, s_mem s1 = Some m1 /\ s_mem s2 = Some m2 /\ m_idx m2 = m_idx m1).
Proof.
  intros Hp Hok Hbac Hlock. pose proof (open_recover_ok seed d Hp Hok Hbac Hlock) as H1.
  destruct (db_open flat_ops P seed {| s_mem := None; s_disk := d; s_trace := [] |}) as [s1 o1].
  destruct H1 as (_ & HI1 & Hm1 & Habs1 & Hb1 & Hlog1 & (m1 & Em1 & Hseed1 & Hidx1 & _) & _).
  unfold Inv in HI1. rewrite Em1 in HI1. destruct HI1 as (Hok1 & _ & _ & _ & _ & _ & Hlock1 & _).
  assert (Hbac1 : bac_ok (s_disk s1)) by (unfold bac_ok; rewrite Hb1; constructor).
  pose proof (open_recover_gen seed2 {| s_mem := None; s_disk := s_disk s1; s_trace := s_trace s1 |}
                eq_refl Hok1 Hbac1 Hlock1) as H2.
  destruct (db_open flat_ops P seed2 {| s_mem := None; s_disk := s_disk s1; s_trace := s_trace s1 |}) as [s2 o2].
  cbn [s_disk] in H2. destruct H2 as (Ho2 & HI2 & Hm2 & Habs2 & Hb2 & Hlog2 & (m2 & Em2 & Hseed2 & Hidx2 & _) & Hrec2 & _).
  split; [exact Ho2|]. split; [exact HI2|]. split; [exact Hm2|]. split; [exact Habs2|].
  split; [intros k; rewrite Habs2; apply Habs1|]. split; [exact Hlog2|]. split; [exact Hb2|].
  intros ->. exists m1, m2. split; [exact Em1|]. split; [exact Em2|].
  rewrite Hidx2, Hidx1, Hlog2. apply rc_ridx_ext. exact Hrec2.
Qed.

End OpenRecover.

Lemma rc_open_index_existing (s : st) i j :
  d_index (s_disk s) = Some i -> d_overflow (s_disk s) = true -> d_imeta (s_disk s) = GOk j ->
  open_index flat_ops s = Some (s, i).
Proof. intros E1 E2 E3. unfold open_index. rewrite E1, E2, E1, E3. reflexivity. Qed.

Section Reopen.
Variable P : params.

Lemma close_reopen_master seed' (s : st) (m : mem) :
  Inv P s -> s_mem s = Some m ->
  exists s1 s2 m2,
    db_close flat_ops s = (s1, OOk) /\ db_open flat_ops P seed' (clear_trace s1) = (s2, OOpened false) /\
    Inv P s2 /\ s_mem s2 = Some m2 /\ olog (s_disk s2) = olog (s_disk s) /\ olog (s_disk s1) = olog (s_disk s) /\
    m_idx m2 = m_idx m /\ (forall g, In g (m_segs m) -> In g (m_segs m2)) /\
    m_seed m2 = (if ix_count flat_ops (m_idx m) =? 0 then seed' else m_seed m) /\
    d_index (s_disk s1) = Some (m_idx m) /\ d_imeta (s_disk s1) = GOk (m_idx m) /\
    (forall f1, In f1 (d_segs (s_disk s1)) ->
       exists g, In g (m_segs m) /\ f_id f1 = g_id g /\ f_seq f1 = g_seq g /\ f_meta f1 = GOk (g_meta g)) /\
    d_bac (s_disk s2) = d_bac (s_disk s) /\
    (MetaOK s -> MetaOK s2).
Proof.
  intros HI Hm. destruct (Inv_open P s m Hm HI) as (HL & Hidx & Hlock & Hdi & Hov).
  pose proof HL as (Hok & Hmda & Hinc & Hseq & _).
  destruct (rc_close_char s m Hm) as (s1 & E1 & Em1 & Es1 & Eo1 & Ei1 & Eov1 & Eim1 & Edb1 & El1 & Eb1 & _).
  exists s1. set (d := s_disk s) in *. set (d1 := s_disk s1) in *.
  pose proof Hok as (Hdok & Hnd & Hnq).
  assert (Hndg : NoDup (map g_id (m_segs m))) by (apply ids_increasing_NoDup; exact Hinc).
  (* every segment file of d has its in-memory segment *)
  assert (Hfg : forall f, In f (d_segs d) -> exists g, In g (m_segs m) /\ g_id g = f_id f /\ g_seq g = f_seq f /\
                  f_hdr f = true /\ f_tail f = [] /\ flen f = g_size g).
  { intros f Hf. destruct (proj2 Hmda f Hf) as (g & Hg & A1 & A2). exists g. split; [exact Hg|].
    destruct (proj1 Hmda g Hg) as (f' & Hf' & B1 & B2 & B3 & B4 & B5).
    assert (f' = f) by (apply (NoDup_map_inj f_id (d_segs d)); try assumption; congruence). subst f'. auto. }
  assert (Hsl1 : same_log d d1).
  { unfold same_log. rewrite Es1, map_map. apply map_ext. intros f. symmetry. apply rc_wmetas_core. }
  assert (Hw : forall f g, In f (d_segs d) -> In g (m_segs m) -> g_id g = f_id f -> g_seq g = f_seq f ->
               rc_wmetas (m_segs m) f = set_fmeta (GOk (g_meta g)) f).
  { intros f g Hf Hg A1 A2. apply rc_wmetas_hit; auto. }
  set (s0 := emit flat_ops (ECreate FLock) (clear_trace s1)).
  assert (Hd0 : d_segs (s_disk s0) = d_segs d1 /\ d_index (s_disk s0) = Some (m_idx m) /\
                d_overflow (s_disk s0) = true /\ d_imeta (s_disk s0) = GOk (m_idx m) /\
                d_dbmeta (s_disk s0) = GOk (m_seed m) /\ d_lock (s_disk s0) = true /\ d_bac (s_disk s0) = d_bac d).
  { unfold s0. cbn [emit s_disk clear_trace apply_ev set_lock d_segs d_index d_overflow d_imeta d_dbmeta d_lock d_bac].
    fold d1. rewrite Ei1, Eov1, Eim1, Edb1, Eb1. repeat split; assumption. }
  destruct Hd0 as (D1 & D2 & D3 & D4 & D5 & D6 & D7).
  assert (Hsl0 : same_log d (s_disk s0)) by (eapply same_log_trans; [exact Hsl1|apply same_log_segs; exact D1]).
  assert (Hok0 : DiskOK (s_disk s0)) by (eapply same_log_DiskOK; eassumption).
  assert (Hhdr0 : forall f, In f (d_segs (s_disk s0)) -> f_hdr f = true).
  { intros f Hf. destruct (same_log_In _ _ f (same_log_sym _ _ Hsl0) Hf) as (f0 & Hf0 & Ec).
    apply seg_core_inv in Ec. destruct Ec as (_ & _ & Eh & _). destruct (Hfg f0 Hf0) as (_ & _ & _ & _ & Hh & _). congruence. }
  destruct (rc_open_segments_spec s0 (proj1 (proj2 Hok0))) as (s3 & segs & E3 & _ & _ & _ & Es3 & Hsegs & Hincs).
  assert (Es30 : fold_left rc_hdr_step (sort_segs (d_segs (s_disk s0))) s0 = s0).
  { apply rc_hdr_fold_all_hdr. intros f Hf. apply Hhdr0.
    apply (Permutation_in _ (rc_sort_segs_perm _)). exact Hf. }
  rewrite Es30 in Es3. subst s3. clear Es30.
  (* the segments read back are the segments of the closed handle *)
  assert (Hsegs_eq : forall g, In g segs <-> In g (m_segs m)).
  { assert (Hmk : forall f0 g0, In f0 (d_segs d) -> In g0 (m_segs m) -> g_id g0 = f_id f0 -> g_seq g0 = f_seq f0 ->
                 f_hdr f0 = true -> flen f0 = g_size g0 -> rc_mkseg (rc_wmetas (m_segs m) f0) = g0).
    { intros f0 g0 Hf0 Hg0 A1 A2 A3 A4. rewrite (Hw f0 g0 Hf0 Hg0 A1 A2).
      unfold rc_mkseg, rc_hlen. cbn [set_fmeta f_id f_seq f_recs f_tail f_meta]. rewrite (rc_flen_hdr f0 A3) in A4.
      unfold rc_hlen in A4. destruct g0 as [gi gq gs gm]. cbn [g_id g_seq g_size g_meta] in *. congruence. }
    intros g. rewrite Hsegs, D1. fold d1. rewrite Es1. split.
    - intros (f & Hf & ->). apply in_map_iff in Hf. destruct Hf as (f0 & <- & Hf0).
      destruct (Hfg f0 Hf0) as (g0 & Hg0 & A1 & A2 & A3 & _ & A5).
      rewrite (Hmk f0 g0 Hf0 Hg0 A1 A2 A3 A5). exact Hg0.
    - intros Hg. destruct (proj1 Hmda g Hg) as (f0 & Hf0 & A1 & A2 & A3 & _ & A5).
      exists (rc_wmetas (m_segs m) f0). split; [apply in_map; exact Hf0|]. symmetry. apply Hmk; auto. }
  (* ... also as lists, so that the reopened handle differs from [m] in the bookkeeping fields only *)
  assert (Esegs : segs = m_segs m) by (apply ids_increasing_ext; assumption). subst segs.
  set (maxseq := fold_left (fun n g => N.max n (g_seq g)) (m_segs m) 0).
  set (m0 := {| m_segs := m_segs m; m_cur := (0, 0); m_cur_removed := true; m_maxseq := maxseq;
                m_idx := m_idx m; m_seed := seed' |}).
  assert (HL0 : InvLog m0 (s_disk s0)).
  { split; [exact Hok0|]. split; [exact (same_log_mem_disk_agree m _ _ Hsl0 Hmda)|]. split; [exact Hinc|].
    split; [exact (conj (proj2 (rc_fold_max_ge (m_segs m) 0)) (proj2 Hseq))|]. intros Hr. discriminate Hr. }
  destruct (swap_spec_x s0 m0 HL0)
    as (s4 & m1 & gc & pre & E4 & HL1 & _ & _ & Eo4 & Hr4 & _ & Ei4 & _ & _ & _ & _ & Hin1 & _ & Hfind4).
  destruct Hr4 as (_ & R2 & R3 & _ & R5 & R6 & R7).
  set (sd := if ix_count flat_ops (m_idx m) =? 0 then seed' else m_seed m).
  set (m2 := {| m_segs := m_segs m1; m_cur := m_cur m1; m_cur_removed := m_cur_removed m1;
                m_maxseq := m_maxseq m1; m_idx := m_idx m1; m_seed := sd |}).
  exists (with_mem m2 s4), m2.
  split; [exact E1|]. split.
  { unfold db_open. rewrite rc_mem_clear, Em1. rewrite rc_disk_clear. fold d1. rewrite El1. cbv beta iota.
    fold s0. rewrite (rc_open_index_existing s0 (m_idx m) (m_idx m) D2 D3 D4), E3. cbv zeta. fold maxseq. fold m0.
    rewrite E4.
    destruct (ix_count flat_ops (m_idx m) =? 0) eqn:Ec.
    - unfold m2, sd. try rewrite Ec. reflexivity.
    - rewrite R5, D5. unfold m2, sd. try rewrite Ec. reflexivity. }
  assert (Hlog4 : olog (s_disk s4) = olog d) by (rewrite Eo4; apply same_log_olog; exact Hsl0).
  assert (Hrec4 : forall i off, rec_of (s_disk s4) i off = rec_of d i off).
  { intros i off. rewrite (olog_rec_of (s_disk s0) (s_disk s4) Hok0 (proj1 HL1) Eo4). apply same_log_rec_of. exact Hsl0. }
  split.
  { apply (Inv_intro P (with_mem m2 s4) m2 eq_refl); cbn [with_mem s_disk].
    - exact HL1.
    - rewrite idx_agrees_eq, Hlog4. replace (m_idx m2) with (m_idx m) by (symmetry; exact Ei4).
      apply (idxl_agrees_reads P (m_seed m) _ _ d _ _ Hrec4); [|exact Hidx].
      unfold m2, sd. cbn [m_seed]. destruct (ix_count flat_ops (m_idx m) =? 0) eqn:Ec; [right|left; reflexivity].
      cbn [ix_count flat_ops] in Ec. apply N.eqb_eq in Ec. apply nlen_nil_iff. exact Ec.
    - rewrite R6. exact D6.
    - cbn [m2 m_idx]. rewrite R2, Ei4. exact D2.
    - rewrite R3. exact D3. }
  split; [reflexivity|]. split; [exact Hlog4|]. split; [apply same_log_olog; exact Hsl1|].
  split; [exact Ei4|]. split; [intros g Hg; apply Hin1; right; exact Hg|]. split; [reflexivity|].
  split; [fold d1; congruence|].
  split; [exact Eim1|]. split; [|split; [cbn [with_mem s_disk]; rewrite R7; exact D7|]].
  { intros f1 Hf1. fold d1 in Hf1. rewrite Es1 in Hf1. apply in_map_iff in Hf1. destruct Hf1 as (f0 & <- & Hf0).
    destruct (Hfg f0 Hf0) as (g & Hg & A1 & A2 & _). exists g. split; [exact Hg|].
    rewrite (Hw f0 g Hf0 Hg A1 A2). cbn [set_fmeta f_id f_seq f_meta]. auto. }
  intros HM. unfold MetaOK in HM. rewrite Hm in HM. unfold MetaOK. cbn [with_mem s_mem s_disk].
  intros g f Hg Hfind. destruct (Hfind4 g f Hg Hfind) as [[Hgm Hf0]|[Emt Er]]; [|rewrite Emt, Er; reflexivity].
  (* an old file has the records it had before Close *)
  destruct (rc_rsim_find (s_disk s0) d (g_id g) f (rc_rsim_sym _ _ (rc_same_log_rsim _ _ Hsl0)) Hf0) as (f0 & Hf0' & Ec).
  replace (f_recs f) with (f_recs f0) by (unfold rc_rcore in Ec; congruence). exact (HM g f0 Hgm Hf0').
Qed.

End Reopen.

Section ReopenTheorems.
Variable P : params.

Theorem close_reopen_ok seed' (s : st) (m : mem) :
  params_ok P -> Inv P s -> s_mem s = Some m -> MetaOK s ->
  let '(s1, _) := db_close flat_ops s in
  let '(s2, o) := db_open flat_ops P seed' (clear_trace s1) in
  o = OOpened false /\ Inv P s2 /\
  (forall k, sget (abs (s_disk s2)) k = sget (abs (s_disk s)) k) /\
  (exists m2, s_mem s2 = Some m2 /\ m_idx m2 = m_idx m /\
             (forall g, In g (m_segs m) -> In g (m_segs m2)) /\
             m_seed m2 = (if ix_count flat_ops (m_idx m) =? 0 then seed' else m_seed m)) /\
  (* the side files are read back exactly; a segment created by swapSegment has counter 0, no records *)
  MetaOK s2.
Proof.
  intros _ HI Hm HM.
  destruct (close_reopen_master P seed' s m HI Hm)
    as (s1 & s2 & m2 & E1 & E2 & HI2 & Hm2 & Hlog2 & _ & Hidx & Hsegs & Hseed & _ & _ & _ & _ & HM2).
  rewrite E1, E2. split; [reflexivity|]. split; [exact HI2|].
  split; [intros k; unfold abs; rewrite Hlog2; reflexivity|].
  split; [exists m2; auto|]. apply HM2. exact HM.
Qed.

(* the same without the metadata invariant *)
Theorem close_reopen_ok_nometa seed' (s : st) (m : mem) :
  Inv P s -> s_mem s = Some m ->
  let '(s1, _) := db_close flat_ops s in
  let '(s2, o) := db_open flat_ops P seed' (clear_trace s1) in
  o = OOpened false /\ Inv P s2 /\
  (forall k, sget (abs (s_disk s2)) k = sget (abs (s_disk s)) k) /\
  exists m2, s_mem s2 = Some m2 /\ m_idx m2 = m_idx m /\
             (forall g, In g (m_segs m) -> In g (m_segs m2)) /\
             m_seed m2 = (if ix_count flat_ops (m_idx m) =? 0 then seed' else m_seed m).
Proof.
  intros HI Hm.
  destruct (close_reopen_master P seed' s m HI Hm)
    as (s1 & s2 & m2 & E1 & E2 & HI2 & Hm2 & Hlog2 & _ & Hidx & Hsegs & Hseed & _).
  rewrite E1, E2. split; [reflexivity|]. split; [exact HI2|].
  split; [intros k; unfold abs; rewrite Hlog2; reflexivity|].
  exists m2. auto.
Qed.

(* Open followed by Close without writes changes nothing that matters *)
Theorem reopen_close_same_log seed' (s : st) (m : mem) :
  params_ok P -> Inv P s -> s_mem s = Some m ->
  let '(s1, _) := db_close flat_ops s in
  let '(s2, _) := db_open flat_ops P seed' (clear_trace s1) in
  let '(s3, o3) := db_close flat_ops s2 in
  o3 = OOk /\ DiskOK (s_disk s3) /\ d_lock (s_disk s3) = false /\
  olog (s_disk s3) = olog (s_disk s1) /\ d_index (s_disk s3) = d_index (s_disk s1) /\
  d_imeta (s_disk s3) = d_imeta (s_disk s1) /\
  (forall f1, In f1 (d_segs (s_disk s1)) ->
     exists f3, In f3 (d_segs (s_disk s3)) /\ f_id f3 = f_id f1 /\ f_seq f3 = f_seq f1 /\ f_meta f3 = f_meta f1).
Proof.
  intros _ HI Hm.
  destruct (close_reopen_master P seed' s m HI Hm)
    as (s1 & s2 & m2 & E1 & E2 & HI2 & Hm2 & Hlog2 & Hlog1 & Hidx & Hsegs & Hseed & Hdi1 & Him1 & Hf1 & _).
  rewrite E1, E2. pose proof (close_ok P s2 m2 HI2 Hm2) as Hc.
  destruct (db_close flat_ops s2) as [s3 o3].
  destruct Hc as (Ho & _ & Hok3 & Hlog3 & Hl3 & Hdi3 & _ & Him3 & _ & Hmeta3 & _).
  split; [exact Ho|]. split; [exact Hok3|]. split; [exact Hl3|].
  split; [congruence|]. split; [congruence|]. split; [congruence|].
  intros f1 Hin. destruct (Hf1 f1 Hin) as (g & Hg & A1 & A2 & A3).
  destruct (Hmeta3 g (Hsegs g Hg)) as (f3 & Hf3 & B1 & B2 & B3).
  exists f3. split; [exact Hf3|]. repeat split; congruence.
Qed.

(* d_bac holds FBac names only: preserved by Close and by both kinds of Open *)
Theorem close_bac_ok (s : st) m : s_mem s = Some m -> bac_ok (s_disk s) ->
  bac_ok (s_disk (fst (db_close flat_ops s))).
Proof.
  intros Hm Hb. destruct (rc_close_char s m Hm) as (s' & E & _ & _ & _ & _ & _ & _ & _ & _ & Eb & _).
  rewrite E. cbn [fst]. unfold bac_ok. rewrite Eb. exact Hb.
Qed.

Theorem close_reopen_bac seed' (s : st) (m : mem) :
  Inv P s -> s_mem s = Some m ->
  let '(s1, _) := db_close flat_ops s in
  let '(s2, _) := db_open flat_ops P seed' (clear_trace s1) in
  d_bac (s_disk s2) = d_bac (s_disk s).
Proof.
  intros HI Hm.
  destruct (close_reopen_master P seed' s m HI Hm) as (s1 & s2 & m2 & E1 & E2 & H).
  rewrite E1, E2. apply H.
Qed.

End ReopenTheorems.

(* Refutation of the PINNED behaviour of openSegment (defect D12).
      The pinned code skipped the side file of a segment whose size is header_size, so a segment that
      was sealed while empty came back writable after a clean reopen, although a segment with a larger
      sequence id held records.  [open_segments_pinned] / [db_open_pinned] are the old model.          *)
Definition open_segments_pinned (s : st) : st * list mseg :=
  fold_left (fun (acc : st * list mseg) (f : dseg) =>
    let '(s, l) := acc in
    let s1 := if f_hdr f then s else emit flat_ops (EHeader (FSeg (f_id f) (f_seq f))) s in
    let size := match find_dseg (f_id f) (s_disk s1) with Some f' => flen f' | None => 0 end in
    let meta := if size =? header_size then smeta0
                else match f_meta f with GOk m => m | _ => smeta0 end in
    (s1, insert_mseg {| g_id := f_id f; g_seq := f_seq f; g_size := size; g_meta := meta |} l))
  (sort_segs (d_segs (s_disk s))) (s, []).

Definition db_open_pinned (P : params) (seed : N) (s : st) : st * out :=
  match s_mem s with
  | Some _ => (s, OErr ELocked)
  | None =>
    let existing := d_lock (s_disk s) in
    let s0 := if existing then s else emit flat_ops (ECreate FLock) s in
    let s1 := if existing then backup_nonseg flat_ops s0 else s0 in
    match open_index flat_ops s1 with
    | None => (s1, OErr EOpenFailed)
    | Some (s2, i) =>
      let '(s3, segs) := open_segments_pinned s2 in
      let maxseq := fold_left (fun n g => N.max n (g_seq g)) segs 0 in
      let m0 := {| m_segs := segs; m_cur := (0, 0); m_cur_removed := true; m_maxseq := maxseq;
                   m_idx := i; m_seed := seed |} in
      let '(s4, m1) := swap_segment flat_ops s3 m0 in
      let seed_ok :=
        if ix_count flat_ops i =? 0 then Some seed
        else match d_dbmeta (s_disk s4) with GOk sd => Some sd | _ => None end in
      match seed_ok with
      | None => (s4, OErr EOpenFailed)
      | Some sd =>
        let m2 := {| m_segs := m_segs m1; m_cur := m_cur m1; m_cur_removed := m_cur_removed m1;
                     m_maxseq := m_maxseq m1; m_idx := m_idx m1; m_seed := sd |} in
        if existing
        then let '(s5, m3) := recover flat_ops P s4 m2 in (with_mem m3 s5, OOpened true)
        else (with_mem m2 s4, OOpened false)
      end
    end
  end.

Definition rc_seq_order_b (m : mem) : bool :=
  forallb (fun g => g_seq g <=? m_maxseq m) (m_segs m) &&
  forallb2 (fun g g' => sm_full (g_meta g) || (g_seq g' <=? g_seq g)) (m_segs m).

Lemma rc_seq_order_b_complete (m : mem) : seq_order m -> rc_seq_order_b m = true.
Proof.
  intros [H1 H2]. unfold rc_seq_order_b, forallb2. apply andb_true_iff. split.
  - apply forallb_forall. intros g Hg. apply N.leb_le. apply H1. exact Hg.
  - apply forallb_forall. intros g Hg. apply forallb_forall. intros g' Hg'.
    destruct (sm_full (g_meta g)) eqn:E; [reflexivity|]. apply N.leb_le. apply H2; assumption.
Qed.

(* the scenario: maxSegmentSize = 1024 (as in the test-suite of the repository) *)
Definition rf_P : params :=
  {| p_maxseg := 1024; p_minseg := 1024; p_frag := fun _ _ => false; p_sync := false;
     p_grow := fun _ _ => false; p_hash := fun _ _ => 0 |}.
Definition rf_key : key := [107].
Definition rf_big : val := repeat 65 600%nat.
Definition rf_new : val := [110; 101; 119].

Definition rf_s0 : st := {| s_mem := None; s_disk := disk0; s_trace := [] |}.
Definition rf_s1 : st := fst (db_open flat_ops rf_P 7 rf_s0).               (* fresh database: 00000-1 *)
Definition rf_s2 : st := fst (db_put flat_ops rf_P rf_key rf_big rf_s1).    (* seals the EMPTY 00000-1, writes to 00001-2 *)
Definition rf_s3 : st := clear_trace (fst (db_close flat_ops rf_s2)).
Definition rf_s4 : st := fst (db_open_pinned rf_P 9 rf_s3).                 (* rc_clean reopen, pinned code *)
Definition rf_s5 : st := fst (db_put flat_ops rf_P rf_key rf_new rf_s4).    (* lands in 00000-1 (sequence id 1) *)
Definition rf_crash (s : st) : st := {| s_mem := None; s_disk := s_disk s; s_trace := [] |}.
Definition rf_s6 : st := fst (db_open_pinned rf_P 11 (rf_crash rf_s5)).     (* recovery *)
(* the same run with the corrected open *)
Definition rf_t4 : st := fst (db_open flat_ops rf_P 9 rf_s3).
Definition rf_t5 : st := fst (db_put flat_ops rf_P rf_key rf_new rf_t4).
Definition rf_t6 : st := fst (db_open flat_ops rf_P 11 (rf_crash rf_t5)).

Theorem sealed_empty_refuted :
  (* the state before Close satisfies the (tested) invariant; the first segment is sealed and empty *)
  inv_b rf_P rf_s2 = true /\
  (exists m, s_mem rf_s2 = Some m /\
     map (fun g => (g_id g, g_seq g, g_size g, sm_full (g_meta g))) (m_segs m) = [(0, 1, 512, true); (1, 2, 1123, false)]) /\
  (* after Close and the pinned rc_clean Open the invariant is broken: seq_order fails *)
  ~ Inv rf_P rf_s4 /\ inv_b rf_P rf_s4 = false /\
  (* consequence: an acknowledged Put is lost by the next crash recovery *)
  db_get flat_ops rf_P rf_key rf_s5 = OVal (Some rf_new) /\
  db_get flat_ops rf_P rf_key rf_s6 = OVal (Some rf_big) /\
  (* with the corrected open_segments the same run is fine *)
  inv_b rf_P rf_t4 = true /\ db_get flat_ops rf_P rf_key rf_t6 = OVal (Some rf_new).
Proof.
  split; [vm_compute; reflexivity|]. split; [eexists; split; vm_compute; reflexivity|].
  split.
  { unfold Inv. destruct (s_mem rf_s4) as [m4|] eqn:E; [|vm_compute in E; discriminate].
    intros (_ & _ & _ & Hs & _). apply rc_seq_order_b_complete in Hs.
    assert (Hb : match s_mem rf_s4 with Some m => rc_seq_order_b m | None => true end = false) by (vm_compute; reflexivity).
    rewrite E in Hb. congruence. }
  split; [vm_compute; reflexivity|]. split; [vm_compute; reflexivity|]. split; [vm_compute; reflexivity|].
  split; vm_compute; reflexivity.
Qed.

Print Assumptions close_ok.
Print Assumptions open_recover_ok.
Print Assumptions recover_idempotent.
Print Assumptions close_reopen_ok.
Print Assumptions close_reopen_ok_nometa.
Print Assumptions reopen_close_same_log.
Print Assumptions apply_ev_bac_ok.
Print Assumptions sealed_empty_refuted.
