(* FuncsLogCheck.v -- OBLIGATIONS tying the integer code of the write-ahead log bookkeeping
   (datalog.go: the rollover test of writeRecord, trackDel, the DeletedBytes update of del;
   compaction.go: the minimum-size test of pickForCompaction) AS TRANSLATED FROM THE CURRENT SOURCES
   (gen/Funcs.v) to the expressions used by the model (DB.v: write_record, track_del, add_delbytes,
   pick_rev).  Each statement quantifies over ALL values of the Go types involved. *)
From Coq Require Import ZArith NArith Bool Lia.
From Pogreb Require Import Base Record GoSem FuncsRecordCheck.
From Pogreb.gen Require Import Funcs.
Open Scope Z_scope.

(* writeRecord rolls over exactly when DB.write_record does:
   meta.Full || size + len(data) > maxSegmentSize (no wrap: int64 arithmetic on a size below 2^62) *)
Theorem need_swap_ok : forall (full : bool) (size dlen maxseg : N),
  (size < 2 ^ 62)%N -> (dlen < 2 ^ 62)%N -> (maxseg < 2 ^ 32)%N ->
  go_need_swap full (Z.of_N size) (Z.of_N dlen) (Z.of_N maxseg) = full || (maxseg <? size + dlen)%N.
Proof.
  intros full size dlen maxseg Hs Hd Hm.
  change (2 ^ 62)%N with 4611686018427387904%N in Hs, Hd. change (2 ^ 32)%N with 4294967296%N in Hm.
  unfold go_need_swap, go_conv, go_add, go_gtb.
  rewrite !wrap_S64_N, <- N2Z.inj_add, wrap_S64_N, ltb_NZ
    by (change (2 ^ 63)%N with 9223372036854775808%N; lia).
  reflexivity.
Qed.

(* trackDel: DeletedKeys + 1 and DeletedBytes + encodedRecordSize(kvSize), both modulo 2^32, as in
   DB.track_del *)
Theorem trackdel_ok : forall dkeys dbytes ks vs : N,
  (dkeys < 2 ^ 32)%N -> (dbytes < 2 ^ 32)%N -> (ks < 2 ^ 16)%N -> (vs < 2 ^ 32)%N ->
  go_trackdel (Z.of_N dkeys) (Z.of_N dbytes) (Z.of_N ks) (Z.of_N vs)
  = (Z.of_N (u32 (dkeys + 1)), Z.of_N (u32 (dbytes + u32 (rec_overhead + u32 (ks + vs))))).
Proof.
  intros dkeys dbytes ks vs _ _ Hks _. change (2 ^ 16)%N with 65536%N in Hks.
  unfold go_trackdel, go_kvSize, go_add, go_conv.
  rewrite (wrap_U32_N ks), (N.mod_small ks) by lia.
  rewrite <- (N2Z.inj_add _ 1), <- N2Z.inj_add, (wrap_U32_N (ks + vs)), encodedRecordSize_N, <- N2Z.inj_add, !wrap_U32_N.
  reflexivity.
Qed.

(* del: DeletedBytes += uint32(len(rec)) *)
Theorem del_bytes_ok : forall dbytes rlen : N, (dbytes < 2 ^ 32)%N -> (rlen < 2 ^ 32)%N ->
  go_del_bytes (Z.of_N dbytes) (Z.of_N rlen) = Z.of_N (u32 (dbytes + u32 rlen)).
Proof.
  intros dbytes rlen _ _. unfold go_del_bytes, go_add, go_conv.
  rewrite wrap_U32_N, <- N2Z.inj_add, wrap_U32_N. reflexivity.
Qed.

(* pickForCompaction skips a segment as too small exactly when DB.pick_rev does
   (uint32(seg.size): the size modulo 2^32) *)
Theorem pick_too_small_ok : forall size minseg : N, (size < 2 ^ 63)%N -> (minseg < 2 ^ 32)%N ->
  go_pick_too_small (Z.of_N size) (Z.of_N minseg) = (u32 size <? minseg)%N.
Proof.
  intros size minseg _ _. unfold go_pick_too_small, go_conv, go_ltb.
  rewrite wrap_U32_N. apply ltb_NZ.
Qed.

(* writeRecord counts the record it appended exactly as DB.count_rec does (recordTypePut = 0,
   recordTypeDelete = 1; counters modulo 2^32) *)
Theorem count_rec_ok : forall (isdel : bool) (puts dels : N), (puts < 2 ^ 32)%N -> (dels < 2 ^ 32)%N ->
  go_count_rec (if isdel then 1 else 0) (Z.of_N puts) (Z.of_N dels)
  = (Z.of_N (if isdel then puts else u32 (puts + 1)), Z.of_N (if isdel then u32 (dels + 1) else dels)).
Proof.
  intros isdel puts dels _ _. unfold go_count_rec, go_eqb, go_add.
  destruct isdel; cbn [Z.eqb Pos.eqb]; rewrite <- (N2Z.inj_add _ 1), wrap_U32_N; reflexivity.
Qed.

(* recovery rebuilds the counters of a segment as DB.replay_rec does: a put record counts one put;
   a delete record counts one delete record and its own length as dead bytes -- unconditionally *)
Theorem recover_counters_ok : forall puts dels dbytes rlen : N,
  (puts < 2 ^ 32)%N -> (dels < 2 ^ 32)%N -> (dbytes < 2 ^ 32)%N -> (rlen < 2 ^ 62)%N ->
  go_recover_put (Z.of_N puts) = Z.of_N (u32 (puts + 1)) /\
  go_recover_del (Z.of_N dels) (Z.of_N dbytes) (Z.of_N rlen)
  = (Z.of_N (u32 (dels + 1)), Z.of_N (u32 (dbytes + u32 rlen))).
Proof.
  intros puts dels dbytes rlen _ _ _ _. unfold go_recover_put, go_recover_del, go_add, go_conv.
  rewrite wrap_U32_N, <- !(N2Z.inj_add _ 1), <- N2Z.inj_add, !wrap_U32_N. split; reflexivity.
Qed.
