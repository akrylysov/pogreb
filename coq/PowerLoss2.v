(* PowerLoss2.v -- C06 "synced writes survive power loss through rollover, compaction AND RECOVERY", and C09
   "power failure during Close", for the database model (DB.v) with the flat reference index.  Extends
   PowerLoss.v (power-loss model [pl], discipline automaton [dur], reduction [pl_reduce], C06 for histories
   of one process) to histories of SEVERAL EPOCHS: between the sync point and the power failure there may be
   process crashes (in the middle of a step, also with a torn write, or between steps), recovering Opens
   (also recovery attempts that die themselves), Close followed by a clean Open.

   FINDING.  The property HOLDS for the code as it is now (with fix D13: recovery makes the newest segment the
   current one).  The strict automaton of PowerLoss.v rejects the events of a recovering Open only because
   they change the *.bac names while the newest segment file may be unflushed; nothing is lost there.  What
   makes the proof go through, and would break it otherwise:
     - at a process crash the only segment file with pending data is the current, unsealed one, which is the
       NEWEST by sequence id ([seq_order] of the invariant; the rollover flushes the sealed one);
     - a recovering Open writes (header of an empty file, truncation of a stuck tail) only to DIRTY segment
       files, and only the newest one can be dirty after a crash ([xstep_wtr], [open_wtr_y]);
     - after the recovery the newest segment is the current one and writable (D13; [recover_swap_none] shows
       that swapSegment then creates no new file while old data is unflushed), so the next epoch keeps writing
       to the one unflushed file, Sync flushes it, and the rollover seals (flushes) it first.
   No counterexample was found; none exists within this model (the theorems are unconditional).

   HOW.  [dur2]: the automaton of PowerLoss.v with "quiet" weakened to "does not touch a segment file proper"
   (renames / removals of non-segment files, the lock file and the *.bac names no longer require that nothing is
   pending); the reduction then holds with [same_log] (the segment files proper) in the place of [Same]; lock
   file and *.bac names of an image always equal those of the real disk ([pl_agree]).  Histories are lists of
   chunks: [CE es] events, [CT id seq r c] the partial write a dying process left; [plh] is [pl] on them.
   [Jd y d u] / [Neat u d]: only segment file y can be dirty, none is newer than y, the unflushed segment file
   exists and is the newest; a recovering Open on such a directory is accepted by the automaton ([open_dur2],
   every prefix of it too), and every crash image of a step is such a directory ([crash_trans]).
   [mrun P cf mh K cf']: histories of epochs  MOps os (acknowledged steps: xrun) | MCrash o (step o in flight,
   cut anywhere, then recovery attempts [rrun]) | MKill (killed between steps, or in the middle of Close before
   the lock file is removed; recovery attempts) | MClose (Close, clean Open).  [mrun_main] ([hist_ok]):
   invariants kept, the automaton accepts, every process-crash image of the whole history is DiskOK with
   contents [after c mh]: c followed by a prefix of a linearisation [lin] of mh (the operation in flight at a
   crash counted or not).  It is put together ([hist_cons]) from what one epoch guarantees, [step_main], which
   also says at which cuts of the epoch the lock file exists.
   NOT COVERED HERE (PowerLoss3.v does both)
      - one statement for "any instant": an instant of a history of epochs is covered by C06_with_recovery if
        the lock file exists there and by C09_reopen_epochs if it is the instant after a complete Close;
      - a PROCESS crash in the middle of a CLEAN Open as an epoch boundary.
   The model's abstractions (directory operations durable and ordered, per-file prefix semantics, content of
   *.bac and overflow.pix not modelled; no concurrency finer than the micro-steps of xstep) are those of
   PowerLoss.v. *)
From Coq Require Import ZArith Lia ZifyN ZifyNat ZifyBool Permutation Sorted.
From Pogreb Require Import Base BaseLemmas Crc Bytes Record RecordProofs Flat Spec DB DBInv DBLemmas
  DBProofsOps DBMeta DBProofsRecovery DBProofsCompact DBProofsCrash PowerLoss.
Ltac Zify.zify_post_hook ::= Z.div_mod_to_equations.

Local Notation disk := (@DB.disk flat).
Local Notation st := (@DB.st flat).
Local Notation mem := (@DB.mem flat).
Local Notation fsev := (@DB.fsev flat).
Local Notation run_evs := (fold_left (apply_ev flat_ops)).

Definition quiet2 (e : fsev) : bool := negb (touches_log e).

(* [dur_step] of PowerLoss.v with [quiet] replaced by [quiet2]: renames of non-segment files, *.bac
   names and the lock file may change while a segment file is unflushed *)
Definition dur2_step (u : option (N * N)) (e : fsev) : option (option (N * N)) :=
  match seg_data e with
  | Some x => match u with
              | None => Some (Some x)
              | Some y => if pair_eqb x y then Some (Some x) else None
              end
  | None =>
    match e with
    | ESync (FSeg i q) => Some (match u with
                                | Some y => if pair_eqb (i, q) y then None else u
                                | None => None
                                end)
    | _ => if quiet2 e then Some u else match u with None => Some None | Some _ => None end
    end
  end.

Fixpoint dur2 (u : option (N * N)) (es : list fsev) : option (option (N * N)) :=
  match es with
  | [] => Some u
  | e :: es' => match dur2_step u e with Some u' => dur2 u' es' | None => None end
  end.

Lemma dur2_app es1 : forall u es2,
  dur2 u (es1 ++ es2) = match dur2 u es1 with Some u1 => dur2 u1 es2 | None => None end.
Proof.
  induction es1 as [|e es1 IH]; intros u es2; [reflexivity|]. cbn [app dur2].
  destruct (dur2_step u e) as [u1|]; [apply IH|reflexivity].
Qed.

Lemma dur2_prefix es1 es2 u : dur2 u (es1 ++ es2) <> None -> dur2 u es1 <> None.
Proof. rewrite dur2_app. destruct (dur2 u es1); [discriminate|auto]. Qed.

Lemma dur2_cat u es1 es2 u1 u2 : dur2 u es1 = Some u1 -> dur2 u1 es2 = Some u2 -> dur2 u (es1 ++ es2) = Some u2.
Proof. intros H1 H2. rewrite dur2_app, H1. exact H2. Qed.

Lemma quiet2_nolog e : quiet2 e = true -> touches_log e = false.
Proof. apply negb_true_iff. Qed.

Lemma quiet_quiet2 e : quiet e = true -> quiet2 e = true.
Proof. intros H. unfold quiet2. rewrite (quiet_nolog e H). reflexivity. Qed.

Lemma dur_dur2 es : forall u u', dur u es = Some u' -> dur2 u es = Some u'.
Proof. exact (gdur_mono quiet quiet2 quiet_quiet2 es). Qed.

Lemma quiet2_same_log (d : disk) e : quiet2 e = true -> same_log d (apply_ev flat_ops d e).
Proof. intros H. apply apply_ev_same_log. apply quiet2_nolog. exact H. Qed.

Lemma data_nonseg_quiet2 e f : data_file e = Some f -> seg_data e = None -> quiet2 e = true.
Proof. intros H1 H2. apply quiet_quiet2. eapply data_nonseg_quiet; eassumption. Qed.

(* [dur2_step] / [dur2] are [gdur_step quiet2] / [gdur quiet2] of PowerLoss.v: what is proved there once for
   both automata, here with [same_log] as what an image keeps in common with a process-crash image *)
Lemma pl_dur2 L img es L' img' :
  pl L img es L' img' -> forall u u',
  dur2 u es = Some u' -> (forall i q, L (FSeg i q) = true -> u = Some (i, q)) ->
  forall i q, L' (FSeg i q) = true -> u' = Some (i, q).
Proof. exact (pl_gdur quiet2 data_nonseg_quiet2 (fun _ => eq_refl) L img es L' img'). Qed.

Lemma frozen2 L img es L' img' :
  pl L img es L' img' -> forall x, L (FSeg (fst x) (snd x)) = true -> dur2 (Some x) es <> None ->
  same_log img img' /\ L' (FSeg (fst x) (snd x)) = true /\ dur2 (Some x) es = Some (Some x).
Proof.
  exact (gfrozen quiet2 same_log quiet2_nolog data_nonseg_quiet2 (fun _ => eq_refl) same_log_refl same_log_trans
           quiet2_same_log L img es L' img').
Qed.

(* THE REDUCTION, generalised.  Under the discipline [dur2] a power-loss image of a history is either
   complete on every segment file, or its segment files are those of a process-crash image of the same
   history (the crash taken at the first lost write to a segment file). *)
Theorem pl_reduce2 L img es L' img' :
  pl L img es L' img' -> forall d u, seg_clean L -> Agree L d img -> dur2 u es <> None ->
  (seg_clean L' /\ Agree L' (run_evs es d) img') \/
  (exists cimg x, crash_image d es cimg /\ same_log cimg img' /\ L' (FSeg (fst x) (snd x)) = true /\
                  dur2 u es = Some (Some x)).
Proof.
  exact (pl_greduce quiet2 same_log quiet2_nolog data_nonseg_quiet2 (fun _ => eq_refl) same_log_refl same_log_trans
           quiet2_same_log same_log_torn Agree_same_log L img es L' img').
Qed.

(* A history is a list of chunks: [CE es] -- the events [es] were issued; [CT id seq r c] -- a process
   died in the middle of the write of record [r] at the end of segment file (id, seq), after the first
   [c] bytes had been handed to the file system (0 < c < rsize r): a pending write like any other. *)
Inductive chunk := CE (es : list fsev) | CT (id seq : N) (r : rec) (c : N).

Definition hstep (d : disk) (k : chunk) : disk :=
  match k with CE es => run_evs es d | CT id seq r c => torn d id seq r c end.
Definition hrun (H : list chunk) (d : disk) : disk := fold_left hstep H d.

Lemma hrun_app H1 H2 (d : disk) : hrun (H1 ++ H2) d = hrun H2 (hrun H1 d).
Proof. apply fold_left_app. Qed.

(* the power-loss model on chunked histories: [pl] on the events; the partial write of a dying process
   reaches the disk entirely (its c bytes), not at all, or only its first c' < c bytes *)
Inductive plh : fset -> disk -> list chunk -> fset -> disk -> Prop :=
| plh_nil L d : plh L d [] L d
| plh_evs L d es L1 d1 H L' img' : pl L d es L1 d1 -> plh L1 d1 H L' img' -> plh L d (CE es :: H) L' img'
| plh_tkeep L d id seq r c H L' img' :
    L (FSeg id seq) = false -> plh L (torn d id seq r c) H L' img' -> plh L d (CT id seq r c :: H) L' img'
| plh_tdrop L d id seq r c H L' img' :
    plh (fadd (FSeg id seq) L) d H L' img' -> plh L d (CT id seq r c :: H) L' img'
| plh_ttear L d id seq r c c' H L' img' :
    L (FSeg id seq) = false -> 0 < c' -> c' < c ->
    plh (fadd (FSeg id seq) L) (torn d id seq r c') H L' img' -> plh L d (CT id seq r c :: H) L' img'.

Lemma plh_app_inv H1 : forall L d H2 L' img',
  plh L d (H1 ++ H2) L' img' -> exists L1 d1, plh L d H1 L1 d1 /\ plh L1 d1 H2 L' img'.
Proof.
  induction H1 as [|k H1 IH]; intros L d H2 L' img' Hp.
  - exists L, d. split; [apply plh_nil|exact Hp].
  - rewrite <- app_comm_cons in Hp.
    inversion Hp as [|L0 d0 es L1 d1 H0 L0' img0 A B|L0 d0 id seq r c H0 L0' img0 A B|L0 d0 id seq r c H0 L0' img0 B
                     |L0 d0 id seq r c c' H0 L0' img0 A A1 A2 B]; subst.
    + destruct (IH _ _ _ _ _ B) as (L2 & d2 & X & Y). exists L2, d2. split; [eapply plh_evs; eassumption|exact Y].
    + destruct (IH _ _ _ _ _ B) as (L2 & d2 & X & Y). exists L2, d2. split; [apply plh_tkeep; assumption|exact Y].
    + destruct (IH _ _ _ _ _ B) as (L2 & d2 & X & Y). exists L2, d2. split; [apply plh_tdrop; assumption|exact Y].
    + destruct (IH _ _ _ _ _ B) as (L2 & d2 & X & Y). exists L2, d2. split; [apply (plh_ttear _ _ _ _ _ _ c'); assumption|exact Y].
Qed.

Lemma plh_app K1 : forall L d K2 L1 d1 L' img',
  plh L d K1 L1 d1 -> plh L1 d1 K2 L' img' -> plh L d (K1 ++ K2) L' img'.
Proof.
  intros L d K2 L1 d1 L' img' Hp. revert K2 L' img'.
  induction Hp as [L d|L d es L1 d1 K L' img' Hpl Hrest IH|L d id seq r c K L' img' HLf Hrest IH|L d id seq r c K L' img' Hrest IH|L d id seq r c c' K L' img' HLf Hc0 Hc1 Hrest IH]; intros K2 L'' img'' Hq; cbn [app].
  - exact Hq.
  - eapply plh_evs; [exact Hpl|]. apply IH. exact Hq.
  - apply plh_tkeep; [exact HLf|]. apply IH. exact Hq.
  - apply plh_tdrop. apply IH. exact Hq.
  - apply (plh_ttear _ _ _ _ _ _ c'); try assumption. apply IH. exact Hq.
Qed.

Lemma plh_one L d es L' img' : pl L d es L' img' -> plh L d [CE es] L' img'.
Proof. intros Hp. eapply plh_evs; [exact Hp|apply plh_nil]. Qed.

Lemma plh_one_inv L d es L' img' : plh L d [CE es] L' img' -> pl L d es L' img'.
Proof. intros Hp. inversion Hp as [|L0 d0 es0 L1 d1 H0 L0' img0 A B| | |]; subst. inversion B; subst. exact A. Qed.

Lemma agree_tkeep L (d img : disk) id seq r c :
  Agree L d img -> L (FSeg id seq) = false -> Agree L (torn d id seq r c) (torn img id seq r c).
Proof.
  intros (A1 & A2 & A3 & A4 & A5 & A6 & A7) HL. unfold Agree, torn; dproj. split; [|repeat split; auto].
  apply (core_both L id seq _ _ _ (core_fun_torn r c)); assumption.
Qed.

Lemma agree_tdrop L (d img : disk) id seq r c :
  Agree L d img -> Agree (fadd (FSeg id seq) L) (torn d id seq r c) img.
Proof.
  intros (A1 & A2 & A3 & A4 & A5 & A6 & A7).
  assert (Hw : forall g, fadd (FSeg id seq) L g = false -> L g = false) by (intros g; apply fadd_false).
  unfold Agree, torn; dproj. split; [|repeat split; auto].
  apply (core_left L id seq); [intros s; repeat split|exact A1].
Qed.

Lemma agree_ttear L (d img : disk) id seq r c c' :
  Agree L d img -> Agree (fadd (FSeg id seq) L) (torn d id seq r c) (torn img id seq r c').
Proof.
  intros HA. pose proof (agree_tdrop L d img id seq r c HA) as (A1 & A2 & A3 & A4 & A5 & A6 & A7).
  unfold Agree. unfold torn at 2; dproj. split; [|repeat split; auto].
  apply (upd_right (fadd (FSeg id seq) L) _ id seq); [exact A1| |auto].
  intros f f' (B1 & B2 & B3 & B4) Hs. destruct (is_seg_true _ _ _ Hs) as [Ei Eq].
  split; [exact B1|]. split; [exact B2|]. split; [|exact B4].
  rewrite Ei, Eq, fadd_same. discriminate.
Qed.

Theorem plh_agree L img H L' img' :
  plh L img H L' img' -> forall d, Agree L d img -> Agree L' (hrun H d) img'.
Proof.
  intros Hp. induction Hp as [L d|L d es L1 d1 K L' img' Hpl Hrest IH|L d id seq r c K L' img' HLf Hrest IH|L d id seq r c K L' img' Hrest IH|L d id seq r c c' K L' img' HLf Hc0 Hc1 Hrest IH]; intros d0 HA; cbn [hrun fold_left hstep].
  - exact HA.
  - apply IH. eapply pl_agree; eassumption.
  - apply IH. apply agree_tkeep; assumption.
  - apply IH. apply agree_tdrop. exact HA.
  - apply IH. apply agree_ttear. exact HA.
Qed.

Definition dur2_data (u : option (N * N)) (x : N * N) : option (option (N * N)) :=
  match u with None => Some (Some x) | Some y => if pair_eqb x y then Some (Some x) else None end.

Definition hdur2_step (u : option (N * N)) (k : chunk) : option (option (N * N)) :=
  match k with CE es => dur2 u es | CT id seq _ _ => dur2_data u (id, seq) end.

Fixpoint hdur2 (u : option (N * N)) (H : list chunk) : option (option (N * N)) :=
  match H with
  | [] => Some u
  | k :: H' => match hdur2_step u k with Some u' => hdur2 u' H' | None => None end
  end.

Lemma hdur2_app H1 : forall u H2,
  hdur2 u (H1 ++ H2) = match hdur2 u H1 with Some u1 => hdur2 u1 H2 | None => None end.
Proof.
  induction H1 as [|k H1 IH]; intros u H2; [reflexivity|]. cbn [app hdur2].
  destruct (hdur2_step u k) as [u1|]; [apply IH|reflexivity].
Qed.

Lemma hdur2_cat u H1 H2 u1 u2 : hdur2 u H1 = Some u1 -> hdur2 u1 H2 = Some u2 -> hdur2 u (H1 ++ H2) = Some u2.
Proof. intros A B. rewrite hdur2_app, A. exact B. Qed.

Lemma dur2_data_inv u x u' : dur2_data u x = Some u' -> u' = Some x /\ (u = None \/ u = Some x).
Proof.
  unfold dur2_data. destruct u as [y|]; [|intros E; inversion E; auto].
  destruct (pair_eqb x y) eqn:Ex; [|discriminate]. apply pair_eqb_eq in Ex. subst y. intros E; inversion E; auto.
Qed.

Lemma plh_dur2 L img H L' img' :
  plh L img H L' img' -> forall u u',
  hdur2 u H = Some u' -> (forall i q, L (FSeg i q) = true -> u = Some (i, q)) ->
  forall i q, L' (FSeg i q) = true -> u' = Some (i, q).
Proof.
  intros Hp. induction Hp as [L d|L d es L1 d1 K L' img' Hpl Hrest IH|L d id seq r c K L' img' HLf Hrest IH|L d id seq r c K L' img' Hrest IH|L d id seq r c c' K L' img' HLf Hc0 Hc1 Hrest IH]; intros u u' Hd HL; cbn [hdur2 hdur2_step] in Hd.
  - inversion Hd; subst. exact HL.
  - destruct (dur2 u es) as [u1|] eqn:E1; [|discriminate]. apply (IH u1 u' Hd).
    apply (pl_dur2 _ _ _ _ _ Hpl u u1 E1 HL).
  - destruct (dur2_data u (id, seq)) as [u1|] eqn:E1; [|discriminate]. apply (IH u1 u' Hd).
    destruct (dur2_data_inv _ _ _ E1) as [-> Hu]. intros i q Hl. pose proof (HL i q Hl) as Eu.
    destruct Hu as [Hu|Hu]; rewrite Hu in Eu; [discriminate|]. inversion Eu; subst. congruence.
  - destruct (dur2_data u (id, seq)) as [u1|] eqn:E1; [|discriminate]. apply (IH u1 u' Hd).
    destruct (dur2_data_inv _ _ _ E1) as [-> Hu]. intros i q Hl. apply fadd_true in Hl. destruct Hl as [E|Hl].
    + inversion E; reflexivity.
    + pose proof (HL i q Hl) as Eu. destruct Hu as [Hu|Hu]; rewrite Hu in Eu; [discriminate|]. inversion Eu; reflexivity.
  - destruct (dur2_data u (id, seq)) as [u1|] eqn:E1; [|discriminate]. apply (IH u1 u' Hd).
    destruct (dur2_data_inv _ _ _ E1) as [-> Hu]. intros i q Hl. apply fadd_true in Hl. destruct Hl as [E|Hl].
    + inversion E; reflexivity.
    + pose proof (HL i q Hl) as Eu. destruct Hu as [Hu|Hu]; rewrite Hu in Eu; [discriminate|]. inversion Eu; reflexivity.
Qed.

(* nothing is pending on any segment file where the automaton ends with none unflushed *)
Lemma plh_clean (d : disk) K L img : plh fnone d K L img -> hdur2 None K = Some None -> seg_clean L.
Proof.
  intros Hp Hd i q. destruct (L (FSeg i q)) eqn:E; [|reflexivity].
  discriminate (plh_dur2 _ _ _ _ _ Hp None None Hd (fun _ _ H => False_ind _ (diff_false_true H)) i q E).
Qed.

Lemma hfrozen L img H L' img' :
  plh L img H L' img' -> forall x, L (FSeg (fst x) (snd x)) = true -> hdur2 (Some x) H <> None ->
  same_log img img' /\ L' (FSeg (fst x) (snd x)) = true.
Proof.
  intros Hp. induction Hp as [L d|L d es L1 d1 K L' img' Hpl Hrest IH|L d id seq r c K L' img' HLf Hrest IH|L d id seq r c K L' img' Hrest IH|L d id seq r c c' K L' img' HLf Hc0 Hc1 Hrest IH]; intros x HL Hd; cbn [hdur2 hdur2_step] in Hd.
  - split; [apply same_log_refl|exact HL].
  - destruct (dur2 (Some x) es) as [u1|] eqn:E1; [|congruence].
    destruct (frozen2 _ _ _ _ _ Hpl x HL) as (S1 & S2 & S3); [rewrite E1; discriminate|].
    rewrite S3 in E1. inversion E1; subst u1. destruct (IH x S2 Hd) as [T1 T2].
    split; [eapply same_log_trans; eassumption|exact T2].
  - exfalso. destruct (dur2_data (Some x) (id, seq)) as [u1|] eqn:E1; [|congruence].
    destruct (dur2_data_inv _ _ _ E1) as [_ [Hu|Hu]]; [discriminate|]. inversion Hu; subst x. cbn [fst snd] in HL. congruence.
  - destruct (dur2_data (Some x) (id, seq)) as [u1|] eqn:E1; [|congruence].
    destruct (dur2_data_inv _ _ _ E1) as [-> [Hu|Hu]]; [discriminate|]. inversion Hu; subst x.
    apply (IH (id, seq)); [apply fadd_same|exact Hd].
  - exfalso. destruct (dur2_data (Some x) (id, seq)) as [u1|] eqn:E1; [|congruence].
    destruct (dur2_data_inv _ _ _ E1) as [_ [Hu|Hu]]; [discriminate|]. inversion Hu; subst x. cbn [fst snd] in HL. congruence.
Qed.

(* process-crash images of a chunked history: the crash may strike inside any chunk of events; where a
   process died in the middle of a write, any non-empty prefix of the bytes it wrote may be there *)
Inductive hcrash : disk -> list chunk -> disk -> Prop :=
| hc_here d H : hcrash d H d
| hc_in d es H cimg : crash_image d es cimg -> hcrash d (CE es :: H) cimg
| hc_evs d es H cimg : hcrash (run_evs es d) H cimg -> hcrash d (CE es :: H) cimg
| hc_torn d id seq r c c' H : 0 < c' -> c' <= c -> hcrash d (CT id seq r c :: H) (torn d id seq r c')
| hc_tnext d id seq r c H cimg : hcrash (torn d id seq r c) H cimg -> hcrash d (CT id seq r c :: H) cimg.

Lemma hcrash_app_l K1 K2 : forall d cimg, hcrash d K1 cimg -> hcrash d (K1 ++ K2) cimg.
Proof.
  intros d cimg Hc. induction Hc as [d K|d es K cimg Hci|d es K cimg Hc IH|d id seq r c c' K Hc0 Hc1|d id seq r c K cimg Hc IH]; cbn [app].
  - apply hc_here.
  - apply hc_in. exact Hci.
  - apply hc_evs. exact IH.
  - apply hc_torn; assumption.
  - apply hc_tnext. exact IH.
Qed.

Lemma hcrash_app_r H1 : forall H2 d cimg, hcrash (hrun H1 d) H2 cimg -> hcrash d (H1 ++ H2) cimg.
Proof.
  induction H1 as [|k H1 IH]; intros H2 d cimg Hc; [exact Hc|]. cbn [app]. cbn [hrun fold_left] in Hc.
  destruct k as [es|id seq r c]; [apply hc_evs|apply hc_tnext]; apply IH; exact Hc.
Qed.

Lemma hcrash_full K (d : disk) : hcrash d K (hrun K d).
Proof. rewrite <- (app_nil_r K) at 1. apply hcrash_app_r. apply hc_here. Qed.

Theorem plh_reduce L img H L' img' :
  plh L img H L' img' -> forall d u, seg_clean L -> Agree L d img -> hdur2 u H <> None ->
  (seg_clean L' /\ Agree L' (hrun H d) img') \/
  (exists cimg x, hcrash d H cimg /\ same_log cimg img' /\ L' (FSeg (fst x) (snd x)) = true).
Proof.
  intros Hp. induction Hp as [L d|L d es L1 d1 K L' img' Hpl Hrest IH|L d id seq r c K L' img' HLf Hrest IH|L d id seq r c K L' img' Hrest IH|L d id seq r c c' K L' img' HLf Hc0 Hc1 Hrest IH]; intros d0 u HL HA Hd; cbn [hdur2 hdur2_step hrun fold_left hstep] in *.
  - left. split; assumption.
  - destruct (dur2 u es) as [u1|] eqn:E1; [|congruence].
    destruct (pl_reduce2 _ _ _ _ _ Hpl d0 u HL HA) as [[HL1 HA1]|(cimg & x & C1 & C2 & C3 & C4)]; [rewrite E1; discriminate| |].
    + destruct (IH (run_evs es d0) u1 HL1 HA1 Hd) as [Hl|(cimg & x & C1 & C2 & C3)]; [left; exact Hl|].
      right. exists cimg, x. split; [apply hc_evs; exact C1|split; assumption].
    + rewrite E1 in C4. inversion C4; subst u1. destruct (hfrozen _ _ _ _ _ Hrest x C3 Hd) as [T1 T2].
      right. exists cimg, x. split; [apply hc_in; exact C1|]. split; [eapply same_log_trans; eassumption|exact T2].
  - destruct (dur2_data u (id, seq)) as [u1|] eqn:E1; [|congruence].
    destruct (IH (torn d0 id seq r c) u1 HL (agree_tkeep _ _ _ _ _ _ _ HA HLf) Hd) as [Hl|(cimg & x & C1 & C2 & C3)]; [left; exact Hl|].
    right. exists cimg, x. split; [apply hc_tnext; exact C1|split; assumption].
  - destruct (dur2_data u (id, seq)) as [u1|] eqn:E1; [|congruence].
    destruct (dur2_data_inv _ _ _ E1) as [-> _].
    destruct (hfrozen _ _ _ _ _ Hrest (id, seq) (fadd_same _ _) Hd) as [T1 T2].
    right. exists d0, (id, seq). split; [apply hc_here|]. split; [|exact T2].
    eapply same_log_trans; [apply (Agree_same_log L); eassumption|exact T1].
  - destruct (dur2_data u (id, seq)) as [u1|] eqn:E1; [|congruence].
    destruct (dur2_data_inv _ _ _ E1) as [-> _].
    destruct (hfrozen _ _ _ _ _ Hrest (id, seq) (fadd_same _ _) Hd) as [T1 T2].
    right. exists (torn d0 id seq r c'), (id, seq). split; [apply hc_torn; [assumption|apply N.lt_le_incl; assumption]|].
    split; [|exact T2].
    eapply same_log_trans; [apply same_log_torn; apply (Agree_same_log L); eassumption|exact T1].
Qed.

(* in both cases: the segment files of a crash image of the history *)
Corollary plh_crash_image L img H L' img' d u :
  plh L img H L' img' -> seg_clean L -> Agree L d img -> hdur2 u H <> None ->
  exists cimg, hcrash d H cimg /\ same_log cimg img'.
Proof.
  intros Hp HL HA Hd. destruct (plh_reduce _ _ _ _ _ Hp d u HL HA Hd) as [[HL' HA']|(cimg & x & C1 & C2 & _)].
  - exists (hrun H d). split; [apply hcrash_full|apply (Agree_same_log L'); assumption].
  - exists cimg. split; assumption.
Qed.

Inductive hch := HC (cs : list plc) | HKeep | HDrop | HTear (c' : N).

Fixpoint plh_exec (hs : list hch) (L : fset) (d : disk) (H : list chunk) : option (fset * disk) :=
  match hs, H with
  | [], [] => Some (L, d)
  | HC cs :: hs', CE es :: H' =>
      match pl_exec cs L d es with Some (L1, d1) => plh_exec hs' L1 d1 H' | None => None end
  | HKeep :: hs', CT id seq r c :: H' =>
      if L (FSeg id seq) then None else plh_exec hs' L (torn d id seq r c) H'
  | HDrop :: hs', CT id seq r c :: H' => plh_exec hs' (fadd (FSeg id seq) L) d H'
  | HTear c' :: hs', CT id seq r c :: H' =>
      if L (FSeg id seq) then None
      else if negb ((0 <? c') && (c' <? c)) then None
      else plh_exec hs' (fadd (FSeg id seq) L) (torn d id seq r c') H'
  | _, _ => None
  end.

Lemma plh_exec_sound hs : forall L d H L' img',
  plh_exec hs L d H = Some (L', img') -> plh L d H L' img'.
Proof.
  induction hs as [|h hs IH]; intros L d H L' img' E.
  - destruct H; [|discriminate E]. cbn [plh_exec] in E. inversion E; subst. apply plh_nil.
  - destruct h as [cs| | |c']; destruct H as [|[es|id seq r c] H]; try discriminate E; cbn [plh_exec] in E.
    + destruct (pl_exec cs L d es) as [[L1 d1]|] eqn:E1; [|discriminate].
      eapply plh_evs; [apply (pl_exec_sound cs); exact E1|apply IH; exact E].
    + destruct (L (FSeg id seq)) eqn:El; [discriminate|]. apply plh_tkeep; [exact El|apply IH; exact E].
    + apply plh_tdrop. apply IH. exact E.
    + destruct (L (FSeg id seq)) eqn:El; [discriminate|].
      destruct ((0 <? c') && (c' <? c)) eqn:Ec; [|discriminate]. cbn [negb] in E.
      apply andb_true_iff in Ec. destruct Ec as [A B].
      apply (plh_ttear _ _ _ _ _ _ c'); [exact El|apply N.ltb_lt; exact A|apply N.ltb_lt; exact B|apply IH; exact E].
Qed.
Lemma hexec_image hs L (d : disk) H : is_some (plh_exec hs L d H) = true ->
  exists L', plh L d H L' (img_of (plh_exec hs L d H)).
Proof.
  intros E. destruct (plh_exec hs L d H) as [[L' img]|] eqn:E'; [|discriminate E].
  exists L'. apply (plh_exec_sound hs). exact E'.
Qed.

Definition fpair (f : dseg) : N * N := (f_id f, f_seq f).
(* a segment file that a recovery writes to: no header yet, or a (stuck) tail to cut *)
Definition dirty (f : dseg) : Prop := f_hdr f = false \/ f_tail f <> [].
Definition Qd (y : N * N) (d : disk) : Prop := forall f, In f (d_segs d) -> dirty f -> fpair f = y.
Definition bound (y : N * N) (d : disk) : Prop := forall f, In f (d_segs d) -> f_seq f <= snd y.
Definition present (x : N * N) (d : disk) : Prop := exists f, In f (d_segs d) /\ fpair f = x.

(* [Jd y d u]: only the segment file y can be dirty, no segment file is newer than y, and the segment
   file the automaton knows as unflushed exists and is the newest one *)
Definition Jd (y : N * N) (d : disk) (u : option (N * N)) : Prop :=
  Qd y d /\ bound y d /\ forall x, u = Some x -> present x d /\ bound x d.
Definition Neat (u : option (N * N)) (d : disk) : Prop := exists y, Jd y d u.

Definition allclean (d : disk) : Prop := forall f, In f (d_segs d) -> f_hdr f = true /\ f_tail f = [].

Lemma same_log_back (d d' : disk) f' : same_log d d' -> In f' (d_segs d') ->
  exists f, In f (d_segs d) /\ seg_core f' = seg_core f.
Proof.
  intros H Hf. destruct (same_log_In d' d f' (same_log_sym _ _ H) Hf) as (f & Hin & E). exists f. split; [exact Hin|symmetry; exact E].
Qed.

Lemma Qd_same_log y (d d' : disk) : same_log d d' -> Qd y d -> Qd y d'.
Proof.
  intros H HQ f' Hf' Hd. destruct (same_log_back d d' f' H Hf') as (f & Hf & E). apply seg_core_inv in E.
  destruct E as (E1 & E2 & E3 & _ & E5 & _). unfold fpair. rewrite E1, E2. apply (HQ f Hf).
  unfold dirty in *. rewrite <- E3, <- E5. exact Hd.
Qed.
Lemma bound_same_log y (d d' : disk) : same_log d d' -> bound y d -> bound y d'.
Proof.
  intros H HB f' Hf'. destruct (same_log_back d d' f' H Hf') as (f & Hf & E). apply seg_core_inv in E.
  destruct E as (_ & E2 & _). rewrite E2. apply (HB f Hf).
Qed.
Lemma present_same_log x (d d' : disk) : same_log d d' -> present x d -> present x d'.
Proof.
  intros H (f & Hf & E). destruct (same_log_In d d' f H Hf) as (f' & Hf' & E'). apply seg_core_inv in E'.
  destruct E' as (E1 & E2 & _). exists f'. split; [exact Hf'|]. unfold fpair in *. congruence.
Qed.
Lemma Jd_same_log y (d d' : disk) u : same_log d d' -> Jd y d u -> Jd y d' u.
Proof.
  intros H (A & B & C). split; [eapply Qd_same_log; eassumption|]. split; [eapply bound_same_log; eassumption|].
  intros x Ex. destruct (C x Ex) as [C1 C2]. split; [eapply present_same_log; eassumption|eapply bound_same_log; eassumption].
Qed.
Lemma Neat_same_log (d d' : disk) u : same_log d d' -> Neat u d -> Neat u d'.
Proof. intros H (y & HJ). exists y. eapply Jd_same_log; eassumption. Qed.

Definition keeps_ids (g : dseg -> dseg) : Prop := forall s, f_id (g s) = f_id s /\ f_seq (g s) = f_seq s.

Lemma upd_In i q g (d : disk) f' : In f' (d_segs (upd_seg i q g d)) ->
  exists f, In f (d_segs d) /\ ((is_seg i q f = true /\ f' = g f) \/ (is_seg i q f = false /\ f' = f)).
Proof.
  rewrite d_segs_upd_seg. intros H. apply in_map_iff in H. destruct H as (f & E & Hf). exists f. split; [exact Hf|].
  destruct (is_seg i q f); [left|right]; split; auto.
Qed.

Lemma upd_Qd i q g (d : disk) : keeps_ids g -> Qd (i, q) d -> Qd (i, q) (upd_seg i q g d).
Proof.
  intros Hg HQ f' Hf' Hd. destruct (upd_In _ _ _ _ _ Hf') as (f & Hf & [[Hs ->]|[Hs ->]]).
  - destruct (Hg f) as [a b]. destruct (is_seg_true _ _ _ Hs) as [Ei Eq]. unfold fpair. congruence.
  - apply (HQ f Hf Hd).
Qed.
Lemma upd_bound y i q g (d : disk) : keeps_ids g -> bound y d -> bound y (upd_seg i q g d).
Proof.
  intros Hg HB f' Hf'. destruct (upd_In _ _ _ _ _ Hf') as (f & Hf & [[Hs ->]|[Hs ->]]).
  - destruct (Hg f) as [_ b]. rewrite b. apply (HB f Hf).
  - apply (HB f Hf).
Qed.
Lemma upd_present x i q g (d : disk) : keeps_ids g -> present x d -> present x (upd_seg i q g d).
Proof.
  intros Hg (f & Hf & E). rewrite <- E. exists (if is_seg i q f then g f else f).
  split; [rewrite d_segs_upd_seg; apply (in_map (fun s => if is_seg i q s then g s else s)); exact Hf|].
  destruct (is_seg i q f); [|reflexivity]. destruct (Hg f) as [a b]. unfold fpair. congruence.
Qed.
Lemma upd_seqs i q g (d : disk) : keeps_ids g -> map f_seq (d_segs (upd_seg i q g d)) = map f_seq (d_segs d).
Proof.
  intros Hg. rewrite d_segs_upd_seg, map_map. apply map_ext. intros f. destruct (is_seg i q f); [apply Hg|reflexivity].
Qed.

(* an event that writes data to the segment file (i, q) is an update of that file *)
Lemma seg_data_upd e i q : seg_data e = Some (i, q) ->
  exists g, keeps_ids g /\ forall d : disk, apply_ev flat_ops d e = upd_seg i q g d.
Proof.
  destruct e as [f|f|id seq off r|j|id seq m|j|sd|f n|f g|f|f]; cbn [seg_data]; try discriminate.
  - destruct f; try discriminate. intros E. inversion E; subst. eexists. split; [|intros d; reflexivity].
    intros s. split; reflexivity.
  - intros E. inversion E; subst. exists (append_seg off r). split; [intros s; split; reflexivity|intros d; reflexivity].
  - destruct f; try discriminate. intros E. inversion E; subst. exists (trunc_seg n).
    split; [|intros d; reflexivity]. intros s. destruct (proj1 (core_fun_trunc n) s) as (a & b & _). split; assumption.
Qed.

Lemma torn_upd (d : disk) i q r c : exists g, keeps_ids g /\ torn d i q r c = upd_seg i q g d.
Proof. eexists. split; [|reflexivity]. intros s. split; reflexivity. Qed.

Lemma dur2_step_nolog u e : touches_log e = false -> exists u', dur2_step u e = Some u' /\ (u' = u \/ u' = None).
Proof.
  intros H. unfold dur2_step, quiet2. rewrite (touches_log_seg_data e H), H. cbn [negb].
  destruct e as [f|f|id seq off r|j|id seq m|j|sd|f n|f g|f|f]; try (exists u; split; [reflexivity|left; reflexivity]).
  destruct f; try (exists u; split; [reflexivity|left; reflexivity]).
  eexists. split; [reflexivity|]. destruct u as [y|]; [|right; reflexivity]. destruct (pair_eqb (id, seq) y); auto.
Qed.

Lemma dur2_step_data u e x : seg_data e = Some x -> dur2_step u e = dur2_data u x.
Proof. intros H. unfold dur2_step, dur2_data. rewrite H. reflexivity. Qed.

Lemma dur2_step_create u i q : dur2_step u (ECreate (FSeg i q)) = match u with None => Some None | Some _ => None end.
Proof. reflexivity. Qed.
Lemma dur2_step_remove u i q : dur2_step u (ERemove (FSeg i q)) = match u with None => Some None | Some _ => None end.
Proof. reflexivity. Qed.

(* lists of events that write to the segment file y only.  strict = true: a segment file is created only in a directory without segment files, none is removed
   (what a recovering Open does); strict = false: what the operations do *)
Inductive wtr (strict : bool) (y : N * N) : disk -> list fsev -> Prop :=
| wt_nil d : wtr strict y d []
| wt_quiet d e es : touches_log e = false -> wtr strict y (apply_ev flat_ops d e) es -> wtr strict y d (e :: es)
| wt_data d e es : seg_data e = Some y -> present y d -> wtr strict y (apply_ev flat_ops d e) es -> wtr strict y d (e :: es)
| wt_create d es : (strict = true -> d_segs d = []) ->
    wtr strict y (apply_ev flat_ops d (ECreate (FSeg (fst y) (snd y)))) es ->
    wtr strict y d (ECreate (FSeg (fst y) (snd y)) :: es)
| wt_remove d i q es : strict = false -> wtr strict y (apply_ev flat_ops d (ERemove (FSeg i q))) es ->
    wtr strict y d (ERemove (FSeg i q) :: es).

Lemma wtr_inv b y (d : disk) e es : wtr b y d (e :: es) ->
  wtr b y (apply_ev flat_ops d e) es /\
  (touches_log e = false \/ (seg_data e = Some y /\ present y d) \/
   (e = ECreate (FSeg (fst y) (snd y)) /\ (b = true -> d_segs d = [])) \/
   (b = false /\ exists i q, e = ERemove (FSeg i q))).
Proof.
  intros H. inversion H; subst; (split; [assumption|]).
  - left. assumption.
  - right. left. split; assumption.
  - right. right. left. split; [reflexivity|assumption].
  - right. right. right. split; [first [assumption|reflexivity]|]. eexists _, _. reflexivity.
Qed.

Lemma wtr_cons b y (d : disk) e es : wtr b y (apply_ev flat_ops d e) es ->
  (touches_log e = false \/ (seg_data e = Some y /\ present y d) \/
   (e = ECreate (FSeg (fst y) (snd y)) /\ (b = true -> d_segs d = [])) \/
   (b = false /\ exists i q, e = ERemove (FSeg i q))) -> wtr b y d (e :: es).
Proof.
  intros H [A|[[A A']|[[-> A]|[A (i & q & ->)]]]].
  - apply wt_quiet; assumption.
  - apply wt_data; assumption.
  - apply wt_create; assumption.
  - apply wt_remove; assumption.
Qed.

Lemma wtr_app b y es1 : forall d es2, wtr b y d es1 -> wtr b y (run_evs es1 d) es2 -> wtr b y d (es1 ++ es2).
Proof.
  induction es1 as [|e es1 IH]; intros d es2 H1 H2; [exact H2|]. cbn [app]. cbn [fold_left] in H2.
  destruct (wtr_inv _ _ _ _ _ H1) as [B K]. apply wtr_cons; [apply IH; assumption|exact K].
Qed.

Lemma wtr_app_inv b y es1 : forall d es2, wtr b y d (es1 ++ es2) -> wtr b y d es1 /\ wtr b y (run_evs es1 d) es2.
Proof.
  induction es1 as [|e es1 IH]; intros d es2 H; [split; [apply wt_nil|exact H]|]. cbn [app] in H. cbn [fold_left].
  destruct (wtr_inv _ _ _ _ _ H) as [B K]. destruct (IH _ _ B) as [X Y]. split; [apply wtr_cons; assumption|exact Y].
Qed.

Lemma wtr_nolog b y es : forall d, Forall (fun e => touches_log e = false) es -> wtr b y d es.
Proof.
  induction es as [|e es IH]; intros d H; [apply wt_nil|]. inversion H; subst. apply wt_quiet; [assumption|apply IH; assumption].
Qed.

Lemma neutral_nolog es : Forall neutral es -> Forall (fun e : fsev => touches_log e = false) es.
Proof. intros H. apply Forall_forall. intros e He. rewrite Forall_forall in H. apply (H e He). Qed.

Lemma syncs_nolog es : Forall is_sync es -> Forall (fun e : fsev => touches_log e = false) es.
Proof. intros H. apply Forall_forall. intros e He. rewrite Forall_forall in H. destruct (H e He) as (i & q & ->). reflexivity. Qed.

Lemma Jd_nolog y (d : disk) u e u' : touches_log e = false -> dur2_step u e = Some u' -> Jd y d u -> Jd y (apply_ev flat_ops d e) u'.
Proof.
  intros H Es HJ. destruct (dur2_step_nolog u e H) as (u1 & E1 & Hu). rewrite Es in E1. inversion E1; subst u1.
  apply (Jd_same_log y d); [apply apply_ev_same_log; exact H|].
  destruct HJ as (A & B & C). split; [exact A|]. split; [exact B|]. intros x Ex.
  destruct Hu as [->| ->]; [apply C; exact Ex|discriminate].
Qed.

Lemma Jd_data y (d : disk) u e u' : seg_data e = Some y -> present y d -> dur2_step u e = Some u' -> Jd y d u ->
  Jd y (apply_ev flat_ops d e) u' /\ u' = Some y /\ (u = None \/ u = Some y).
Proof.
  intros H Hp Es (A & B & C). rewrite (dur2_step_data u e y H) in Es. destruct (dur2_data_inv _ _ _ Es) as [-> Hu].
  split; [|split; [reflexivity|exact Hu]]. destruct y as [i q]. destruct (seg_data_upd e i q H) as (g & Hg & Eg). rewrite Eg.
  split; [apply upd_Qd; assumption|]. split; [apply upd_bound; assumption|].
  intros x Ex. inversion Ex; subst x. split; [apply upd_present; assumption|apply upd_bound; assumption].
Qed.

Lemma Jd_create y (d : disk) u u' : dur2_step u (ECreate (FSeg (fst y) (snd y))) = Some u' -> Jd y d u ->
  Jd y (apply_ev flat_ops d (ECreate (FSeg (fst y) (snd y)))) u' /\ u = None /\ u' = None.
Proof.
  rewrite dur2_step_create. destruct u as [x|]; [discriminate|]. intros E; inversion E; subst u'. intros (A & B & _).
  split; [|split; reflexivity]. split; [|split; [|intros x Ex; discriminate]].
  - intros f Hf Hd. rewrite d_segs_create_seg in Hf. apply in_app_or in Hf. destruct Hf as [Hf|[<-|[]]].
    + apply (A f Hf Hd).
    + destruct y; reflexivity.
  - intros f Hf. rewrite d_segs_create_seg in Hf. apply in_app_or in Hf. destruct Hf as [Hf|[<-|[]]].
    + apply (B f Hf).
    + cbn [f_seq]. apply N.le_refl.
Qed.

Lemma Jd_remove y (d : disk) u u' i q : dur2_step u (ERemove (FSeg i q)) = Some u' -> Jd y d u ->
  Jd y (apply_ev flat_ops d (ERemove (FSeg i q))) u'.
Proof.
  rewrite dur2_step_remove. destruct u as [x|]; [discriminate|]. intros E; inversion E; subst u'. intros (A & B & _).
  split; [|split; [|intros x Ex; discriminate]].
  - intros f Hf Hd. rewrite d_segs_remove_seg in Hf. apply filter_In in Hf. apply (A f (proj1 Hf) Hd).
  - intros f Hf. rewrite d_segs_remove_seg in Hf. apply filter_In in Hf. apply (B f (proj1 Hf)).
Qed.

Theorem Jd_run b y es : forall (d : disk) u u', wtr b y d es -> dur2 u es = Some u' -> Jd y d u -> Jd y (run_evs es d) u'.
Proof.
  induction es as [|e es IH]; intros d u u' Hw Hd HJ; cbn [dur2 fold_left] in *.
  - inversion Hd; subst. exact HJ.
  - destruct (dur2_step u e) as [u1|] eqn:Es; [|discriminate].
    destruct (wtr_inv _ _ _ _ _ Hw) as [B [A|[[A A']|[[-> A]|[A (i & q & ->)]]]]]; apply (IH _ u1 u' B Hd).
    + apply (Jd_nolog y d u e u1 A Es HJ).
    + apply (Jd_data y d u e u1 A A' Es HJ).
    + apply (Jd_create y d u u1 Es HJ).
    + apply (Jd_remove y d u u1 i q Es HJ).
Qed.

Lemma Jd_unique y (d : disk) u : NoDup (map f_seq (d_segs d)) -> Jd y d u -> present y d -> u = None \/ u = Some y.
Proof.
  intros Hnd (_ & B & C) (fy & Hfy & Ey). destruct u as [x|]; [right|left; reflexivity].
  destruct (C x eq_refl) as [(fx & Hfx & Ex) Bx]. f_equal.
  assert (E : fx = fy).
  { apply (NoDup_map_inj f_seq (d_segs d)); try assumption. pose proof (Bx fy Hfy) as H1. pose proof (B fx Hfx) as H2.
    rewrite <- Ex in H1. rewrite <- Ey in H2. cbn [fpair snd] in H1, H2. lia. }
  subst fx. congruence.
Qed.

(* What a recovering Open issues is accepted: data goes to y only, which is present and the newest, hence the
   unflushed segment file if there is one ([Jd_unique]); a segment file is created only in a directory without
   segment files, where nothing is unflushed. *)
Theorem Jd_accept y es : forall (d : disk) u, wtr true y d es -> Jd y d u -> NoDup (map f_seq (d_segs d)) ->
  exists u', dur2 u es = Some u'.
Proof.
  induction es as [|e es IH]; intros d u Hw HJ Hnd; cbn [dur2]; [exists u; reflexivity|].
  destruct (wtr_inv _ _ _ _ _ Hw) as [B [A|[[A A']|[[-> A]|[A _]]]]].
  - destruct (dur2_step_nolog u e A) as (u1 & E1 & _). rewrite E1. apply (IH _ u1 B).
    + apply (Jd_nolog y d u e u1 A E1 HJ).
    + rewrite (same_log_seqs _ _ (apply_ev_same_log d e A)). exact Hnd.
  - assert (E1 : dur2_step u e = Some (Some y)).
    { rewrite (dur2_step_data u e y A). destruct (Jd_unique y d u Hnd HJ A') as [->| ->]; cbn [dur2_data]; [reflexivity|].
      rewrite pair_eqb_refl. reflexivity. }
    rewrite E1. apply (IH _ (Some y) B).
    + apply (Jd_data y d u e (Some y) A A' E1 HJ).
    + destruct y as [i q]. destruct (seg_data_upd e i q A) as (g & Hg & Eg). rewrite Eg, (upd_seqs i q g d Hg). exact Hnd.
  - assert (Eu : u = None).
    { destruct u as [x|]; [|reflexivity]. destruct HJ as (_ & _ & C). destruct (C x eq_refl) as [(f & Hf & _) _].
      rewrite (A eq_refl) in Hf. destruct Hf. }
    subst u. rewrite dur2_step_create. apply (IH _ None B).
    + apply (Jd_create y d None None eq_refl HJ).
    + rewrite d_segs_create_seg, (A eq_refl). cbn [app map]. constructor; [intros []|constructor].
  - discriminate A.
Qed.

Lemma Jd_torn y (d : disk) u r c : Jd y d u -> present y d -> Jd y (torn d (fst y) (snd y) r c) (Some y).
Proof.
  intros (A & B & _) Hp. destruct y as [i q]. cbn [fst snd]. destruct (torn_upd d i q r c) as (g & Hg & ->).
  split; [apply upd_Qd; assumption|]. split; [apply upd_bound; assumption|].
  intros x Ex. inversion Ex; subst x. split; [apply upd_present; assumption|apply upd_bound; assumption].
Qed.

Lemma Inv_allclean P (s : st) m : Inv P s -> s_mem s = Some m -> allclean (s_disk s).
Proof. exact (Inv_segs_clean P s m). Qed.

Lemma allclean_Qd y (d : disk) : allclean d -> Qd y d.
Proof. intros H f Hf [Hd|Hd]; destruct (H f Hf) as [A B]; congruence. Qed.

Lemma bound_exists (d : disk) : exists M, forall f, In f (d_segs d) -> f_seq f <= M.
Proof.
  induction (d_segs d) as [|f l (M & IH)]; [exists 0; intros f []|].
  exists (N.max (f_seq f) M). intros x [<-|Hx]; [lia|]. pose proof (IH x Hx). lia.
Qed.

Lemma DurM_upart P (s : st) m u : Inv P s -> s_mem s = Some m -> DurM u m ->
  forall x, u = Some x -> present x (s_disk s) /\ bound x (s_disk s).
Proof.
  intros HI Em HD x Ex. destruct (HD x Ex) as (g & Ec & Hnf & ->).
  destruct (cur_seg_Some _ _ Ec) as (_ & Hg & _).
  destruct (Inv_InvLog P s m Em HI) as (_ & (HA & HB) & _ & (_ & Hso) & _).
  destruct (HA g Hg) as (f & Hf & F1 & F2 & _). split.
  - exists f. split; [exact Hf|]. unfold fpair. congruence.
  - intros f' Hf'. destruct (HB f' Hf') as (g' & Hg' & G1 & G2). cbn [snd]. rewrite <- G2. apply Hso; assumption.
Qed.

Lemma DurS_Neat P (s : st) u : Inv P s -> DurS u s -> Neat u (s_disk s).
Proof.
  intros HI (m & Em & HD). destruct (bound_exists (s_disk s)) as (M & HM). exists (0, M).
  split; [apply allclean_Qd; eapply Inv_allclean; eassumption|]. split; [exact HM|].
  eapply DurM_upart; eassumption.
Qed.

Definition wrun (y : N * N) (s s' : st) : Prop :=
  exists es, s_trace s' = s_trace s ++ es /\ s_disk s' = run_evs es (s_disk s) /\ wtr true y (s_disk s) es.

Lemma wrun_refl y (s : st) : wrun y s s.
Proof. exists []. rewrite app_nil_r. repeat split. apply wt_nil. Qed.

Lemma wrun_trans y (a b c : st) : wrun y a b -> wrun y b c -> wrun y a c.
Proof.
  intros (e1 & T1 & D1 & W1) (e2 & T2 & D2 & W2). exists (e1 ++ e2).
  split; [rewrite T2, T1, app_assoc; reflexivity|]. split; [rewrite D2, D1, fold_left_app; reflexivity|].
  apply wtr_app; [exact W1|]. rewrite <- D1. exact W2.
Qed.

Lemma nrun_wrun y (s s' : st) : nrun s s' -> wrun y s s'.
Proof.
  intros (es & T & D & Hn & _). exists es. split; [exact T|]. split; [exact D|].
  apply wtr_nolog. apply neutral_nolog. exact Hn.
Qed.

Lemma wrun_same y (s s' : st) : s_trace s' = s_trace s -> s_disk s' = s_disk s -> wrun y s s'.
Proof. intros T D. exists []. rewrite app_nil_r. split; [exact T|]. split; [exact D|apply wt_nil]. Qed.

Lemma wrun_Qd y (s s' : st) : wrun y s s' -> Qd y (s_disk s) -> Qd y (s_disk s').
Proof.
  intros (es & _ & D & W) HQ. rewrite D. clear D. revert W HQ. generalize (s_disk s). clear s s'.
  induction es as [|e es IH]; intros d W HQ; [exact HQ|]. cbn [fold_left].
  destruct (wtr_inv _ _ _ _ _ W) as [B [A|[[A A']|[[-> A]|[A _]]]]]; try discriminate A; apply (IH _ B).
  - apply (Qd_same_log y d); [apply apply_ev_same_log; exact A|exact HQ].
  - destruct y as [i q]. destruct (seg_data_upd e i q A) as (g & Hg & Eg). rewrite Eg. apply upd_Qd; assumption.
  - intros f Hf Hd. rewrite d_segs_create_seg in Hf. apply in_app_or in Hf. destruct Hf as [Hf|[<-|[]]].
    + apply (HQ f Hf Hd).
    + destruct y; reflexivity.
Qed.

(* memory and disk name the same segment files *)
Definition SegCons (G : list mseg) (d : disk) : Prop :=
  forall g f, In g G -> In f (d_segs d) -> f_id f = g_id g -> f_seq f = g_seq g.

Lemma Cons_upd G i q g (d : disk) : keeps_ids g -> SegCons G d -> SegCons G (upd_seg i q g d).
Proof.
  intros Hg HC x f' Hx Hf' E. destruct (upd_In _ _ _ _ _ Hf') as (f & Hf & [[Hs ->]|[Hs ->]]).
  - destruct (Hg f) as [a b]. rewrite b. apply (HC x f Hx Hf). congruence.
  - apply (HC x f Hx Hf E).
Qed.

(* the headers of empty segment files *)
Lemma hdr_fold_wrun y L : forall s : st,
  (forall f, In f L -> f_hdr f = false -> fpair f = y /\ present y (s_disk s)) ->
  wrun y s (fold_left rc_hdr_step L s).
Proof.
  induction L as [|f L IH]; intros s H; [apply wrun_refl|]. cbn [fold_left].
  assert (S1 : wrun y s (rc_hdr_step s f) /\
               (forall x, present x (s_disk s) -> present x (s_disk (rc_hdr_step s f)))).
  { unfold rc_hdr_step. destruct (f_hdr f) eqn:Eh; [split; [apply wrun_refl|auto]|].
    destruct (H f (or_introl eq_refl) Eh) as [Ey Hp]. split.
    - exists [EHeader (FSeg (f_id f) (f_seq f))]. split; [reflexivity|]. split; [reflexivity|].
      apply wt_data; [rewrite <- Ey; reflexivity|exact Hp|apply wt_nil].
    - intros x Hx. rewrite s_disk_emit.
      destruct (seg_data_upd (EHeader (FSeg (f_id f) (f_seq f))) (f_id f) (f_seq f) eq_refl) as (g & Hg & Eg).
      rewrite Eg. apply upd_present; assumption. }
  destruct S1 as [S1 Hpres]. eapply wrun_trans; [exact S1|]. apply IH.
  intros f' Hf' Eh. destruct (H f' (or_intror Hf') Eh) as [A B]. split; [exact A|apply Hpres; exact B].
Qed.

(* recovery of one segment: at most the truncation of its (stuck, non-empty) tail *)
Lemma recover_segment_wrun P y id seq (s : st) (m : mem) :
  Good (s_disk s) -> Qd y (s_disk s) -> (forall f, find_dseg id (s_disk s) = Some f -> f_seq f = seq) ->
  let s1 := fst (recover_segment flat_ops P id seq s m) in
  wrun y s s1 /\ Qd y (s_disk s1) /\ (forall G, SegCons G (s_disk s) -> SegCons G (s_disk s1)).
Proof.
  intros Hg HQ Hseq. unfold recover_segment.
  destruct (find_dseg id (s_disk s)) as [f|] eqn:Ef; [|cbn [fst]; split; [apply wrun_refl|split; auto]].
  destruct (find_dseg_In _ _ _ Ef) as [Hin Eid].
  assert (Hst : tail_stuck (f_tail f)).
  { destruct Hg as ((H1 & _) & _). rewrite Forall_forall in H1. apply (H1 f Hin). }
  destruct (rc_tail_stuck_parse _ Hst) as (why & Ep & _). rewrite Ep. cbv beta iota zeta.
  rewrite rc_reframe_nil. cbn [fst].
  set (n := header_size + recs_len (f_recs f) + 0).
  assert (St : why <> SEnd ->
            wrun y s (emit flat_ops (ETrunc (FSeg id seq) n) s) /\ Qd y (s_disk (emit flat_ops (ETrunc (FSeg id seq) n) s)) /\
            (forall G, SegCons G (s_disk s) -> SegCons G (s_disk (emit flat_ops (ETrunc (FSeg id seq) n) s)))).
  { intros Hw.
    assert (Hne : f_tail f <> []).
    { intros E. rewrite E, empty_tail in Ep. inversion Ep. congruence. }
    assert (Ey : (id, seq) = y).
    { rewrite <- (HQ f Hin (or_intror Hne)). unfold fpair. rewrite Eid, (Hseq f eq_refl). reflexivity. }
    destruct (seg_data_upd (ETrunc (FSeg id seq) n) id seq eq_refl) as (g & Hgk & Eg).
    split; [|split].
    - exists [ETrunc (FSeg id seq) n]. split; [reflexivity|]. split; [reflexivity|].
      apply wt_data; [rewrite <- Ey; reflexivity| |apply wt_nil].
      exists f. split; [exact Hin|]. rewrite <- Ey. unfold fpair. rewrite Eid, (Hseq f eq_refl). reflexivity.
    - rewrite s_disk_emit, Eg, <- Ey. apply upd_Qd; [exact Hgk|rewrite Ey; exact HQ].
    - intros G HC. rewrite s_disk_emit, Eg. apply Cons_upd; assumption. }
  destruct why; [split; [apply wrun_refl|split; auto]|apply St; discriminate|apply St; discriminate|apply St; discriminate].
Qed.

Lemma recover_loop_wrun P y (G : list mseg) : forall (s : st) (m : mem),
  Good (s_disk s) -> Qd y (s_disk s) -> SegCons G (s_disk s) ->
  let s1 := fst (fold_left (fun sm g => recover_segment flat_ops P (g_id g) (g_seq g) (fst sm) (snd sm)) G (s, m)) in
  wrun y s s1 /\ Qd y (s_disk s1).
Proof.
  induction G as [|g G IH]; intros s m Hg HQ HC; [split; [apply wrun_refl|exact HQ]|]. cbn [fold_left fst snd].
  assert (Hseq : forall f, find_dseg (g_id g) (s_disk s) = Some f -> f_seq f = g_seq g).
  { intros f Ef. destruct (find_dseg_In _ _ _ Ef) as [Hin Eid]. apply (HC g f (or_introl eq_refl) Hin Eid). }
  destruct (recover_segment_wrun P y (g_id g) (g_seq g) s m Hg HQ Hseq) as (W1 & Q1 & C1).
  pose proof (srun_recover_segment P (g_id g) (g_seq g) s m Hg) as S1.
  destruct (recover_segment flat_ops P (g_id g) (g_seq g) s m) as [s1 m1]. cbn [fst] in *.
  destruct (IH s1 m1 (proj1 (srun_good _ _ S1 Hg)) Q1) as [W2 Q2].
  { apply C1. intros x f Hx. apply (HC x f (or_intror Hx)). }
  split; [eapply wrun_trans; eassumption|exact Q2].
Qed.

(* the segments in memory keep their ids, sequence ids and "full" flags through the loop *)
Lemma replay_fold_msig P (d : disk) id (es : list (N * rec)) : forall m : mem,
  map rc_msig (m_segs (fold_left (fun m e => replay_rec flat_ops P d id (fst e) (snd e) m) es m)) = map rc_msig (m_segs m).
Proof.
  induction es as [|e es IH]; intros m; [reflexivity|]. cbn [fold_left]. rewrite IH.
  apply (rc_replay_rec_frame P d id (fst e) (snd e) m).
Qed.

Lemma recover_segment_msig0 P id seq (s : st) (m : mem) :
  map rc_msig0 (m_segs (snd (recover_segment flat_ops P id seq s m))) = map rc_msig0 (m_segs m).
Proof.
  unfold recover_segment. destruct (find_dseg id (s_disk s)) as [f|]; [|reflexivity].
  destruct (parse_tail (f_tail f)) as [[extra n] why]. cbn [snd].
  match goal with |- map rc_msig0 (m_segs (fold_left _ _ ?m1)) = _ => transitivity (map rc_msig0 (m_segs m1)) end.
  { apply rc_msig_msig0. apply replay_fold_msig. }
  assert (Hsz : map rc_msig0 (m_segs (set_msegs m (upd_mseg id (fun g => set_gsize g (header_size + recs_len (f_recs f) + n)) (m_segs m)))) =
                map rc_msig0 (m_segs m)).
  { cbn [set_msegs m_segs]. unfold upd_mseg. rewrite map_map. apply map_ext. intros g. destruct (g_id g =? id); reflexivity. }
  destruct why; [reflexivity|exact Hsz|exact Hsz|exact Hsz].
Qed.

Lemma recover_loop_msig0 P (G : list mseg) : forall (s : st) (m : mem),
  map rc_msig0 (m_segs (snd (fold_left (fun sm g => recover_segment flat_ops P (g_id g) (g_seq g) (fst sm) (snd sm)) G (s, m)))) =
  map rc_msig0 (m_segs m).
Proof.
  induction G as [|g G IH]; intros s m; [reflexivity|]. cbn [fold_left fst snd].
  pose proof (recover_segment_msig0 P (g_id g) (g_seq g) s m) as E.
  destruct (recover_segment flat_ops P (g_id g) (g_seq g) s m) as [s1 m1]. cbn [snd] in E. rewrite IH. exact E.
Qed.

(* D13: after the loop the newest segment is still writable: swapSegment picks it and emits nothing *)
Lemma recover_swap_none (s1 : st) (m m1 : mem) :
  ids_increasing (m_segs m) -> (forall g, In g (m_segs m) -> sm_full (g_meta g) = false) -> m_segs m <> [] ->
  map rc_msig0 (m_segs m1) = map rc_msig0 (m_segs m) ->
  fst (swap_segment flat_ops s1 (seal_all_but_last (by_seq (m_segs m)) m1)) = s1.
Proof.
  intros Hinc Hnf Hne0 R11.
  destruct (rc_swap_after_seal s1 m m1 Hinc Hnf Hne0 R11) as (gc & _ & _ & E). rewrite E. reflexivity.
Qed.

Lemma recover_wrun P y (s : st) (m : mem) :
  Good (s_disk s) -> Qd y (s_disk s) -> rc_magree (m_segs m) (s_disk s) -> ids_increasing (m_segs m) ->
  (forall g, In g (m_segs m) -> sm_full (g_meta g) = false) -> m_segs m <> [] ->
  wrun y s (fst (recover flat_ops P s m)).
Proof.
  intros Hg HQ Hag Hinc Hnf Hne. unfold recover.
  assert (HC : SegCons (by_seq (m_segs m)) (s_disk s)).
  { intros g f Hgin Hf Eid. apply (proj1 (rc_by_seq_In _ _)) in Hgin.
    destruct (proj1 Hag g Hgin) as (f0 & Hf0 & A1 & A2 & _).
    assert (f = f0) by (apply (NoDup_map_inj f_id (d_segs (s_disk s))); [apply Hg|exact Hf|exact Hf0|congruence]).
    subst f0. exact A2. }
  pose proof (recover_loop_wrun P y (by_seq (m_segs m)) s m Hg HQ HC) as [W1 Q1].
  pose proof (recover_loop_msig0 P (by_seq (m_segs m)) s m) as R11.
  pose proof (srun_recover_loop P (by_seq (m_segs m)) s m Hg) as S1.
  destruct (fold_left _ (by_seq (m_segs m)) (s, m)) as [s1 m1]. cbn [fst snd] in W1, Q1, R11, S1.
  destruct (srun_good _ _ S1 Hg) as [Hg1 _].
  pose proof (recover_swap_none s1 m m1 Hinc Hnf Hne R11) as Esw.
  destruct (swap_segment flat_ops s1 (seal_all_but_last (by_seq (m_segs m)) m1)) as [s1' m3]. cbn [fst] in Esw. subst s1'.
  cbn [fst]. eapply wrun_trans; [exact W1|]. apply nrun_wrun.
  eapply nrun_trans; [apply nrun_emit; apply neutral_index|]. apply nrun_remove_bac.
  rewrite s_disk_emit. destruct Hg1 as (_ & Hb1 & Hl1).
  apply (lock_bac_step _ (EIndex (m_idx m3)) eq_refl Logic.I Hb1 Hl1).
Qed.

Lemma open_wtr_y P seed (d : disk) y :
  Good d -> Qd y d -> (d_segs d = [] -> y = (0, 1)) ->
  wtr true y d (s_trace (fst (db_open flat_ops P seed (closed d)))).
Proof.
  intros Hg HQ Hy. pose proof Hg as (Hok & Hbac & Hlock).
  enough (W : wrun y (closed d) (fst (db_open flat_ops P seed (closed d)))).
  { destruct W as (es & T & _ & W). cbn [closed s_trace s_disk app] in T, W. rewrite T. exact W. }
  unfold db_open. change (s_mem (closed d)) with (@None mem). cbv iota.
  change (d_lock (s_disk (closed d))) with (d_lock d). rewrite Hlock. cbv iota.
  (* backupNonsegmentFiles *)
  pose proof (rc_backup_spec (closed d) Hok Hbac) as H1. cbv zeta in H1.
  pose proof (nrun_backup (closed d)) as N1.
  set (s1 := backup_nonseg flat_ops (closed d)) in *.
  destruct H1 as (Hsl1 & _ & _ & Hi1 & Hmeta1 & _). change (s_disk (closed d)) with d in Hsl1.
  assert (S1 : srun (closed d) s1) by (apply nrun_srun; [exact N1|exact Hg]).
  destruct (srun_good _ _ S1 Hg) as [Hg1 _].
  (* openIndex *)
  destruct (rc_open_index_fresh s1 Hi1) as (s2 & E2 & Hsegs2 & _).
  rewrite E2. pose proof (nrun_open_index s1 s2 [] E2) as N2.
  assert (S2 : srun s1 s2) by (apply nrun_srun; [exact N2|exact Hg1]).
  destruct (srun_good _ _ S2 Hg1) as [Hg2 _].
  assert (Hsl2 : same_log d (s_disk s2)).
  { eapply same_log_trans; [exact Hsl1|]. apply same_log_segs. exact Hsegs2. }
  assert (Q2 : Qd y (s_disk s2)) by (apply (Qd_same_log y d); assumption).
  (* openDatalog *)
  assert (Hmeta2 : forall f, In f (d_segs (s_disk s2)) -> f_meta f = GAbsent).
  { rewrite Hsegs2. exact Hmeta1. }
  destruct (rc_open_segments_recovery s2 (proj1 Hg2) Hmeta2)
    as (s3 & segs & E3 & _ & _ & Hmag3 & Hinc3 & Hm0 & Hrs3 & _).
  destruct (rc_open_segments_spec s2 (proj1 (proj2 (proj1 Hg2)))) as (s3' & segs' & E3' & _ & _ & _ & Efold & _).
  rewrite E3 in E3'. injection E3' as <- <-. rewrite E3.
  assert (S3 : srun s2 s3) by (rewrite Efold; apply srun_hdr_fold; exact Hg2).
  destruct (srun_good _ _ S3 Hg2) as [Hg3 _].
  assert (W3 : wrun y s2 s3).
  { rewrite Efold. apply hdr_fold_wrun. intros f Hf Eh.
    apply (Permutation_in _ (rc_sort_segs_perm _)) in Hf.
    assert (Ey : fpair f = y) by (apply (Q2 f Hf); left; exact Eh).
    split; [exact Ey|]. exists f. split; assumption. }
  pose proof (wrun_Qd y s2 s3 W3 Q2) as Q3.
  (* swapSegment *)
  match goal with |- context [swap_segment flat_ops s3 ?m] => set (m0 := m) end.
  assert (S4 : srun s3 (fst (swap_segment flat_ops s3 m0))).
  { apply srun_swap; [exact Hg3|exact Hmag3|exact Hinc3|]. intros g Hin. apply (rc_fold_max_ge segs 0). exact Hin. }
  destruct (swap_trace s3 m0) as (pre & T4 & D4 & Hpre). cbv zeta in Hpre.
  destruct (rc_swap_spec s3 m0 Hmag3 Hinc3) as (s4 & m1 & E4 & Hcase). rewrite E4 in *. cbn [fst] in S4, T4, D4.
  destruct (srun_good _ _ S4 Hg3) as [Hg4 _].
  assert (W4 : wrun y s3 s4 /\ rc_magree (m_segs m1) (s_disk s4) /\ ids_increasing (m_segs m1) /\
               (forall g, In g (m_segs m1) -> sm_full (g_meta g) = false) /\ m_segs m1 <> []).
  { destruct Hcase as [(g & Hgin & Hnf & -> & ->)|(Hfull & Em1 & Ed4 & _ & _ & Hfresh)].
    - cbn [set_cur m_segs m0]. split; [apply wrun_refl|]. split; [exact Hmag3|]. split; [exact Hinc3|].
      split; [intros x Hx; rewrite (Hm0 x Hx); reflexivity|]. intros E. cbn [m0 m_segs] in Hgin. rewrite E in Hgin. destruct Hgin.
    - assert (Esegs : segs = []).
      { destruct segs as [|g l]; [reflexivity|]. exfalso. pose proof (Hfull g (or_introl eq_refl)) as F.
        cbn [m0 m_segs] in F. rewrite (Hm0 g (or_introl eq_refl)) in F. discriminate F. }
      assert (Ed3 : d_segs (s_disk s3) = []).
      { destruct (d_segs (s_disk s3)) as [|f l] eqn:E; [reflexivity|]. exfalso.
        destruct (proj2 Hmag3 f) as (g & Hgin & _); [rewrite E; left; reflexivity|]. rewrite Esegs in Hgin. destruct Hgin. }
      assert (Ed0 : d_segs d = []).
      { unfold rc_rsim in Hrs3. rewrite Ed3 in Hrs3. cbn [map] in Hrs3. apply map_eq_nil in Hrs3.
        unfold same_log in Hsl2. rewrite Hrs3 in Hsl2. cbn [map] in Hsl2. apply map_eq_nil in Hsl2. exact Hsl2. }
      pose proof (Hy Ed0) as Ey. cbv zeta in Em1, Ed4, Hfresh.
      assert (Eid : lowest_free 0 (m_segs m0) = 0) by (cbn [m0 m_segs]; rewrite Esegs; reflexivity).
      assert (Eseq : m_maxseq m0 + 1 = 1) by (cbn [m0 m_maxseq]; rewrite Esegs; reflexivity).
      rewrite Eid, Eseq in *.
      destruct Hpre as [[_ (g & Hgin & _)]|[Epre _]]; [cbn [m0 m_segs] in Hgin; rewrite Esegs in Hgin; destruct Hgin|].
      assert (Hmaxseq : forall g, In g segs -> g_seq g <= m_maxseq m0) by (rewrite Esegs; intros g []).
      destruct (rc_create_spec (s_disk s3) (s_disk s4) segs (m_maxseq m0) 0 1 (proj1 Hg3) Hmag3 Hinc3 Hmaxseq
                  (eq_sym Eseq) Hfresh Ed4) as (_ & K2 & K3 & _).
      split; [|rewrite Em1; cbn [set_cur set_maxseq set_msegs m_segs m0]; split; [exact K2|split; [exact K3|split]]].
      + exists pre. split; [exact T4|]. split; [exact D4|]. rewrite Epre, Ey.
        apply (wt_create true (0, 1)); [intros _; exact Ed3|].
        apply wt_data; [reflexivity| |apply wt_nil].
        eexists. split; [rewrite d_segs_create_seg; apply in_or_app; right; left; reflexivity|reflexivity].
      + intros x Hx. apply insert_mseg_In in Hx. destruct Hx as [->|Hx]; [reflexivity|rewrite (Hm0 x Hx); reflexivity].
      + intros E. assert (Hin : In (rc_newg 0 1) (insert_mseg (rc_newg 0 1) segs)) by (apply insert_mseg_In; left; reflexivity).
        rewrite E in Hin. destruct Hin. }
  destruct W4 as (W4 & Hmag4 & Hinc4 & Hnf4 & Hne4).
  pose proof (wrun_Qd y s3 s4 W4 Q3) as Q4.
  cbn [ix_count flat_ops nlen]. change (0 =? 0) with true. cbv iota.
  (* recover *)
  match goal with |- context [recover flat_ops P s4 ?m] => set (m2 := m) end.
  pose proof (recover_wrun P y s4 m2 Hg4 Q4 Hmag4 Hinc4 Hnf4 Hne4) as W5.
  destruct (recover flat_ops P s4 m2) as [s5 m3]. cbn [fst] in W5 |- *.
  eapply wrun_trans; [apply nrun_wrun; exact N1|]. eapply wrun_trans; [apply nrun_wrun; exact N2|].
  eapply wrun_trans; [exact W3|]. eapply wrun_trans; [exact W4|]. eapply wrun_trans; [exact W5|].
  apply wrun_same; reflexivity.
Qed.

Lemma cut_Jd b y es : forall (d : disk) u u_end p q,
  wtr b y d es -> Jd y d u -> dur2 u es = Some u_end -> es = p ++ q ->
  exists u_p, dur2 u p = Some u_p /\ Jd y (run_evs p d) u_p /\ dur2 u_p q = Some u_end /\ wtr b y (run_evs p d) q.
Proof.
  intros d u u_end p q W HJ Hd ->. destruct (wtr_app_inv _ _ _ _ _ W) as [Wp Wq].
  rewrite dur2_app in Hd. destruct (dur2 u p) as [u_p|] eqn:Ep; [|discriminate].
  exists u_p. split; [reflexivity|]. split; [apply (Jd_run b y p d u u_p Wp Ep HJ)|]. split; assumption.
Qed.

(* THE RECOVERING OPEN KEEPS THE DISCIPLINE.  On a recoverable directory in which at most the newest
   segment file is dirty and the unflushed segment file (if any) is the newest one, the events of the
   recovering Open are accepted by the automaton; afterwards the unflushed segment file (if any) is the
   current segment.  The same holds for every prefix of these events (a recovery that dies). *)
Theorem open_dur2 P seed (d : disk) u :
  params_ok P -> Good d -> Neat u d ->
  exists s' u', db_open flat_ops P seed (closed d) = (s', OOpened true) /\ Open P s' /\
    ceq (cont (s_disk s')) (cont d) /\ s_disk s' = run_evs (s_trace s') d /\
    dur2 u (s_trace s') = Some u' /\ DurS u' s' /\
    forall p q, s_trace s' = p ++ q -> exists u_p, dur2 u p = Some u_p /\ Neat u_p (run_evs p d).
Proof.
  intros HP Hg (y0 & HJ0). pose proof Hg as (Hok & Hbac & Hlock).
  assert (Hy : exists y, Jd y d u /\ (d_segs d = [] -> y = (0, 1))).
  { destruct (d_segs d) as [|f l] eqn:E.
    - exists (0, 1). split; [|reflexivity]. destruct HJ0 as (_ & _ & C).
      split; [intros f Hf; rewrite E in Hf; destruct Hf|]. split; [intros f Hf; rewrite E in Hf; destruct Hf|exact C].
    - exists y0. split; [exact HJ0|discriminate]. }
  destruct Hy as (y & HJ & Hy).
  pose proof (open_wtr_y P seed d y Hg (proj1 HJ) Hy) as W.
  pose proof (open_recover_ok P seed d HP Hok Hbac Hlock) as HR.
  destruct (open_srun P seed d Hg) as (es & T & D & _). fold (closed d) in HR.
  destruct (db_open flat_ops P seed (closed d)) as [s' o']. cbn [fst] in W, T, D.
  cbn [closed s_trace s_disk app] in T, D. rewrite <- T in D.
  destruct HR as (-> & HI & Hm & Habs & Hb' & _ & (m' & Em' & _ & _ & Hrm & (g & Hgin & Hgc & Hgnf & Hgnew)) & _).
  destruct (Jd_accept y (s_trace s') d u W HJ (proj2 (proj2 Hok))) as (u' & Hd).
  pose proof (Jd_run true y (s_trace s') d u u' W Hd HJ) as HJ'. rewrite <- D in HJ'.
  exists s', u'. split; [reflexivity|].
  split; [split; [exact HI|split; [exact Hm|unfold bac_ok; rewrite Hb'; constructor]]|].
  split; [exact Habs|]. split; [exact D|]. split; [exact Hd|]. split.
  - exists m'. split; [exact Em'|]. intros x Ex.
    destruct (Inv_InvLog P s' m' Em' HI) as ((_ & _ & Hnq) & (HA & HB) & Hinc & _).
    exists g. split; [apply cur_seg_intro; [exact Hinc|exact Hrm|exact Hgin|symmetry; exact Hgc]|]. split; [exact Hgnf|].
    destruct HJ' as (_ & _ & C). destruct (C x Ex) as [(fx & Hfx & Efx) Bx].
    destruct (HA g Hgin) as (fg & Hfg & G1 & G2 & _).
    destruct (HB fx Hfx) as (gx & Hgx & X1 & X2).
    assert (E : fx = fg).
    { apply (NoDup_map_inj f_seq (d_segs (s_disk s'))); try assumption.
      pose proof (Bx fg Hfg) as H1. rewrite <- Efx in H1. cbn [fpair snd] in H1.
      pose proof (Hgnew gx Hgx) as H2. lia. }
    subst fx. rewrite <- Efx. unfold fpair. congruence.
  - intros p q Epq. destruct (cut_Jd true y (s_trace s') d u u' p q W HJ Hd Epq) as (u_p & A & B & _).
    exists u_p. split; [exact A|exists y; exact B].
Qed.

Definition op_wtr (s s' : st) : Prop :=
  exists tr y, s_trace s' = s_trace s ++ tr /\ wtr false y (s_disk s) tr /\ Qd y (s_disk s) /\ bound y (s_disk s).

Lemma nolog_op_wtr (s s' : st) tr :
  allclean (s_disk s) -> s_trace s' = s_trace s ++ tr -> Forall (fun e : fsev => touches_log e = false) tr -> op_wtr s s'.
Proof.
  intros Hc T Hn. destruct (bound_exists (s_disk s)) as (M & HM). exists tr, (0, M).
  split; [exact T|]. split; [apply wtr_nolog; exact Hn|]. split; [apply allclean_Qd; exact Hc|exact HM].
Qed.

Lemma pre_wtr b y (d : disk) pre : b = false -> wr_pre_shape pre (fst y) (snd y) -> wtr b y d pre.
Proof.
  intros -> Hs.
  assert (Hch : forall d0 : disk, wtr false y d0 [ECreate (FSeg (fst y) (snd y)); EHeader (FSeg (fst y) (snd y))]).
  { intros d0. apply wt_create; [discriminate|]. apply wt_data; [destruct y; reflexivity| |apply wt_nil].
    eexists. split; [rewrite d_segs_create_seg; apply in_or_app; right; left; reflexivity|destruct y; reflexivity]. }
  destruct Hs as [->|[(i & q & ->)|[->|(i & q & ->)]]].
  - apply wt_nil.
  - apply wt_quiet; [reflexivity|apply wt_nil].
  - apply Hch.
  - apply wt_quiet; [reflexivity|apply Hch].
Qed.

Lemma pre_seqs (d : disk) pre id seq : wr_pre_shape pre id seq ->
  forall f, In f (d_segs d) -> exists f', In f' (d_segs (run_evs pre d)) /\ f_seq f' = f_seq f.
Proof.
  intros Hs f Hf.
  assert (Hch : forall d0 : disk, In f (d_segs d0) ->
            exists f', In f' (d_segs (run_evs [ECreate (FSeg id seq); EHeader (FSeg id seq)] d0)) /\ f_seq f' = f_seq f).
  { intros d0 Hf0. cbn [fold_left].
    destruct (seg_data_upd (EHeader (FSeg id seq)) id seq eq_refl) as (g & Hg & Eg). rewrite Eg, d_segs_upd_seg, d_segs_create_seg.
    exists (if is_seg id seq f then g f else f). split.
    - apply (in_map (fun s => if is_seg id seq s then g s else s)). apply in_or_app. left. exact Hf0.
    - destruct (is_seg id seq f); [apply Hg|reflexivity]. }
  destruct Hs as [->|[(i & q & ->)|[->|(i & q & ->)]]].
  - exists f. split; [exact Hf|reflexivity].
  - exists f. split; [exact Hf|reflexivity].
  - apply Hch. exact Hf.
  - change (run_evs (ESync (FSeg i q) :: [ECreate (FSeg id seq); EHeader (FSeg id seq)]) d)
      with (run_evs [ECreate (FSeg id seq); EHeader (FSeg id seq)] d). apply Hch. exact Hf.
Qed.

Lemma wr_wtr P r (s : st) (m : mem) s' m' id off :
  InvLog m (s_disk s) -> room m -> write_record flat_ops P r s m = Some (s', m', id, off) ->
  exists tr y, s_trace s' = s_trace s ++ tr /\ s_disk s' = run_evs tr (s_disk s) /\
    wtr false y (s_disk s) tr /\ bound y (s_disk s).
Proof.
  intros HI Hroom. rewrite write_record_eq.
  destruct (wr_prelude_spec P r s m HI Hroom)
    as (s1 & m1 & g & pre & E1 & HI1 & _ & Ec1 & Hnf1 & _ & _ & _ & _ & _ & Et1 & Ed1 & Hp1).
  rewrite E1. unfold wr_tail. rewrite Ec1.
  destruct (find_dseg (g_id g) (s_disk s1)) as [f|] eqn:Ef; [|discriminate].
  destruct ((f_seq f =? g_seq g) && (flen f =? g_size g)) eqn:Echk; cbn [negb]; [|discriminate].
  intros E. inversion E; subst s' m' id off; clear E.
  apply andb_true_iff in Echk. destruct Echk as [Eseq _]. apply N.eqb_eq in Eseq.
  destruct (find_dseg_In _ _ _ Ef) as [Hfin Efid].
  set (y := (g_id g, g_seq g)).
  exists (pre ++ [EAppend (g_id g) (g_seq g) (g_size g) r]), y.
  split; [rewrite s_trace_emit, Et1, app_assoc; reflexivity|].
  split; [rewrite s_disk_emit, fold_left_app, <- Ed1; reflexivity|]. split.
  - apply wtr_app; [apply pre_wtr; [reflexivity|exact Hp1]|]. rewrite <- Ed1.
    apply wt_data; [reflexivity| |apply wt_nil]. exists f. split; [exact Hfin|]. unfold fpair, y. congruence.
  - intros f0 Hf0. destruct (pre_seqs (s_disk s) pre (g_id g) (g_seq g) Hp1 f0 Hf0) as (f1 & Hf1 & E1').
    rewrite <- Ed1 in Hf1. rewrite <- E1'. cbn [y snd].
    destruct HI1 as (_ & (_ & HB) & _ & (_ & Hso) & _).
    destruct (HB f1 Hf1) as (g1 & Hg1 & _ & G2). rewrite <- G2.
    destruct (cur_seg_Some _ _ Ec1) as (_ & Hgin & _). apply Hso; assumption.
Qed.

Lemma op_wtr_write (s s1 s' : st) tr y post :
  allclean (s_disk s) -> s_trace s1 = s_trace s ++ tr ->
  wtr false y (s_disk s) tr -> bound y (s_disk s) ->
  s_trace s' = s_trace s1 ++ post -> Forall (fun e : fsev => touches_log e = false) post -> op_wtr s s'.
Proof.
  intros Hc T W B T' Hn. exists (tr ++ post), y. split; [rewrite T', T, app_assoc; reflexivity|].
  split; [apply wtr_app; [exact W|apply wtr_nolog; exact Hn]|]. split; [apply allclean_Qd; exact Hc|exact B].
Qed.

Lemma finish_trace P (s : st) (m : mem) :
  exists post, s_trace (fst (finish flat_ops P s m)) = s_trace s ++ post /\ Forall (fun e : fsev => touches_log e = false) post.
Proof.
  unfold finish. cbn [fst with_mem s_trace]. destruct (p_sync P).
  - destruct (do_sync_spec s m) as (_ & _ & [E|(i & q & E)]); rewrite E.
    + exists []. rewrite app_nil_r. split; [reflexivity|constructor].
    + exists [ESync (FSeg i q)]. split; [reflexivity|]. constructor; [reflexivity|constructor].
  - exists []. rewrite app_nil_r. split; [reflexivity|constructor].
Qed.

Lemma put_wtr P (s s' : st) (m : mem) k v o :
  Inv P s -> s_mem s = Some m -> room m -> db_put flat_ops P k v s = (s', o) -> op_wtr s s'.
Proof.
  intros HI Em Hroom. pose proof (Inv_allclean P s m HI Em) as Hc. unfold db_put. rewrite Em.
  assert (Hsame : forall o', (s, o') = (s', o) -> op_wtr s s').
  { intros o' E. inversion E; subst s' o. apply (nolog_op_wtr s s [] Hc); [rewrite app_nil_r; reflexivity|constructor]. }
  destruct (max_key_len <? nlen k); [apply Hsame|]. destruct (max_val_len <? nlen v); [apply Hsame|].
  destruct (write_record flat_ops P (mkput k v) s m) as [[[[s1 m1] id] off]|] eqn:Ew; [|apply Hsame].
  destruct (wr_wtr P _ s m s1 m1 id off (Inv_InvLog P s m Em HI) Hroom Ew) as (tr & y & T1 & D1 & W1 & B1).
  destruct (ix_put flat_ops (p_grow P) (m_idx m1) _ (matchf (s_disk s1) k)) as [i2 old].
  match goal with |- finish flat_ops P ?sx ?mx = _ -> _ => destruct (finish_trace P sx mx) as (post & Tp & Hp);
    destruct (finish flat_ops P sx mx) as [sf of] end.
  cbn [fst] in Tp. intros E. inversion E; subst s' o.
  apply (op_wtr_write s s1 sf tr y (EIndex i2 :: post) Hc T1 W1 B1).
  - rewrite Tp, s_trace_emit, <- app_assoc. reflexivity.
  - constructor; [reflexivity|exact Hp].
Qed.

Lemma delete_wtr P (s s' : st) (m : mem) k o :
  Inv P s -> s_mem s = Some m -> room m -> db_delete flat_ops P k s = (s', o) -> op_wtr s s'.
Proof.
  intros HI Em Hroom. pose proof (Inv_allclean P s m HI Em) as Hc. unfold db_delete. rewrite Em.
  destruct (ix_del flat_ops (m_idx m) _ (matchf (s_disk s) k)) as [i1 old].
  destruct old as [o0|].
  - pose proof (Inv_InvLog P s m Em HI) as HL.
    destruct (write_record flat_ops P (mkdel k) s (track_del o0 m)) as [[[[s1 m1] id] off]|] eqn:Ew.
    + destruct (wr_wtr P _ s (track_del o0 m) s1 m1 id off (track_del_InvLog _ _ _ HL) (track_del_room _ _ Hroom) Ew)
        as (tr & y & T1 & D1 & W1 & B1).
      match goal with |- finish flat_ops P ?sx ?mx = _ -> _ => destruct (finish_trace P sx mx) as (post & Tp & Hp);
        destruct (finish flat_ops P sx mx) as [sf of] end.
      cbn [fst] in Tp. intros E. inversion E; subst s' o.
      apply (op_wtr_write s s1 sf tr y (EIndex i1 :: post) Hc T1 W1 B1).
      * rewrite Tp, s_trace_emit, <- app_assoc. reflexivity.
      * constructor; [reflexivity|exact Hp].
    + intros E. inversion E; subst s' o. apply (nolog_op_wtr s s [] Hc); [rewrite app_nil_r; reflexivity|constructor].
  - destruct (finish_trace P s m) as (post & Tp & Hp). destruct (finish flat_ops P s m) as [sf of]. cbn [fst] in Tp.
    intros E. inversion E; subst s' o. apply (nolog_op_wtr s sf post Hc Tp Hp).
Qed.

Lemma sync_wtr P (s s' : st) (m : mem) o :
  Inv P s -> s_mem s = Some m -> db_sync flat_ops s = (s', o) -> op_wtr s s'.
Proof.
  intros HI Em. pose proof (Inv_allclean P s m HI Em) as Hc. unfold db_sync. rewrite Em. intros E. inversion E; subst s' o.
  destruct (do_sync_spec s m) as (_ & _ & [T|(i & q & T)]).
  - apply (nolog_op_wtr s _ [] Hc); [rewrite app_nil_r; exact T|constructor].
  - apply (nolog_op_wtr s _ [ESync (FSeg i q)] Hc T). constructor; [reflexivity|constructor].
Qed.

Lemma cstep_wtr P (s : st) (c : cursor) (m : mem) s' c' :
  Inv P s -> s_mem s = Some m -> room m -> compact_step flat_ops P s c = CMore s' c' -> op_wtr s s'.
Proof.
  intros HI Em Hroom E. pose proof (Inv_allclean P s m HI Em) as Hc.
  assert (Hsame : forall sx : st, s_trace sx = s_trace s -> op_wtr s sx).
  { intros sx T. apply (nolog_op_wtr s sx [] Hc); [rewrite app_nil_r; exact T|constructor]. }
  destruct (compact_step_inv flat_ops P s c m s' c' Em E)
    as [id seq todo _ _|id seq off f r _ _ _ _|id seq off f r i1 s1 m1 nid noff i2 _ _ _ _ _ Ew _|id seq off f _ _ _ _ _].
  - apply Hsame. reflexivity.
  - apply Hsame. reflexivity.
  - destruct (wr_wtr P r s m s1 m1 nid noff (Inv_InvLog P s m Em HI) Hroom Ew) as (tr & y & T1 & D1 & W1 & B1).
    apply (op_wtr_write s s1 _ tr y [EIndex i2] Hc T1 W1 B1).
    + cbn [with_mem s_trace]. apply s_trace_emit.
    + constructor; [reflexivity|constructor].
  - destruct (remove_segment_shape id seq s m) as (es & Hn & T & _).
    destruct (bound_exists (s_disk s)) as (M & HM). exists (es ++ [ERemove (FSeg id seq)]), (0, M).
    split; [exact T|]. split; [|split; [apply allclean_Qd; exact Hc|exact HM]].
    apply wtr_app; [apply wtr_nolog; apply neutral_nolog; exact Hn|].
    apply wt_remove; [reflexivity|apply wt_nil].
Qed.

(* every step: its events write to one segment file only, which is not older than any other *)
Theorem xstep_wtr P cf o cf' u :
  XOpen P cf -> xstep P cf o cf' -> DurS u (fst cf) ->
  exists y, Jd y (s_disk (fst cf)) u /\ wtr false y (s_disk (fst cf)) (s_trace (fst cf')).
Proof.
  intros [HO HC] Hs (m & Em & HD). destruct HO as (HI & Hm & Hb).
  assert (Hfin : forall s', op_wtr (clear_trace (fst cf)) s' ->
            exists y, Jd y (s_disk (fst cf)) u /\ wtr false y (s_disk (fst cf)) (s_trace s')).
  { intros s' (tr & y & T & W & Q & B). cbn [clear_trace s_trace s_disk app] in T, W, Q, B. exists y. rewrite T.
    split; [|exact W]. split; [exact Q|]. split; [exact B|]. eapply DurM_upart; eassumption. }
  destruct Hs as [s c o Hpre|s s' c HM E|s c s' c' Hroom E|s c E]; cbn [fst snd] in *.
  - destruct o as [k v|k|]; cbn [run_op op_pre] in *.
    + destruct Hpre as ((m0 & Em0 & Hroom) & _). assert (m0 = m) by congruence. subst m0.
      apply Hfin. apply (put_wtr P (clear_trace s) _ m k v _ (Inv_clear P s HI) Em Hroom (surjective_pairing _)).
    + destruct Hpre as ((m0 & Em0 & Hroom) & _). assert (m0 = m) by congruence. subst m0.
      apply Hfin. apply (delete_wtr P (clear_trace s) _ m k _ (Inv_clear P s HI) Em Hroom (surjective_pairing _)).
    + apply Hfin. apply (sync_wtr P (clear_trace s) _ m _ (Inv_clear P s HI) Em (surjective_pairing _)).
  - apply Hfin. destruct (crash_compact_pick P s s' c HI Hm Hb E) as (Hsy & _).
    apply (nolog_op_wtr (clear_trace s) s' (s_trace s')); [apply (Inv_allclean P s m HI Em)|reflexivity|apply syncs_nolog; exact Hsy].
  - destruct Hroom as (m0 & Em0 & Hroom). assert (m0 = m) by congruence. subst m0.
    apply Hfin. apply (cstep_wtr P (clear_trace s) c m s' c' (Inv_clear P s HI) Em Hroom E).
  - apply Hfin. apply (nolog_op_wtr (clear_trace s) (clear_trace s) []); [apply (Inv_allclean P s m HI Em)|reflexivity|constructor].
Qed.

Lemma dur2_nolog_None es : Forall (fun e : fsev => touches_log e = false) es -> dur2 None es = Some None.
Proof.
  induction es as [|e es IH]; intros H; [reflexivity|]. inversion H as [|? ? He H']; subst. cbn [dur2].
  destruct (dur2_step_nolog None e He) as (u1 & E1 & [->| ->]); rewrite E1; apply IH; exact H'.
Qed.

Lemma dur2_nolog es : forall u, Forall (fun e : fsev => touches_log e = false) es ->
  exists u', dur2 u es = Some u' /\ (u' = u \/ u' = None).
Proof.
  induction es as [|e es IH]; intros u H; [exists u; split; [reflexivity|left; reflexivity]|].
  inversion H as [|? ? He H']; subst. cbn [dur2].
  destruct (dur2_step_nolog u e He) as (u1 & E1 & [->| ->]); rewrite E1.
  - apply IH. exact H'.
  - rewrite (dur2_nolog_None es H'). exists None. split; [reflexivity|right; reflexivity].
Qed.

(* events that do not write to segment files: a Sync of the unflushed segment file clears the state *)
Lemma dur2_nolog_clr x es : Forall (fun e : fsev => touches_log e = false) es ->
  clr (FSeg (fst x) (snd x)) es false = true -> dur2 (Some x) es = Some None.
Proof.
  induction es as [|e es IH]; intros H Hc; [discriminate Hc|]. inversion H as [|? ? He H']; subst. cbn [dur2 clr] in *.
  destruct (fname_opt_eqb (sync_file e) (FSeg (fst x) (snd x))) eqn:Es.
  - apply fname_opt_eqb_true in Es. destruct e; try discriminate Es. cbn [sync_file] in Es. inversion Es; subst f.
    cbn [dur2_step seg_data]. destruct x as [i q]. cbn [fst snd]. rewrite pair_eqb_refl. apply dur2_nolog_None. exact H'.
  - assert (Ed : fname_opt_eqb (data_file e) (FSeg (fst x) (snd x)) = false).
    { destruct (fname_opt_eqb (data_file e) (FSeg (fst x) (snd x))) eqn:Ed; [|reflexivity].
      apply fname_opt_eqb_true in Ed. exfalso.
      assert (Esd : seg_data e = Some x) by (apply seg_data_file; exact Ed).
      rewrite (touches_log_seg_data e He) in Esd. discriminate. }
    rewrite Ed in Hc.
    assert (E1 : dur2_step (Some x) e = Some (Some x)).
    { destruct (dur2_step_nolog (Some x) e He) as (u1 & E1 & Hu). rewrite E1. f_equal. destruct Hu as [->| ->]; [reflexivity|].
      exfalso. unfold dur2_step in E1. rewrite (touches_log_seg_data e He) in E1.
      destruct e as [f|f|id seq off r|j|id seq m|j|sd|f n|f g|f|f]; try (destruct (quiet2 _); discriminate E1).
      destruct f as [i q| | | | | | |]; try (destruct (quiet2 _); discriminate E1).
      destruct (pair_eqb (i, q) x) eqn:Ex; [|discriminate E1]. apply pair_eqb_eq in Ex. subst x.
      cbn [sync_file fname_opt_eqb fst snd] in Es. rewrite rc_fname_eqb_refl in Es. discriminate. }
    rewrite E1. apply IH; assumption.
Qed.

Theorem close_dur2 (s : st) (m : mem) u :
  s_mem s = Some m -> DurM u m ->
  dur2 u (s_trace (fst (db_close flat_ops (clear_trace s)))) = Some None.
Proof.
  intros Em HD.
  destruct (close_cl_run (clear_trace s) m Em) as (es & T & _ & Hcov).
  destruct (close_shape (clear_trace s) m Em) as (s3 & (es' & T' & _ & Hn & _) & E).
  rewrite E in T |- *. cbn [fst s_trace clear_trace app] in T, T' |- *. rewrite T' in T |- *.
  assert (Hes : es = es' ++ [ERemove FLock]) by (symmetry; exact T).
  pose proof (neutral_nolog es' Hn) as Hnl.
  apply (dur2_cat _ _ _ None); [|reflexivity].
  destruct u as [x|]; [|apply dur2_nolog_None; exact Hnl].
  apply dur2_nolog_clr; [exact Hnl|].
  destruct (HD x eq_refl) as (g & Ec & _ & ->). cbn [fst snd].
  destruct (cur_seg_Some _ _ Ec) as (_ & Hg & _).
  assert (Hc : clr (FSeg (g_id g) (g_seq g)) es false = true).
  { apply Hcov. unfold CloseF. do 4 right. exists g. split; [exact Hg|left; reflexivity]. }
  rewrite Hes, clr_app in Hc. cbn [clr sync_file data_file fname_opt_eqb] in Hc. exact Hc.
Qed.

(* ... and the Open that follows is a clean one, with the same contents *)
Lemma reopen_ok P seed (s : st) (m : mem) s1 o s2 o2 :
  Inv P s -> s_mem s = Some m -> bac_ok (s_disk s) ->
  db_close flat_ops (clear_trace s) = (s1, o) -> db_open flat_ops P seed (closed (s_disk s1)) = (s2, o2) ->
  o2 = OOpened false /\ Open P s2 /\ ceq (cont (s_disk s2)) (cont (s_disk s)).
Proof.
  intros HI Em Hb Ec Eo.
  pose proof (close_reopen_ok_nometa P seed (clear_trace s) m (Inv_clear P _ HI) Em) as Hro.
  pose proof (close_reopen_bac P seed (clear_trace s) m (Inv_clear P _ HI) Em) as Hrb.
  pose proof (close_ok P (clear_trace s) m (Inv_clear P s HI) Em) as Hc.
  rewrite Ec in Hro, Hrb, Hc. destruct Hc as (_ & Hm1 & _).
  assert (E : clear_trace s1 = closed (s_disk s1)) by (unfold clear_trace, closed; rewrite Hm1; reflexivity).
  rewrite E, Eo in Hro, Hrb. destruct Hro as (-> & HI2 & Ha2 & m2 & Em2 & _). cbn [clear_trace s_disk] in Ha2, Hrb.
  split; [reflexivity|]. split; [|exact Ha2]. split; [exact HI2|split; [congruence|unfold bac_ok; rewrite Hrb; exact Hb]].
Qed.

Theorem clean_open_dur2 P seed (d : disk) i j s2 :
  DiskOK d -> bac_ok d -> d_lock d = false -> d_index d = Some i -> d_overflow d = true -> d_imeta d = GOk j ->
  (forall f, In f (d_segs d) -> f_hdr f = true) ->
  db_open flat_ops P seed (closed d) = (s2, OOpened false) -> Inv P s2 ->
  exists u', dur2 None (s_trace s2) = Some u' /\ DurS u' s2 /\ s_disk s2 = run_evs (s_trace s2) d.
Proof.
  intros Hok Hbac Hlock Hi Hov Him Hhdr E HI2.
  destruct (clean_open_trace P seed d i j Hok Hbac Hlock Hi Hov Him Hhdr) as (_ & _ & _ & _ & H).
  destruct (H s2 E HI2) as (u' & Hd & HD & Ed). exists u'. split; [apply dur_dur2; exact Hd|split; assumption].
Qed.

Lemma crash_image_cons_inv (d : disk) e es x : crash_image d (e :: es) x ->
  x = d \/ crash_image (apply_ev flat_ops d e) es x \/ is_append e = true.
Proof.
  intros H. inversion H as [d0 es0|d0 e0 es0 img0 H'|d0 id seq off r es0 c Hc0 Hc1]; subst.
  - left. reflexivity.
  - right. left. exact H'.
  - right. right. reflexivity.
Qed.

Lemma close_same_log (s : st) (m : mem) s1 o :
  s_mem s = Some m -> db_close flat_ops (clear_trace s) = (s1, o) ->
  s_disk s1 = run_evs (s_trace s1) (s_disk s) -> same_log (s_disk s) (s_disk s1).
Proof.
  intros Em Ec Ed1. destruct (close_shape (clear_trace s) m Em) as (s3 & (es' & T' & _ & Hn & _) & E').
  cbn [clear_trace s_trace app] in T'.
  assert (Et : s_trace s1 = es' ++ [ERemove FLock]).
  { rewrite Ec in E'. rewrite <- T'. injection E' as E1' _. rewrite E1'. reflexivity. }
  rewrite Ed1. apply (no_log_images_same_log (s_trace s1)); [|apply crash_image_full].
  rewrite Et. apply Forall_app. split; [apply neutral_nolog; exact Hn|constructor; [reflexivity|constructor]].
Qed.

(* The clean Open of a directory that Close has just left, cut after any prefix p of its events: the
   automaton accepts, at most the new (newest, still empty) segment file is dirty or unflushed; once the
   lock file has been created (p <> []) the directory is recoverable with the closed contents. *)
Lemma clean_open_prefix P seed (s : st) (m : mem) s1 s2 p q :
  Inv P s -> s_mem s = Some m -> bac_ok (s_disk s) ->
  db_close flat_ops (clear_trace s) = (s1, OOk) ->
  db_open flat_ops P seed (closed (s_disk s1)) = (s2, OOpened false) -> s_trace s2 = p ++ q ->
  (exists u_p, dur2 None p = Some u_p /\ Neat u_p (run_evs p (s_disk s1))) /\
  (forall x, crash_image (s_disk s1) p x ->
     DiskOK x /\ bac_ok x /\ olog x = olog (s_disk s1) /\ (x = s_disk s1 \/ d_lock x = true)) /\
  (p <> [] -> d_lock (run_evs p (s_disk s1)) = true).
Proof.
  intros HI Em Hb Ec Eo Etr.
  destruct (closed_facts P s m s1 OOk HI Em Hb Ec) as (_ & Hm1 & Hok1 & Hb1 & Hl1 & Hi1 & Hov1 & Him1 & Hh1 & Hc1 & Ed1).
  pose proof (close_same_log s m s1 OOk Em Ec Ed1) as Hsl.
  destruct (reopen_ok P seed s m s1 OOk s2 _ HI Em Hb Ec Eo) as (_ & (HI2 & _) & _).
  destruct (clean_open_trace P seed (s_disk s1) _ _ Hok1 Hb1 Hl1 Hi1 Hov1 Him1 Hh1) as (pre & T & Hsafe & Hpre & Hdur).
  destruct (Hdur s2 Eo HI2) as (u2 & Hd2 & _). apply dur_dur2 in Hd2.
  rewrite Eo in T. cbn [fst] in T.
  set (d1 := s_disk s1) in *. set (d2 := apply_ev flat_ops d1 (ECreate FLock)) in *.
  assert (Hg2 : Good d2) by (split; [exact Hok1|split; [exact Hb1|reflexivity]]).
  assert (Hsl12 : same_log d1 d2) by (apply apply_ev_same_log; reflexivity).
  assert (Hclean : forall y, Qd y d1).
  { intros y. apply (Qd_same_log y _ _ Hsl). apply allclean_Qd. eapply Inv_allclean; eassumption. }
  assert (Himg : forall p' q' x, s_trace s2 = p' ++ q' -> crash_image d1 p' x ->
            DiskOK x /\ bac_ok x /\ olog x = olog d1 /\ (x = d1 \/ d_lock x = true)).
  { intros p' q' x Etr' Hx. rewrite T in Etr'. destruct p' as [|a p'].
    - inversion Hx; subst. split; [exact Hok1|]. split; [exact Hb1|]. split; [reflexivity|left; reflexivity].
    - cbn [app] in Etr'. inversion Etr' as [[Ea Epre]]. subst a.
      destruct (crash_image_cons_inv _ _ _ _ Hx) as [->|[Hx'|Hx']]; [|fold d2 in Hx'|discriminate Hx'].
      + split; [exact Hok1|]. split; [exact Hb1|]. split; [reflexivity|left; reflexivity].
      + assert (Hx2 : crash_image d2 pre x) by (rewrite Epre; apply crash_image_app_l; exact Hx').
        destruct (safe_run_images pre d2 _ Hsafe Hg2 Hx2) as ((G1 & G2 & G3) & Ho).
        split; [exact G1|]. split; [exact G2|]. split; [rewrite Ho; apply same_log_olog; exact Hsl12|right; exact G3]. }
  split; [|split].
  - assert (HWJ : exists y, wtr false y d1 (s_trace s2) /\ Jd y d1 None).
    { destruct Hpre as [->|(a & b & -> & Hnew)].
      - destruct (bound_exists d1) as (M & HM). exists (0, M). split.
        + rewrite T. apply wtr_nolog. constructor; [reflexivity|constructor].
        + split; [apply Hclean|]. split; [exact HM|intros x Ex; discriminate Ex].
      - exists (a, b). split.
        + rewrite T. apply wt_quiet; [reflexivity|].
          apply (wt_create false (a, b)); [intros Ex; discriminate Ex|]. cbn [fst snd].
          apply (wt_data false (a, b)); [reflexivity| |apply wt_nil].
          eexists. split; [rewrite d_segs_create_seg; apply in_or_app; right; left; reflexivity|reflexivity].
        + split; [apply Hclean|]. split; [|intros x Ex; discriminate Ex].
          intros f Hf. exact (Hnew f Hf). }
    destruct HWJ as (y & W & HJ).
    destruct (cut_Jd false y (s_trace s2) d1 None u2 p q W HJ Hd2 Etr) as (u_p & A & B & _).
    exists u_p. split; [exact A|exists y; exact B].
  - intros x Hx. apply (Himg p q x Etr Hx).
  - intros Hne. destruct (Himg p q _ Etr (crash_image_full p d1)) as (_ & _ & _ & [Ex|Hl]); [|exact Hl].
    exfalso. rewrite T in Etr. destruct p as [|a p]; [contradiction Hne; reflexivity|].
    cbn [app] in Etr. inversion Etr as [[Ea Epre]]. subst a. cbn [fold_left] in Ex. fold d2 in Ex.
    assert (Hx2 : crash_image d2 pre (run_evs p d2)) by (rewrite Epre; apply crash_image_app_l; apply crash_image_full).
    destruct (safe_run_images pre d2 _ Hsafe Hg2 Hx2) as ((_ & _ & G3) & _). rewrite Ex, Hl1 in G3. discriminate G3.
Qed.


(* where a dying process leaves the events of the operation in flight *)
Inductive cutof : disk -> list fsev -> list chunk -> disk -> Prop :=
| cut_evs d p q : cutof d (p ++ q) [CE p] (run_evs p d)
| cut_torn d p id seq off r q c : 0 < c -> c < rsize r ->
    cutof d (p ++ EAppend id seq off r :: q) [CE p; CT id seq r c] (torn (run_evs p d) id seq r c).

(* ... these are exactly the process-crash images of DBProofsCrash.v *)
Lemma cutof_crash_image d es K cimg : cutof d es K cimg -> crash_image d es cimg.
Proof.
  intros H. destruct H as [d p q|d p id seq off r q c Hc0 Hc1].
  - apply crash_image_app_l. apply crash_image_full.
  - apply crash_image_app_r. apply ci_torn; assumption.
Qed.

Lemma crash_image_cutof d es cimg : crash_image d es cimg -> exists K, cutof d es K cimg.
Proof.
  intros H. induction H as [d es|d e es img H IH|d id seq off r es c Hc0 Hc1].
  - exists [CE []]. apply (cut_evs d [] es).
  - destruct IH as (K & HK). remember (apply_ev flat_ops d e) as d1 eqn:Ed1.
    destruct HK as [d0 p q|d0 p id seq off r q c Hc0 Hc1]; subst d0.
    + exists [CE (e :: p)]. apply (cut_evs d (e :: p) q).
    + exists [CE (e :: p); CT id seq r c]. apply (cut_torn d (e :: p) id seq off r q c Hc0 Hc1).
  - exists [CE []; CT id seq r c]. apply (cut_torn d [] id seq off r es c Hc0 Hc1).
Qed.

Lemma cutof_hrun d es K cimg : cutof d es K cimg -> hrun K d = cimg.
Proof. intros H. destruct H; reflexivity. Qed.

Lemma hcrash_nil_inv (d x : disk) : hcrash d [] x -> x = d.
Proof. intros H. inversion H; subst. reflexivity. Qed.

Lemma hcrash_app_inv K1 : forall K2 (d x : disk),
  hcrash d (K1 ++ K2) x -> hcrash d K1 x \/ hcrash (hrun K1 d) K2 x.
Proof.
  induction K1 as [|k K1 IH]; intros K2 d x H; [right; exact H|]. cbn [app] in H. cbn [hrun fold_left].
  inversion H as [d0 K0|d0 es K0 cimg Hci|d0 es K0 cimg Hc|d0 id seq r c c' K0 Hc0 Hc1|d0 id seq r c K0 cimg Hc]; subst.
  - left. apply hc_here.
  - left. apply hc_in. exact Hci.
  - destruct (IH _ _ _ Hc) as [Hl|Hr]; [left; apply hc_evs; exact Hl|right; exact Hr].
  - left. apply hc_torn; assumption.
  - destruct (IH _ _ _ Hc) as [Hl|Hr]; [left; apply hc_tnext; exact Hl|right; exact Hr].
Qed.

Lemma hcrash_one (d x : disk) es : hcrash d [CE es] x -> crash_image d es x.
Proof.
  intros H. inversion H as [d0 K0|d0 es0 K0 cimg Hci|d0 es0 K0 cimg Hc| |]; subst.
  - apply ci_here.
  - exact Hci.
  - apply hcrash_nil_inv in Hc. subst. apply crash_image_full.
Qed.

Lemma cutof_hcrash d es K cimg x : cutof d es K cimg -> hcrash d K x -> crash_image d es x.
Proof.
  intros H Hx. destruct H as [d p q|d p id seq off r q c Hc0 Hc1].
  - apply crash_image_app_l. apply hcrash_one. exact Hx.
  - change [CE p; CT id seq r c] with ([CE p] ++ [CT id seq r c]) in Hx.
    destruct (hcrash_app_inv _ _ _ _ Hx) as [Hl|Hr]; [apply crash_image_app_l; apply hcrash_one; exact Hl|].
    cbn [hrun fold_left hstep] in Hr. apply crash_image_app_r.
    inversion Hr as [d0 K0| | |d0 id0 seq0 r0 c0 c' K0 Hc0' Hc1'|d0 id0 seq0 r0 c0 K0 cimg0 Hc]; subst.
    + apply ci_here.
    + apply ci_torn; [assumption|]. eapply N.le_lt_trans; eassumption.
    + apply hcrash_nil_inv in Hc. subst. apply ci_torn; assumption.
Qed.

(* recovery attempts: any number of recovering Opens that die, then one that completes *)
Inductive rrun (P : params) : disk -> list chunk -> st -> Prop :=
| rr_done d seed s' : db_open flat_ops P seed (closed d) = (s', OOpened true) -> rrun P d [CE (s_trace s')] s'
| rr_crash d seed p q K s' : s_trace (fst (db_open flat_ops P seed (closed d))) = p ++ q ->
    rrun P (run_evs p d) K s' -> rrun P d (CE p :: K) s'.

Lemma hdur2_one u es : hdur2 u [CE es] = dur2 u es.
Proof. cbn [hdur2 hdur2_step]. destruct (dur2 u es); reflexivity. Qed.

Lemma rrun_ok P d Kr s1 : params_ok P -> rrun P d Kr s1 -> forall u, Good d -> Neat u d ->
  Open P s1 /\ ceq (cont (s_disk s1)) (cont d) /\ s_disk s1 = hrun Kr d /\
  (exists u1, hdur2 u Kr = Some u1 /\ DurS u1 s1) /\
  (forall x, hcrash d Kr x -> Good x /\ ceq (cont x) (cont d)).
Proof.
  intros HP H. induction H as [d seed s' E|d seed p q K s' Etr H IH]; intros u Hg HN.
  - destruct (open_dur2 P seed d u HP Hg HN) as (s2 & u' & E2 & HO & Hc & Hd & Hdur & HD & _).
    rewrite E in E2. inversion E2; subst s2. split; [exact HO|]. split; [exact Hc|].
    split; [cbn [hrun fold_left hstep]; exact Hd|]. split; [exists u'; split; [rewrite hdur2_one; exact Hdur|exact HD]|].
    intros x Hx. apply hcrash_one in Hx. destruct Hg as (G1 & G2 & G3).
    assert (Hx' : crash_image d (s_trace (fst (db_open flat_ops P seed {| s_mem := None; s_disk := d; s_trace := [] |}))) x).
    { change {| s_mem := None; s_disk := d; s_trace := [] |} with (closed d). rewrite E. exact Hx. }
    destruct (crash_open_recover P seed d G1 G2 G3 x Hx') as (A1 & A2 & A3 & A4). split; [split; [exact A1|split; assumption]|exact A4].
  - destruct (open_dur2 P seed d u HP Hg HN) as (s2 & u' & E2 & _ & _ & _ & _ & _ & Hpre).
    rewrite E2 in Etr. cbn [fst] in Etr. destruct (Hpre p q Etr) as (u_p & Hdp & HNp).
    pose proof Hg as (G1 & G2 & G3).
    assert (Himg : forall x, crash_image d p x -> Good x /\ ceq (cont x) (cont d)).
    { intros x Hx.
      assert (Hx' : crash_image d (s_trace (fst (db_open flat_ops P seed {| s_mem := None; s_disk := d; s_trace := [] |}))) x).
      { change {| s_mem := None; s_disk := d; s_trace := [] |} with (closed d). rewrite E2. cbn [fst]. rewrite Etr.
        apply crash_image_app_l. exact Hx. }
      destruct (crash_open_recover P seed d G1 G2 G3 x Hx') as (A1 & A2 & A3 & A4). split; [split; [exact A1|split; assumption]|exact A4]. }
    destruct (Himg _ (crash_image_full p d)) as [Hgp Hcp].
    destruct (IH u_p Hgp HNp) as (HO & Hc & Hd & (u1 & Hdur & HD) & Hcr).
    split; [exact HO|]. split; [eapply ceq_trans; eassumption|]. split; [exact Hd|].
    split; [exists u1; split; [cbn [hdur2 hdur2_step]; rewrite Hdp; exact Hdur|exact HD]|].
    intros x Hx. inversion Hx as [d0 K0|d0 es0 K0 cimg Hci|d0 es0 K0 cimg Hc'| |]; subst.
    + split; [exact Hg|apply ceq_refl].
    + apply Himg. exact Hci.
    + destruct (Hcr x Hc') as [A B]. split; [exact A|eapply ceq_trans; eassumption].
Qed.

(* the specification: what may be found after a history of several epochs *)
Inductive mitem := MOps (os : list xop) | MCrash (o : xop) | MKill | MClose.

(* the acknowledged operations in order; the operation in flight at a crash took effect or did not *)
Inductive lin : list mitem -> list xop -> Prop :=
| lin_nil : lin [] []
| lin_ops os mh l : lin mh l -> lin (MOps os :: mh) (os ++ l)
| lin_lost o mh l : lin mh l -> lin (MCrash o :: mh) l
| lin_done o mh l : lin mh l -> lin (MCrash o :: mh) (o :: l)
| lin_kill mh l : lin mh l -> lin (MKill :: mh) l
| lin_close mh l : lin mh l -> lin (MClose :: mh) l.

(* [after c mh c']: c' is c followed by a prefix of the operations of mh *)
Definition after (c : cmap) (mh : list mitem) (c' : cmap) : Prop :=
  exists l j, lin mh l /\ (j <= length l)%nat /\ ceq c' (xspec_hist (firstn j l) c).

Lemma lin_exists mh : exists l, lin mh l.
Proof.
  induction mh as [|it mh (l & IH)]; [exists []; apply lin_nil|].
  destruct it as [os|o| |]; eexists; [apply lin_ops|apply lin_lost|apply lin_kill|apply lin_close]; exact IH.
Qed.

Lemma after_here c mh c' : ceq c' c -> after c mh c'.
Proof. intros H. destruct (lin_exists mh) as (l & Hl). exists l, O. split; [exact Hl|]. split; [apply Nat.le_0_l|exact H]. Qed.

Lemma after_ceq c c2 mh c' : after c mh c' -> ceq c c2 -> after c2 mh c'.
Proof.
  intros (l & j & Hl & Hj & Hc) H. exists l, j. split; [exact Hl|]. split; [exact Hj|].
  eapply ceq_trans; [exact Hc|]. apply xspec_hist_ceq. exact H.
Qed.

Lemma after_ceq_r c mh c' c2 : after c mh c' -> ceq c2 c' -> after c mh c2.
Proof.
  intros (l & j & Hl & Hj & Hc) H. exists l, j. split; [exact Hl|]. split; [exact Hj|]. eapply ceq_trans; eassumption.
Qed.

Lemma xspec_hist_app a b c : xspec_hist (a ++ b) c = xspec_hist b (xspec_hist a c).
Proof. unfold xspec_hist. apply fold_left_app. Qed.

Lemma after_ops_in c os mh c' j : (j <= length os)%nat -> ceq c' (xspec_hist (firstn j os) c) -> after c (MOps os :: mh) c'.
Proof.
  intros Hj Hc. destruct (lin_exists mh) as (l & Hl). exists (os ++ l), j. split; [apply lin_ops; exact Hl|].
  split; [rewrite app_length; lia|]. rewrite firstn_app. replace (j - length os)%nat with O by lia.
  cbn [firstn]. rewrite app_nil_r. exact Hc.
Qed.

(* [lin1 it l]: l is a way to count the operations of the epoch it in a linearisation *)
Definition lin1 (it : mitem) (l : list xop) : Prop := forall mh l2, lin mh l2 -> lin (it :: mh) (l ++ l2).

Lemma after_step c it l mh c' : lin1 it l -> after (xspec_hist l c) mh c' -> after c (it :: mh) c'.
Proof.
  intros Hl (l2 & j & Hl2 & Hj & Hc). exists (l ++ l2), (length l + j)%nat. split; [apply Hl; exact Hl2|].
  split; [rewrite app_length; lia|]. rewrite firstn_app_2, xspec_hist_app. exact Hc.
Qed.

Lemma after_done c o mh c' : after (xspec o c) mh c' -> after c (MCrash o :: mh) c'.
Proof. apply (after_step c (MCrash o) [o]). exact (lin_done o). Qed.

Lemma lin_app mh1 l1 : lin mh1 l1 -> forall mh2 l2, lin mh2 l2 -> lin (mh1 ++ mh2) (l1 ++ l2).
Proof.
  intros H. induction H as [|os mh l H IH|o mh l H IH|o mh l H IH|mh l H IH|mh l H IH]; intros mh2 l2 H2; cbn [app].
  - exact H2.
  - rewrite <- app_assoc. apply lin_ops. apply IH. exact H2.
  - apply lin_lost. apply IH. exact H2.
  - apply lin_done. apply IH. exact H2.
  - apply lin_kill. apply IH. exact H2.
  - apply lin_close. apply IH. exact H2.
Qed.

Lemma after_app_l c mh1 mh2 c' : after c mh1 c' -> after c (mh1 ++ mh2) c'.
Proof.
  intros (l & j & Hl & Hj & Hc). destruct (lin_exists mh2) as (l2 & Hl2). exists (l ++ l2), j.
  split; [apply lin_app; assumption|]. split; [rewrite app_length; lia|].
  rewrite firstn_app. replace (j - length l)%nat with O by lia. cbn [firstn]. rewrite app_nil_r. exact Hc.
Qed.

Lemma prefix_of_snoc {A} (es1 es2 es' : list A) x : es1 ++ es2 = es' ++ [x] -> es2 <> [] -> exists r, es' = es1 ++ r.
Proof.
  revert es'. induction es1 as [|a es1 IH]; intros es' E Hne; [exists es'; reflexivity|].
  destruct es' as [|b es'].
  - cbn [app] in E. inversion E as [[Ea Eb]]. apply app_eq_nil in Eb. destruct Eb as [_ Eb]. contradiction.
  - cbn [app] in E. inversion E as [[Ea Eb]]. destruct (IH es' Eb Hne) as (r & ->). exists r. reflexivity.
Qed.

(* the events of Close before the removal of the lock file are neutral *)
Lemma close_prefix_neutral (s : st) (m : mem) s1 o p e q :
  s_mem s = Some m -> db_close flat_ops (clear_trace s) = (s1, o) -> s_trace s1 = p ++ e :: q -> Forall neutral p.
Proof.
  intros Em Ec Etr. destruct (close_shape (clear_trace s) m Em) as (s3 & (es' & T' & _ & Hn & _) & E').
  rewrite Ec in E'. inversion E' as [[E1']]. cbn [clear_trace s_trace app] in T'.
  assert (Et : p ++ e :: q = es' ++ [ERemove FLock]) by (rewrite <- Etr, <- T', E1'; reflexivity).
  destruct (prefix_of_snoc p (e :: q) es' _ Et) as (r & ->); [discriminate|].
  apply Forall_app in Hn. apply Hn.
Qed.

(* ... hence the lock file is still there *)
Lemma close_prefix_lock P (s : st) (m : mem) s1 o p e q :
  Inv P s -> s_mem s = Some m -> bac_ok (s_disk s) ->
  db_close flat_ops (clear_trace s) = (s1, o) -> s_trace s1 = p ++ e :: q -> d_lock (run_evs p (s_disk s)) = true.
Proof.
  intros HI Em Hb Ec Etr. pose proof (Inv_Good P s HI ltac:(congruence) Hb) as Hg.
  apply (safe_run_end p _ (neutral_safe_run p _ (close_prefix_neutral s m s1 o p e q Em Ec Etr) Hg) Hg).
Qed.

(* [mrun P cf mh K cf']: from the open database cf, the epochs mh are run; K: all events; cf': the open
   database at the end.  Between epochs: a process crash in the middle of a step (any prefix of its events,
   or a torn write) or between steps, followed by recovery attempts; or Close and a clean Open. *)
Inductive mrun (P : params) : cfg -> list mitem -> list chunk -> cfg -> Prop :=
| mr_nil cf : mrun P cf [] [] cf
| mr_ops cf os cfs tr cf1 mh K cf' :
    xrun P cf os cfs tr cf1 -> mrun P cf1 mh K cf' -> mrun P cf (MOps os :: mh) (CE tr :: K) cf'
| mr_crash cf o cfx Kc cimg Kr s1 mh K cf' :
    xstep P cf o cfx -> cutof (s_disk (fst cf)) (s_trace (fst cfx)) Kc cimg -> rrun P cimg Kr s1 ->
    mrun P (s1, None) mh K cf' -> mrun P cf (MCrash o :: mh) (Kc ++ Kr ++ K) cf'
| mr_kill cf Kr s1 mh K cf' :
    rrun P (s_disk (fst cf)) Kr s1 -> mrun P (s1, None) mh K cf' -> mrun P cf (MKill :: mh) (Kr ++ K) cf'
| mr_close cf s1 seed s2 mh K cf' :
    db_close flat_ops (clear_trace (fst cf)) = (s1, OOk) ->
    db_open flat_ops P seed (closed (s_disk s1)) = (s2, OOpened false) ->
    mrun P (s2, None) mh K cf' -> mrun P cf (MClose :: mh) (CE (s_trace s1) :: CE (s_trace s2) :: K) cf'
(* the process dies in the middle of Close (at least one event, e, has not been issued: the lock file is
   still there); recovery attempts *)
| mr_crash_close cf s1 o p e q Kr s1' mh K cf' :
    db_close flat_ops (clear_trace (fst cf)) = (s1, o) -> s_trace s1 = p ++ e :: q ->
    rrun P (run_evs p (s_disk (fst cf))) Kr s1' -> mrun P (s1', None) mh K cf' ->
    mrun P cf (MKill :: mh) (CE p :: Kr ++ K) cf'.

(* [hcut Kc K]: Kc is K cut after some event: the history up to the power failure *)
Inductive hcut : list chunk -> list chunk -> Prop :=
| hcut_here es1 es2 K : hcut [CE es1] (CE (es1 ++ es2) :: K)
| hcut_cons k Kc K : hcut Kc K -> hcut (k :: Kc) (k :: K).

Lemma hcut_app K1 Kc K : hcut Kc K -> hcut (K1 ++ Kc) (K1 ++ K).
Proof. intros H. induction K1 as [|k K1 IH]; [exact H|]. cbn [app]. apply hcut_cons. exact IH. Qed.

Lemma hcut_self Kc K : hcut Kc K -> forall d : disk, hcrash d K (hrun Kc d).
Proof.
  intros H. induction H as [es1 es2 K|k Kc K H IH]; intros d; cbn [hrun fold_left hstep].
  - apply hc_in. apply crash_image_app_l. apply crash_image_full.
  - destruct k as [es|id seq r c]; [apply hc_evs|apply hc_tnext]; apply IH.
Qed.

Lemma hcut_hcrash Kc K : hcut Kc K -> forall d x : disk, hcrash d Kc x -> hcrash d K x.
Proof.
  intros H. induction H as [es1 es2 K|k Kc K H IH]; intros d x Hx.
  - apply hc_in. apply crash_image_app_l. apply hcrash_one. exact Hx.
  - inversion Hx as [d0 K0|d0 es0 K0 cimg Hci|d0 es0 K0 cimg Hc|d0 id seq r c c' K0 Hc0 Hc1|d0 id seq r c K0 cimg Hc]; subst.
    + apply hc_here.
    + apply hc_in. exact Hci.
    + apply hc_evs. apply IH. exact Hc.
    + apply hc_torn; assumption.
    + apply hc_tnext. apply IH. exact Hc.
Qed.

Lemma hcut_hdur2 Kc K : hcut Kc K -> forall u, hdur2 u K <> None -> hdur2 u Kc <> None.
Proof.
  intros H. induction H as [es1 es2 K|k Kc K H IH]; intros u Hd.
  - rewrite hdur2_one. cbn [hdur2 hdur2_step] in Hd. apply (dur2_prefix es1 es2). destruct (dur2 u (es1 ++ es2)); [discriminate|exact Hd].
  - cbn [hdur2] in *. destruct (hdur2_step u k) as [u1|]; [apply IH; exact Hd|exact Hd].
Qed.

Lemma hcut_app_inv K1 : forall Kcut K2, hcut Kcut (K1 ++ K2) ->
  hcut Kcut K1 \/ exists Kc2, Kcut = K1 ++ Kc2 /\ hcut Kc2 K2.
Proof.
  induction K1 as [|k K1 IH]; intros Kcut K2 H; [right; exists Kcut; split; [reflexivity|exact H]|].
  cbn [app] in H. inversion H as [es1 es2 K0|k0 Kc K0 H']; subst.
  - left. apply hcut_here.
  - destruct (IH _ _ H') as [Hl|(Kc2 & -> & Hr)]; [left; apply hcut_cons; exact Hl|].
    right. exists Kc2. split; [reflexivity|exact Hr].
Qed.

Lemma hcut_one_inv Kc es : hcut Kc [CE es] -> exists es1 es2, es = es1 ++ es2 /\ Kc = [CE es1].
Proof.
  intros H. inversion H as [es1 es2 K0|k0 Kc0 K0 H']; subst.
  - exists es1, es2. split; reflexivity.
  - inversion H'.
Qed.

Lemma hcut_ce_inv Kc a K : hcut Kc (CE a :: K) ->
  (exists a1 a2, a = a1 ++ a2 /\ Kc = [CE a1]) \/ (exists Kc', Kc = CE a :: Kc' /\ hcut Kc' K).
Proof.
  intros H. inversion H as [es1 es2 K0|k0 Kc0 K0 H']; subst.
  - left. exists es1, es2. split; reflexivity.
  - right. exists Kc0. split; [reflexivity|exact H'].
Qed.

(* [hist_ok P cf mh K cf' u]: the history (mh, K) from cf ends in the open database cf' on the disk [hrun K];
   the automaton, started with the unflushed segment file u, accepts K and ends with the one of cf'; every
   process-crash image of K is well formed and holds the contents of cf followed by a prefix of mh *)
Definition hist_ok (P : params) (cf : cfg) (mh : list mitem) (K : list chunk) (cf' : cfg) (u : option (N * N)) : Prop :=
  XOpen P cf' /\ s_disk (fst cf') = hrun K (s_disk (fst cf)) /\
  (exists u', hdur2 u K = Some u' /\ DurS u' (fst cf')) /\
  (forall x, hcrash (s_disk (fst cf)) K x ->
     DiskOK x /\ bac_ok x /\ after (cont (s_disk (fst cf))) mh (cont x)).

(* the only cuts of an epoch at which the lock file does not exist: right after the last event of a Close that
   completes in it (the second form: the next chunk of events has begun, with no event yet) *)
Definition unlocked_cut (cf : cfg) (it : mitem) (Kit Kc : list chunk) : Prop :=
  exists s1 Krest, it = MClose /\ db_close flat_ops (clear_trace (fst cf)) = (s1, OOk) /\
    Kit = CE (s_trace s1) :: Krest /\ (Kc = [CE (s_trace s1)] \/ Kc = [CE (s_trace s1); CE []]).

(* one epoch: [hist_ok] of it; its operations as they count in the end; the lock file at its cuts *)
Definition step_main (P : params) (cf : cfg) (it : mitem) (Kit : list chunk) (cf1 : cfg) (u : option (N * N)) : Prop :=
  hist_ok P cf [it] Kit cf1 u /\
  (exists l, lin1 it l /\ ceq (cont (s_disk (fst cf1))) (xspec_hist l (cont (s_disk (fst cf))))) /\
  (forall Kc, hcut Kc Kit -> d_lock (hrun Kc (s_disk (fst cf))) = true \/ unlocked_cut cf it Kit Kc).

Lemma hist_nil P cf u : XOpen P cf -> DurS u (fst cf) -> hist_ok P cf [] [] cf u.
Proof.
  intros HX HD. split; [exact HX|]. split; [reflexivity|]. split; [exists u; split; [reflexivity|exact HD]|].
  intros x Hx. apply hcrash_nil_inv in Hx. subst x. destruct HX as [(HI & Hm & Hb) _].
  destruct (Inv_Good P _ HI Hm Hb) as (G1 & _). split; [exact G1|]. split; [exact Hb|apply after_here; apply ceq_refl].
Qed.

Lemma hist_cons P cf it Kit cf1 u mh K cf' :
  step_main P cf it Kit cf1 u ->
  (forall u1, XOpen P cf1 -> DurS u1 (fst cf1) -> hist_ok P cf1 mh K cf' u1) ->
  hist_ok P cf (it :: mh) (Kit ++ K) cf' u.
Proof.
  intros ((HX1 & Ed1 & (u1 & Hd1 & HD1) & Hcr1) & (l1 & Hl1 & Hc1) & _) IH.
  destruct (IH u1 HX1 HD1) as (HX' & Ed' & (u' & Hd' & HD') & Hcr).
  split; [exact HX'|]. split; [rewrite hrun_app, <- Ed1; exact Ed'|].
  split; [exists u'; split; [apply (hdur2_cat _ _ _ _ _ Hd1); exact Hd'|exact HD']|].
  intros x Hx. destruct (hcrash_app_inv _ _ _ _ Hx) as [Hl|Hr2].
  - destruct (Hcr1 x Hl) as (G1 & G2 & Haf). split; [exact G1|]. split; [exact G2|].
    apply (after_app_l _ [it] mh). exact Haf.
  - rewrite <- Ed1 in Hr2. destruct (Hcr x Hr2) as (G1 & G2 & Haf). split; [exact G1|]. split; [exact G2|].
    exact (after_step _ it l1 mh _ Hl1 (after_ceq _ _ _ _ Haf Hc1)).
Qed.

(* an epoch all of whose process-crash images are recoverable directories (lock file present) *)
Lemma step_main_good P cf it Kit cf1 u l :
  XOpen P cf1 -> s_disk (fst cf1) = hrun Kit (s_disk (fst cf)) ->
  (exists u', hdur2 u Kit = Some u' /\ DurS u' (fst cf1)) ->
  (forall x, hcrash (s_disk (fst cf)) Kit x -> Good x /\ after (cont (s_disk (fst cf))) [it] (cont x)) ->
  lin1 it l -> ceq (cont (s_disk (fst cf1))) (xspec_hist l (cont (s_disk (fst cf)))) ->
  step_main P cf it Kit cf1 u.
Proof.
  intros HX1 Ed Hd Hcr Hl Hc. split; [split; [exact HX1|split; [exact Ed|split; [exact Hd|]]]|split; [exists l; split; assumption|]].
  - intros x Hx. destruct (Hcr x Hx) as [(G1 & G2 & _) Haf]. split; [exact G1|split; [exact G2|exact Haf]].
  - intros Kc Hcut. left. destruct (Hcr _ (hcut_self Kc Kit Hcut _)) as [(_ & _ & G3) _]. exact G3.
Qed.

Lemma ops_main P cf os cfs tr cf1 u :
  params_ok P -> XOpen P cf -> DurS u (fst cf) -> xrun P cf os cfs tr cf1 -> step_main P cf (MOps os) [CE tr] cf1 u.
Proof.
  intros HP HX HD Hr.
  destruct (xrun_ok P _ _ _ _ _ HP Hr HX) as (HX1 & Ed1 & Hc1 & _).
  destruct (xrun_dur P _ _ _ _ _ HP Hr HX u HD) as (u1 & Hd1 & HD1). apply dur_dur2 in Hd1.
  apply (step_main_good P cf (MOps os) [CE tr] cf1 u os HX1 Ed1).
  - exists u1. split; [rewrite hdur2_one; exact Hd1|exact HD1].
  - intros x Hx. apply hcrash_one in Hx. destruct (xrun_crash P _ _ _ _ _ HP Hr HX x Hx) as [Hg (j & Hj & Hc)].
    split; [exact Hg|eapply after_ops_in; eassumption].
  - intros mh l2 H. apply lin_ops. exact H.
  - exact Hc1.
Qed.

Lemma crash_trans P cf o cfx Kc cimg u :
  params_ok P -> XOpen P cf -> DurS u (fst cf) -> xstep P cf o cfx ->
  cutof (s_disk (fst cf)) (s_trace (fst cfx)) Kc cimg ->
  Good cimg /\ (exists u1, hdur2 u Kc = Some u1 /\ Neat u1 cimg) /\
  (forall x, hcrash (s_disk (fst cf)) Kc x ->
     Good x /\ (ceq (cont x) (cont (s_disk (fst cf))) \/ ceq (cont x) (xspec o (cont (s_disk (fst cf)))))).
Proof.
  intros HP HX HD Hs Hcut.
  destruct (xstep_ok P cf o cfx HP HX Hs) as (_ & Hspec & _).
  assert (Himg : forall x, crash_image (s_disk (fst cf)) (s_trace (fst cfx)) x ->
            Good x /\ (ceq (cont x) (cont (s_disk (fst cf))) \/ ceq (cont x) (xspec o (cont (s_disk (fst cf)))))).
  { intros x Hx. destruct (xstep_crash P cf o cfx x HP HX Hs Hx) as [Hg [Hc|Hc]]; (split; [exact Hg|]); [left; exact Hc|right].
    eapply ceq_trans; eassumption. }
  split; [apply Himg; eapply cutof_crash_image; exact Hcut|].
  split; [|intros x Hx; apply Himg; eapply cutof_hcrash; eassumption].
  destruct (xstep_dur P cf o cfx u HP HX Hs HD) as (ue & Hdur & _). apply dur_dur2 in Hdur.
  destruct (xstep_wtr P cf o cfx u HX Hs HD) as (y & HJ & W).
  remember (s_disk (fst cf)) as d eqn:Ed. remember (s_trace (fst cfx)) as es eqn:Ees.
  destruct Hcut as [d p q|d p id seq off r q c Hc0 Hc1].
  - destruct (cut_Jd false y (p ++ q) d u ue p q W HJ Hdur eq_refl) as (u_p & A & B & _).
    exists u_p. split; [rewrite hdur2_one; exact A|exists y; exact B].
  - destruct (cut_Jd false y _ d u ue p (EAppend id seq off r :: q) W HJ Hdur eq_refl) as (u_p & A & B & C & Wq).
    destruct (wtr_inv _ _ _ _ _ Wq) as [_ [K|[[K K']|[[K _]|[_ (i & q0 & K)]]]]]; try discriminate K.
    cbn [seg_data] in K. inversion K; subst y. cbn [dur2] in C.
    destruct (dur2_step u_p (EAppend id seq off r)) as [u2|] eqn:Es; [|discriminate].
    rewrite (dur2_step_data u_p (EAppend id seq off r) (id, seq) eq_refl) in Es.
    exists u2. split; [cbn [hdur2 hdur2_step]; rewrite A; cbn [hdur2_step]; rewrite Es; reflexivity|].
    destruct (dur2_data_inv _ _ _ Es) as [-> _]. exists (id, seq).
    apply (Jd_torn (id, seq) (run_evs p d) u_p r c B K').
Qed.

(* chunks Kp that leave a recoverable directory, then recovery attempts *)
Lemma rrun_epoch P (d : disk) it Kp u up Kr s1 :
  params_ok P -> hdur2 u Kp = Some up -> Neat up (hrun Kp d) -> rrun P (hrun Kp d) Kr s1 ->
  (forall x, hcrash d Kp x -> Good x /\ after (cont d) [it] (cont x)) ->
  XOpen P (s1, None) /\ s_disk s1 = hrun (Kp ++ Kr) d /\
  (exists u1, hdur2 u (Kp ++ Kr) = Some u1 /\ DurS u1 s1) /\
  (forall x, hcrash d (Kp ++ Kr) x -> Good x /\ after (cont d) [it] (cont x)) /\
  ceq (cont (s_disk s1)) (cont (hrun Kp d)).
Proof.
  intros HP Hdp HNp Hrr Hpre. destruct (Hpre _ (hcrash_full Kp d)) as [Hgp Hafp].
  destruct (rrun_ok P _ Kr s1 HP Hrr up Hgp HNp) as (HO1 & Hc1 & Ed1 & (u1 & Hd1 & HD1) & Hcrr).
  split; [split; [exact HO1|exact Logic.I]|]. split; [rewrite hrun_app; exact Ed1|].
  split; [exists u1; split; [apply (hdur2_cat _ _ _ _ _ Hdp Hd1)|exact HD1]|]. split; [|exact Hc1].
  intros x Hx. destruct (hcrash_app_inv _ _ _ _ Hx) as [Hl|Hr]; [apply Hpre; exact Hl|].
  destruct (Hcrr x Hr) as [Hg Hc]. split; [exact Hg|apply (after_ceq_r _ _ _ _ Hafp Hc)].
Qed.

Lemma crash_main P cf o cfx Kc cimg Kr s1 u :
  params_ok P -> XOpen P cf -> DurS u (fst cf) ->
  xstep P cf o cfx -> cutof (s_disk (fst cf)) (s_trace (fst cfx)) Kc cimg -> rrun P cimg Kr s1 ->
  step_main P cf (MCrash o) (Kc ++ Kr) (s1, None) u.
Proof.
  intros HP HX HD Hs Hcut Hrr.
  destruct (crash_trans P cf o cfx Kc cimg u HP HX HD Hs Hcut) as (_ & (uc & Hdc & HNc) & Hcrc).
  rewrite <- (cutof_hrun _ _ _ _ Hcut) in HNc, Hrr.
  assert (Hpre : forall x, hcrash (s_disk (fst cf)) Kc x -> Good x /\ after (cont (s_disk (fst cf))) [MCrash o] (cont x)).
  { intros x Hx. destruct (Hcrc x Hx) as [Hg [Hc|Hc]]; (split; [exact Hg|]); [|apply after_done]; apply after_here; exact Hc. }
  destruct (rrun_epoch P _ (MCrash o) Kc u uc Kr s1 HP Hdc HNc Hrr Hpre) as (HX1 & Ed1 & Hd1 & Hcr & Hc1).
  (* the operation in flight counts, or does not, according to the directory the process left *)
  destruct (Hcrc _ (hcrash_full Kc _)) as [_ [Hcc|Hcc]].
  - apply (step_main_good P cf (MCrash o) (Kc ++ Kr) (s1, None) u [] HX1 Ed1 Hd1 Hcr).
    + intros mh l2 H. apply lin_lost. exact H.
    + eapply ceq_trans; eassumption.
  - apply (step_main_good P cf (MCrash o) (Kc ++ Kr) (s1, None) u [o] HX1 Ed1 Hd1 Hcr).
    + intros mh l2 H. apply (lin_done o mh l2 H).
    + eapply ceq_trans; eassumption.
Qed.

Lemma kill_main P cf Kr s1 u :
  params_ok P -> XOpen P cf -> DurS u (fst cf) -> rrun P (s_disk (fst cf)) Kr s1 ->
  step_main P cf MKill Kr (s1, None) u.
Proof.
  intros HP HX HD Hrr. pose proof HX as [(HI & Hm & Hb) _].
  assert (Hpre : forall x, hcrash (s_disk (fst cf)) [] x -> Good x /\ after (cont (s_disk (fst cf))) [MKill] (cont x)).
  { intros x Hx. apply hcrash_nil_inv in Hx. subst x. split; [apply (Inv_Good P _ HI Hm Hb)|apply after_here; apply ceq_refl]. }
  destruct (rrun_epoch P _ MKill [] u u Kr s1 HP eq_refl (DurS_Neat P (fst cf) u HI HD) Hrr Hpre) as (HX1 & Ed1 & Hd1 & Hcr & Hc1).
  apply (step_main_good P cf MKill Kr (s1, None) u [] HX1 Ed1 Hd1 Hcr); [intros mh l2 H; apply lin_kill; exact H|exact Hc1].
Qed.

(* the process dies in the middle of Close: the events issued so far are neutral *)
Lemma crash_close_main P cf s1 o p e q Kr s1' u :
  params_ok P -> XOpen P cf -> DurS u (fst cf) ->
  db_close flat_ops (clear_trace (fst cf)) = (s1, o) -> s_trace s1 = p ++ e :: q ->
  rrun P (run_evs p (s_disk (fst cf))) Kr s1' ->
  step_main P cf MKill (CE p :: Kr) (s1', None) u.
Proof.
  intros HP HX HD Ec Etr Hrr. pose proof HX as [(HI & Hm & Hb) _]. pose proof (Inv_Good P _ HI Hm Hb) as Hg0.
  destruct (DurS_Neat P (fst cf) u HI HD) as (y & HJ0). destruct HD as (m & Em & HDm).
  pose proof (close_prefix_neutral (fst cf) m s1 o p e q Em Ec Etr) as Hn.
  pose proof (neutral_nolog p Hn) as Hnl.
  assert (Hslp : same_log (s_disk (fst cf)) (run_evs p (s_disk (fst cf)))).
  { apply (no_log_images_same_log p); [exact Hnl|apply crash_image_full]. }
  destruct (dur2_nolog p u Hnl) as (u_p & Hdp & Hup).
  assert (HNp : Neat u_p (run_evs p (s_disk (fst cf)))).
  { exists y. apply (Jd_same_log y _ _ _ Hslp). destruct HJ0 as (A & B & C). split; [exact A|]. split; [exact B|].
    intros x Ex. destruct Hup as [->| ->]; [apply C; exact Ex|discriminate]. }
  assert (Hpre : forall x, hcrash (s_disk (fst cf)) [CE p] x -> Good x /\ after (cont (s_disk (fst cf))) [MKill] (cont x)).
  { intros x Hx. apply hcrash_one in Hx. destruct (neutral_images p _ x Hn Hg0 Hx) as (Hg & Ho). split; [exact Hg|].
    apply after_here. intros k. unfold cont. rewrite (olog_abs _ _ Ho). reflexivity. }
  rewrite <- hdur2_one in Hdp.
  destruct (rrun_epoch P _ MKill [CE p] u u_p Kr s1' HP Hdp HNp Hrr Hpre) as (HX1 & Ed1 & Hd1 & Hcr & Hc1).
  apply (step_main_good P cf MKill (CE p :: Kr) (s1', None) u [] HX1 Ed1 Hd1 Hcr); [intros mh l2 H; apply lin_kill; exact H|].
  eapply ceq_trans; [exact Hc1|]. cbn [hrun fold_left hstep]. intros k. unfold cont.
  rewrite (olog_abs _ _ (proj2 (safe_run_end p _ (neutral_safe_run p _ Hn Hg0) Hg0))). reflexivity.
Qed.

(* the cuts of "Close ; a prefix p of the clean Open": the lock file exists, except between the last event of
   Close and the first event of the Open *)
Lemma close_open_cuts P seed (s : st) (m : mem) s1 s2 p q Kc :
  Inv P s -> s_mem s = Some m -> bac_ok (s_disk s) ->
  db_close flat_ops (clear_trace s) = (s1, OOk) ->
  db_open flat_ops P seed (closed (s_disk s1)) = (s2, OOpened false) -> s_trace s2 = p ++ q ->
  hcut Kc [CE (s_trace s1); CE p] ->
  d_lock (hrun Kc (s_disk s)) = true \/ Kc = [CE (s_trace s1)] \/ Kc = [CE (s_trace s1); CE []].
Proof.
  intros HI Em Hb Ec Eo Etr Hcut.
  destruct (hcut_ce_inv _ _ _ Hcut) as [(es1 & es2 & Et1 & ->)|(Kc' & -> & Hcut')].
  - (* inside Close *)
    destruct es2 as [|e2 es2]; [rewrite app_nil_r in Et1; subst es1; right; left; reflexivity|].
    left. exact (close_prefix_lock P s m s1 OOk es1 e2 es2 HI Em Hb Ec Et1).
  - (* inside the clean Open *)
    destruct (hcut_one_inv _ _ Hcut') as (e1 & e2 & Ep & ->).
    destruct e1 as [|a e1]; [right; right; reflexivity|].
    left. cbn [hrun fold_left hstep].
    destruct (closed_facts P s m s1 OOk HI Em Hb Ec) as (_ & _ & _ & _ & _ & _ & _ & _ & _ & _ & Ed1). rewrite <- Ed1.
    assert (Etr' : s_trace s2 = (a :: e1) ++ (e2 ++ q)) by (rewrite Etr, Ep, <- app_assoc; reflexivity).
    destruct (clean_open_prefix P seed s m s1 s2 _ _ HI Em Hb Ec Eo Etr') as (_ & _ & Hlk).
    apply Hlk. discriminate.
Qed.

Lemma close_main P cf s1 seed s2 u :
  params_ok P -> XOpen P cf -> DurS u (fst cf) ->
  db_close flat_ops (clear_trace (fst cf)) = (s1, OOk) ->
  db_open flat_ops P seed (closed (s_disk s1)) = (s2, OOpened false) ->
  step_main P cf MClose [CE (s_trace s1); CE (s_trace s2)] (s2, None) u.
Proof.
  intros HP HX HD Ec Eo. pose proof HX as [(HI & Hm & Hb) _]. destruct HD as (m & Em & HDm).
  destruct (closed_facts P (fst cf) m s1 OOk HI Em Hb Ec) as (_ & Hm1 & Hok1 & Hb1 & Hl1 & Hi1 & Hov1 & Him1 & Hh1 & Hc1 & Ed1).
  destruct (reopen_ok P seed (fst cf) m s1 OOk s2 _ HI Em Hb Ec Eo) as (_ & HO2 & Ha2).
  destruct (clean_open_dur2 P seed (s_disk s1) _ _ s2 Hok1 Hb1 Hl1 Hi1 Hov1 Him1 Hh1 Eo (proj1 HO2)) as (u2 & Hd2 & HD2 & Ed2).
  pose proof (close_dur2 (fst cf) m u Em HDm) as Hdc. rewrite Ec in Hdc. cbn [fst] in Hdc.
  destruct (clean_open_prefix P seed (fst cf) m s1 s2 _ [] HI Em Hb Ec Eo (eq_sym (app_nil_r _))) as (_ & Himg & _).
  split; [split; [split; [exact HO2|exact Logic.I]|split; [|split]]|split].
  - cbn [hrun fold_left hstep fst]. rewrite <- Ed1. exact Ed2.
  - exists u2. split; [cbn [hdur2 hdur2_step]; rewrite Hdc, Hd2; reflexivity|exact HD2].
  - (* a crash image of Close, or of the clean Open of the closed directory *)
    intros x Hx. change [CE (s_trace s1); CE (s_trace s2)] with ([CE (s_trace s1)] ++ [CE (s_trace s2)]) in Hx.
    destruct (hcrash_app_inv _ _ _ _ Hx) as [Hl|Hr]; apply hcrash_one in Hl || apply hcrash_one in Hr.
    + destruct (crash_close P (fst cf) s1 OOk x HI Hm Hb Ec Hl) as [(G1 & G2 & _ & Hc)| ->].
      * split; [exact G1|]. split; [exact G2|]. apply after_here. exact Hc.
      * split; [exact Hok1|]. split; [exact Hb1|]. apply after_here. exact Hc1.
    + cbn [hrun fold_left hstep] in Hr. rewrite <- Ed1 in Hr. destruct (Himg x Hr) as (G1 & G2 & Ho & _).
      split; [exact G1|]. split; [exact G2|]. apply after_here. intros k. unfold cont. rewrite (olog_abs _ _ Ho). apply Hc1.
  - exists []. split; [intros mh l2 H; apply lin_close; exact H|exact Ha2].
  - intros Kc Hcut.
    destruct (close_open_cuts P seed (fst cf) m s1 s2 _ [] Kc HI Em Hb Ec Eo (eq_sym (app_nil_r _)) Hcut) as [Hl|HKc]; [left; exact Hl|].
    right. exists s1, [CE (s_trace s2)]. split; [reflexivity|]. split; [exact Ec|]. split; [reflexivity|exact HKc].
Qed.

Theorem mrun_main P cf mh K cf' : params_ok P -> mrun P cf mh K cf' -> forall u, XOpen P cf -> DurS u (fst cf) ->
  XOpen P cf' /\ s_disk (fst cf') = hrun K (s_disk (fst cf)) /\
  (exists u', hdur2 u K = Some u' /\ DurS u' (fst cf')) /\
  (forall x, hcrash (s_disk (fst cf)) K x ->
     DiskOK x /\ bac_ok x /\ after (cont (s_disk (fst cf))) mh (cont x)).
Proof.
  intros HP H.
  induction H as [cf|cf os cfs tr cf1 mh K cf' Hr H IH|cf o cfx Kc cimg Kr s1 mh K cf' Hs Hcut Hrr H IH
                  |cf Kr s1 mh K cf' Hrr H IH|cf s1 seed s2 mh K cf' Ec Eo H IH
                  |cf s1 o p e q Kr s1' mh K cf' Ec Etr Hrr H IH]; intros u HX HD.
  - apply hist_nil; assumption.
  - apply (hist_cons P cf (MOps os) [CE tr] cf1 u mh K cf' (ops_main P _ _ _ _ _ u HP HX HD Hr) IH).
  - rewrite app_assoc. apply (hist_cons P cf (MCrash o) (Kc ++ Kr) (s1, None) u mh K cf' (crash_main P _ _ _ _ _ _ _ u HP HX HD Hs Hcut Hrr) IH).
  - apply (hist_cons P cf MKill Kr (s1, None) u mh K cf' (kill_main P _ _ _ u HP HX HD Hrr) IH).
  - apply (hist_cons P cf MClose [CE (s_trace s1); CE (s_trace s2)] (s2, None) u mh K cf' (close_main P _ _ _ _ u HP HX HD Ec Eo) IH).
  - apply (hist_cons P cf MKill (CE p :: Kr) (s1', None) u mh K cf' (crash_close_main P _ _ _ _ _ _ _ _ u HP HX HD Ec Etr Hrr) IH).
Qed.

(* events of consecutive chunks, as one list *)
Lemma pl_plh ess : forall L d L' img', pl L d (concat ess) L' img' -> plh L d (map CE ess) L' img'.
Proof.
  induction ess as [|es ess IH]; intros L d L' img' H; cbn [concat map] in *.
  - inversion H; subst. apply plh_nil.
  - destruct (pl_app_inv _ _ _ _ _ _ H) as (L1 & d1 & A & B). eapply plh_evs; [exact A|apply IH; exact B].
Qed.

(* ... and back: on histories without torn chunks [plh] is [pl] on the concatenation *)
Lemma plh_pl ess : forall L d L' img', plh L d (map CE ess) L' img' -> pl L d (concat ess) L' img'.
Proof.
  induction ess as [|es ess IH]; intros L d L' img' H; cbn [concat map] in *.
  - inversion H; subst. apply pl_nil.
  - inversion H as [|L0 d0 es0 L1 d1 K0 L0' img0 A B| | |]; subst. eapply pl_app; [exact A|apply IH; exact B].
Qed.

(* What follows uses of the histories only [hist_ok]: it is stated for any relation R that guarantees it, and
   holds of [mrun] by [mrun_main] (and of the longer histories of PowerLoss3.v). *)
Section AnyHistories.
Variable P : params.
Variable R : cfg -> list mitem -> list chunk -> cfg -> Prop.
Hypothesis HP : params_ok P.
Hypothesis R_main : forall cf mh K cf', R cf mh K cf' -> forall u, XOpen P cf -> DurS u (fst cf) -> hist_ok P cf mh K cf' u.

(* after a sync point of a history of several epochs nothing is pending on any segment file *)
Lemma sync_clean cf0 mh0 K0 cfa osync cf1 L1 img1 :
  XOpen P cf0 -> R cf0 mh0 K0 cfa -> xstep P cfa osync cf1 -> sync_point P osync ->
  plh fnone (s_disk (fst cf0)) (K0 ++ [CE (s_trace (fst cf1))]) L1 img1 ->
  XOpen P cf1 /\ seg_clean L1 /\ Agree L1 (s_disk (fst cf1)) img1.
Proof using HP R_main.
  intros HX0 Hr0 Hs Hsp Hpl.
  destruct (R_main _ _ _ _ Hr0 None HX0 (open_DurS_None P cf0 HX0)) as (HXa & Eda & (ua & Da & HDa) & _).
  destruct (xstep_ok P _ _ _ HP HXa Hs) as (HX1 & _ & Ed1).
  destruct (xstep_dur P _ _ _ ua HP HXa Hs HDa) as (u1 & D1 & _ & Hu1). rewrite (Hu1 Hsp) in D1. apply dur_dur2 in D1.
  assert (Hdur : hdur2 None (K0 ++ [CE (s_trace (fst cf1))]) = Some None).
  { apply (hdur2_cat _ _ _ _ _ Da). rewrite hdur2_one. exact D1. }
  split; [exact HX1|]. split.
  - exact (plh_clean _ _ _ _ Hpl Hdur).
  - assert (Edisk : s_disk (fst cf1) = hrun (K0 ++ [CE (s_trace (fst cf1))]) (s_disk (fst cf0))).
    { rewrite hrun_app. cbn [hrun fold_left hstep]. rewrite <- Eda. exact Ed1. }
    rewrite Edisk. apply (plh_agree _ _ _ _ _ Hpl). apply Agree_refl.
Qed.

(* the power fails at a cut of the history after the sync point, or at its end, where the lock file exists *)
Theorem sync_then_power_loss seed cf0 mh0 K0 cfa osync cf1 mh K cf' Kcut L' img' :
  XOpen P cf0 -> R cf0 mh0 K0 cfa -> xstep P cfa osync cf1 -> sync_point P osync ->
  R cf1 mh K cf' -> hcut Kcut K \/ Kcut = K -> d_lock (hrun Kcut (s_disk (fst cf1))) = true ->
  plh fnone (s_disk (fst cf0)) (K0 ++ CE (s_trace (fst cf1)) :: Kcut) L' img' ->
  exists s2, db_open flat_ops P seed (closed img') = (s2, OOpened true) /\ Inv P s2 /\ s_mem s2 <> None /\
    after (cont (s_disk (fst cf1))) mh (cont (s_disk s2)).
Proof using HP R_main.
  intros HX0 Hr0 Hs Hsp Hr Hin Hlock Hpl.
  change (K0 ++ CE (s_trace (fst cf1)) :: Kcut) with (K0 ++ [CE (s_trace (fst cf1))] ++ Kcut) in Hpl. rewrite app_assoc in Hpl.
  destruct (plh_app_inv _ _ _ _ _ _ Hpl) as (L1 & img1 & Hpl1 & Hpl2).
  destruct (sync_clean _ _ _ _ _ _ L1 img1 HX0 Hr0 Hs Hsp Hpl1) as (HX1 & Hcl & HA).
  destruct (R_main _ _ _ _ Hr None HX1 (open_DurS_None P cf1 HX1)) as (_ & _ & (u' & Hd & _) & Hcr).
  assert (Hcuts : hdur2 None Kcut <> None /\ hcrash (s_disk (fst cf1)) K (hrun Kcut (s_disk (fst cf1))) /\
                  forall x, hcrash (s_disk (fst cf1)) Kcut x -> hcrash (s_disk (fst cf1)) K x).
  { destruct Hin as [Hcut| ->].
    - split; [apply (hcut_hdur2 Kcut K Hcut); rewrite Hd; discriminate|]. split; [apply hcut_self; exact Hcut|apply hcut_hcrash; exact Hcut].
    - split; [rewrite Hd; discriminate|]. split; [apply hcrash_full|intros x Hx; exact Hx]. }
  destruct Hcuts as (Hne & Hself & Hsub).
  pose proof (plh_agree _ _ _ _ _ Hpl2 _ HA) as (_ & _ & _ & _ & _ & A6 & A7).
  destruct (Hcr _ Hself) as (_ & Hbf & _).
  destruct (plh_crash_image _ _ _ _ _ _ None Hpl2 Hcl HA Hne) as (cimg & Hci & Hsame).
  destruct (Hcr cimg (Hsub _ Hci)) as (G1 & _ & Haf).
  assert (G2' : bac_ok img') by (unfold bac_ok; rewrite A7; exact Hbf).
  assert (G3' : d_lock img' = true) by (rewrite A6; exact Hlock).
  destruct (recover_image P seed cimg img' HP Hsame G1 G2' G3') as (s2 & E2 & HI2 & Hm2 & Hc2).
  exists s2. split; [exact E2|]. split; [exact HI2|]. split; [exact Hm2|exact (after_ceq_r _ _ _ _ Haf Hc2)].
Qed.
End AnyHistories.

Lemma msync_clean P cf0 mh0 K0 cfa osync cf1 L1 img1 :
  params_ok P -> XOpen P cf0 -> mrun P cf0 mh0 K0 cfa -> xstep P cfa osync cf1 -> sync_point P osync ->
  plh fnone (s_disk (fst cf0)) (K0 ++ [CE (s_trace (fst cf1))]) L1 img1 ->
  XOpen P cf1 /\ seg_clean L1 /\ Agree L1 (s_disk (fst cf1)) img1.
Proof. intros HP. apply (sync_clean P (mrun P) HP (fun cf mh K cf' => mrun_main P cf mh K cf' HP)). Qed.

(* C06, with recoveries.  A history of any number of epochs from a durable directory; in some epoch a Sync
   (or, with p_sync, a Put / Delete) completes with contents A0 = cont (s_disk (fst cf1)); the history goes
   on through any number of epochs mh (operations, compaction steps; process crashes in the middle of a step,
   with torn writes, or between steps; recovery attempts that die themselves; Close and clean re-Open); the
   power fails after any event of it at which the lock file exists.  Whatever the file system kept: the next
   Open recovers, with the invariant, and the contents are A0 followed by a prefix of the later operations
   (an operation in flight at a process crash counted or not). *)
Theorem C06_with_recovery P seed cf0 mh0 K0 cfa osync cf1 mh K cf' Kcut L' img' :
  params_ok P -> XOpen P cf0 ->
  mrun P cf0 mh0 K0 cfa -> xstep P cfa osync cf1 -> sync_point P osync ->
  mrun P cf1 mh K cf' -> hcut Kcut K -> d_lock (hrun Kcut (s_disk (fst cf1))) = true ->
  plh fnone (s_disk (fst cf0)) (K0 ++ CE (s_trace (fst cf1)) :: Kcut) L' img' ->
  exists s2, db_open flat_ops P seed (closed img') = (s2, OOpened true) /\ Inv P s2 /\ s_mem s2 <> None /\
    after (cont (s_disk (fst cf1))) mh (cont (s_disk s2)).
Proof.
  intros HP HX0 Hr0 Hs Hsp Hr Hcut.
  exact (sync_then_power_loss P (mrun P) HP (fun cf mh K cf' => mrun_main P cf mh K cf' HP) seed _ _ _ _ _ _ _ _ _ _ _ _
           HX0 Hr0 Hs Hsp Hr (or_introl Hcut)).
Qed.

(* per key: the value at the sync point, or the value after one of the later operations *)
Corollary C06_with_recovery_per_key P seed cf0 mh0 K0 cfa osync cf1 mh K cf' Kcut L' img' :
  params_ok P -> XOpen P cf0 ->
  mrun P cf0 mh0 K0 cfa -> xstep P cfa osync cf1 -> sync_point P osync ->
  mrun P cf1 mh K cf' -> hcut Kcut K -> d_lock (hrun Kcut (s_disk (fst cf1))) = true ->
  plh fnone (s_disk (fst cf0)) (K0 ++ CE (s_trace (fst cf1)) :: Kcut) L' img' ->
  exists s2, db_open flat_ops P seed (closed img') = (s2, OOpened true) /\ Inv P s2 /\
    exists l, lin mh l /\ forall k, exists j, (j <= length l)%nat /\
      sget (abs (s_disk s2)) k = xspec_hist (firstn j l) (cont (s_disk (fst cf1))) k.
Proof.
  intros HP HX0 Hr0 Hs Hsp Hr Hcut Hlock Hpl.
  destruct (C06_with_recovery P seed _ _ _ _ _ _ _ _ _ _ _ _ HP HX0 Hr0 Hs Hsp Hr Hcut Hlock Hpl)
    as (s2 & E2 & HI2 & _ & l & j & Hl & Hj & Hc).
  exists s2. split; [exact E2|]. split; [exact HI2|]. exists l. split; [exact Hl|]. intros k. exists j. split; [exact Hj|apply Hc].
Qed.

Lemma sync_XOpen P cf0 mh0 K0 cfa osync cf1 :
  params_ok P -> XOpen P cf0 -> mrun P cf0 mh0 K0 cfa -> xstep P cfa osync cf1 -> XOpen P cf1.
Proof.
  intros HP HX0 Hr0 Hs. destruct (mrun_main P _ _ _ _ HP Hr0 None HX0 (open_DurS_None P cf0 HX0)) as (HXa & _).
  apply (xstep_ok P _ _ _ HP HXa Hs).
Qed.

Lemma mrun_app P cf mh1 K1 cfb : mrun P cf mh1 K1 cfb -> forall mh2 K2 cf', mrun P cfb mh2 K2 cf' ->
  mrun P cf (mh1 ++ mh2) (K1 ++ K2) cf'.
Proof.
  intros H. induction H as [cf|cf os cfs tr cf1 mh K cfb Hr H IH|cf o cfx Kc cimg Kr s1 mh K cfb Hs Hcut Hrr H IH
                            |cf Kr s1 mh K cfb Hrr H IH|cf s1 seed s2 mh K cfb Ec Eo H IH
                            |cf s1 o p e q Kr s1' mh K cfb Ec Etr Hrr H IH]; intros mh2 K2 cf' H2; cbn [app].
  - exact H2.
  - eapply mr_ops; [exact Hr|apply IH; exact H2].
  - rewrite <- !app_assoc. eapply mr_crash; [exact Hs|exact Hcut|exact Hrr|apply IH; exact H2].
  - rewrite <- app_assoc. eapply mr_kill; [exact Hrr|apply IH; exact H2].
  - eapply mr_close; [exact Ec|exact Eo|apply IH; exact H2].
  - rewrite <- app_assoc. eapply mr_crash_close; [exact Ec|exact Etr|exact Hrr|apply IH; exact H2].
Qed.

(* the power fails at any event of the LAST epoch of operations *)
Theorem C06_with_recovery_last_epoch P seed cf0 mh0 K0 cfa osync cf1 mh K cfb os cfs tr cf' es1 es2 L' img' :
  params_ok P -> XOpen P cf0 ->
  mrun P cf0 mh0 K0 cfa -> xstep P cfa osync cf1 -> sync_point P osync ->
  mrun P cf1 mh K cfb -> xrun P cfb os cfs tr cf' -> tr = es1 ++ es2 ->
  plh fnone (s_disk (fst cf0)) (K0 ++ CE (s_trace (fst cf1)) :: K ++ [CE es1]) L' img' ->
  exists s2, db_open flat_ops P seed (closed img') = (s2, OOpened true) /\ Inv P s2 /\ s_mem s2 <> None /\
    after (cont (s_disk (fst cf1))) (mh ++ [MOps os]) (cont (s_disk s2)).
Proof.
  intros HP HX0 Hr0 Hs Hsp Hr Hx Etr Hpl.
  pose proof (sync_XOpen P _ _ _ _ _ _ HP HX0 Hr0 Hs) as HX1.
  destruct (mrun_main P _ _ _ _ HP Hr None HX1 (open_DurS_None P cf1 HX1)) as (HXb & Edb & _).
  assert (Hr' : mrun P cf1 (mh ++ [MOps os]) (K ++ [CE tr]) cf').
  { apply (mrun_app P _ _ _ _ Hr). eapply mr_ops; [exact Hx|apply mr_nil]. }
  apply (C06_with_recovery P seed _ _ _ _ _ _ _ _ _ (K ++ [CE es1]) L' img' HP HX0 Hr0 Hs Hsp Hr').
  - apply hcut_app. rewrite Etr. apply hcut_here.
  - rewrite hrun_app, <- Edb. cbn [hrun fold_left hstep].
    destruct (xrun_crash P _ _ _ _ _ HP Hx HXb (run_evs es1 (s_disk (fst cfb)))) as [(_ & _ & G3) _]; [|exact G3].
    rewrite Etr. apply crash_image_app_l. apply crash_image_full.
  - exact Hpl.
Qed.

(* the power fails during the LAST recovering Open itself *)
Theorem C06_power_loss_during_recovery P seed seed' cf0 mh0 K0 cfa osync cf1 mh K cfb o cfx Kc cimg p q L' img' :
  params_ok P -> XOpen P cf0 ->
  mrun P cf0 mh0 K0 cfa -> xstep P cfa osync cf1 -> sync_point P osync ->
  mrun P cf1 mh K cfb -> xstep P cfb o cfx -> cutof (s_disk (fst cfb)) (s_trace (fst cfx)) Kc cimg ->
  s_trace (fst (db_open flat_ops P seed' (closed cimg))) = p ++ q ->
  plh fnone (s_disk (fst cf0)) (K0 ++ CE (s_trace (fst cf1)) :: K ++ Kc ++ [CE p]) L' img' ->
  exists s2, db_open flat_ops P seed (closed img') = (s2, OOpened true) /\ Inv P s2 /\ s_mem s2 <> None /\
    after (cont (s_disk (fst cf1))) (mh ++ [MCrash o]) (cont (s_disk s2)).
Proof.
  intros HP HX0 Hr0 Hs Hsp Hr Hs' Hcut Etr Hpl.
  pose proof (sync_XOpen P _ _ _ _ _ _ HP HX0 Hr0 Hs) as HX1.
  destruct (mrun_main P _ _ _ _ HP Hr None HX1 (open_DurS_None P cf1 HX1)) as (HXb & Edb & _).
  destruct (xstep_crash P _ _ _ cimg HP HXb Hs' (cutof_crash_image _ _ _ _ Hcut)) as [(G1 & G2 & G3) _].
  destruct (crash_then_recover P seed' cimg HP G1 G2 G3) as (s' & E' & _).
  change {| s_mem := None; s_disk := cimg; s_trace := [] |} with (closed cimg) in E'.
  rewrite E' in Etr. cbn [fst] in Etr.
  assert (Hr' : mrun P cf1 (mh ++ [MCrash o]) (K ++ Kc ++ [CE (p ++ q)] ++ []) (s', None)).
  { apply (mrun_app P _ _ _ _ Hr). eapply mr_crash; [exact Hs'|exact Hcut| |apply mr_nil].
    rewrite <- Etr. apply (rr_done P cimg seed' s' E'). }
  apply (C06_with_recovery P seed _ _ _ _ _ _ _ _ _ (K ++ Kc ++ [CE p]) L' img' HP HX0 Hr0 Hs Hsp Hr').
  - apply hcut_app. apply hcut_app. apply hcut_here.
  - rewrite !hrun_app, <- Edb, (cutof_hrun _ _ _ _ Hcut). cbn [hrun fold_left hstep].
    assert (Hx' : crash_image cimg (s_trace (fst (db_open flat_ops P seed' {| s_mem := None; s_disk := cimg; s_trace := [] |}))) (run_evs p cimg)).
    { change {| s_mem := None; s_disk := cimg; s_trace := [] |} with (closed cimg). rewrite E'. cbn [fst]. rewrite Etr.
      apply crash_image_app_l. apply crash_image_full. }
    apply (crash_open_recover P seed' cimg G1 G2 G3 _ Hx').
  - exact Hpl.
Qed.
(* Non-vacuity: a concrete history with a process crash (torn write), a recovery, more writes, and a power failure *)

(* segments of 4096 bytes: no rollover in this history *)
Definition ey_P : params :=
  {| p_maxseg := 4096; p_minseg := 0; p_frag := fun _ _ => false; p_sync := false;
     p_grow := fun _ _ => false; p_hash := fun _ _ => 0 |}.
Lemma ey_params_ok : params_ok ey_P. Proof. reflexivity. Qed.

(* Open (pl_q0: a freshly created database, durable) ; Put [1]:=[2] ; Sync ; Put [3]:=[4] (not synced) ;
   Put [5]:=[6] is in flight when the process dies: 5 of the 12 bytes of its record are in the file ;
   recovering Open ; Put [7]:=[8] ; power failure *)
Definition ey1 : st := Eval vm_compute in run_op ey_P (OpPut [1] [2]) pl_q0.
Definition ey2 : st := Eval vm_compute in run_op ey_P OpSync ey1.
Definition ey3 : st := Eval vm_compute in run_op ey_P (OpPut [3] [4]) ey2.
Definition ey4 : st := Eval vm_compute in run_op ey_P (OpPut [5] [6]) ey3.
Definition ey_cimg : disk := torn (s_disk ey3) 0 1 (mkput [5] [6]) 5.
Definition ey_r : st := Eval vm_compute in fst (db_open flat_ops ey_P 9 (closed ey_cimg)).
Definition ey5 : st := Eval vm_compute in run_op ey_P (OpPut [7] [8]) ey_r.

Lemma ey_E1 : run_op ey_P (OpPut [1] [2]) pl_q0 = ey1. Proof. vm_compute. reflexivity. Qed.
Lemma ey_E2 : run_op ey_P OpSync ey1 = ey2. Proof. vm_compute. reflexivity. Qed.
Lemma ey_E3 : run_op ey_P (OpPut [3] [4]) ey2 = ey3. Proof. vm_compute. reflexivity. Qed.
Lemma ey_E4 : run_op ey_P (OpPut [5] [6]) ey3 = ey4. Proof. vm_compute. reflexivity. Qed.
Lemma ey_Er : db_open flat_ops ey_P 9 (closed ey_cimg) = (ey_r, OOpened true). Proof. vm_compute. reflexivity. Qed.
Lemma ey_E5 : run_op ey_P (OpPut [7] [8]) ey_r = ey5. Proof. vm_compute. reflexivity. Qed.
Lemma ey_T4 : s_trace ey4 = [] ++ EAppend 0 1 536 (mkput [5] [6]) :: tl (s_trace ey4). Proof. vm_compute. reflexivity. Qed.

Lemma ey_step (s s' : st) k v : run_op ey_P (OpPut k v) s = s' ->
  match s_mem s with Some m => room_b m | None => false end = true ->
  forallb (fun b => b <? 256) k = true -> forallb (fun b => b <? 256) v = true ->
  (nlen k <=? max_key_len) = true -> (nlen v <=? max_val_len) = true ->
  xstep ey_P (s, None) (XOp (OpPut k v)) (s', None).
Proof. intros <- H1 H2 H3 H4 H5. apply xs_op. apply pl_put_pre; assumption. Qed.

Lemma ey_run1 (s s' : st) k v : xstep ey_P (s, None) (XOp (OpPut k v)) (s', None) ->
  xrun ey_P (s, None) [XOp (OpPut k v)] [(s', None)] (s_trace s' ++ []) (s', None).
Proof. intros H. apply (xr_cons ey_P (s, None) _ (s', None)); [exact H|apply xr_nil]. Qed.

Definition ey_mh0 : list mitem := [MOps [XOp (OpPut [1] [2])]].
Definition ey_K0 : list chunk := [CE (s_trace ey1 ++ [])].
Definition ey_mh : list mitem := [MOps [XOp (OpPut [3] [4])]; MCrash (XOp (OpPut [5] [6]))].
Definition ey_K : list chunk := CE (s_trace ey3 ++ []) :: ([CE []; CT 0 1 (mkput [5] [6]) 5] ++ [CE (s_trace ey_r)] ++ []).

Lemma ey_mrun0 : mrun ey_P (pl_q0, None) ey_mh0 ey_K0 (ey1, None).
Proof.
  eapply mr_ops; [|apply mr_nil]. apply ey_run1. apply (ey_step _ _ _ _ ey_E1); vm_compute; reflexivity.
Qed.

Lemma ey_sync : xstep ey_P (ey1, None) (XOp OpSync) (ey2, None).
Proof. rewrite <- ey_E2. apply xs_op. exact Logic.I. Qed.

Lemma ey_mrun : mrun ey_P (ey2, None) ey_mh ey_K (ey_r, None).
Proof.
  eapply mr_ops; [apply ey_run1; apply (ey_step _ _ _ _ ey_E3); vm_compute; reflexivity|].
  apply (mr_crash ey_P (ey3, None) (XOp (OpPut [5] [6])) (ey4, None) [CE []; CT 0 1 (mkput [5] [6]) 5] ey_cimg
                  [CE (s_trace ey_r)] ey_r [] [] (ey_r, None)).
  - apply (ey_step _ _ _ _ ey_E4); vm_compute; reflexivity.
  - cbn [fst]. rewrite ey_T4. apply (cut_torn (s_disk ey3) [] 0 1 536 (mkput [5] [6]) (tl (s_trace ey4)) 5); reflexivity.
  - apply (rr_done ey_P ey_cimg 9 ey_r ey_Er).
  - apply mr_nil.
Qed.

Lemma ey_last : xrun ey_P (ey_r, None) [XOp (OpPut [7] [8])] [(ey5, None)] (s_trace ey5 ++ []) (ey5, None).
Proof. apply ey_run1. apply (ey_step _ _ _ _ ey_E5); vm_compute; reflexivity. Qed.

(* all the events up to the power failure *)
Definition ey_hist : list chunk := ey_K0 ++ CE (s_trace ey2) :: ey_K ++ [CE (s_trace ey5 ++ [])].

(* image A: everything reached the disk (also the 5 bytes of the torn record, which the recovery then cut
   off) except the append of the last Put -- whose index write was kept;
   image B: everything written to the segment file after the Sync is lost: the append of [3], the torn
   bytes, the truncation by the recovery, the append of [7] *)
Definition ey_keep12 : list plc := [Keep; Keep; Keep; Keep; Keep; Keep; Keep; Keep; Keep; Keep; Keep; Keep].
Definition ey_lostA : list hch := [HC [Keep; Keep]; HC [Keep]; HC [Keep; Keep]; HC []; HKeep; HC ey_keep12; HC [Drop; Keep]].
Definition ey_lostB : list hch :=
  [HC [Keep; Keep]; HC [Keep]; HC [Drop; Keep]; HC []; HDrop;
   HC [Keep; Keep; Keep; Keep; Keep; Keep; Keep; Keep; Drop; Keep; Keep; Keep]; HC [Drop; Keep]].
(* a shorter torn prefix than the process left (3 of its 5 bytes) *)
Definition ey_lostC : list hch :=
  [HC [Keep; Keep]; HC [Keep]; HC [Keep; Keep]; HC []; HTear 3;
   HC [Keep; Keep; Keep; Keep; Keep; Keep; Keep; Keep; Drop; Keep; Keep; Keep]; HC [Drop; Keep]].

Example C06_with_recovery_nonvacuous :
  (* the events of the recovering Open *)
  s_trace ey_r =
    [ERename FMain (FBac FMain); ERename FOverflow (FBac FOverflow); ECreate FMain; EHeader FMain;
     ECreate FOverflow; EHeader FOverflow; ETrunc FMain 1024; EIndex []; ETrunc (FSeg 0 1) 536;
     EIndex [{| sl_h := 0; sl_seg := 0; sl_ks := 1; sl_vs := 1; sl_off := 512 |};
             {| sl_h := 0; sl_seg := 0; sl_ks := 1; sl_vs := 1; sl_off := 524 |}];
     ERemove (FBac FMain); ERemove (FBac FOverflow)] /\
  (* the whole history keeps the generalised discipline -- the strict one of PowerLoss.v rejects it *)
  hdur2 None ey_hist = Some (Some (0, 1)) /\
  dur None (concat [s_trace ey1; s_trace ey2; s_trace ey3; s_trace ey_r]) = None /\
  (* the three images are admissible; losing the append of [1] (before the Sync) is not *)
  (exists L, plh fnone (s_disk pl_q0) ey_hist L (img_of (plh_exec ey_lostA fnone (s_disk pl_q0) ey_hist))) /\
  (exists L, plh fnone (s_disk pl_q0) ey_hist L (img_of (plh_exec ey_lostB fnone (s_disk pl_q0) ey_hist))) /\
  (exists L, plh fnone (s_disk pl_q0) ey_hist L (img_of (plh_exec ey_lostC fnone (s_disk pl_q0) ey_hist))) /\
  plh_exec (HC [Drop; Keep] :: tl ey_lostA) fnone (s_disk pl_q0) ey_hist = None /\
  (* contents: at the Sync, at the end, and of the images *)
  abs (s_disk ey2) = [([1], [2])] /\ abs (s_disk ey5) = [([7], [8]); ([3], [4]); ([1], [2])] /\
  abs (img_of (plh_exec ey_lostA fnone (s_disk pl_q0) ey_hist)) = [([3], [4]); ([1], [2])] /\
  abs (img_of (plh_exec ey_lostB fnone (s_disk pl_q0) ey_hist)) = [([1], [2])] /\
  abs (img_of (plh_exec ey_lostC fnone (s_disk pl_q0) ey_hist)) = [([3], [4]); ([1], [2])] /\
  map (fun f => nlen (f_tail f)) (d_segs (img_of (plh_exec ey_lostC fnone (s_disk pl_q0) ey_hist))) = [3].
Proof.
  split; [vm_compute; reflexivity|]. split; [vm_compute; reflexivity|]. split; [vm_compute; reflexivity|].
  split; [apply hexec_image; vm_compute; reflexivity|]. split; [apply hexec_image; vm_compute; reflexivity|].
  split; [apply hexec_image; vm_compute; reflexivity|]. split; [vm_compute; reflexivity|].
  split; [vm_compute; reflexivity|]. split; [vm_compute; reflexivity|]. split; [vm_compute; reflexivity|].
  split; [vm_compute; reflexivity|]. split; vm_compute; reflexivity.
Qed.

(* the theorem applies to this history and to every admissible image of it; the key written before the
   Sync is there *)
Example C06_with_recovery_nonvacuous_recover :
  forall hs, is_some (plh_exec hs fnone (s_disk pl_q0) ey_hist) = true ->
  let img := img_of (plh_exec hs fnone (s_disk pl_q0) ey_hist) in
  exists s2, db_open flat_ops ey_P 11 (closed img) = (s2, OOpened true) /\ Inv ey_P s2 /\ s_mem s2 <> None /\
    after (cont (s_disk ey2)) (ey_mh ++ [MOps [XOp (OpPut [7] [8])]]) (cont (s_disk s2)).
Proof.
  intros hs Hhs img. destruct (hexec_image hs _ _ _ Hhs) as (L & Hpl). fold img in Hpl.
  apply (C06_with_recovery_last_epoch ey_P 11 (pl_q0, None) ey_mh0 ey_K0 (ey1, None) (XOp OpSync) (ey2, None)
           ey_mh ey_K (ey_r, None) _ _ _ (ey5, None) (s_trace ey5 ++ []) [] L img ey_params_ok
           (conj (pl_open0 ey_P) Logic.I) ey_mrun0 ey_sync Logic.I ey_mrun ey_last (eq_sym (app_nil_r _)) Hpl).
Qed.

Example C06_with_recovery_nonvacuous_key1 :
  let sA := fst (db_open flat_ops ey_P 11 (closed (img_of (plh_exec ey_lostA fnone (s_disk pl_q0) ey_hist)))) in
  let sB := fst (db_open flat_ops ey_P 11 (closed (img_of (plh_exec ey_lostB fnone (s_disk pl_q0) ey_hist)))) in
  sget (abs (s_disk sA)) [1] = Some [2] /\ sget (abs (s_disk sA)) [3] = Some [4] /\ sget (abs (s_disk sA)) [7] = None /\
  sget (abs (s_disk sB)) [1] = Some [2] /\ sget (abs (s_disk sB)) [3] = None /\ sget (abs (s_disk sB)) [7] = None.
Proof.
  cbv zeta. split; [vm_compute; reflexivity|]. split; [vm_compute; reflexivity|]. split; [vm_compute; reflexivity|].
  split; [vm_compute; reflexivity|]. split; vm_compute; reflexivity.
Qed.

Lemma xrun_app P a os1 cfs1 tr1 b : xrun P a os1 cfs1 tr1 b -> forall os2 cfs2 tr2 c,
  xrun P b os2 cfs2 tr2 c -> xrun P a (os1 ++ os2) (cfs1 ++ cfs2) (tr1 ++ tr2) c.
Proof.
  intros H. induction H as [cf|cf o cf1 os cfs tr cf' Hs H IH]; intros os2 cfs2 tr2 c H2; cbn [app]; [exact H2|].
  rewrite <- app_assoc. apply (xr_cons P cf o cf1); [exact Hs|apply IH; exact H2].
Qed.

(* A history with a sync point (contents A0 = cont (s_disk (fst cf1))), later steps os that are not synced,
   then Close -- and the power fails after any prefix es1 of the events of Close.  Every admissible image
   opens: through a recovery (the lock file is still there: OOpened true) as long as the removal of the lock
   file has not been issued, whatever became of the half-written db.pmt / index.pmt / *.psg.pmt / main.pix;
   cleanly after the complete Close.  The contents are A0 followed by a prefix of os -- all of os once the
   segment files have been flushed, in particular after the complete Close. *)
Theorem C09_power_loss_during_close P seed cf0 os0 cfs0 tr0 cfa osync cf1 os cfs tr (s : st) c s1 o es1 es2 L' img' :
  params_ok P -> XOpen P cf0 ->
  xrun P cf0 os0 cfs0 tr0 cfa -> xstep P cfa osync cf1 -> sync_point P osync ->
  xrun P cf1 os cfs tr (s, c) ->
  db_close flat_ops (clear_trace s) = (s1, o) -> s_trace s1 = es1 ++ es2 ->
  pl fnone (s_disk (fst cf0)) (tr0 ++ s_trace (fst cf1) ++ tr ++ es1) L' img' ->
  exists s2 b, db_open flat_ops P seed (closed img') = (s2, OOpened b) /\ Inv P s2 /\ s_mem s2 <> None /\
    (exists j, (j <= length os)%nat /\
       ceq (cont (s_disk s2)) (xspec_hist (firstn j os) (cont (s_disk (fst cf1))))) /\
    (es2 <> [] -> b = true) /\
    (es2 = [] -> b = false /\ ceq (cont (s_disk s2)) (cont (s_disk s))).
Proof.
  intros HP HX0 Hr0 Hs Hsp Hr Ec Etr Hpl.
  destruct (xrun_ok P _ _ _ _ _ HP Hr0 HX0) as (HXa & _).
  destruct (xstep_ok P _ _ _ HP HXa Hs) as (HX1 & _).
  destruct (xrun_ok P _ _ _ _ _ HP Hr HX1) as (HXs & Eds & Hcs & _). cbn [fst] in Eds, Hcs.
  pose proof HXs as [(HI & Hm & Hb) _]. cbn [fst] in HI, Hm, Hb.
  destruct (s_mem s) as [m|] eqn:Em; [|congruence].
  destruct (closed_facts P s m s1 o HI Em Hb Ec) as (-> & Hm1 & _).
  destruct es2 as [|e2 es2].
  - (* the complete Close *)
    rewrite app_nil_r in Etr. subst es1.
    assert (HrX : xrun P cf0 (os0 ++ osync :: os) (cfs0 ++ cf1 :: cfs) (tr0 ++ s_trace (fst cf1) ++ tr) (s, c)).
    { apply (xrun_app P _ _ _ _ _ Hr0). apply (xr_cons P cfa osync cf1); assumption. }
    rewrite !app_assoc in Hpl. rewrite <- (app_assoc tr0) in Hpl.
    destruct (C09_reopen P seed _ _ _ _ _ _ _ _ _ _ _ HP HX0 HrX Em Ec Hpl) as (s2 & E2 & HI2 & Hc2 & m2 & Em2 & _).
    exists s2, false. split; [exact E2|]. split; [exact HI2|]. split; [congruence|]. split.
    + exists (length os). split; [apply Nat.le_refl|]. rewrite firstn_all. eapply ceq_trans; eassumption.
    + split; [intros H; contradiction H; reflexivity|]. intros _. split; [reflexivity|exact Hc2].
  - (* the lock file has not been removed *)
    destruct (db_open flat_ops P 0 (closed (s_disk s1))) as [s2' o2] eqn:Eo.
    destruct (reopen_ok P 0 s m s1 OOk s2' o2 HI Em Hb Ec Eo) as (-> & _).
    assert (Hm0 : mrun P cf0 [MOps os0] [CE tr0] cfa) by (eapply mr_ops; [exact Hr0|apply mr_nil]).
    assert (Hm1' : mrun P cf1 [MOps os; MClose] [CE tr; CE (s_trace s1); CE (s_trace s2')] (s2', None)).
    { eapply mr_ops; [exact Hr|]. eapply mr_close; [exact Ec|exact Eo|apply mr_nil]. }
    assert (Hcut : hcut [CE tr; CE es1] [CE tr; CE (s_trace s1); CE (s_trace s2')]).
    { apply hcut_cons. rewrite Etr. apply hcut_here. }
    assert (Hlock : d_lock (hrun [CE tr; CE es1] (s_disk (fst cf1))) = true).
    { cbn [hrun fold_left hstep]. rewrite <- Eds. exact (close_prefix_lock P s m s1 OOk es1 e2 es2 HI Em Hb Ec Etr). }
    assert (Hplh : plh fnone (s_disk (fst cf0)) ([CE tr0] ++ CE (s_trace (fst cf1)) :: [CE tr; CE es1]) L' img').
    { apply (pl_plh [tr0; s_trace (fst cf1); tr; es1]). cbn [concat]. rewrite app_nil_r. exact Hpl. }
    destruct (C06_with_recovery P seed _ _ _ _ _ _ _ _ _ _ L' img' HP HX0 Hm0 Hs Hsp Hm1' Hcut Hlock Hplh)
      as (s2 & E2 & HI2 & Hm2 & l & j & Hl & Hj & Hc).
    exists s2, true. split; [exact E2|]. split; [exact HI2|]. split; [exact Hm2|]. split.
    + inversion Hl as [|os' mh' l1 Hl1| | | |]; subst. inversion Hl1 as [| | | | |mh'' l2 Hl2]; subst. inversion Hl2; subst.
      rewrite app_nil_r in Hj, Hc. exists j. split; assumption.
    + split; [intros _; reflexivity|discriminate].
Qed.

(* a concrete instance: Put [1] ; Sync ; Put [3] ; Close, and the power fails in the middle of Close *)
Definition ez_cl : st := Eval vm_compute in fst (db_close flat_ops (clear_trace ey3)).
Lemma ez_Ecl : db_close flat_ops (clear_trace ey3) = (ez_cl, OOk). Proof. vm_compute. reflexivity. Qed.

Definition ez_events (n : nat) : list fsev :=
  (s_trace ey1 ++ []) ++ s_trace ey2 ++ (s_trace ey3 ++ []) ++ firstn n (s_trace ez_cl).

(* image A: the power fails while db.pmt is being written (3 events of Close issued): its body is lost, and
   so is the append of [3], which nothing has flushed yet;
   image B: the power fails before index.pmt is flushed (12 events issued; the segment file has been flushed
   by Close, the segment meta file written and flushed): the body of index.pmt is lost *)
Definition ez_lostA : list plc := [Keep; Keep; Keep; Drop; Keep; Keep; Keep; Drop].
Definition ez_lostB : list plc :=
  [Keep; Keep; Keep; Keep; Keep; Keep; Keep; Keep; Keep; Keep; Keep; Keep; Keep; Keep; Keep; Keep; Drop].

Example C09_close_nonvacuous :
  s_trace ez_cl =
    [ECreate FDbMeta; EHeader FDbMeta; EGobDb 7; ESync FDbMeta; ESync (FSeg 0 1); ECreate (FSegMeta 0 1);
     EHeader (FSegMeta 0 1);
     EGobSeg 0 1 {| sm_full := false; sm_put := 2; sm_delrec := 0; sm_delkeys := 0; sm_delbytes := 0 |};
     ESync (FSegMeta 0 1); ECreate FIndexMeta; EHeader FIndexMeta;
     EGobIndex [{| sl_h := 0; sl_seg := 0; sl_ks := 1; sl_vs := 1; sl_off := 512 |};
                {| sl_h := 0; sl_seg := 0; sl_ks := 1; sl_vs := 1; sl_off := 524 |}];
     ESync FIndexMeta; ESync FMain; ESync FOverflow; ERemove FLock] /\
  let imgA := img_of (pl_exec ez_lostA fnone (s_disk pl_q0) (ez_events 3)) in
  let imgB := img_of (pl_exec ez_lostB fnone (s_disk pl_q0) (ez_events 12)) in
  (exists L, pl fnone (s_disk pl_q0) (ez_events 3) L imgA) /\
  (exists L, pl fnone (s_disk pl_q0) (ez_events 12) L imgB) /\
  (* half-written metadata files, the lock file still there *)
  d_dbmeta imgA = GPartial /\ d_lock imgA = true /\ abs imgA = [([1], [2])] /\
  d_imeta imgB = GPartial /\ d_lock imgB = true /\
  abs imgB = [([3], [4]); ([1], [2])] /\
  (* once Close has flushed the segment file, losing the append of [3] is not admissible *)
  pl_exec [Keep; Keep; Keep; Drop; Keep; Keep; Keep; Keep; Keep; Keep; Keep; Keep; Keep; Keep; Keep; Keep; Keep]
          fnone (s_disk pl_q0) (ez_events 12) = None.
Proof.
  split; [vm_compute; reflexivity|]. cbv zeta.
  split; [apply exec_image; vm_compute; reflexivity|]. split; [apply exec_image; vm_compute; reflexivity|].
  split; [vm_compute; reflexivity|]. split; [vm_compute; reflexivity|]. split; [vm_compute; reflexivity|].
  split; [vm_compute; reflexivity|]. split; [vm_compute; reflexivity|].
  split; vm_compute; reflexivity.
Qed.

(* the theorem applies to every admissible image at every point of this Close *)
Example C09_close_nonvacuous_recover :
  forall n cs, is_some (pl_exec cs fnone (s_disk pl_q0) (ez_events n)) = true ->
  let img := img_of (pl_exec cs fnone (s_disk pl_q0) (ez_events n)) in
  exists s2 b, db_open flat_ops ey_P 11 (closed img) = (s2, OOpened b) /\ Inv ey_P s2 /\ s_mem s2 <> None /\
    exists j, (j <= 1)%nat /\
      ceq (cont (s_disk s2)) (xspec_hist (firstn j [XOp (OpPut [3] [4])]) (cont (s_disk ey2))).
Proof.
  intros n cs Hcs img. destruct (exec_image cs _ _ _ Hcs) as (L & Hpl). fold img in Hpl.
  assert (R0 : xrun ey_P (pl_q0, None) [XOp (OpPut [1] [2])] [(ey1, None)] (s_trace ey1 ++ []) (ey1, None)).
  { apply ey_run1. apply (ey_step _ _ _ _ ey_E1); vm_compute; reflexivity. }
  assert (R1 : xrun ey_P (ey2, None) [XOp (OpPut [3] [4])] [(ey3, None)] (s_trace ey3 ++ []) (ey3, None)).
  { apply ey_run1. apply (ey_step _ _ _ _ ey_E3); vm_compute; reflexivity. }
  destruct (C09_power_loss_during_close ey_P 11 (pl_q0, None) _ _ _ (ey1, None) (XOp OpSync) (ey2, None) _ _ _ ey3 None
              ez_cl OOk (firstn n (s_trace ez_cl)) (skipn n (s_trace ez_cl)) L img ey_params_ok
              (conj (pl_open0 ey_P) Logic.I) R0 ey_sync Logic.I R1 ez_Ecl (eq_sym (firstn_skipn n _)) Hpl)
    as (s2 & b & E2 & HI2 & Hm2 & Hj & _).
  exists s2, b. split; [exact E2|]. split; [exact HI2|]. split; [exact Hm2|exact Hj].
Qed.

(* a history with Close and a clean re-Open between the Sync and the power failure *)
Definition ez_o : st := Eval vm_compute in fst (db_open flat_ops ey_P 13 (closed (s_disk ez_cl))).
Definition ez5 : st := Eval vm_compute in run_op ey_P (OpPut [7] [8]) ez_o.
Lemma ez_Eo : db_open flat_ops ey_P 13 (closed (s_disk ez_cl)) = (ez_o, OOpened false). Proof. vm_compute. reflexivity. Qed.
Lemma ez_E5 : run_op ey_P (OpPut [7] [8]) ez_o = ez5. Proof. vm_compute. reflexivity. Qed.

Definition ez_mh : list mitem := [MOps [XOp (OpPut [3] [4])]; MClose].
Definition ez_K : list chunk := [CE (s_trace ey3 ++ []); CE (s_trace ez_cl); CE (s_trace ez_o)].
Definition ez_hist : list chunk := ey_K0 ++ CE (s_trace ey2) :: ez_K ++ [CE (s_trace ez5 ++ [])].

Lemma ez_mrun : mrun ey_P (ey2, None) ez_mh ez_K (ez_o, None).
Proof.
  eapply mr_ops; [apply ey_run1; apply (ey_step _ _ _ _ ey_E3); vm_compute; reflexivity|].
  apply (mr_close ey_P (ey3, None) ez_cl 13 ez_o [] [] (ez_o, None) ez_Ecl ez_Eo). apply mr_nil.
Qed.

Example C06_with_close_nonvacuous :
  s_trace ez_o = [ECreate FLock] /\
  hdur2 None ez_hist = Some (Some (0, 1)) /\
  forall hs, is_some (plh_exec hs fnone (s_disk pl_q0) ez_hist) = true ->
  let img := img_of (plh_exec hs fnone (s_disk pl_q0) ez_hist) in
  exists s2, db_open flat_ops ey_P 11 (closed img) = (s2, OOpened true) /\ Inv ey_P s2 /\ s_mem s2 <> None /\
    after (cont (s_disk ey2)) (ez_mh ++ [MOps [XOp (OpPut [7] [8])]]) (cont (s_disk s2)).
Proof.
  split; [vm_compute; reflexivity|]. split; [vm_compute; reflexivity|]. intros hs Hhs img.
  destruct (hexec_image hs _ _ _ Hhs) as (L & Hpl). fold img in Hpl.
  assert (Rl : xrun ey_P (ez_o, None) [XOp (OpPut [7] [8])] [(ez5, None)] (s_trace ez5 ++ []) (ez5, None)).
  { apply ey_run1. apply (ey_step _ _ _ _ ez_E5); vm_compute; reflexivity. }
  apply (C06_with_recovery_last_epoch ey_P 11 (pl_q0, None) ey_mh0 ey_K0 (ey1, None) (XOp OpSync) (ey2, None)
           ez_mh ez_K (ez_o, None) _ _ _ (ez5, None) (s_trace ez5 ++ []) [] L img ey_params_ok
           (conj (pl_open0 ey_P) Logic.I) ey_mrun0 ey_sync Logic.I ez_mrun Rl (eq_sym (app_nil_r _)) Hpl).
Qed.

(* the complete Close of a database whose disk is the end of a chunked history: every admissible image of
   the history and the Close is the closed directory itself (up to the bookkeeping list of orphaned side
   files, which no clean Open reads), hence the next Open is a clean one with exactly the closed contents *)
Lemma closed_image P seed (s : st) (m : mem) s1 o (d0 : disk) K L' img' :
  Inv P s -> s_mem s = Some m -> s_disk s = hrun K d0 ->
  db_close flat_ops (clear_trace s) = (s1, o) ->
  plh fnone d0 (K ++ [CE (s_trace s1)]) L' img' ->
  img' = set_orphans (s_disk s1) (d_orphans img') /\ d_lock img' = false /\
  exists s2, db_open flat_ops P seed (closed img') = (s2, OOpened false) /\ Inv P s2 /\ s_mem s2 <> None /\
    ceq (cont (s_disk s2)) (cont (s_disk s)).
Proof.
  intros HI Em Ed Ec Hpl.
  destruct (plh_app_inv _ _ _ _ _ _ Hpl) as (L1 & img1 & Hp1 & Hp2). apply plh_one_inv in Hp2.
  assert (HA1 : Agree L1 (s_disk s) img1) by (rewrite Ed; apply (plh_agree _ _ _ _ _ Hp1); apply Agree_refl).
  destruct (close_image P s m s1 o L1 img1 L' img' HI Em Ec HA1 Hp2) as (Eimg & _ & _ & _ & _ & _ & El & _).
  split; [exact Eimg|]. split; [exact El|].
  destruct (closed_reopen P seed s m s1 o img' HI Em Ec Eimg) as (s2 & E2 & HI2 & Hc2 & m2 & Em2 & _).
  exists s2. split; [exact E2|]. split; [exact HI2|]. split; [congruence|exact Hc2].
Qed.


(* C09 after a history of several epochs: the complete Close is a durable checkpoint *)
Theorem C09_reopen_epochs P seed cf0 mh K (s : st) c (m : mem) s1 o L' img' :
  params_ok P -> XOpen P cf0 -> mrun P cf0 mh K (s, c) -> s_mem s = Some m ->
  db_close flat_ops (clear_trace s) = (s1, o) ->
  plh fnone (s_disk (fst cf0)) (K ++ [CE (s_trace s1)]) L' img' ->
  (* every admissible image of the whole history is the closed directory itself (up to the bookkeeping list
     of orphaned side files, which no clean Open reads) ... *)
  img' = set_orphans (s_disk s1) (d_orphans img') /\ d_lock img' = false /\
  (* ... hence the next Open is a clean one and finds exactly the closed contents *)
  exists s2, db_open flat_ops P seed (closed img') = (s2, OOpened false) /\ Inv P s2 /\ s_mem s2 <> None /\
    ceq (cont (s_disk s2)) (cont (s_disk s)).
Proof.
  intros HP HX0 Hr Em Ec Hpl.
  destruct (mrun_main P _ _ _ _ HP Hr None HX0 (open_DurS_None P cf0 HX0)) as ([(HI & _ & _) _] & Ed & _).
  apply (closed_image P seed s m s1 o _ K L' img' HI Em Ed Ec Hpl).
Qed.

Print Assumptions dur_dur2.
Print Assumptions pl_dur2.
Print Assumptions frozen2.
Print Assumptions pl_reduce2.
Print Assumptions plh_agree.
Print Assumptions plh_dur2.
Print Assumptions plh_reduce.
Print Assumptions plh_exec_sound.
Print Assumptions pl_plh.
Print Assumptions plh_pl.
Print Assumptions Jd_run.
Print Assumptions Jd_accept.
Print Assumptions open_wtr_y.
Print Assumptions open_dur2.
Print Assumptions xstep_wtr.
Print Assumptions close_dur2.
Print Assumptions clean_open_dur2.
Print Assumptions cutof_crash_image.
Print Assumptions crash_image_cutof.
Print Assumptions rrun_ok.
Print Assumptions crash_trans.
Print Assumptions mrun_main.
Print Assumptions C06_with_recovery.
Print Assumptions C06_with_recovery_per_key.
Print Assumptions C06_with_recovery_last_epoch.
Print Assumptions C06_power_loss_during_recovery.
Print Assumptions C09_power_loss_during_close.
Print Assumptions C09_reopen_epochs.
Print Assumptions C06_with_recovery_nonvacuous.
Print Assumptions C06_with_recovery_nonvacuous_recover.
Print Assumptions C06_with_recovery_nonvacuous_key1.
Print Assumptions C09_close_nonvacuous.
Print Assumptions C09_close_nonvacuous_recover.
Print Assumptions C06_with_close_nonvacuous.
