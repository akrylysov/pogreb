(* Conc.v -- the generic concurrency argument behind "no data race ... or deadlock under concurrent
   use" (C10): it turns the syntactic facts that ShapeCheck.v decides on the regenerated lock
   structure (gen/Shape.v) into statements about ALL schedules of ANY number of threads.

   MODEL.  A thread is the token list it still has to run (one entry of [shape_table]) together with
   the multiset of (lock, mode) it holds; a configuration is a list of threads; [step c i] lets
   thread [i] execute its next token.
     Acq l Ex    enabled iff no OTHER thread holds l in any mode and the thread itself does not
                 hold l (Go: a second Lock() of the same goroutine blocks forever)
     Acq l Sh    enabled iff no OTHER thread holds l in mode Ex, and the thread itself does not hold
                 l in mode Ex (Go: RLock() under one's own Lock() blocks forever)
     TryAcq l    always enabled: takes l (mode Ex) when it is free, otherwise the thread gives up
                 its whole remaining program -- Go's  if !mu.TryLock() { return errBusy }
     Rel l       always enabled, drops one hold of l (the most recent one)
     Call, Field, Yield, Go, Loop, EndLoop   always enabled, no effect on the locks
   A thread whose next token is [Call c held] / [Field f held] is "at" that access: it may be
   executing it at any time until it takes the step.  Two threads that are at conflicting accesses in
   the same configuration are the model's notion of a data race.

   TRUSTED (not proved here, no theorem about Go):
     - sync.RWMutex / sync.Mutex behave like the locks of this model (mutual exclusion of writers
       against everybody, readers against writers; TryLock never blocks).  Go's RWMutex additionally
       makes new readers wait behind a *pending* writer; [deadlock_free_writer_preference] shows
       that the deadlock argument is insensitive to that.
     - gen/Shape.v is what tools/gotrans extracts from the Go sources (source order, loop bodies
       once, branches one after the other); the [held] annotations are the translator's own
       book-keeping -- [honest] re-derives them from the Acq/Rel history, so they are checked, not
       trusted.
     - callees run inside the region of their caller (the only callee that takes a lock itself,
       db.compact inside DB.Compact, is inlined explicitly below: [prog_Compact_full]; so are
       Sync and Compact inside the background worker: [prog_worker]).

   LOOPS AND BRANCHES.  The translator walks a loop body once.  Repeating or skipping a lock-neutral
   segment preserves all checks ([wf_repeat], [unrolls_wf]), and every loop of the programs below is
   lock-neutral ([pogreb_loops_neutral]); the pogreb theorems are stated for all such unrollings.  An
   early return is linearised as if execution went on: this breaks [balanced] for exactly one
   function, DB_Compact, whose two executions are recovered where its shape is read. *)
From Coq Require Import List Bool Arith Lia String.
From Pogreb Require Import gen.Shape ShapeCheck.
Import ListNotations.
Open Scope string_scope.
Open Scope list_scope.

Definition hset := list (lk * mode).
Definition thread : Type := (list tok * hset)%type.
Definition conf := list thread.

(* drop the most recent hold of [l] *)
Fixpoint rm (l : lk) (h : hset) : hset :=
  match h with
  | [] => []
  | p :: h' => if lk_eqb (fst p) l then h' else p :: rm l h'
  end.

(* does some thread other than number [i] satisfy [f]? *)
Fixpoint any_other (f : thread -> bool) (i : nat) (c : conf) {struct c} : bool :=
  match c with
  | [] => false
  | t :: c' => match i with
               | 0 => existsb f c'
               | S i' => f t || any_other f i' c'
               end
  end.

Definition oth_any (c : conf) (i : nat) (l : lk) : bool := any_other (fun t => holds l (snd t)) i c.
Definition oth_ex (c : conf) (i : nat) (l : lk) : bool := any_other (fun t => holds_ex l (snd t)) i c.

(* one thread's move; what the other threads hold enters only through [oany] / [oex] *)
Definition tstep (oany oex : lk -> bool) (t : thread) : option thread :=
  match fst t with
  | [] => None
  | Acq l Ex :: p' => if oany l || holds l (snd t) then None else Some (p', (l, Ex) :: snd t)
  | Acq l Sh :: p' => if oex l || holds_ex l (snd t) then None else Some (p', (l, Sh) :: snd t)
  | TryAcq l :: p' => if oany l || holds l (snd t) then Some ([], snd t) else Some (p', (l, Ex) :: snd t)
  | Rel l :: p' => Some (p', rm l (snd t))
  | _ :: p' => Some (p', snd t)
  end.

Fixpoint upd (c : conf) (i : nat) (t : thread) : conf :=
  match c with
  | [] => []
  | x :: c' => match i with 0 => t :: c' | S i' => x :: upd c' i' t end
  end.

Definition step (c : conf) (i : nat) : option conf :=
  match nth_error c i with
  | None => None
  | Some t =>
      match tstep (oth_any c i) (oth_ex c i) t with
      | None => None
      | Some t' => Some (upd c i t')
      end
  end.

Fixpoint run (c : conf) (sch : list nat) : option conf :=
  match sch with
  | [] => Some c
  | i :: sch' => match step c i with Some c' => run c' sch' | None => None end
  end.

Inductive reachable (c0 : conf) : conf -> Prop :=
| reach_refl : reachable c0 c0
| reach_step : forall c i c', reachable c0 c -> step c i = Some c' -> reachable c0 c'.

Definition initial (c : conf) : Prop := forall t, In t c -> snd t = [].
Definition all_done (c : conf) : Prop := forall t, In t c -> fst t = [].

(* [order_ok] is ShapeCheck's; its Rel case uses this function (anonymous there) *)
Definition rm_lk (x : lk) : list lk -> list lk :=
  fix rm (hs : list lk) : list lk :=
    match hs with [] => [] | h :: hs' => if lk_eqb h x then hs' else h :: rm hs' end.

(* every prefix releases only what it holds, TryAcq is only used while holding nothing (so that
   giving up leaves nothing locked), nothing is held at the end *)
Fixpoint balanced_from (h : hset) (p : list tok) : bool :=
  match p with
  | [] => match h with [] => true | _ => false end
  | Acq x m :: p' => balanced_from ((x, m) :: h) p'
  | TryAcq x :: p' => match h with [] => balanced_from [(x, Ex)] p' | _ => false end
  | Rel x :: p' => holds x h && balanced_from (rm x h) p'
  | _ :: p' => balanced_from h p'
  end.
Definition balanced (p : list tok) : bool := balanced_from [] p.

(* the [held] annotation of every access is exactly what the Acq/Rel history says (the translator
   lists the holds in acquisition order, the model keeps the most recent first) *)
Definition mode_eqb (a b : mode) : bool :=
  match a, b with Sh, Sh | Ex, Ex => true | _, _ => false end.
Fixpoint held_eqb (a b : hset) : bool :=
  match a, b with
  | [], [] => true
  | x :: a', y :: b' => lk_eqb (fst x) (fst y) && mode_eqb (snd x) (snd y) && held_eqb a' b'
  | _, _ => false
  end.
Fixpoint honest_from (h : hset) (p : list tok) : bool :=
  match p with
  | [] => true
  | Acq x m :: p' => honest_from ((x, m) :: h) p'
  | TryAcq x :: p' => honest_from ((x, Ex) :: h) p'
  | Rel x :: p' => honest_from (rm x h) p'
  | Call _ a :: p' => held_eqb a (rev h) && honest_from h p'
  | Field _ a :: p' => held_eqb a (rev h) && honest_from h p'
  | _ :: p' => honest_from h p'
  end.
Definition honest (p : list tok) : bool := honest_from [] p.

Definition twf (t : thread) : Prop :=
  order_ok (map fst (snd t)) (fst t) = true /\ balanced_from (snd t) (fst t) = true.
Definition thonest (t : thread) : Prop := honest_from (snd t) (fst t) = true.
Definition tguarded (t : thread) : Prop := forallb tok_guarded (fst t) = true.

Lemma lk_eqb_eq : forall a b, lk_eqb a b = true <-> a = b.
Proof. intros a b; destruct a, b; simpl; split; intro H; try reflexivity; discriminate. Qed.

Lemma lk_eqb_refl : forall a, lk_eqb a a = true.
Proof. destruct a; reflexivity. Qed.

Lemma rank_le_2 : forall l, rank l <= 2.
Proof. destruct l; simpl; lia. Qed.

Lemma holds_cons : forall l x m h, holds l ((x, m) :: h) = lk_eqb x l || holds l h.
Proof. reflexivity. Qed.

Lemma holds_ex_cons_sh : forall l x h, holds_ex l ((x, Sh) :: h) = holds_ex l h.
Proof. intros; unfold holds_ex; simpl. rewrite andb_false_r. reflexivity. Qed.

Lemma holds_ex_cons_ex : forall l x h, holds_ex l ((x, Ex) :: h) = lk_eqb x l || holds_ex l h.
Proof. intros; unfold holds_ex; simpl. rewrite andb_true_r. reflexivity. Qed.

Lemma existsb_impl : forall (A : Type) (f g : A -> bool) (l : list A),
  (forall x, f x = true -> g x = true) -> existsb f l = true -> existsb g l = true.
Proof.
  intros A f g l H E. apply existsb_exists in E. destruct E as [x [Hin Hx]].
  apply existsb_exists. exists x. auto.
Qed.

Lemma holds_ex_holds : forall l h, holds_ex l h = true -> holds l h = true.
Proof. intros l h. apply existsb_impl. intros p H. apply andb_true_iff in H. tauto. Qed.

Lemma existsb_rm : forall (f : lk * mode -> bool) x h, existsb f (rm x h) = true -> existsb f h = true.
Proof.
  intros f x h; induction h as [|p h IH]; simpl; intro H; [discriminate|].
  apply orb_true_iff. destruct (lk_eqb (fst p) x) eqn:E.
  - right; exact H.
  - simpl in H. apply orb_true_iff in H. destruct H as [H|H]; [left; exact H|right; apply IH, H].
Qed.

Lemma holds_in : forall l h, holds l h = true -> In l (map fst h).
Proof.
  intros l h; induction h as [|p h IH]; simpl; intro H; [discriminate|].
  apply orb_true_iff in H. destruct H as [H|H].
  - left. apply lk_eqb_eq, H.
  - right. apply IH, H.
Qed.

Lemma existsb_rev : forall (A : Type) (f : A -> bool) (l : list A), existsb f (rev l) = existsb f l.
Proof.
  intros A f l; induction l as [|x l IH]; simpl; [reflexivity|].
  rewrite existsb_app, IH. simpl. rewrite orb_false_r. apply orb_comm.
Qed.

Lemma holds_rev : forall l h, holds l (rev h) = holds l h.
Proof. intros; apply existsb_rev. Qed.
Lemma holds_ex_rev : forall l h, holds_ex l (rev h) = holds_ex l h.
Proof. intros; apply existsb_rev. Qed.

Lemma mode_eqb_eq : forall a b, mode_eqb a b = true -> a = b.
Proof. destruct a, b; simpl; intro H; try reflexivity; discriminate. Qed.

Lemma held_eqb_eq : forall a b, held_eqb a b = true -> a = b.
Proof.
  induction a as [|x a IH]; destruct b as [|y b]; simpl; intro H; try reflexivity; try discriminate.
  apply andb_true_iff in H. destruct H as [H1 H2]. apply andb_true_iff in H1. destruct H1 as [H0 H1].
  apply lk_eqb_eq in H0. apply mode_eqb_eq in H1. destruct x, y; simpl in *. subst. f_equal. apply IH, H2.
Qed.

Lemma any_other_true : forall f c i, any_other f i c = true ->
  exists j t, j <> i /\ nth_error c j = Some t /\ f t = true.
Proof.
  intros f c; induction c as [|x c IH]; intros i H; simpl in H; [discriminate|].
  destruct i as [|i].
  - apply existsb_exists in H. destruct H as [t [Hin Hf]].
    apply In_nth_error in Hin. destruct Hin as [n Hn].
    exists (S n), t. split; [discriminate|]. split; [exact Hn|exact Hf].
  - apply orb_true_iff in H. destruct H as [H|H].
    + exists 0, x. split; [discriminate|]. split; [reflexivity|exact H].
    + destruct (IH i H) as [j [t [Hj [Hn Hf]]]].
      exists (S j), t. split; [intro E; apply Hj; injection E; auto|]. split; [exact Hn|exact Hf].
Qed.

Lemma any_other_false : forall f c i, any_other f i c = false ->
  forall j t, j <> i -> nth_error c j = Some t -> f t = false.
Proof.
  intros f c; induction c as [|x c IH]; intros i H j t Hj Hn.
  - destruct j; discriminate.
  - simpl in H. destruct i as [|i].
    + destruct j as [|j]; [contradiction|]. simpl in Hn.
      destruct (f t) eqn:E; [|reflexivity].
      assert (X : existsb f c = true) by (apply existsb_exists; exists t; split; [eapply nth_error_In; eauto|exact E]).
      congruence.
    + apply orb_false_iff in H. destruct H as [H1 H2].
      destruct j as [|j]; simpl in Hn.
      * injection Hn as <-. exact H1.
      * apply (IH i H2 j t); [intro E; apply Hj; f_equal; exact E|exact Hn].
Qed.

Lemma nth_error_upd_eq : forall c i t t0, nth_error c i = Some t0 -> nth_error (upd c i t) i = Some t.
Proof.
  induction c as [|x c IH]; intros i t t0 H; destruct i; simpl in *; try discriminate; [reflexivity|].
  eapply IH, H.
Qed.

Lemma nth_error_upd_neq : forall c i j t, i <> j -> nth_error (upd c i t) j = nth_error c j.
Proof.
  induction c as [|x c IH]; intros i j t H; simpl; [reflexivity|].
  destruct i, j; simpl; try reflexivity; [contradiction|]. apply IH. intro E; apply H; f_equal; exact E.
Qed.

Lemma upd_length : forall c i t, List.length (upd c i t) = List.length c.
Proof. induction c as [|x c IH]; intros i t; simpl; [reflexivity|]. destruct i; simpl; [reflexivity|]. f_equal. apply IH. Qed.

Lemma step_inv : forall c i c', step c i = Some c' ->
  exists t t', nth_error c i = Some t /\ tstep (oth_any c i) (oth_ex c i) t = Some t' /\ c' = upd c i t'.
Proof.
  unfold step; intros c i c' H.
  destruct (nth_error c i) as [t|] eqn:E; [|discriminate].
  destruct (tstep (oth_any c i) (oth_ex c i) t) as [t'|] eqn:T; [|discriminate].
  injection H as <-. exists t, t'. auto.
Qed.

Lemma step_length : forall c i c', step c i = Some c' -> List.length c' = List.length c.
Proof. intros c i c' H. apply step_inv in H. destruct H as [t [t' [_ [_ ->]]]]. apply upd_length. Qed.

Definition is_lockop (t : tok) : bool :=
  match t with Acq _ _ | TryAcq _ | Rel _ => true | _ => false end.
Definition is_acq (t : tok) : bool := match t with Acq _ _ => true | _ => false end.

Inductive tstep_case (oany oex : lk -> bool) (p : list tok) (h : hset) (t' : thread) : Prop :=
| ts_acq_ex : forall l p', p = Acq l Ex :: p' -> t' = (p', (l, Ex) :: h) ->
    oany l = false -> holds l h = false -> tstep_case oany oex p h t'
| ts_acq_sh : forall l p', p = Acq l Sh :: p' -> t' = (p', (l, Sh) :: h) ->
    oex l = false -> holds_ex l h = false -> tstep_case oany oex p h t'
| ts_try_ok : forall l p', p = TryAcq l :: p' -> t' = (p', (l, Ex) :: h) ->
    oany l = false -> holds l h = false -> tstep_case oany oex p h t'
| ts_try_busy : forall l p', p = TryAcq l :: p' -> t' = ([], h) -> tstep_case oany oex p h t'
| ts_rel : forall l p', p = Rel l :: p' -> t' = (p', rm l h) -> tstep_case oany oex p h t'
| ts_other : forall tk p', p = tk :: p' -> t' = (p', h) -> is_lockop tk = false ->
    tstep_case oany oex p h t'.

Lemma tstep_cases : forall oany oex p h t',
  tstep oany oex (p, h) = Some t' -> tstep_case oany oex p h t'.
Proof.
  intros oany oex p h t' H. unfold tstep in H; simpl in H.
  destruct p as [|tk p']; [discriminate|].
  destruct tk as [l m|l|l|c a|f a|y| | |].
  4-9: injection H as <-; eapply ts_other; eauto.
  - destruct m.
    + destruct (oex l || holds_ex l h) eqn:E; [discriminate|].
      apply orb_false_iff in E. destruct E as [E1 E2]. injection H as <-.
      eapply ts_acq_sh; eauto.
    + destruct (oany l || holds l h) eqn:E; [discriminate|].
      apply orb_false_iff in E. destruct E as [E1 E2]. injection H as <-.
      eapply ts_acq_ex; eauto.
  - destruct (oany l || holds l h) eqn:E; injection H as <-.
    + eapply ts_try_busy; eauto.
    + apply orb_false_iff in E. destruct E as [E1 E2]. eapply ts_try_ok; eauto.
  - injection H as <-. eapply ts_rel; eauto.
Qed.

(* every token except a blocking Acq can always be executed *)
Lemma tstep_nonacq : forall oany oex tk p h,
  (forall l m, tk <> Acq l m) -> exists t', tstep oany oex (tk :: p, h) = Some t'.
Proof.
  intros oany oex tk p h H. unfold tstep; simpl.
  destruct tk as [l m|l|l|c a|f a|y| | |]; try (eexists; reflexivity).
  - exfalso. eapply H; reflexivity.
  - destruct (oany l || holds l h); eexists; reflexivity.
Qed.

(* every move shortens the program of the thread *)
Lemma tstep_shrinks : forall oany oex t t',
  tstep oany oex t = Some t' -> List.length (fst t') < List.length (fst t).
Proof.
  intros oany oex [p h] t' H. apply tstep_cases in H.
  destruct H as [l p' -> ->|l p' -> ->|l p' -> ->|l p' -> ->|l p' -> ->|tk p' -> ->]; simpl; lia.
Qed.

Definition ME (c : conf) : Prop :=
  forall i j ti tj l, i <> j -> nth_error c i = Some ti -> nth_error c j = Some tj ->
    holds_ex l (snd ti) = true -> holds l (snd tj) = false.

Definition free_any (c : conf) (k : nat) (l : lk) : Prop :=
  forall j tj, j <> k -> nth_error c j = Some tj -> holds l (snd tj) = false.
Definition free_ex (c : conf) (k : nat) (l : lk) : Prop :=
  forall j tj, j <> k -> nth_error c j = Some tj -> holds_ex l (snd tj) = false.

Lemma oth_any_free : forall c k l, oth_any c k l = false -> free_any c k l.
Proof. intros c k l H j tj Hj Hn. exact (any_other_false _ _ _ H j tj Hj Hn). Qed.

Lemma oth_ex_free : forall c k l, oth_ex c k l = false -> free_ex c k l.
Proof. intros c k l H j tj Hj Hn. exact (any_other_false _ _ _ H j tj Hj Hn). Qed.

Lemma free_any_ex : forall c k l, free_any c k l -> free_ex c k l.
Proof.
  intros c k l H j tj Hj Hn. destruct (holds_ex l (snd tj)) eqn:E; [|reflexivity].
  apply holds_ex_holds in E. rewrite (H j tj Hj Hn) in E. discriminate.
Qed.

Lemma ME_upd : forall c k t p' h',
  ME c -> nth_error c k = Some t ->
  (forall l, holds_ex l h' = true -> holds_ex l (snd t) = true \/ free_any c k l) ->
  (forall l, holds l h' = true -> holds l (snd t) = true \/ free_ex c k l) ->
  ME (upd c k (p', h')).
Proof.
  intros c k t p' h' HME Hk HA HB i j ti tj l Hij Hi Hj Hex.
  destruct (Nat.eq_dec i k) as [->|Hik].
  - rewrite (nth_error_upd_eq _ _ _ _ Hk) in Hi. injection Hi as <-. simpl in Hex.
    rewrite nth_error_upd_neq in Hj by auto.
    destruct (HA l Hex) as [H|H].
    + exact (HME k j t tj l Hij Hk Hj H).
    + apply (H j tj); auto.
  - rewrite nth_error_upd_neq in Hi by auto.
    destruct (Nat.eq_dec j k) as [->|Hjk].
    + rewrite (nth_error_upd_eq _ _ _ _ Hk) in Hj. injection Hj as <-. simpl.
      destruct (holds l h') eqn:E; [|reflexivity]. destruct (HB l E) as [H|H].
      * rewrite (HME i k ti t l Hik Hi Hk Hex) in H. discriminate.
      * rewrite (H i ti Hik Hi) in Hex. discriminate.
    + rewrite nth_error_upd_neq in Hj by auto. exact (HME i j ti tj l Hij Hi Hj Hex).
Qed.

(* the two shapes of a move: nothing new is held, or one lock is added that the others leave free *)
Lemma ME_upd_mono : forall c k t p' h',
  ME c -> nth_error c k = Some t ->
  (forall l, holds_ex l h' = true -> holds_ex l (snd t) = true) ->
  (forall l, holds l h' = true -> holds l (snd t) = true) ->
  ME (upd c k (p', h')).
Proof. intros c k t p' h' HME Hk HA HB. apply (ME_upd c k t); auto. Qed.

Lemma ME_upd_acq : forall c k t p' l m,
  ME c -> nth_error c k = Some t ->
  (m = Ex -> free_any c k l) -> free_ex c k l ->
  ME (upd c k (p', (l, m) :: snd t)).
Proof.
  intros c k t p' l m HME Hk Hany Hex. apply (ME_upd c k t); [exact HME|exact Hk| |]; intros l0 H.
  - destruct m; [rewrite holds_ex_cons_sh in H; left; exact H|].
    rewrite holds_ex_cons_ex in H. apply orb_true_iff in H. destruct H as [H|H]; [|left; exact H].
    apply lk_eqb_eq in H. subst l0. right. apply Hany. reflexivity.
  - rewrite holds_cons in H. apply orb_true_iff in H. destruct H as [H|H]; [|left; exact H].
    apply lk_eqb_eq in H. subst l0. right. exact Hex.
Qed.

Lemma step_ME : forall c k c', ME c -> step c k = Some c' -> ME c'.
Proof.
  intros c k c' HME H. apply step_inv in H. destruct H as [[p h] [t' [Hk [T ->]]]].
  apply tstep_cases in T.
  destruct T as [l p' -> -> E1 E2|l p' -> -> E1 E2|l p' -> -> E1 E2|l p' -> ->|l p' -> ->|tk p' -> -> E].
  - apply (ME_upd_acq _ _ _ p' l Ex HME Hk); auto using oth_any_free, free_any_ex.
  - apply (ME_upd_acq _ _ _ p' l Sh HME Hk); [discriminate|apply oth_ex_free, E1].
  - apply (ME_upd_acq _ _ _ p' l Ex HME Hk); auto using oth_any_free, free_any_ex.
  - apply (ME_upd_mono _ _ _ [] h HME Hk); auto.
  - apply (ME_upd_mono _ _ _ p' (rm l h) HME Hk); intros l0; apply existsb_rm.
  - apply (ME_upd_mono _ _ _ p' h HME Hk); auto.
Qed.

Lemma initial_ME : forall c, initial c -> ME c.
Proof.
  intros c Hi i j ti tj l _ Hn _ Hex.
  rewrite (Hi ti (nth_error_In _ _ Hn)) in Hex. discriminate.
Qed.

Lemma reachable_ME : forall c0 c, initial c0 -> reachable c0 c -> ME c.
Proof.
  intros c0 c Hi R. induction R as [|c i c' R IH S]; [apply initial_ME, Hi|].
  eapply step_ME; eauto.
Qed.

Definition holds_sh (l : lk) (held : hset) : bool :=
  existsb (fun p => lk_eqb (fst p) l && match snd p with Sh => true | Ex => false end) held.

Lemma holds_sh_holds : forall l h, holds_sh l h = true -> holds l h = true.
Proof. intros l h. apply existsb_impl. intros p H. apply andb_true_iff in H. tauto. Qed.

(* for every lock: at most one exclusive holder, and never a shared holder next to an exclusive
   one -- for arbitrary programs, any number of threads, all schedules *)
Theorem mutual_exclusion_invariant : forall c0 c, initial c0 -> reachable c0 c ->
  forall l i j ti tj, i <> j -> nth_error c i = Some ti -> nth_error c j = Some tj ->
    (holds_ex l (snd ti) = true -> holds_ex l (snd tj) = true -> False) /\
    (holds_ex l (snd ti) = true -> holds_sh l (snd tj) = true -> False).
Proof.
  intros c0 c Hi R l i j ti tj Hij Hni Hnj.
  pose proof (reachable_ME _ _ Hi R i j ti tj l Hij Hni Hnj) as H.
  split; intros H1 H2.
  - apply holds_ex_holds in H2. rewrite (H H1) in H2. discriminate.
  - apply holds_sh_holds in H2. rewrite (H H1) in H2. discriminate.
Qed.

Lemma reachable_thread : forall (P : thread -> Prop),
  (forall oany oex t t', tstep oany oex t = Some t' -> P t -> P t') ->
  forall c0 c, reachable c0 c -> forall i t0, nth_error c0 i = Some t0 -> P t0 ->
  exists t, nth_error c i = Some t /\ P t.
Proof.
  intros P HP c0 c R. induction R as [|c k c' R IH S]; intros i t0 Hn H0.
  - exists t0; auto.
  - destruct (IH i t0 Hn H0) as [t [Ht Pt]].
    apply step_inv in S. destruct S as [tk [tk' [Hk [T ->]]]].
    destruct (Nat.eq_dec k i) as [->|Hki].
    + exists tk'. split; [eapply nth_error_upd_eq; eauto|].
      rewrite Hk in Ht. injection Ht as ->. eapply HP; eauto.
    + exists t. split; [rewrite nth_error_upd_neq by auto; exact Ht|exact Pt].
Qed.

Lemma Forall_upd : forall (P : thread -> Prop) c i t, Forall P c -> P t -> Forall P (upd c i t).
Proof.
  intros P c; induction c as [|x c IH]; intros i t HF Ht; simpl; [constructor|].
  inversion HF as [|x' c' Hx Hc]; subst. destruct i; constructor; auto.
Qed.

Lemma Forall_nth : forall (P : thread -> Prop) c i t, Forall P c -> nth_error c i = Some t -> P t.
Proof. intros P c i t HF Hn. rewrite Forall_forall in HF. apply HF. eapply nth_error_In; eauto. Qed.

Lemma step_Forall : forall (P : thread -> Prop),
  (forall oany oex t t', tstep oany oex t = Some t' -> P t -> P t') ->
  forall c i c', Forall P c -> step c i = Some c' -> Forall P c'.
Proof.
  intros P HP c i c' HF S. apply step_inv in S. destruct S as [t [t' [Hk [T ->]]]].
  apply Forall_upd; [exact HF|]. eapply HP; eauto. eapply Forall_nth; eauto.
Qed.

Lemma reachable_Forall : forall (P : thread -> Prop),
  (forall oany oex t t', tstep oany oex t = Some t' -> P t -> P t') ->
  forall c0 c, Forall P c0 -> reachable c0 c -> Forall P c.
Proof.
  intros P HP c0 c HF R. induction R as [|c k c' R IH S]; [exact HF|].
  eapply step_Forall; eauto.
Qed.

(* unfolding equations (so that proofs never have to [simpl] the anonymous fixpoint of order_ok) *)
Lemma order_ok_acq : forall hs x m p,
  order_ok hs (Acq x m :: p) = forallb (fun h => Nat.ltb (rank h) (rank x)) hs && order_ok (x :: hs) p.
Proof. reflexivity. Qed.
Lemma order_ok_try : forall hs x p, order_ok hs (TryAcq x :: p) = order_ok (x :: hs) p.
Proof. reflexivity. Qed.
Lemma order_ok_rel : forall hs x p, order_ok hs (Rel x :: p) = order_ok (rm_lk x hs) p.
Proof. reflexivity. Qed.
Lemma order_ok_other : forall hs tk p, is_lockop tk = false -> order_ok hs (tk :: p) = order_ok hs p.
Proof. intros hs tk p H; destruct tk; try discriminate; reflexivity. Qed.
Lemma balanced_other : forall h tk p, is_lockop tk = false -> balanced_from h (tk :: p) = balanced_from h p.
Proof. intros h tk p H; destruct tk; try discriminate; reflexivity. Qed.
Lemma honest_other : forall h tk p, is_lockop tk = false ->
  honest_from h (tk :: p) = true -> honest_from h p = true.
Proof.
  intros h tk p H; destruct tk; try discriminate; simpl; intro E; try exact E;
    apply andb_true_iff in E; tauto.
Qed.

Lemma map_fst_rm : forall l h, map fst (rm l h) = rm_lk l (map fst h).
Proof.
  intros l h; induction h as [|p h IH]; simpl; [reflexivity|].
  destruct (lk_eqb (fst p) l); [reflexivity|]. simpl. f_equal. exact IH.
Qed.

Lemma balanced_nil : forall h, balanced_from h [] = true -> h = [].
Proof. intros h H; destruct h; [reflexivity|discriminate]. Qed.

Lemma tstep_twf : forall oany oex t t', tstep oany oex t = Some t' -> twf t -> twf t'.
Proof.
  intros oany oex [p h] t' T [HO HB]. simpl in HO, HB. apply tstep_cases in T.
  destruct T as [l p' -> -> E1 E2|l p' -> -> E1 E2|l p' -> -> E1 E2|l p' -> ->|l p' -> ->|tk p' -> -> E];
    unfold twf; cbn [fst snd].
  - rewrite order_ok_acq in HO. apply andb_true_iff in HO. destruct HO as [_ HO]. split; [exact HO|exact HB].
  - rewrite order_ok_acq in HO. apply andb_true_iff in HO. destruct HO as [_ HO]. split; [exact HO|exact HB].
  - rewrite order_ok_try in HO. split; [exact HO|].
    simpl in HB. destruct h; [exact HB|discriminate].
  - simpl in HB. destruct h; [|discriminate]. split; reflexivity.
  - rewrite order_ok_rel in HO. simpl in HB. apply andb_true_iff in HB. destruct HB as [_ HB].
    split; [rewrite map_fst_rm; exact HO|exact HB].
  - rewrite order_ok_other in HO by exact E. rewrite balanced_other in HB by exact E. split; assumption.
Qed.

Lemma tstep_thonest : forall oany oex t t', tstep oany oex t = Some t' -> thonest t -> thonest t'.
Proof.
  intros oany oex [p h] t' T H. unfold thonest in *. simpl in H. apply tstep_cases in T.
  destruct T as [l p' -> -> E1 E2|l p' -> -> E1 E2|l p' -> -> E1 E2|l p' -> ->|l p' -> ->|tk p' -> -> E];
    cbn [fst snd]; try exact H; try reflexivity.
  eapply honest_other; eauto.
Qed.

Lemma tstep_forallb : forall (f : tok -> bool) oany oex t t',
  tstep oany oex t = Some t' -> forallb f (fst t) = true -> forallb f (fst t') = true.
Proof.
  intros f oany oex [p h] t' T H. simpl in H. apply tstep_cases in T.
  destruct T as [l p' -> -> E1 E2|l p' -> -> E1 E2|l p' -> -> E1 E2|l p' -> ->|l p' -> ->|tk p' -> -> E];
    cbn [fst snd]; try reflexivity; simpl in H; apply andb_true_iff in H; tauto.
Qed.

(* the annotation of the access a thread is at *)
Definition next_held (t : thread) : option hset :=
  match fst t with
  | Call _ a :: _ => Some a
  | Field _ a :: _ => Some a
  | _ => None
  end.

Lemma thonest_next : forall t a, thonest t -> next_held t = Some a -> a = rev (snd t).
Proof.
  intros [p h] a H N. unfold thonest, next_held in *. simpl in *.
  destruct p as [|tk p]; [discriminate|].
  destruct tk; try discriminate; injection N as ->; simpl in H;
    apply andb_true_iff in H; destruct H as [H _]; apply held_eqb_eq, H.
Qed.

(* If thread [i] started with an honest program (whatever the other threads run) and is at an
   access annotated [held]:  Mu held exclusively => nobody else holds Mu;  Mu held in any mode =>
   nobody else holds it exclusively. *)
Theorem conflict_free : forall c0 c i p0 ti held,
  initial c0 -> reachable c0 c ->
  nth_error c0 i = Some (p0, []) -> honest p0 = true ->
  nth_error c i = Some ti -> next_held ti = Some held ->
  (holds_ex Mu held = true ->
     forall j tj, j <> i -> nth_error c j = Some tj -> holds Mu (snd tj) = false) /\
  (holds Mu held = true ->
     forall j tj, j <> i -> nth_error c j = Some tj -> holds_ex Mu (snd tj) = false).
Proof.
  intros c0 c i p0 ti held Hi R H0 Hh Hn Hnext.
  pose proof (reachable_ME _ _ Hi R) as HME.
  destruct (reachable_thread thonest tstep_thonest c0 c R i (p0, []) H0 Hh) as [t [Ht Hth]].
  rewrite Hn in Ht. injection Ht as <-.
  pose proof (thonest_next _ _ Hth Hnext) as ->.
  split; intros H j tj Hj Hnj.
  - rewrite holds_ex_rev in H. exact (HME i j ti tj Mu (not_eq_sym Hj) Hn Hnj H).
  - rewrite holds_rev in H. destruct (holds_ex Mu (snd tj)) eqn:E; [|reflexivity].
    rewrite (HME j i tj ti Mu Hj Hnj Hn E) in H. discriminate.
Qed.

(* the accesses of ShapeCheck's classification *)
Definition writer_tok (t : tok) : bool :=
  match t with Call c _ => mem_str c writer_calls | _ => false end.
Definition reader_tok (t : tok) : bool :=
  match t with
  | Call c _ => negb (mem_str c writer_calls) && mem_str c reader_calls
  | Field f _ => mem_str f guarded_fields
  | _ => false
  end.

Lemma guarded_writer : forall tk, tok_guarded tk = true -> writer_tok tk = true ->
  exists a, (forall p h, next_held (tk :: p, h) = Some a) /\ holds_ex Mu a = true.
Proof.
  intros tk G W. destruct tk as [l m|l|l|c a|f a|y| | |]; try discriminate.
  unfold writer_tok in W. unfold tok_guarded in G. rewrite W in G.
  exists a. split; [reflexivity|exact G].
Qed.

Lemma guarded_access : forall tk, tok_guarded tk = true -> (writer_tok tk || reader_tok tk) = true ->
  exists a, (forall p h, next_held (tk :: p, h) = Some a) /\ holds Mu a = true.
Proof.
  intros tk G W. destruct tk as [l m|l|l|c a|f a|y| | |]; try discriminate.
  - unfold writer_tok, reader_tok in W. unfold tok_guarded in G.
    exists a. split; [reflexivity|].
    destruct (mem_str c writer_calls) eqn:Ew; [apply holds_ex_holds, G|].
    rewrite orb_false_l, andb_true_l in W. rewrite W in G. exact G.
  - unfold writer_tok, reader_tok in W. unfold tok_guarded in G.
    rewrite orb_false_l in W. rewrite W in G. exists a. split; [reflexivity|exact G].
Qed.

(* the invariant form of the conflict argument *)
Lemma conflict_core : forall (c : conf) i j ti tj ri rj hi hj,
  ME c -> i <> j ->
  nth_error c i = Some (ti :: ri, hi) -> nth_error c j = Some (tj :: rj, hj) ->
  thonest (ti :: ri, hi) -> thonest (tj :: rj, hj) ->
  tok_guarded ti = true -> tok_guarded tj = true ->
  writer_tok ti = true -> (writer_tok tj || reader_tok tj) = true ->
  False.
Proof.
  intros c i j ti tj ri rj hi hj HME Hij Hni Hnj Hhi Hhj Gi Gj Wi Aj.
  destruct (guarded_writer ti Gi Wi) as [ai [Nai Hai]].
  destruct (guarded_access tj Gj Aj) as [aj [Naj Haj]].
  pose proof (thonest_next _ _ Hhi (Nai ri hi)) as Ei. cbn [snd] in Ei. subst ai.
  pose proof (thonest_next _ _ Hhj (Naj rj hj)) as Ej. cbn [snd] in Ej. subst aj.
  rewrite holds_ex_rev in Hai. rewrite holds_rev in Haj.
  pose proof (HME i j _ _ Mu Hij Hni Hnj Hai) as Hfree. cbn [snd] in Hfree. congruence.
Qed.

(* Two different threads with honest programs are never at a writer access and at any (writer or
   reader) access of the shared state at the same time, provided both accesses are guarded the way
   ShapeCheck.tok_guarded demands. *)
Corollary no_simultaneous_conflict : forall c0 c i j pi pj ti tj ri rj hi hj,
  initial c0 -> reachable c0 c -> i <> j ->
  nth_error c0 i = Some (pi, []) -> honest pi = true ->
  nth_error c0 j = Some (pj, []) -> honest pj = true ->
  nth_error c i = Some (ti :: ri, hi) -> nth_error c j = Some (tj :: rj, hj) ->
  tok_guarded ti = true -> tok_guarded tj = true ->
  writer_tok ti = true -> (writer_tok tj || reader_tok tj) = true ->
  False.
Proof.
  intros c0 c i j pi pj ti tj ri rj hi hj Hi R Hij H0i Hhi H0j Hhj Hni Hnj Gi Gj Wi Aj.
  destruct (reachable_thread thonest tstep_thonest c0 c R i (pi, []) H0i Hhi) as [t [Ht Hti]].
  rewrite Hni in Ht. injection Ht as <-.
  destruct (reachable_thread thonest tstep_thonest c0 c R j (pj, []) H0j Hhj) as [t [Ht Htj]].
  rewrite Hnj in Ht. injection Ht as <-.
  exact (conflict_core c i j ti tj ri rj hi hj (reachable_ME _ _ Hi R) Hij Hni Hnj Hti Htj Gi Gj Wi Aj).
Qed.

Lemma order_acq_rank : forall hs x m p y,
  order_ok hs (Acq x m :: p) = true -> In y hs -> rank y < rank x.
Proof.
  intros hs x m p y H Hin. rewrite order_ok_acq in H. apply andb_true_iff in H. destruct H as [H _].
  rewrite forallb_forall in H. apply Nat.ltb_lt. apply H, Hin.
Qed.

Lemma order_acq_not_held : forall h x m p, order_ok (map fst h) (Acq x m :: p) = true -> holds x h = false.
Proof.
  intros h x m p H. destruct (holds x h) eqn:E; [|reflexivity].
  apply holds_in in E. pose proof (order_acq_rank _ _ _ _ _ H E). lia.
Qed.

(* a thread that cannot execute its Acq: some OTHER thread holds that lock *)
Lemma blocked_holder : forall (c : conf) i l m p h,
  nth_error c i = Some (Acq l m :: p, h) -> twf (Acq l m :: p, h) -> step c i = None ->
  exists j tj, j <> i /\ nth_error c j = Some tj /\ holds l (snd tj) = true.
Proof.
  intros c i l m p h Hn [HO _] S. cbn [fst snd] in HO. unfold step in S. rewrite Hn in S.
  pose proof (order_acq_not_held _ _ _ _ HO) as Hself.
  unfold tstep in S; simpl in S. destruct m.
  - destruct (oth_ex c i l || holds_ex l h) eqn:E; [|discriminate].
    apply orb_true_iff in E. destruct E as [E|E].
    + apply any_other_true in E. destruct E as [j [tj [Hj [Hnj Hf]]]].
      exists j, tj. split; [exact Hj|]. split; [exact Hnj|apply holds_ex_holds, Hf].
    + apply holds_ex_holds in E. congruence.
  - destruct (oth_any c i l || holds l h) eqn:E; [|discriminate].
    apply orb_true_iff in E. destruct E as [E|E]; [|congruence].
    apply any_other_true in E. destruct E as [j [tj [Hj [Hnj Hf]]]].
    exists j, tj. auto.
Qed.

Lemma nonacq_can_step : forall (c : conf) i tk p h,
  nth_error c i = Some (tk :: p, h) -> (forall l m, tk <> Acq l m) -> exists c', step c i = Some c'.
Proof.
  intros c i tk p h Hn Hna.
  destruct (tstep_nonacq (oth_any c i) (oth_ex c i) tk p h Hna) as [t' T].
  exists (upd c i t'). unfold step. rewrite Hn, T. reflexivity.
Qed.

(* Writer preference does not matter.

   Go's RWMutex blocks a new reader as soon as a writer has *announced* itself.  [step_wp] is the
   most pessimistic reading of that: a thread may not take l shared while ANY other thread stands at
   [Acq l Ex], whether it has announced itself yet or not.  Real executions lie between the two
   semantics: they enable at least what [step_wp] enables, at most what [step] enables, with the
   same effect.  So every configuration they reach is reachable for [step], and there some thread
   is enabled even for [step_wp].  So the argument is made for [step_wp]; [step] follows. *)

Definition wants_sh (t : thread) : option lk :=
  match fst t with Acq l Sh :: _ => Some l | _ => None end.
Definition wants_ex (l : lk) (t : thread) : bool :=
  match fst t with Acq l' Ex :: _ => lk_eqb l' l | _ => false end.
Definition pending_writer (c : conf) (i : nat) (l : lk) : bool := any_other (wants_ex l) i c.

Definition step_wp (c : conf) (i : nat) : option conf :=
  match nth_error c i with
  | None => None
  | Some t =>
      match wants_sh t with
      | Some l => if pending_writer c i l then None else step c i
      | None => step c i
      end
  end.

Lemma step_wp_step : forall c i c', step_wp c i = Some c' -> step c i = Some c'.
Proof.
  unfold step_wp; intros c i c' H. destruct (nth_error c i) as [t|]; [|discriminate].
  destruct (wants_sh t) as [l|]; [|exact H]. destruct (pending_writer c i l); [discriminate|exact H].
Qed.

Lemma step_wp_not_sh : forall (c : conf) i tk p h, nth_error c i = Some (tk :: p, h) ->
  (forall l, tk <> Acq l Sh) -> step_wp c i = step c i.
Proof.
  intros c i tk p h Hn Hne. unfold step_wp. rewrite Hn. unfold wants_sh; simpl.
  destruct tk as [l m|l|l|c0 a|f a|y| | |]; try reflexivity.
  destruct m; [|reflexivity]. exfalso. eapply Hne; reflexivity.
Qed.

Lemma nonacq_can_step_wp : forall (c : conf) i tk p h,
  nth_error c i = Some (tk :: p, h) -> is_acq tk = false -> exists c', step_wp c i = Some c'.
Proof.
  intros c i tk p h Hn Ek.
  assert (Hna : forall l m, tk <> Acq l m) by (intros l m ->; discriminate).
  destruct (nonacq_can_step c i tk p h Hn Hna) as [c' S'].
  exists c'. rewrite (step_wp_not_sh c i tk p h Hn); [exact S'|]. intros l0; apply Hna.
Qed.

Section WriterPreference.
  Variable c : conf.
  Hypothesis HF : Forall twf c.

  Definition waiter_ok (n : nat) : Prop :=
    forall i l m p h, nth_error c i = Some (Acq l m :: p, h) -> 3 <= rank l + n ->
    exists j c', step_wp c j = Some c'.

  (* a thread that holds l and whose own waiting is covered by [waiter_ok n] *)
  Lemma holder_moves : forall n, waiter_ok n ->
    forall j tj l, nth_error c j = Some tj -> holds l (snd tj) = true -> 3 <= rank l + S n ->
    exists k c', step_wp c k = Some c'.
  Proof.
    intros n HW j [pj hj] l Hnj Hh Hr. simpl in Hh.
    pose proof (Forall_nth _ _ _ _ HF Hnj) as [HOj HBj]. simpl in HOj, HBj.
    destruct pj as [|tk pj].
    - apply balanced_nil in HBj. subst hj. discriminate.
    - destruct (is_acq tk) eqn:Ek.
      + destruct tk as [l' m'|l'|l'|c0 a|f a|y| | |]; try discriminate.
        apply (HW j l' m' pj hj Hnj).
        pose proof (order_acq_rank _ _ _ _ _ HOj (holds_in _ _ Hh)). lia.
      + destruct (nonacq_can_step_wp c j tk pj hj Hnj Ek) as [c' S']. exists j, c'. exact S'.
  Qed.

  (* the classic argument, by induction on the distance of the awaited lock's rank from the top: a
     blocked thread waits for a lock whose holder can only wait for a lock of strictly higher rank *)
  Lemma waiter_ok_all : forall n, waiter_ok n.
  Proof.
    induction n as [|n IH]; intros i l m p h Hn Hr.
    - pose proof (rank_le_2 l). lia.
    - pose proof (Forall_nth _ _ _ _ HF Hn) as Hwf.
      destruct (step c i) as [c'|] eqn:S.
      + (* enabled for [step]; only a pending writer can hold it back *)
        destruct (step_wp c i) as [c''|] eqn:SW; [exists i, c''; exact SW|].
        unfold step_wp in SW. rewrite Hn in SW. unfold wants_sh in SW; simpl in SW.
        destruct m; [|congruence].
        destruct (pending_writer c i l) eqn:PW; [|congruence].
        apply any_other_true in PW. destruct PW as [w [[pw hw] [Hw [Hnw Hwant]]]].
        unfold wants_ex in Hwant; simpl in Hwant.
        destruct pw as [|tw pw]; [discriminate|].
        destruct tw as [lw mw|lw|lw|c0 a|f a|y| | |]; try discriminate.
        destruct mw; [discriminate|]. apply lk_eqb_eq in Hwant. subst lw.
        (* the writer itself: enabled, or blocked by a holder of l *)
        destruct (step c w) as [cw|] eqn:Sw.
        * exists w, cw. rewrite (step_wp_not_sh c w _ _ _ Hnw); [exact Sw|]. intros l0; discriminate.
        * pose proof (Forall_nth _ _ _ _ HF Hnw) as Hwfw.
          destruct (blocked_holder _ _ _ _ _ _ Hnw Hwfw Sw) as [j [tj [Hj [Hnj Hh]]]].
          exact (holder_moves n IH j tj l Hnj Hh Hr).
      + destruct (blocked_holder _ _ _ _ _ _ Hn Hwf S) as [j [tj [Hj [Hnj Hh]]]].
        exact (holder_moves n IH j tj l Hnj Hh Hr).
  Qed.

  Lemma wf_can_step_wp : (exists t, In t c /\ fst t <> []) -> exists i c', step_wp c i = Some c'.
  Proof.
    intros [[p h] [Hin Hne]]. simpl in Hne.
    apply In_nth_error in Hin. destruct Hin as [i Hn].
    destruct p as [|tk p]; [contradiction|].
    destruct (is_acq tk) eqn:Ek.
    - destruct tk as [l m|l|l|c0 a|f a|y| | |]; try discriminate.
      apply (waiter_ok_all 3 i l m p h Hn). lia.
    - destruct (nonacq_can_step_wp c i tk p h Hn Ek) as [c' S']. exists i, c'. exact S'.
  Qed.
End WriterPreference.

(* the invariant form: any configuration all of whose threads are well-formed w.r.t. what they hold *)
Lemma wf_can_step : forall c, Forall twf c ->
  (exists t, In t c /\ fst t <> []) -> exists i c', step c i = Some c'.
Proof.
  intros c HF Hne. destruct (wf_can_step_wp c HF Hne) as [i [c' S]]. exists i, c'. apply step_wp_step, S.
Qed.

Definition wf_conf (c0 : conf) : Prop :=
  initial c0 /\ forall t, In t c0 -> order_ok [] (fst t) = true /\ balanced (fst t) = true.

Lemma wf_conf_reachable : forall c0 c, wf_conf c0 -> reachable c0 c -> Forall twf c.
Proof.
  intros c0 c [Hi Hp] R. apply (reachable_Forall twf tstep_twf c0 c); [|exact R].
  apply Forall_forall. intros [p h] Hin. pose proof (Hi _ Hin) as E. simpl in E. subst h. exact (Hp _ Hin).
Qed.

Theorem deadlock_free : forall c0 c,
  initial c0 -> (forall t, In t c0 -> order_ok [] (fst t) = true /\ balanced (fst t) = true) ->
  reachable c0 c ->
  (exists t, In t c /\ fst t <> []) ->
  exists i c', step c i = Some c'.
Proof.
  intros c0 c Hi Hp R Hne. exact (wf_can_step c (wf_conf_reachable c0 c (conj Hi Hp) R) Hne).
Qed.

Theorem deadlock_free_writer_preference : forall c0 c, wf_conf c0 -> reachable c0 c ->
  (exists t, In t c /\ fst t <> []) ->
  exists i c', step_wp c i = Some c' /\ step c i = Some c'.
Proof.
  intros c0 c W R Hne.
  destruct (wf_can_step_wp c (wf_conf_reachable _ _ W R) Hne) as [i [c' S]].
  exists i, c'. split; [exact S|apply step_wp_step, S].
Qed.

(* what [order_ok] and [balanced] mean for a running thread: it only ever waits for a lock of
   strictly higher rank than everything it holds, and it tries (TryLock) only empty-handed, so
   that giving up leaves nothing locked *)
Theorem waits_only_upwards : forall c0 c i l m p h,
  initial c0 -> (forall t, In t c0 -> order_ok [] (fst t) = true /\ balanced (fst t) = true) ->
  reachable c0 c -> nth_error c i = Some (Acq l m :: p, h) ->
  forall l', holds l' h = true -> rank l' < rank l.
Proof.
  intros c0 c i l m p h Hi Hp R Hn l' Hh.
  pose proof (wf_conf_reachable c0 c (conj Hi Hp) R) as HF.
  destruct (Forall_nth _ _ _ _ HF Hn) as [HO _]. cbn [fst snd] in HO.
  exact (order_acq_rank _ _ _ _ _ HO (holds_in _ _ Hh)).
Qed.

Theorem try_only_empty_handed : forall c0 c i l p h,
  initial c0 -> (forall t, In t c0 -> order_ok [] (fst t) = true /\ balanced (fst t) = true) ->
  reachable c0 c -> nth_error c i = Some (TryAcq l :: p, h) -> h = [].
Proof.
  intros c0 c i l p h Hi Hp R Hn.
  pose proof (wf_conf_reachable c0 c (conj Hi Hp) R) as HF.
  destruct (Forall_nth _ _ _ _ HF Hn) as [_ HB]. cbn [fst snd] in HB. simpl in HB.
  destruct h; [reflexivity|discriminate].
Qed.

Definition size (c : conf) : nat := list_sum (map (fun t => List.length (fst t)) c).

Lemma size_upd : forall c i t t', nth_error c i = Some t ->
  size (upd c i t') + List.length (fst t) = size c + List.length (fst t').
Proof.
  unfold size. induction c as [|x c IH]; intros i t t' Hn; destruct i; simpl in *; try discriminate.
  - injection Hn as ->. lia.
  - pose proof (IH i t t' Hn). lia.
Qed.

Lemma step_size : forall c i c', step c i = Some c' -> size c' < size c.
Proof.
  intros c i c' S. apply step_inv in S. destruct S as [t [t' [Hn [T ->]]]].
  pose proof (size_upd c i t t' Hn). pose proof (tstep_shrinks _ _ _ _ T). lia.
Qed.

Lemma run_bounded : forall sch c c', run c sch = Some c' -> List.length sch + size c' <= size c.
Proof.
  induction sch as [|i sch IH]; intros c c' H; simpl in H.
  - injection H as ->. simpl. lia.
  - destruct (step c i) as [c1|] eqn:S; [|discriminate].
    pose proof (step_size _ _ _ S). pose proof (IH _ _ H). simpl. lia.
Qed.

Lemma run_reachable : forall sch c0 c c', reachable c0 c -> run c sch = Some c' -> reachable c0 c'.
Proof.
  induction sch as [|i sch IH]; intros c0 c c' R H; simpl in H.
  - injection H as <-. exact R.
  - destruct (step c i) as [c1|] eqn:S; [|discriminate].
    eapply IH; [|exact H]. eapply reach_step; eauto.
Qed.

Lemma done_or_not : forall c : conf, all_done c \/ exists t, In t c /\ fst t <> [].
Proof.
  induction c as [|[p h] c IH].
  - left. intros t [].
  - destruct p as [|tk p].
    + destruct IH as [IH|[t [Hin Hne]]].
      * left. intros t [<-|Hin]; [reflexivity|apply IH, Hin].
      * right. exists t. split; [right; exact Hin|exact Hne].
    + right. exists (tk :: p, h). split; [left; reflexivity|discriminate].
Qed.

Lemma stuck_done : forall c, Forall twf c -> (forall i, step c i = None) -> all_done c.
Proof.
  intros c HF Hstuck. destruct (done_or_not c) as [D|Hne]; [exact D|].
  destruct (wf_can_step c HF Hne) as [i [c' S]]. rewrite Hstuck in S. discriminate.
Qed.

Lemma wf_progress : forall n c, size c <= n -> Forall twf c ->
  exists sch c', run c sch = Some c' /\ all_done c'.
Proof.
  induction n as [|n IH]; intros c Hs HF.
  - destruct (done_or_not c) as [D|Hne]; [exists [], c; split; [reflexivity|exact D]|].
    destruct (wf_can_step c HF Hne) as [i [c1 S]]. pose proof (step_size _ _ _ S). lia.
  - destruct (done_or_not c) as [D|Hne]; [exists [], c; split; [reflexivity|exact D]|].
    destruct (wf_can_step c HF Hne) as [i [c1 S]]. pose proof (step_size _ _ _ S) as Hlt.
    assert (HF1 : Forall twf c1) by (eapply step_Forall; eauto using tstep_twf).
    destruct (IH c1 ltac:(lia) HF1) as [sch [c' [Hr Hd]]].
    exists (i :: sch), c'. split; [simpl; rewrite S; exact Hr|exact Hd].
Qed.

(* from every reachable configuration the system can be driven to completion ... *)
Theorem progress : forall c0 c, wf_conf c0 -> reachable c0 c ->
  exists sch c', run c sch = Some c' /\ all_done c'.
Proof.
  intros c0 c W R. apply (wf_progress (size c) c (le_n _)). eapply wf_conf_reachable; eauto.
Qed.

(* ... and it is not a matter of choosing the schedule well: no run is longer than the total
   program text, and whenever no thread can move any more, all threads have finished.  Hence
   under every schedule that keeps stepping enabled threads (in particular every fair one) every
   thread finishes. *)
Theorem every_maximal_run_finishes : forall c0 sch c, wf_conf c0 ->
  run c0 sch = Some c ->
  List.length sch <= size c0 /\ ((forall i, step c i = None) -> all_done c).
Proof.
  intros c0 sch c W Hr. split.
  - pose proof (run_bounded _ _ _ Hr). lia.
  - apply stuck_done, (wf_conf_reachable c0 c W). eapply run_reachable; [apply reach_refl|exact Hr].
Qed.

(* The translator walks a loop body once.  A run of the code executes it any number of times, or
   not at all.  Well-formedness survives that whenever the segment is lock-neutral -- what is held
   after it is what was held before it -- so all theorems above apply to the unrolled programs. *)

(* what is held after running [p] to its end (every TryAcq successful) *)
Fixpoint after (h : hset) (p : list tok) : hset :=
  match p with
  | [] => h
  | Acq x m :: p' => after ((x, m) :: h) p'
  | TryAcq x :: p' => after ((x, Ex) :: h) p'
  | Rel x :: p' => after (rm x h) p'
  | _ :: p' => after h p'
  end.

(* [balanced_from] without the requirement that nothing is held at the end *)
Fixpoint balanced_pre (h : hset) (p : list tok) : bool :=
  match p with
  | [] => true
  | Acq x m :: p' => balanced_pre ((x, m) :: h) p'
  | TryAcq x :: p' => match h with [] => balanced_pre [(x, Ex)] p' | _ => false end
  | Rel x :: p' => holds x h && balanced_pre (rm x h) p'
  | _ :: p' => balanced_pre h p'
  end.

Lemma after_app : forall p q h, after h (p ++ q) = after (after h p) q.
Proof.
  induction p as [|tk p IH]; intros q h; [reflexivity|].
  destruct tk; simpl; apply IH.
Qed.

Lemma order_ok_app : forall p q h,
  order_ok (map fst h) (p ++ q) = order_ok (map fst h) p && order_ok (map fst (after h p)) q.
Proof.
  induction p as [|tk p IH]; intros q h; [reflexivity|].
  rewrite <- app_comm_cons.
  destruct tk as [l m|l|l|c a|f a|y| | |];
    try (rewrite !order_ok_other by reflexivity; exact (IH q h)).
  - rewrite !order_ok_acq. rewrite <- andb_assoc. f_equal. exact (IH q ((l, m) :: h)).
  - rewrite !order_ok_try. exact (IH q ((l, Ex) :: h)).
  - rewrite !order_ok_rel. rewrite <- map_fst_rm. exact (IH q (rm l h)).
Qed.

Lemma balanced_app : forall p q h,
  balanced_from h (p ++ q) = balanced_pre h p && balanced_from (after h p) q.
Proof.
  induction p as [|tk p IH]; intros q h; [reflexivity|].
  destruct tk as [l m|l|l|c a|f a|y| | |]; simpl; try apply IH.
  - destruct h; [apply IH|reflexivity].
  - rewrite <- andb_assoc. f_equal. apply IH.
Qed.

Lemma balanced_pre_app : forall p q h,
  balanced_pre h (p ++ q) = balanced_pre h p && balanced_pre (after h p) q.
Proof.
  induction p as [|tk p IH]; intros q h; [reflexivity|].
  destruct tk as [l m|l|l|c a|f a|y| | |]; simpl; try apply IH.
  - destruct h; [apply IH|reflexivity].
  - rewrite <- andb_assoc. f_equal. apply IH.
Qed.

Lemma honest_app : forall p q h,
  honest_from h (p ++ q) = honest_from h p && honest_from (after h p) q.
Proof.
  induction p as [|tk p IH]; intros q h; [reflexivity|].
  destruct tk as [l m|l|l|c a|f a|y| | |]; simpl; try apply IH;
    rewrite <- andb_assoc; f_equal; apply IH.
Qed.

(* all four checks, from a given set of holds *)
Definition wf_from (h : hset) (p : list tok) : bool :=
  order_ok (map fst h) p && balanced_from h p && honest_from h p && forallb tok_guarded p.
(* ... for a segment in the middle *)
Definition seg_ok (h : hset) (p : list tok) : bool :=
  order_ok (map fst h) p && balanced_pre h p && honest_from h p && forallb tok_guarded p.

Lemma wf_from_app : forall h p q, wf_from h (p ++ q) = true <-> seg_ok h p = true /\ wf_from (after h p) q = true.
Proof.
  intros h p q. unfold wf_from, seg_ok.
  rewrite order_ok_app, balanced_app, honest_app, forallb_app.
  rewrite !andb_true_iff. tauto.
Qed.

Lemma seg_ok_app : forall h p q, seg_ok h (p ++ q) = true <-> seg_ok h p = true /\ seg_ok (after h p) q = true.
Proof.
  intros h p q. unfold seg_ok.
  rewrite order_ok_app, balanced_pre_app, honest_app, forallb_app.
  rewrite !andb_true_iff. tauto.
Qed.

Definition times (n : nat) (body : list tok) : list tok := List.concat (repeat body n).

Lemma seg_ok_times : forall h body n, after h body = h -> seg_ok h body = true ->
  seg_ok h (times n body) = true /\ after h (times n body) = h.
Proof.
  intros h body n Hn Hb. induction n as [|n [IH1 IH2]]; [split; reflexivity|].
  unfold times in *. simpl. split.
  - apply seg_ok_app. rewrite Hn. auto.
  - rewrite after_app, Hn. exact IH2.
Qed.

(* a lock-neutral segment may be executed any number of times (also zero) *)
Theorem wf_repeat : forall h pre body post n,
  after (after h pre) body = after h pre ->
  wf_from h (pre ++ body ++ post) = true -> wf_from h (pre ++ times n body ++ post) = true.
Proof.
  intros h pre body post n Hn H.
  apply wf_from_app in H. destruct H as [Hpre H]. apply wf_from_app in H. destruct H as [Hb Hpost].
  rewrite Hn in Hpost.
  destruct (seg_ok_times _ _ n Hn Hb) as [Hbn Han].
  apply wf_from_app. split; [exact Hpre|]. apply wf_from_app. split; [exact Hbn|].
  rewrite Han. exact Hpost.
Qed.

(* the programs obtained from [p] by repeating / skipping lock-neutral segments, in any nesting *)
Inductive unrolls (p : list tok) : list tok -> Prop :=
| unroll_refl : unrolls p p
| unroll_rep : forall pre body post n,
    unrolls p (pre ++ body ++ post) -> after (after [] pre) body = after [] pre ->
    unrolls p (pre ++ times n body ++ post).

Theorem unrolls_wf : forall p q, unrolls p q -> wf_from [] p = true -> wf_from [] q = true.
Proof.
  intros p q U H. induction U as [|pre body post n U IH Hn]; [exact H|].
  apply wf_repeat; [exact Hn|exact IH].
Qed.

(* every Loop ... EndLoop segment of a list, as (before, segment, after) *)
Fixpoint match_end (depth : nat) (p : list tok) : option (list tok * list tok) :=
  match p with
  | [] => None
  | EndLoop :: p' =>
      match depth with
      | 0 => Some ([EndLoop], p')
      | S d => match match_end d p' with Some (b, r) => Some (EndLoop :: b, r) | None => None end
      end
  | Loop :: p' => match match_end (S depth) p' with Some (b, r) => Some (Loop :: b, r) | None => None end
  | t :: p' => match match_end depth p' with Some (b, r) => Some (t :: b, r) | None => None end
  end.
Fixpoint loop_segments (pre p : list tok) : list (list tok * list tok * list tok) :=
  match p with
  | [] => []
  | Loop :: p' =>
      match match_end 0 p' with Some (b, r) => [(pre, Loop :: b, r)] | None => [] end ++
      loop_segments (pre ++ [Loop]) p'
  | t :: p' => loop_segments (pre ++ [t]) p'
  end.
Definition count_loops (p : list tok) : nat :=
  List.length (filter (fun t => match t with Loop => true | _ => false end) p).
(* every Loop has its EndLoop, and every loop is lock-neutral *)
Definition loops_neutral (p : list tok) : bool :=
  Nat.eqb (List.length (loop_segments [] p)) (count_loops p) &&
  forallb (fun s => match s with (pre, b, _) => held_eqb (after [] (pre ++ b)) (after [] pre) end)
          (loop_segments [] p).

(* Every entry of [shape_table] is well-formed as it stands, except DB_Compact: *)

Definition checks (p : list tok) : bool := order_ok [] p && balanced p && honest p.

Theorem shape_table_ok_except_Compact :
  forallb (fun e => checks (snd e)) (filter (fun e => negb (String.eqb (fst e) "DB_Compact")) shape_table) = true.
Proof. vm_compute. reflexivity. Qed.

Theorem DB_Compact_linearisation_not_balanced : balanced (lookup "DB_Compact") = false.
Proof. vm_compute. reflexivity. Qed.

(* Why: the translator walks the branches of an [if] one after the other.  DB.Compact contains
       for _, seg := range segments {
         if err := db.datalog.sealSegment(seg); err != nil { db.mu.Unlock(); return cr, err }
       }
       db.mu.Unlock()
   which is linearised to  ... Call sealSegment; Rel Mu; EndLoop; Rel Mu ...: the first [Rel Mu]
   belongs to the error return, the second to the normal path, and no execution performs both.
   (ShapeCheck.order_ok and the [held] annotations tolerate this: releasing a lock that is not held
   is a no-op for them.)  The two executions are recovered from the regenerated list here: the
   normal path drops the early-return release; the error path stops after it and runs the deferred
   maintenanceMu.Unlock().  All three have the same sequence of lock operations. *)

Fixpoint remove_first_rel (x : lk) (p : list tok) : list tok :=
  match p with
  | [] => []
  | Rel y :: p' => if lk_eqb y x then p' else Rel y :: remove_first_rel x p'
  | t :: p' => t :: remove_first_rel x p'
  end.
Fixpoint upto_first_rel (x : lk) (p : list tok) : list tok :=
  match p with
  | [] => []
  | Rel y :: p' => if lk_eqb y x then [Rel y] else Rel y :: upto_first_rel x p'
  | t :: p' => t :: upto_first_rel x p'
  end.

Definition prog_Compact_main : list tok := remove_first_rel Mu (lookup "DB_Compact").
Definition prog_Compact_sealerr : list tok := upto_first_rel Mu (lookup "DB_Compact") ++ [Rel MaintMu].

Example prog_Compact_main_is :
  prog_Compact_main =
  [TryAcq MaintMu; Acq Mu Ex;
   Call "db.pickForCompaction" [(MaintMu, Ex); (Mu, Ex)];
   Loop; Call "db.datalog.sealSegment" [(MaintMu, Ex); (Mu, Ex)]; EndLoop;
   Rel Mu; Yield "compact.picked";
   Loop; Call "db.compact" [(MaintMu, Ex)]; EndLoop;
   Rel MaintMu].
Proof. vm_compute. reflexivity. Qed.

Example prog_Compact_sealerr_is :
  prog_Compact_sealerr =
  [TryAcq MaintMu; Acq Mu Ex;
   Call "db.pickForCompaction" [(MaintMu, Ex); (Mu, Ex)];
   Loop; Call "db.datalog.sealSegment" [(MaintMu, Ex); (Mu, Ex)];
   Rel Mu; Rel MaintMu].
Proof. vm_compute. reflexivity. Qed.

Definition lockops (p : list tok) : list tok := filter is_lockop p.
Example Compact_paths_same_lockops :
  lockops prog_Compact_main = [TryAcq MaintMu; Acq Mu Ex; Rel Mu; Rel MaintMu] /\
  lockops prog_Compact_sealerr = lockops prog_Compact_main.
Proof. vm_compute. split; reflexivity. Qed.

(* db.compact is the one callee that takes a lock itself (db.mu, once per record, while its caller
   holds maintenanceMu): inline it where it is called; the annotations of the inlined body are
   extended by what the caller holds at the call *)
Definition add_held (h : hset) (t : tok) : tok :=
  match t with
  | Call c a => Call c (h ++ a)
  | Field f a => Field f (h ++ a)
  | t => t
  end.
Fixpoint inline (c : string) (body : list tok) (p : list tok) : list tok :=
  match p with
  | [] => []
  | Call c' a :: p' =>
      if String.eqb c c' then Call c' a :: map (add_held a) body ++ inline c body p'
      else Call c' a :: inline c body p'
  | t :: p' => t :: inline c body p'
  end.

Definition prog_Compact_full : list tok := inline "db.compact" (lookup "DB_compact") prog_Compact_main.

(* the background goroutine: Sync and Compact in a loop, holding nothing in between *)
Definition prog_worker : list tok :=
  inline "db.Sync" (lookup "DB_Sync")
    (inline "db.Compact" prog_Compact_full (lookup "DB_startBackgroundWorker")).

Example prog_Compact_full_lockops :
  lockops prog_Compact_full =
  [TryAcq MaintMu; Acq Mu Ex; Rel Mu;
   Acq Mu Ex; Rel Mu; Acq Mu Ex; Rel Mu; Acq Mu Ex; Rel Mu;   (* db.compact *)
   Rel MaintMu] /\
  lockops prog_worker = Acq Mu Ex :: Rel Mu :: lockops prog_Compact_full.
Proof. vm_compute. split; reflexivity. Qed.

(* what a thread may run: any public method (DB_Compact: either path, or with db.compact inlined;
   DB_compact on its own is covered as well), or the background worker *)
Definition pogreb_programs : list (string * list tok) :=
  map (fun n => (n, lookup n)) (filter (fun n => negb (String.eqb n "DB_Compact")) api) ++
  [("DB_Compact (normal path)", prog_Compact_main);
   ("DB_Compact (sealSegment failed)", prog_Compact_sealerr);
   ("DB_Compact (db.compact inlined)", prog_Compact_full);
   ("background worker", prog_worker)].

Theorem pogreb_programs_ok :
  forallb (fun e => order_ok [] (snd e) && balanced (snd e)) pogreb_programs = true.
Proof. vm_compute. reflexivity. Qed.

Theorem pogreb_programs_honest_guarded :
  forallb (fun e => honest (snd e) && forallb tok_guarded (snd e)) pogreb_programs = true.
Proof. vm_compute. reflexivity. Qed.

Example pogreb_programs_names :
  map fst pogreb_programs =
  ["DB_Get"; "DB_GetAppend"; "DB_Has"; "DB_Put"; "DB_Delete"; "DB_Sync"; "DB_Count"; "DB_Close";
   "DB_compact"; "DB_Backup"; "ItemIterator_Next";
   "DB_Compact (normal path)"; "DB_Compact (sealSegment failed)"; "DB_Compact (db.compact inlined)";
   "background worker"] /\
  forallb (fun e => negb (match snd e with [] => true | _ => false end)) pogreb_programs = true.
Proof. vm_compute. split; reflexivity. Qed.

(* every loop of these programs is closed and lock-neutral, so [unrolls] covers any number of
   iterations of any of them.  (The error path of DB_Compact leaves its loop by [return]; the
   iterations before the failing one are repetitions of the lock-neutral sealSegment call.) *)
Theorem pogreb_loops_neutral :
  forallb (fun e => loops_neutral (snd e))
          (filter (fun e => negb (String.eqb (fst e) "DB_Compact (sealSegment failed)")) pogreb_programs) = true.
Proof. vm_compute. reflexivity. Qed.

Example compact_record_loop_unrolls : forall n,
  exists pre body post,
    loop_segments [] (lookup "DB_compact") = [(pre, body, post)] /\
    lookup "DB_compact" = pre ++ body ++ post /\
    unrolls (lookup "DB_compact") (pre ++ times n body ++ post).
Proof.
  intros n. eexists; eexists; eexists. split; [vm_compute; reflexivity|]. split; [vm_compute; reflexivity|].
  apply unroll_rep; [apply unroll_refl|vm_compute; reflexivity].
Qed.

(* an initial configuration of the system: every thread holds nothing and runs one of the programs
   above, its lock-neutral segments (loops) repeated or skipped at will.  A failing TryLock inside
   the worker's loop is the unrolling that skips that Compact; at top level it ends the thread. *)
Definition runs_pogreb (c0 : conf) : Prop :=
  forall t, In t c0 -> snd t = [] /\ exists p, In p (map snd pogreb_programs) /\ unrolls p (fst t).

Lemma pogreb_program_props : forall p, In p (map snd pogreb_programs) -> wf_from [] p = true.
Proof.
  intros p Hin. apply in_map_iff in Hin. destruct Hin as [e [<- Hin]].
  pose proof pogreb_programs_ok as H1. pose proof pogreb_programs_honest_guarded as H2.
  rewrite forallb_forall in H1, H2. specialize (H1 e Hin). specialize (H2 e Hin).
  apply andb_true_iff in H1. apply andb_true_iff in H2. destruct H1 as [H1 H1']. destruct H2 as [H2 H2'].
  unfold wf_from. cbn [map]. unfold balanced in H1'. unfold honest in H2.
  rewrite H1, H1', H2, H2'. reflexivity.
Qed.

Lemma runs_pogreb_props : forall c0 t, runs_pogreb c0 -> In t c0 ->
  snd t = [] /\ order_ok [] (fst t) = true /\ balanced (fst t) = true /\
  honest (fst t) = true /\ forallb tok_guarded (fst t) = true.
Proof.
  intros c0 t H Hin. destruct (H t Hin) as [E [p [Hp U]]]. split; [exact E|].
  pose proof (unrolls_wf _ _ U (pogreb_program_props _ Hp)) as W.
  unfold wf_from in W. cbn [map] in W. rewrite !andb_true_iff in W. unfold balanced, honest. tauto.
Qed.

Lemma runs_pogreb_wf : forall c0, runs_pogreb c0 -> wf_conf c0.
Proof.
  intros c0 H. split.
  - intros t Hin. destruct (runs_pogreb_props c0 t H Hin) as [E _]. exact E.
  - intros t Hin. pose proof (runs_pogreb_props c0 t H Hin). tauto.
Qed.

(* any number of threads, each running any of the public methods (or the worker), all schedules:
   as long as somebody has something left to do, somebody can move -- also under writer
   preference -- and when nobody can move, everybody has returned *)
Theorem pogreb_deadlock_free : forall c0 c, runs_pogreb c0 -> reachable c0 c ->
  ((exists t, In t c /\ fst t <> []) ->
     exists i c', step c i = Some c' /\ step_wp c i = Some c') /\
  ((forall i, step c i = None) -> all_done c) /\
  (exists sch c', run c sch = Some c' /\ all_done c').
Proof.
  intros c0 c H R. pose proof (runs_pogreb_wf _ H) as W. split; [|split].
  - intros Hne. destruct (deadlock_free_writer_preference c0 c W R Hne) as [i [c' [S1 S2]]].
    exists i, c'. auto.
  - apply stuck_done, (wf_conf_reachable c0 c W R).
  - eapply progress; eauto.
Qed.

(* no two threads are ever at a writer access and at another access of the shared index / log
   state at the same time *)
Theorem pogreb_race_free : forall c0 c i j ti tj ri rj hi hj,
  runs_pogreb c0 -> reachable c0 c -> i <> j ->
  nth_error c i = Some (ti :: ri, hi) -> nth_error c j = Some (tj :: rj, hj) ->
  writer_tok ti = true -> (writer_tok tj || reader_tok tj) = true ->
  False.
Proof.
  intros c0 c i j ti tj ri rj hi hj H R Hij Hni Hnj Wi Aj.
  assert (Hi : initial c0) by (intros t Hin; destruct (H t Hin) as [E _]; exact E).
  assert (F0 : Forall (fun t => thonest t /\ tguarded t) c0).
  { apply Forall_forall. intros [p h] Hin.
    pose proof (runs_pogreb_props c0 _ H Hin) as [Eh Hp]. cbn [fst snd] in Eh, Hp. subst h.
    unfold thonest, tguarded, honest in *; cbn [fst snd]. tauto. }
  assert (F : Forall (fun t => thonest t /\ tguarded t) c).
  { apply (reachable_Forall _) with (c0 := c0); [|exact F0|exact R].
    intros oany oex t t' T [A B]. split; [eapply tstep_thonest|eapply (tstep_forallb tok_guarded)]; eauto. }
  destruct (Forall_nth _ _ _ _ F Hni) as [Hhi Gi]. destruct (Forall_nth _ _ _ _ F Hnj) as [Hhj Gj].
  unfold tguarded in Gi, Gj. cbn [fst] in Gi, Gj. simpl in Gi, Gj.
  apply andb_true_iff in Gi. apply andb_true_iff in Gj.
  exact (conflict_core c i j ti tj ri rj hi hj (reachable_ME _ _ Hi R) Hij Hni Hnj Hhi Hhj
           (proj1 Gi) (proj1 Gj) Wi Aj).
Qed.

Definition wait_call (c : string) : bool :=
  String.eqb c "db.cancelBgWorker" || String.eqb c "db.closeWg.Wait".
(* every call that waits for the worker is annotated "holds nothing" *)
Definition waits_unlocked (t : tok) : bool :=
  match t with
  | Call c a => if wait_call c then match a with [] => true | _ => false end else true
  | _ => true
  end.

(* a thread with an honest program, whatever the others do: while it is at a call that waits for
   the worker and is annotated "holds nothing", it really holds nothing -- it cannot be the reason
   why the worker (which takes db.mu and maintenanceMu inside Sync / Compact) does not get there *)
Theorem waits_hold_nothing : forall c0 c i p0 cl a r h,
  initial c0 -> reachable c0 c ->
  nth_error c0 i = Some (p0, []) -> honest p0 = true -> forallb waits_unlocked p0 = true ->
  nth_error c i = Some (Call cl a :: r, h) -> wait_call cl = true ->
  h = [].
Proof.
  intros c0 c i p0 cl a r h Hi R H0 Hh Hw Hn Hcl.
  destruct (reachable_thread (fun t => thonest t /\ forallb waits_unlocked (fst t) = true)) with
    (c0 := c0) (c := c) (i := i) (t0 := (p0, @nil (lk * mode))) as [t [Ht [Hth Hwt]]]; auto.
  - intros oany oex t t' T [A B]. split; [eapply tstep_thonest|eapply tstep_forallb]; eauto.
  - rewrite Hn in Ht. injection Ht as <-.
    pose proof (thonest_next _ a Hth eq_refl) as E. cbn [snd] in E.
    cbn [fst] in Hwt. simpl in Hwt. apply andb_true_iff in Hwt. destruct Hwt as [Hwt _].
    rewrite Hcl in Hwt. destruct a; [|discriminate].
    destruct h as [|x h]; [reflexivity|]. simpl in E. symmetry in E. apply app_eq_nil in E.
    destruct E as [_ E]. discriminate.
Qed.

(* Read off the regenerated shape of DB.Close (the first part is the last conjunct of
   ShapeCheck.close_order_ok with the rest of the list made explicit): DB.Close cancels the worker
   and waits for it first, then takes db.mu; these are its only waiting calls; and in every
   reachable configuration of any system in which thread i runs DB.Close, while it is at one of
   them it holds no lock. *)
Theorem close_waits_before_locking :
  (exists rest,
     lookup "DB_Close" =
       Call "db.cancelBgWorker" [] :: Call "db.closeWg.Wait" [] :: Acq Mu Ex :: rest /\
     forallb (fun t => match t with Call c _ => negb (wait_call c) | _ => true end) rest = true) /\
  (forall c0 c i cl a r h,
     initial c0 -> reachable c0 c ->
     nth_error c0 i = Some (lookup "DB_Close", []) ->
     nth_error c i = Some (Call cl a :: r, h) -> wait_call cl = true ->
     h = []).
Proof.
  split.
  - exists (skipn 3 (lookup "DB_Close")). split; vm_compute; reflexivity.
  - intros c0 c i cl a r h Hi R H0 Hn Hcl.
    apply (waits_hold_nothing c0 c i (lookup "DB_Close") cl a r h); auto; vm_compute; reflexivity.
Qed.

Definition ex_conf : conf := [(lookup "DB_Put", []); (lookup "DB_Delete", []); (lookup "DB_Get", [])].

(* Put has taken db.mu; Delete and Get stand at their Lock / RLock and are blocked; Put can move *)
Example ex_blocked :
  exists c, run ex_conf [0; 0; 1; 2] = Some c /\
    nth_error c 0 = Some ([Call "db.datalog.put" [(Mu, Ex)]; Call "db.put" [(Mu, Ex)];
                           Call "db.sync" [(Mu, Ex)]; Rel Mu], [(Mu, Ex)]) /\
    option_map fst (nth_error c 1) = Some (skipn 1 (lookup "DB_Delete")) /\
    option_map fst (nth_error c 2) = Some (skipn 1 (lookup "DB_Get")) /\
    step c 1 = None /\ step c 2 = None /\ step c 0 <> None.
Proof. eexists. split; [vm_compute; reflexivity|]. vm_compute. repeat split; try reflexivity. discriminate. Qed.

(* a complete schedule of the three; every program becomes [] and nothing stays locked *)
Example ex_all_finish :
  run ex_conf [0; 0; 1; 2; 0; 0; 0; 0; 1; 1; 1; 1; 2; 2; 2; 2; 2] = Some [([], []); ([], []); ([], [])].
Proof. vm_compute. reflexivity. Qed.

(* another interleaving: the reader first, the writers wait for it *)
Example ex_reader_first :
  exists c, run ex_conf [2; 2; 0; 1] = Some c /\ step c 0 = None /\ step c 1 = None /\
    run c [2; 2; 2; 2; 1; 1; 1; 1; 0; 0; 0; 0; 0] = Some [([], []); ([], []); ([], [])].
Proof. eexists. split; [vm_compute; reflexivity|]. vm_compute. repeat split; reflexivity. Qed.

(* readers share: two Gets and an iterator hold db.mu at the same time *)
Example ex_readers_share :
  exists c, run [(lookup "DB_Get", []); (lookup "DB_Has", []); (lookup "ItemIterator_Next", [])]
                [0; 0; 1; 1; 2; 2] = Some c /\
    map snd c = [[(Mu, Sh)]; [(Mu, Sh)]; [(Mu, Sh); (ItMu, Ex)]].
Proof. eexists. split; vm_compute; reflexivity. Qed.

(* TryLock: the second Compact finds maintenanceMu taken and returns at once; Backup blocks on it *)
Example ex_trylock :
  exists c, run [(prog_Compact_full, []); (prog_Compact_full, []); (lookup "DB_Backup", [])] [0; 1] = Some c /\
    nth_error c 1 = Some ([], []) /\ step c 2 = None /\
    exists sch, run c sch = Some [([], []); ([], []); ([], [])].
Proof.
  eexists. split; [vm_compute; reflexivity|]. split; [vm_compute; reflexivity|].
  split; [vm_compute; reflexivity|].
  exists (repeat 0 (List.length prog_Compact_full - 1) ++ repeat 2 (List.length (lookup "DB_Backup"))).
  vm_compute. reflexivity.
Qed.

(* the theorems apply to these configurations *)
Example ex_conf_runs_pogreb : runs_pogreb ex_conf.
Proof.
  intros t Hin. split.
  - destruct Hin as [<-|[<-|[<-|[]]]]; reflexivity.
  - exists (fst t). split; [|apply unroll_refl].
    destruct Hin as [<-|[<-|[<-|[]]]];
      [apply (nth_error_In _ 3)|apply (nth_error_In _ 4)|apply (nth_error_In _ 0)]; vm_compute; reflexivity.
Qed.

(* the conflict the invariant excludes does occur once the discipline is broken: a Put that
   forgot to lock stands at its write while Get reads *)
Example ex_unlocked_writer_races :
  exists c, run [([Call "db.put" [(Mu, Ex)]], []); (lookup "DB_Get", [])] [1; 1] = Some c /\
    exists ti ri hi tj rj hj,
      nth_error c 0 = Some (ti :: ri, hi) /\ nth_error c 1 = Some (tj :: rj, hj) /\
      writer_tok ti = true /\ reader_tok tj = true /\ honest (ti :: ri) = false.
Proof.
  eexists. split; [vm_compute; reflexivity|].
  do 6 eexists. split; [vm_compute; reflexivity|]. split; [vm_compute; reflexivity|].
  vm_compute. repeat split; reflexivity.
Qed.

(* and a lock-order inversion deadlocks: order_ok rejects the program, and the run gets stuck *)
Example ex_inverted_order_deadlocks :
  let bad := [Acq Mu Ex; Acq MaintMu Ex; Rel MaintMu; Rel Mu] in
  order_ok [] bad = false /\ balanced bad = true /\
  exists c, run [(bad, []); (lookup "DB_Backup", [])] [0; 1] = Some c /\
    step c 0 = None /\ step c 1 = None.
Proof. vm_compute. split; [reflexivity|]. split; [reflexivity|]. eexists. repeat split; reflexivity. Qed.

Print Assumptions mutual_exclusion_invariant.
Print Assumptions conflict_free.
Print Assumptions no_simultaneous_conflict.
Print Assumptions deadlock_free.
Print Assumptions waits_only_upwards.
Print Assumptions try_only_empty_handed.
Print Assumptions progress.
Print Assumptions every_maximal_run_finishes.
Print Assumptions deadlock_free_writer_preference.
Print Assumptions unrolls_wf.
Print Assumptions pogreb_programs_ok.
Print Assumptions pogreb_deadlock_free.
Print Assumptions pogreb_race_free.
Print Assumptions close_waits_before_locking.
