(* PhysProofs.v -- the PHYSICAL index of Phys.v (two bucket files addressed by offset, a free list
   of overflow offsets) EXACTLY SIMULATES the bucket-chain index of Index.v ([chain_ops]), and keeps
   a physical invariant: no overflow bucket is shared, none leaks, every pointer is valid.
   Together with DBSim.v (chain index refines the flat index) the theorems about the database
   transfer to the on-disk layout of index.go / bucket.go.
   No axioms: every theorem listed under "MAIN THEOREMS" is printed "Closed under the global
   context" by the Print Assumptions at the end of the file.

   DEFINITIONS
     offs_of H          the overflow offsets of a walk (handles behind the main bucket)
     ph_chain p i       option chain: the live prefixes of the buckets the iterator sees from main
                        bucket i (None if the walk fails);  ph_offs p i: their overflow offsets
     R_phys p c         level / split / nkeys equal, ph_nbuckets p = nlen (px_chains c) = nlen
                        (ph_main p), and for every i < numBuckets: ph_chain p i = Some (px_chain c i)
     bucket_ok b        31 slots, = pad_slots (pb_live b): the live slots first (all with offset
                        <> 0, by definition of the live prefix), the rest all-zero slots
     InvW p HS          HS = the walks of all main buckets; nlen main = numBuckets; every bucket of
                        BOTH files (stale ones too) is bucket_ok; every walk succeeds;
                        Permutation (concat (map offs_of HS) ++ ph_free p) (over_offs (length over)),
                        over_offs n = [512; 1024; ...; 512*n] = all block offsets of overflow.pix
     PhysInv p          exists HS, InvW p HS
     reachable p        executable: the reachable overflow offsets, all chains in order
     phys_inv_b, phys_rel_b   executable checkers (sound AND complete)
     pb_wf / phys_wf    slot fields and next in machine range (for the byte images only)
     PhysWf p           every slot of every block of both files is slot_wf; EVERY next pointer (stale
                        blocks too) and every free-list entry is < obound p = the end of overflow.pix
                        (independent of PhysInv; preserved by all operations: last section)

   WHAT PhysInv MEANS (theorems PhysInv_buckets, PhysInv_overflow, PhysInv_walks): the single
   Permutation clause says that "reachable overflow offsets ++ free list" enumerates every block
   of overflow.pix exactly once, hence
     - every next pointer of a reachable bucket and every free-list entry is a valid offset
       (512-aligned, 512 <= off < 512 + 512 * number of overflow buckets),
     - NoDup: no overflow bucket is reachable twice -- not from two chains (no sharing), not twice
       from one chain (acyclic; the fuel of the walk is never exhausted), not reachable and free,
     - NO LEAK: every overflow bucket of the file is reachable or free:
       nlen ph_over = nlen reachable + nlen ph_free.

   MAIN THEOREMS
     phys_empty_ok      : PhysInv (ix_empty phys_ops) /\ R_phys (ix_empty phys_ops) (ix_empty chain_ops)
     phys_get_sim       : PhysInv p -> R_phys p c -> ix_get phys_ops p h m = ix_get chain_ops c h m
     phys_put_sim       : PhysInv p -> R_phys p c -> PInv c -> sl_off sl <> 0 ->
                          snd (ix_put phys_ops grow p sl m) = snd (ix_put chain_ops grow c sl m) /\
                          R_phys (fst (ix_put phys_ops grow p sl m)) (fst (ix_put chain_ops grow c sl m)) /\
                          PhysInv (fst (ix_put phys_ops grow p sl m))          (any split policy [grow])
     phys_del_sim       : PhysInv p -> R_phys p c -> PInv c ->
                          snd (ix_del phys_ops p h m) = snd (ix_del chain_ops c h m) /\
                          R_phys (fst (ix_del phys_ops p h m)) (fst (ix_del chain_ops c h m)) /\
                          PhysInv (fst (ix_del phys_ops p h m))
     phys_repoint_sim   : PhysInv p -> R_phys p c -> PInv c -> noff <> 0 ->
                          match ix_repoint phys_ops p h seg off nseg noff,
                                ix_repoint chain_ops c h seg off nseg noff with
                          | None, None => True | Some p', Some c' => R_phys p' c' /\ PhysInv p'
                          | _, _ => False end
     phys_count_sim     : R_phys p c -> ix_count phys_ops p = ix_count chain_ops c
     phys_nbuckets_sim  : R_phys p c -> ix_nbuckets phys_ops p = ix_nbuckets chain_ops c
     phys_bucket_sim    : PhysInv p -> R_phys p c -> ix_bucket phys_ops p n = ix_bucket chain_ops c n
     phys_split_sim     : PhysInv p -> R_phys p c -> PInv c ->
                          R_phys (ph_dosplit p) (px_dosplit c) /\ PhysInv (ph_dosplit p)
     phys_split_early_free_sim, phys_put_early_free_sim : the same two theorems for the variant of
                          index.split that frees the old overflow buckets BEFORE re-inserting
     PR p c := PhysInv p /\ R_phys p c /\ PInv c  and  PR_empty, PR_get, PR_put, PR_del, PR_repoint,
       PR_count, PR_nbuckets, PR_bucket: the laws in the shape of the fields of
       DBSimExact.exact_sim phys_ops chain_ops PR (one relation preserved by every operation; PInv
       preservation from Index.v).  With DBSimExact.v imported:
         Theorem phys_exact_sim : exact_sim phys_ops chain_ops PR.
         Proof. constructor.
           - exact PR_empty.  - intros a b h m H. exact (PR_get a b h m H).
           - intros g a b sl m H Hn. exact (PR_put g a b sl m H Hn).
           - intros a b h m H. exact (PR_del a b h m H).
           - intros a b h seg off nseg noff H Hn. pose proof (PR_repoint a b h seg off nseg noff H Hn) as X.
             destruct (ix_repoint phys_ops a h seg off nseg noff);
               destruct (ix_repoint chain_ops b h seg off nseg noff); try contradiction; constructor. exact X.
           - intros a b H. exact (PR_count a b H).  - intros a b H. exact (PR_nbuckets a b H).
           - intros a b n H. exact (PR_bucket a b n H).
         Qed.                                   (checked; not included: DBSimExact.v is not a dependency)
     PhysInv_buckets, PhysInv_overflow, PhysInv_walks  (the invariant in words, see above)
     phys_inv_b_ok / phys_inv_b_complete, phys_rel_b_ok / phys_rel_b_complete
     file_bytes_length, file_bytes_decode, ph_bytes_lengths, ph_main_bytes_decode,
     ph_over_bytes_decode   (byte images: length 512 * (1 + n); the block at a bucket's offset
                             unmarshals to that bucket, under phys_wf)
     PhysWf_empty, ph_put_wf (slot_wf sl), ph_del_wf, ph_repoint_wf (nseg < 2^16, noff < 2^32),
     ph_dosplit_wf : PhysWf is preserved;  PhysWf_phys_wf : PhysInv p -> PhysWf p ->
                          obound p <= 2^64 -> phys_wf p   (so the byte images of every reachable
                          state decode, as long as overflow.pix is smaller than 2^64 bytes)
     Module PhysRun (vm_compute): s39_ok (overflow bucket), s40_ok (split frees offset 512),
       s52_ok (a later put reuses 512), sdel_ok / shole_ok (delete makes a hole, next put fills it),
       s52_bytes, z72_ok, z72_split;
       split_early_free_not_refuted, split_no_free_refuted, create_overflow_nopop_refuted.

   PROOF STRUCTURE.  [wl p i H] is the fuel-free description of a successful walk (ph_walk_wl,
   wl_walk); [Sim p c HS] packs PhysInv, R_phys and the common witness HS (sim_intro / sim_elim).
   [accounted U p] is the Permutation clause for the offsets U; [grows A p p'] says that p' is p after
   bucket writes at the addresses A and allocations.  All updates go through InvW_update: chain i is
   replaced, chains may be appended, what is written lies in the new chains; every other walk is
   untouched and every fuel suffices because the accounting makes all overflow offsets different.
   single_write (delete, promoteRecord, put into an existing slot or a hole); a slot writer is
   followed by WInv through swr_insert_step (slotWriter.insert) and commit (slotWriter.write):
   append_bucket (put into a full chain), split_slots_inv + split_core / split_sim (index.split:
   two slot writers, allocation state threaded through the loop).

   DEVIATIONS FROM THE REQUESTED SHAPES / FINDINGS
     - phys_count_sim and phys_nbuckets_sim need R_phys only; phys_get_sim and phys_bucket_sim need
       no PInv (an out-of-range bucket number gives None / [] on both sides).
     - "every next is a valid offset" is stated in PhysInv for REACHABLE buckets (the Permutation
       clause).  The next field of a stale bucket on the free list is never read
       (createOverflowBucket returns a fresh zero bucket); PhysWf bounds it by the file end but its
       alignment is not tracked.  bucket_ok holds for every block of both files, stale or not.
     - bucket_ok is slightly stronger than "nothing live behind the first empty slot": the slots
       behind the live prefix are ALL-ZERO slots (bucket.del and the zero-filled new buckets
       guarantee it; put needs sl_off sl <> 0 for this).
     - FINDING (item 7a): the split variant that frees the old overflow buckets of the chain BEFORE
       re-inserting is NOT refutable -- it is CORRECT: slotWriter.write runs after the loop, so a
       bucket that is re-allocated while the iterator still has to read it is overwritten only
       after it was read.  phys_split_early_free_sim / phys_put_early_free_sim prove exact
       simulation and PhysInv for that variant in ALL states (split_core is generic in "free list
       during the loop" / "offsets freed after the loop"); split_early_free_not_refuted is a
       concrete run where the reuse happens (72 colliding slots, both old overflow buckets
       re-allocated), and z72_split shows what the real order costs: overflow.pix grows from 2 to
       4 blocks, the 2 old ones go to the free list.  So "allocate before free" in index.split is
       not needed for correctness; it only delays reuse and grows the file.  The sensitivity witness for split is instead
       split_no_free_refuted (forgetting freeOverflowBucket leaks: R_phys still holds, PhysInv fails).
     - create_overflow_nopop_refuted (item 7b): two chains link the same block, a key is lost.
     - NOT PROVED: anything about I/O errors or partially executed operations (the model has
       none); uint32 wrap-around of numKeys / numBuckets (as in Index.v). *)
From Coq Require Import ZArith Lia ZifyN ZifyNat ZifyBool Permutation.
From Pogreb Require Import Base BaseLemmas Bytes Record RecordProofs Index Bucket Phys.
Ltac Zify.zify_post_hook ::= Z.div_mod_to_equations.

Lemma lupd_split {A} n (x d : A) l : (n < length l)%nat ->
  exists l1 l2, l = l1 ++ nth n l d :: l2 /\ length l1 = n /\ lupd n x l = l1 ++ x :: l2.
Proof. exact (lupd_nth_split n x d l). Qed.

Lemma lupd_app_l {A} n (x : A) l1 l2 : (n < length l1)%nat -> lupd n x (l1 ++ l2) = lupd n x l1 ++ l2.
Proof.
  revert n. induction l1 as [|y l1 IH]; intros n H; cbn [length] in H; [lia|].
  destruct n as [|n]; cbn [lupd app]; [reflexivity|]. rewrite IH by lia. reflexivity.
Qed.

(* the other lists of a list of lists, as one list *)
Lemma concat_lupd_perm {A} (L : list (list A)) i : (i < length L)%nat ->
  exists R, forall X, Permutation (concat (lupd i X L)) (X ++ R).
Proof.
  intros H. destruct (nth_split L [] H) as (l1 & l2 & E & Ln).
  exists (concat l1 ++ concat l2). intros X.
  rewrite E, <- Ln, lupd_app_exact, concat_app. cbn [concat].
  rewrite app_assoc, (Permutation_app_comm (concat l1) X), <- app_assoc. reflexivity.
Qed.

Lemma fold_left_concat {A B} (f : A -> B -> A) (ls : list (list B)) a :
  fold_left f (concat ls) a = fold_left (fun st l => fold_left f l st) ls a.
Proof.
  revert a. induction ls as [|l ls IH]; intros a; [reflexivity|].
  cbn [concat fold_left]. rewrite fold_left_app. apply IH.
Qed.

Lemma off_ok_true off : off_ok off = true <-> 512 <= off /\ off mod 512 = 0.
Proof. unfold off_ok. rewrite andb_true_iff, N.leb_le, N.eqb_eq. tauto. Qed.

Lemma off_ok_bucket_off i : off_ok (bucket_off i) = true.
Proof. apply off_ok_true. unfold bucket_off. lia. Qed.

Lemma off_idx_bucket_off i : off_idx (bucket_off i) = N.to_nat i.
Proof. unfold off_idx, bucket_off. f_equal. lia. Qed.

Lemma off_ok_is_bucket_off off : off_ok off = true -> off = bucket_off (N.of_nat (off_idx off)).
Proof. intros H. apply off_ok_true in H. unfold off_idx, bucket_off. lia. Qed.

Lemma bucket_off_inj i j : bucket_off i = bucket_off j -> i = j.
Proof. unfold bucket_off. lia. Qed.

Lemma bucket_off_nz i : bucket_off i <> 0.
Proof. unfold bucket_off. lia. Qed.

Lemma pb_read_bucket_off file i : pb_read file (bucket_off i) = nth_error file (N.to_nat i).
Proof. unfold pb_read. rewrite off_ok_bucket_off, off_idx_bucket_off. reflexivity. Qed.

Lemma pb_write_bucket_off file i b : pb_write file (bucket_off i) b = lupd (N.to_nat i) b file.
Proof. unfold pb_write. rewrite off_ok_bucket_off, off_idx_bucket_off. reflexivity. Qed.

(* a successful read is at the offset of a bucket of the file *)
Lemma pb_read_some file off b : pb_read file off = Some b ->
  exists i, off = bucket_off i /\ i < nlen file /\ nth_error file (N.to_nat i) = Some b.
Proof.
  unfold pb_read. destruct (off_ok off) eqn:E; [|discriminate]. intros H.
  exists (N.of_nat (off_idx off)). split; [apply off_ok_is_bucket_off; exact E|].
  rewrite Nat2N.id. split; [|exact H].
  assert (L : (off_idx off < length file)%nat) by (apply nth_error_Some; congruence).
  rewrite nlen_length. lia.
Qed.

Lemma pb_write_length file off b : length (pb_write file off b) = length file.
Proof. unfold pb_write. destruct (off_ok off); [apply lupd_length|reflexivity]. Qed.

Lemma pb_read_write_same file off b : pb_read file off <> None -> pb_read (pb_write file off b) off = Some b.
Proof.
  unfold pb_read, pb_write. destruct (off_ok off); [|congruence]. intros H.
  apply nth_error_lupd_same. apply nth_error_Some. exact H.
Qed.

Lemma pb_read_write_other file off off' b : off <> off' ->
  pb_read (pb_write file off b) off' = pb_read file off'.
Proof.
  intros Hne. unfold pb_read, pb_write. destruct (off_ok off') eqn:E'; [|reflexivity].
  destruct (off_ok off) eqn:E; [|reflexivity].
  apply nth_error_lupd_other. intros Hi. apply Hne.
  rewrite (off_ok_is_bucket_off _ E), (off_ok_is_bucket_off _ E'), Hi. reflexivity.
Qed.

Lemma pb_read_app file ext off : pb_read file off <> None -> pb_read (file ++ ext) off = pb_read file off.
Proof.
  unfold pb_read. destruct (off_ok off); [|congruence]. intros H.
  apply nth_error_app1. apply nth_error_Some. exact H.
Qed.

Lemma pb_read_app_new file b ext : pb_read (file ++ b :: ext) (bucket_off (nlen file)) = Some b.
Proof.
  rewrite pb_read_bucket_off, nlen_length, Nat2N.id, nth_error_app2 by lia.
  rewrite Nat.sub_diag. reflexivity.
Qed.

Lemma pb_read_lt file off : pb_read file off <> None -> exists i, off = bucket_off i /\ i < nlen file.
Proof.
  destruct (pb_read file off) as [b|] eqn:E; [|congruence]. intros _.
  destruct (pb_read_some _ _ _ E) as (i & A & B & _). exists i. auto.
Qed.

Lemma pb_read_in_range file i : i < nlen file -> pb_read file (bucket_off i) <> None.
Proof.
  intros H. rewrite pb_read_bucket_off. apply nth_error_Some. rewrite nlen_length in H. lia.
Qed.

(* all offsets of an overflow file with n buckets *)
Definition over_offs (n : nat) : list N := map (fun j => bucket_off (N.of_nat j)) (seq 0 n).

Lemma over_offs_S n : over_offs (S n) = over_offs n ++ [bucket_off (N.of_nat n)].
Proof. unfold over_offs. rewrite seq_S, map_app. reflexivity. Qed.

Lemma over_offs_length n : length (over_offs n) = n.
Proof. unfold over_offs. rewrite map_length, seq_length. reflexivity. Qed.

Lemma over_offs_NoDup n : NoDup (over_offs n).
Proof.
  unfold over_offs. apply FinFun.Injective_map_NoDup; [|apply seq_NoDup].
  intros a b H. apply bucket_off_inj in H. lia.
Qed.

Lemma over_offs_In n off : In off (over_offs n) <-> exists i, off = bucket_off i /\ i < N.of_nat n.
Proof.
  unfold over_offs. rewrite in_map_iff. split.
  - intros (j & <- & Hj). apply in_seq in Hj. exists (N.of_nat j). split; [reflexivity|lia].
  - intros (i & -> & Hi). exists (N.to_nat i). rewrite N2Nat.id. split; [reflexivity|].
    apply in_seq. lia.
Qed.

Lemma over_offs_read over off : In off (over_offs (length over)) <-> pb_read over off <> None.
Proof.
  rewrite over_offs_In. split.
  - intros (i & -> & Hi). apply pb_read_in_range. rewrite nlen_length. exact Hi.
  - intros H. destruct (pb_read_lt _ _ H) as (i & -> & Hi). exists i. rewrite nlen_length in Hi. auto.
Qed.

Definition hreads (p : phys) (h : bhandle) : Prop :=
  pb_read (if bh_main h then ph_main p else ph_over p) (bh_off h) = Some (bh_b h).

Fixpoint chained (off : N) (hs : list bhandle) : Prop :=
  match hs with
  | [] => off = 0
  | h :: hs' => bh_off h = off /\ off <> 0 /\ bh_main h = false /\ chained (pb_next (bh_b h)) hs'
  end.

Definition oreads (over : list pbucket) (h : bhandle) : Prop := pb_read over (bh_off h) = Some (bh_b h).

Lemma walk_over_sound over fuel : forall off hs, walk_over over fuel off = Some hs ->
  chained off hs /\ Forall (oreads over) hs.
Proof.
  induction fuel as [|f IH]; intros off hs; cbn [walk_over];
    destruct (N.eqb_spec off 0) as [E|E].
  - intros H. injection H as <-. cbn [chained]. auto.
  - discriminate.
  - intros H. injection H as <-. cbn [chained]. auto.
  - destruct (pb_read over off) as [b|] eqn:Er; [|discriminate].
    destruct (walk_over over f (pb_next b)) as [l|] eqn:Ew; [|discriminate].
    intros H. injection H as <-. destruct (IH _ _ Ew) as (C & R).
    cbn [chained bh_off bh_main bh_b]. split; [auto|]. constructor; [exact Er|exact R].
Qed.

Lemma walk_over_complete over fuel : forall off hs,
  chained off hs -> Forall (oreads over) hs -> (length hs <= fuel)%nat ->
  walk_over over fuel off = Some hs.
Proof.
  induction fuel as [|f IH]; intros off hs C R L.
  - destruct hs as [|h hs]; [|cbn [length] in L; lia]. cbn [chained] in C. subst off. reflexivity.
  - destruct hs as [|h hs]; cbn [chained] in C.
    + subst off. reflexivity.
    + destruct C as (C1 & C2 & C3 & C4). inversion R as [|h_ hs_ R1 R2]; subst h_ hs_.
      cbn [walk_over]. destruct (N.eqb_spec off 0) as [E|_]; [contradiction|].
      unfold oreads in R1. rewrite C1 in R1. rewrite R1.
      rewrite (IH _ hs C4 R2) by (cbn [length] in L; lia).
      destruct h as [m o b]. cbn [bh_main bh_off bh_b] in *. subst m o. reflexivity.
Qed.

Definition addr (h : bhandle) : bool * N := (bh_main h, bh_off h).

(* the overflow offsets of a walk (the first handle is the main bucket) *)
Definition offs_of (H : list bhandle) : list N := map bh_off (tl H).

(* a first bucket at the address [base] and the overflow buckets linked behind it *)
Definition chained0 (H : list bhandle) : Prop :=
  match H with [] => False | h0 :: hs => chained (pb_next (bh_b h0)) hs end.
Definition heads (base : bool * N) (H : list bhandle) : Prop := hd_error (map addr H) = Some base.

(* the walk from main bucket i is H.  The fuel of ph_walk is not part of it: it is enough as soon
   as the overflow offsets of H are pairwise different (wl_walk). *)
Record wl (p : phys) (i : N) (H : list bhandle) : Prop := {
  wl_head : heads (true, bucket_off i) H;
  wl_chained : chained0 H;
  wl_reads : Forall (hreads p) H
}.

Lemma oreads_hreads p hs : Forall (fun h => bh_main h = false) hs ->
  (Forall (oreads (ph_over p)) hs <-> Forall (hreads p) hs).
Proof.
  intros H. induction H as [|h hs Hh Hhs IH]; [split; constructor|].
  split; intros F; inversion F as [|h_ hs_ F1 F2]; subst h_ hs_; constructor;
    try (apply IH; exact F2); unfold oreads, hreads in *; rewrite Hh in *; exact F1.
Qed.

Lemma chained_over off hs : chained off hs -> Forall (fun h => bh_main h = false) hs.
Proof.
  revert off. induction hs as [|h hs IH]; intros off C; [constructor|].
  cbn [chained] in C. destruct C as (_ & _ & C3 & C4). constructor; [exact C3|exact (IH _ C4)].
Qed.

Lemma ph_walk_wl p i H : ph_walk p i = Some H -> wl p i H.
Proof.
  unfold ph_walk.
  destruct (pb_read (ph_main p) (bucket_off i)) as [b|] eqn:Er; [|discriminate].
  destruct (walk_over (ph_over p) (S (length (ph_over p))) (pb_next b)) as [l|] eqn:Ew; [|discriminate].
  intros E. injection E as <-. destruct (walk_over_sound _ _ _ _ Ew) as (C & R).
  constructor; [reflexivity|exact C|].
  constructor; [exact Er|]. apply oreads_hreads; [exact (chained_over _ _ C)|exact R].
Qed.

(* different offsets that can all be read are at most as many as the file has blocks *)
Lemma wl_walk p i H : wl p i H -> NoDup (offs_of H) -> ph_walk p i = Some H.
Proof.
  intros [Hd C R] Nd. destruct H as [|h0 hs]; [discriminate Hd|].
  unfold heads, addr in Hd. cbn [map hd_error] in Hd. injection Hd as M O.
  unfold offs_of in Nd. cbn [tl chained0] in Nd, C.
  inversion R as [|h_ hs_ R1 R2]; subst h_ hs_. unfold hreads in R1. rewrite M, O in R1.
  assert (Ro : Forall (oreads (ph_over p)) hs).
  { apply oreads_hreads; [exact (chained_over _ _ C)|exact R2]. }
  unfold ph_walk. rewrite R1, (walk_over_complete _ _ _ hs C Ro).
  - destruct h0 as [m o b]. cbn [bh_main bh_off bh_b] in *. subst m o. reflexivity.
  - apply le_S. rewrite <- (over_offs_length (length (ph_over p))), <- (map_length bh_off hs).
    apply NoDup_incl_length; [exact Nd|]. intros o Ho. apply in_map_iff in Ho.
    destruct Ho as (h & <- & Hh). apply over_offs_read. rewrite Forall_forall in Ro.
    unfold oreads in Ro. rewrite (Ro _ Hh). discriminate.
Qed.

Local Notation live := pb_live.
Definition hlive (h : bhandle) : list slot := pb_live (bh_b h).
Definition nz (s : slot) : Prop := sl_off s <> 0.

Lemma dense_nz l : Forall nz (Bucket.dense l).
Proof.
  induction l as [|s l IH]; cbn [Bucket.dense]; [constructor|].
  destruct (N.eqb_spec (sl_off s) 0); constructor; assumption.
Qed.

Lemma dense_length_le l : (length (Bucket.dense l) <= length l)%nat.
Proof.
  induction l as [|s l IH]; cbn [Bucket.dense length]; [lia|].
  destruct (sl_off s =? 0); cbn [length]; lia.
Qed.

Lemma dense_app_nz l r : Forall nz l -> Bucket.dense (l ++ r) = l ++ Bucket.dense r.
Proof.
  induction 1 as [|s l Hs Hl IH]; [reflexivity|]. cbn [app Bucket.dense].
  destruct (N.eqb_spec (sl_off s) 0); [contradiction|]. rewrite IH. reflexivity.
Qed.

Lemma dense_repeat_empty k : Bucket.dense (repeat empty_slot k) = [].
Proof. destruct k; reflexivity. Qed.

(* a bucket as the index keeps it: 31 slots, the live ones first, the rest zero *)
Definition bucket_ok (b : pbucket) : Prop :=
  length (pb_slots b) = 31%nat /\ pb_slots b = pad_slots (pb_live b).

Lemma pad_slots_ok d next : Forall nz d -> (length d <= 31)%nat ->
  bucket_ok {| pb_slots := pad_slots d; pb_next := next |} /\
  pb_live {| pb_slots := pad_slots d; pb_next := next |} = d.
Proof.
  intros Hd Hl. unfold bucket_ok, pb_live. cbn [pb_slots].
  rewrite (dense_pad d Hd). split; [|reflexivity]. split; [|reflexivity].
  apply length_pad_slots. exact Hl.
Qed.

Lemma bucket_ok_live_le b : bucket_ok b -> (length (pb_live b) <= 31)%nat.
Proof. intros [L _]. unfold pb_live. rewrite <- L. apply dense_length_le. Qed.

Lemma empty_pb_ok : bucket_ok empty_pb /\ pb_live empty_pb = [].
Proof. split; [split|]; reflexivity. Qed.

Lemma bucket_ok_next b n : bucket_ok b -> bucket_ok {| pb_slots := pb_slots b; pb_next := n |}.
Proof. exact (fun H => H). Qed.

(* the slot loop, against the live prefix *)
Lemma scan_spec f l : forall i,
  match scan_slots f l i with
  | ScHit j s => exists l1 r, l = l1 ++ s :: r /\ Forall nz l1 /\ nz s /\ find f l1 = None /\
                              f s = true /\ j = (i + length l1)%nat
  | ScFree j => find f (Bucket.dense l) = None /\ j = (i + length (Bucket.dense l))%nat /\
                (length (Bucket.dense l) < length l)%nat
  | ScEnd j => find f (Bucket.dense l) = None /\ Bucket.dense l = l /\ j = (i + length l)%nat
  end.
Proof.
  induction l as [|s l IH]; intros i; cbn [scan_slots Bucket.dense].
  - cbn [find length]. split; [reflexivity|]. split; [reflexivity|lia].
  - destruct (N.eqb_spec (sl_off s) 0) as [E|E].
    + cbn [find length]. split; [reflexivity|]. split; lia.
    + destruct (f s) eqn:Hf.
      * exists [], l. cbn [app find length]. repeat split; auto; try lia; constructor.
      * specialize (IH (S i)). destruct (scan_slots f l (S i)) as [j s'|j|j].
        -- destruct IH as (l1 & r & -> & N1 & N2 & F1 & F2 & ->).
           exists (s :: l1), r. cbn [app find length]. rewrite Hf.
           repeat split; auto; try lia; try (constructor; assumption).
        -- destruct IH as (F & -> & L). cbn [find length]. rewrite Hf. repeat split; auto; try lia.
        -- destruct IH as (F & D & ->). cbn [find length]. rewrite Hf, D. rewrite D in F. repeat split; auto; try lia.
Qed.

Lemma pad_slots_eq x k : (length x + k = 31)%nat -> pad_slots x = x ++ repeat empty_slot k.
Proof. intros H. unfold pad_slots, slots_per_bucket. do 2 f_equal. lia. Qed.

Lemma dense_nz_cons s r : nz s -> Bucket.dense (s :: r) = s :: Bucket.dense r.
Proof. intros H. cbn [Bucket.dense]. destruct (N.eqb_spec (sl_off s) 0); [contradiction|reflexivity]. Qed.

(* the slots behind a live slot of a well-formed bucket *)
Lemma ok_tail l1 s r next : Forall nz l1 -> nz s ->
  bucket_ok {| pb_slots := l1 ++ s :: r; pb_next := next |} ->
  exists k, r = Bucket.dense r ++ repeat empty_slot k /\ (length l1 + S (length (Bucket.dense r)) + k = 31)%nat.
Proof.
  intros N1 Ns [L E]. unfold pb_live in E. cbn [pb_slots] in *.
  rewrite (dense_app_nz _ _ N1), (dense_nz_cons _ _ Ns) in E.
  assert (Hle : (length (l1 ++ s :: Bucket.dense r) <= 31)%nat).
  { rewrite <- L, !app_length. cbn [length]. pose proof (dense_length_le r). lia. }
  exists (31 - length (l1 ++ s :: Bucket.dense r))%nat.
  rewrite (pad_slots_eq _ (31 - length (l1 ++ s :: Bucket.dense r))) in E by lia.
  rewrite <- app_assoc in E. apply app_inv_head in E. cbn [app] in E.
  split; [congruence|]. rewrite app_length in *. cbn [length] in *. lia.
Qed.

(* b.slots[i] = new on a live slot *)
Lemma set_slot_hit l1 s r new next : Forall nz l1 -> nz new ->
  bucket_ok {| pb_slots := l1 ++ s :: r; pb_next := next |} -> nz s ->
  bucket_ok {| pb_slots := lupd (length l1) new (l1 ++ s :: r); pb_next := next |} /\
  pb_live {| pb_slots := lupd (length l1) new (l1 ++ s :: r); pb_next := next |} =
    l1 ++ new :: Bucket.dense r.
Proof.
  intros N1 Nn Ok Ns. destruct (ok_tail _ _ _ _ N1 Ns Ok) as (k & Er & Lk).
  rewrite lupd_app_exact.
  assert (Hd : Forall nz (l1 ++ new :: Bucket.dense r)).
  { apply Forall_app. split; [exact N1|]. constructor; [exact Nn|apply dense_nz]. }
  assert (X : l1 ++ new :: r = pad_slots (l1 ++ new :: Bucket.dense r)).
  { rewrite (pad_slots_eq _ k) by (rewrite app_length; cbn [length]; lia).
    rewrite <- app_assoc. cbn [app]. rewrite <- Er. reflexivity. }
  rewrite X. apply pad_slots_ok; [exact Hd|]. rewrite app_length. cbn [length]. lia.
Qed.

(* b.slots[i] = new on the first free slot *)
Lemma set_slot_free b new : bucket_ok b -> (length (pb_live b) < 31)%nat -> nz new ->
  bucket_ok {| pb_slots := lupd (length (pb_live b)) new (pb_slots b); pb_next := pb_next b |} /\
  pb_live {| pb_slots := lupd (length (pb_live b)) new (pb_slots b); pb_next := pb_next b |} =
    pb_live b ++ [new].
Proof.
  intros [L E] Hl Hn.
  assert (Hd : Forall nz (pb_live b ++ [new])).
  { apply Forall_app. split; [apply dense_nz|]. constructor; [exact Hn|constructor]. }
  assert (X : lupd (length (pb_live b)) new (pb_slots b) = pad_slots (pb_live b ++ [new])).
  { rewrite E. unfold pad_slots, slots_per_bucket.
    destruct (31 - length (pb_live b))%nat as [|k] eqn:Ek; [lia|].
    cbn [repeat]. rewrite lupd_app_exact, <- app_assoc. cbn [app]. f_equal. f_equal.
    rewrite app_length. cbn [length]. f_equal. lia. }
  rewrite X. apply pad_slots_ok; [exact Hd|]. rewrite app_length. cbn [length]. lia.
Qed.

Lemma del_slot_app l1 s r : del_slot (length l1) (l1 ++ s :: r) = l1 ++ r ++ [empty_slot].
Proof. induction l1 as [|a l1 IH]; cbn [length app del_slot]; [reflexivity|]. rewrite IH. reflexivity. Qed.

Lemma dense_app_empty r : Bucket.dense (r ++ [empty_slot]) = Bucket.dense r.
Proof.
  induction r as [|a r IH]; [reflexivity|]. cbn [app Bucket.dense].
  destruct (sl_off a =? 0); [reflexivity|]. rewrite IH. reflexivity.
Qed.

Lemma repeat_snoc {A} (x : A) k : repeat x k ++ [x] = x :: repeat x k.
Proof. induction k as [|k IH]; [reflexivity|]. cbn [repeat app]. rewrite IH. reflexivity. Qed.

(* bucket.del *)
Lemma del_slot_hit l1 s r next : Forall nz l1 -> nz s ->
  bucket_ok {| pb_slots := l1 ++ s :: r; pb_next := next |} ->
  bucket_ok {| pb_slots := del_slot (length l1) (l1 ++ s :: r); pb_next := next |} /\
  pb_live {| pb_slots := del_slot (length l1) (l1 ++ s :: r); pb_next := next |} = l1 ++ Bucket.dense r.
Proof.
  intros N1 Ns Ok. destruct (ok_tail _ _ _ _ N1 Ns Ok) as (k & Er & Lk).
  rewrite del_slot_app.
  assert (Hd : Forall nz (l1 ++ Bucket.dense r)).
  { apply Forall_app. split; [exact N1|apply dense_nz]. }
  assert (X : l1 ++ r ++ [empty_slot] = pad_slots (l1 ++ Bucket.dense r)).
  { rewrite (pad_slots_eq _ (S k)) by (rewrite app_length; lia).
    rewrite <- app_assoc. f_equal. rewrite Er at 1. rewrite <- app_assoc. f_equal.
    cbn [repeat]. apply repeat_snoc. }
  rewrite X. apply pad_slots_ok; [exact Hd|]. rewrite app_length. lia.
Qed.

Definition hchain (H : list bhandle) : chain := map hlive H.

Lemma scan_miss_subst f g h :
  match scan_slots f (pb_slots (bh_b h)) 0 with ScHit _ _ => False | _ => True end ->
  bucket_subst f g (hlive h) = None /\ find f (hlive h) = None.
Proof.
  intros H. pose proof (scan_spec f (pb_slots (bh_b h)) 0) as S.
  assert (F : find f (hlive h) = None).
  { unfold hlive, pb_live. destruct (scan_slots f (pb_slots (bh_b h)) 0); [destruct H|tauto|tauto]. }
  split; [apply bucket_subst_none; exact F|exact F].
Qed.

(* decomposition of a bucket at a hit *)
Lemma scan_hit_subst f g h j s : scan_slots f (pb_slots (bh_b h)) 0 = ScHit j s ->
  exists l1 r, pb_slots (bh_b h) = l1 ++ s :: r /\ Forall nz l1 /\ nz s /\ j = length l1 /\
    hlive h = l1 ++ s :: Bucket.dense r /\
    bucket_subst f g (hlive h) = Some (l1 ++ g s ++ Bucket.dense r, s).
Proof.
  intros E. pose proof (scan_spec f (pb_slots (bh_b h)) 0) as S. rewrite E in S.
  destruct S as (l1 & r & El & N1 & Ns & F1 & F2 & ->). exists l1, r.
  assert (D : hlive h = l1 ++ s :: Bucket.dense r).
  { unfold hlive, pb_live. rewrite El, (dense_app_nz _ _ N1). cbn [Bucket.dense].
    destruct (N.eqb_spec (sl_off s) 0); [contradiction|reflexivity]. }
  repeat split; auto. rewrite D. clear - F1 F2.
  induction l1 as [|a l1 IH]; cbn [app bucket_subst].
  - rewrite F2. reflexivity.
  - cbn [find] in F1. destruct (f a); [discriminate|]. rewrite (IH F1). reflexivity.
Qed.

Lemma hit_loop_none f g H : hit_loop f H = None ->
  chain_subst f g (hchain H) = None /\ Forall (fun h => find f (hlive h) = None) H.
Proof.
  induction H as [|h H IH]; cbn [hit_loop hchain map chain_subst]; [split; [reflexivity|constructor]|].
  destruct (scan_slots f (pb_slots (bh_b h)) 0) as [j s|j|j] eqn:E; [discriminate| |]; intros Hl;
    (destruct (scan_miss_subst f g h) as [M1 M2]; [rewrite E; exact I|]);
    destruct (IH Hl) as [I1 I2]; fold (hchain H); rewrite M1, I1; (split; [reflexivity|]);
    constructor; assumption.
Qed.

Lemma hit_loop_some f g H h j s : hit_loop f H = Some (h, j, s) ->
  exists H1 H2 l1 r, H = H1 ++ h :: H2 /\
    pb_slots (bh_b h) = l1 ++ s :: r /\ Forall nz l1 /\ nz s /\ j = length l1 /\
    hlive h = l1 ++ s :: Bucket.dense r /\
    chain_subst f g (hchain H) = Some (hchain H1 ++ (l1 ++ g s ++ Bucket.dense r) :: hchain H2, s).
Proof.
  induction H as [|h0 H IH]; cbn [hit_loop]; [discriminate|].
  destruct (scan_slots f (pb_slots (bh_b h0)) 0) as [j0 s0|j0|j0] eqn:E.
  - intros X. injection X as -> -> ->.
    destruct (scan_hit_subst f g h j s E) as (l1 & r & A & B & C & D & F & G).
    exists [], H, l1, r. cbn [app hchain map chain_subst]. rewrite G. repeat split; auto.
  - intros X. destruct (IH X) as (H1 & H2 & l1 & r & -> & A & B & C & D & F & G).
    destruct (scan_miss_subst f g h0) as [M1 M2]; [rewrite E; exact I|].
    exists (h0 :: H1), H2, l1, r. cbn [app hchain map chain_subst]. fold (hchain (H1 ++ h :: H2)).
    rewrite M1, G. repeat split; auto.
  - intros X. destruct (IH X) as (H1 & H2 & l1 & r & -> & A & B & C & D & F & G).
    destruct (scan_miss_subst f g h0) as [M1 M2]; [rewrite E; exact I|].
    exists (h0 :: H1), H2, l1, r. cbn [app hchain map chain_subst]. fold (hchain (H1 ++ h :: H2)).
    rewrite M1, G. repeat split; auto.
Qed.

Lemma hit_loop_find f H :
  match hit_loop f H with Some (_, _, s) => Some s | None => None end = chain_find f (hchain H).
Proof.
  destruct (hit_loop f H) as [[[h j] s]|] eqn:E.
  - destruct (hit_loop_some f (fun _ => []) H h j s E) as (H1 & H2 & l1 & r & _ & _ & _ & _ & _ & _ & G).
    rewrite chain_find_concat. symmetry. exact (chain_subst_find _ _ _ _ _ G).
  - destruct (hit_loop_none f (fun _ => []) H E) as [G _].
    rewrite chain_find_concat. symmetry. apply chain_subst_none in G. exact G.
Qed.

(* the writer index.put uses when the key is not in the chain and [free] is the first free slot
   met before H *)
Fixpoint free_writer (H : list bhandle) : option swriter :=
  match H with
  | [] => None
  | h :: H' => if (length (hlive h) <? 31)%nat then Some (mk_writer h (length (hlive h)))
               else free_writer H'
  end.

Lemma find_ins_hit f H free h j s : hit_loop f H = Some (h, j, s) ->
  find_ins f H free = Some (mk_writer h j, Some s).
Proof.
  revert free. induction H as [|h0 H IH]; intros free; cbn [hit_loop find_ins]; [discriminate|].
  destruct (scan_slots f (pb_slots (bh_b h0)) 0) as [j0 s0|j0|j0] eqn:E.
  - intros X. injection X as -> -> ->. reflexivity.
  - intros X. destruct H as [|h1 H]; [discriminate|]. apply IH. exact X.
  - intros X. destruct H as [|h1 H]; [discriminate|]. apply IH. exact X.
Qed.

Lemma find_ins_miss f H free : hit_loop f H = None -> H <> [] ->
  Forall (fun h => bucket_ok (bh_b h)) H ->
  find_ins f H free =
    Some (match free with
          | Some w => w
          | None => match free_writer H with
                    | Some w => w
                    | None => mk_writer (last H {| bh_main := true; bh_off := 0; bh_b := empty_pb |}) 31
                    end
          end, None).
Proof.
  revert free. induction H as [|h0 H IH]; intros free Hl Hne Hok; [congruence|].
  inversion Hok as [|h_ H_ Ok0 OkH]; subst h_ H_.
  cbn [hit_loop find_ins free_writer] in *.
  pose proof (scan_spec f (pb_slots (bh_b h0)) 0) as S.
  destruct (scan_slots f (pb_slots (bh_b h0)) 0) as [j0 s0|j0|j0] eqn:E; [discriminate| |].
  - destruct S as (_ & -> & L). cbn [Nat.add]. fold (pb_live (bh_b h0)) in *. fold (hlive h0) in *.
    destruct Ok0 as [L31 _]. rewrite L31 in L.
    destruct (Nat.ltb_spec (length (hlive h0)) 31) as [_|G]; [|lia].
    destruct H as [|h1 H].
    + destruct free; reflexivity.
    + rewrite IH; [|exact Hl|discriminate|exact OkH]. destruct free; reflexivity.
  - destruct S as (_ & D & ->). cbn [Nat.add].
    assert (L31 : length (hlive h0) = 31%nat).
    { unfold hlive, pb_live. rewrite D. exact (proj1 Ok0). }
    rewrite (proj1 Ok0). rewrite L31.
    destruct (Nat.ltb_spec 31 31) as [G|_]; [lia|].
    destruct H as [|h1 H].
    + cbn [free_writer last]. destruct free; reflexivity.
    + rewrite IH; [|exact Hl|discriminate|exact OkH]. reflexivity.
Qed.

Lemma sw_insert_last s c b :
  sw_insert s (c ++ [b]) = if (length b <? cap)%nat then c ++ [b ++ [s]] else c ++ [b; [s]].
Proof.
  induction c as [|b0 c IH]; [reflexivity|]. cbn [app sw_insert].
  destruct (c ++ [b]) as [|b1 c1] eqn:E; [destruct c; discriminate|].
  rewrite IH. destruct (length b <? cap)%nat; reflexivity.
Qed.

(* on a chain of full buckets index.put inserts where the slot writer of index.split does *)
Lemma insert_free_full new c : Forall (fun b : bucket => length b = cap) c ->
  insert_free new c = sw_insert new c.
Proof.
  induction 1 as [|b c Hb Hc IH]; [reflexivity|]. cbn [insert_free sw_insert].
  rewrite Hb, Nat.ltb_irrefl, IH. destruct c; reflexivity.
Qed.

Lemma free_writer_none H : Forall (fun h => bucket_ok (bh_b h)) H -> free_writer H = None ->
  Forall (fun b : bucket => length b = cap) (hchain H).
Proof.
  induction 1 as [|h H Ok OkH IH]; cbn [free_writer hchain map]; [constructor|].
  destruct (Nat.ltb_spec (length (hlive h)) 31) as [L|G]; [discriminate|]. intros X.
  constructor; [|exact (IH X)]. pose proof (bucket_ok_live_le _ Ok). unfold hlive, cap in *. lia.
Qed.

Lemma free_writer_some H w : free_writer H = Some w ->
  exists H1 h H2, H = H1 ++ h :: H2 /\ w = mk_writer h (length (hlive h)) /\
    (length (hlive h) < 31)%nat /\
    forall new, insert_free new (hchain H) = hchain H1 ++ (hlive h ++ [new]) :: hchain H2.
Proof.
  induction H as [|h0 H IH]; cbn [free_writer]; [discriminate|].
  destruct (Nat.ltb_spec (length (hlive h0)) 31) as [L|G].
  - intros X. injection X as <-. exists [], h0, H. cbn [app hchain map insert_free].
    repeat split; auto. intros new. unfold cap.
    destruct (Nat.ltb_spec (length (hlive h0)) 31); [reflexivity|lia].
  - intros X. destruct (IH X) as (H1 & h & H2 & -> & Ew & L & Ins).
    exists (h0 :: H1), h, H2. cbn [app hchain map insert_free]. repeat split; auto.
    intros new. unfold cap. destruct (Nat.ltb_spec (length (hlive h0)) 31); [lia|].
    fold (hchain (H1 ++ h :: H2)). rewrite Ins. reflexivity.
Qed.

(* the chain of Index.v that the walk from main bucket i shows *)
Definition ph_chain (p : phys) (i : N) : option chain := option_map hchain (ph_walk p i).
Definition ph_offs (p : phys) (i : N) : option (list N) := option_map offs_of (ph_walk p i).

Definition R_phys (p : phys) (c : pindex) : Prop :=
  ph_level p = px_level c /\ ph_split p = px_split c /\ ph_nkeys p = px_nkeys c /\
  ph_nbuckets p = nlen (px_chains c) /\ nlen (ph_main p) = ph_nbuckets p /\
  forall i, i < ph_nbuckets p -> ph_chain p i = Some (px_chain c i).

(* [HS] = the walks of all main buckets *)
Definition InvW (p : phys) (HS : list (list bhandle)) : Prop :=
  nlen (ph_main p) = ph_nbuckets p /\
  Forall bucket_ok (ph_main p) /\ Forall bucket_ok (ph_over p) /\
  length HS = length (ph_main p) /\
  (forall i, (i < length HS)%nat -> ph_walk p (N.of_nat i) = Some (nth i HS [])) /\
  Permutation (concat (map offs_of HS) ++ ph_free p) (over_offs (length (ph_over p))).

Definition PhysInv (p : phys) : Prop := exists HS, InvW p HS.

(* both together, with the walks as witness *)
Definition Sim (p : phys) (c : pindex) (HS : list (list bhandle)) : Prop :=
  InvW p HS /\ ph_level p = px_level c /\ ph_split p = px_split c /\ ph_nkeys p = px_nkeys c /\
  px_chains c = map hchain HS.

Lemma sim_intro p c : PhysInv p -> R_phys p c -> exists HS, Sim p c HS.
Proof.
  intros [HS HI] (R1 & R2 & R3 & R4 & R5 & R6). exists HS.
  split; [exact HI|]. split; [exact R1|]. split; [exact R2|]. split; [exact R3|].
  destruct HI as (I1 & _ & _ & I4 & I5 & _).
  assert (Ln : length (px_chains c) = length HS).
  { rewrite I4. rewrite !nlen_length in *. lia. }
  apply (nth_ext _ _ [] []); [rewrite map_length; exact Ln|].
  intros n Hn0. assert (Hn : (n < length HS)%nat) by (rewrite <- Ln; exact Hn0).
  change [] with (hchain []) at 2. rewrite map_nth.
  assert (Hlt : N.of_nat n < ph_nbuckets p) by (rewrite <- I1, nlen_length; lia).
  specialize (R6 _ Hlt). unfold ph_chain in R6. rewrite (I5 _ Hn) in R6. cbn [option_map] in R6.
  unfold px_chain in R6. rewrite Nat2N.id in R6. injection R6 as R6. symmetry. exact R6.
Qed.

Lemma sim_elim p c HS : Sim p c HS -> PhysInv p /\ R_phys p c.
Proof.
  intros (HI & R1 & R2 & R3 & R4). split; [exists HS; exact HI|].
  destruct HI as (I1 & _ & _ & I4 & I5 & _).
  assert (Ln : ph_nbuckets p = nlen (px_chains c)).
  { rewrite R4, <- I1, !nlen_length, map_length, I4. reflexivity. }
  split; [exact R1|]. split; [exact R2|]. split; [exact R3|]. split; [exact Ln|].
  split; [exact I1|]. intros i Hi. unfold ph_chain.
  assert (Hn : (N.to_nat i < length HS)%nat) by (rewrite I4; rewrite <- I1, nlen_length in Hi; lia).
  specialize (I5 _ Hn). rewrite N2Nat.id in I5. rewrite I5. cbn [option_map]. f_equal.
  unfold px_chain. rewrite R4. change [] with (hchain []) at 2. rewrite map_nth. reflexivity.
Qed.

Definition files_ok (p : phys) : Prop := Forall bucket_ok (ph_main p) /\ Forall bucket_ok (ph_over p).

(* the offsets U and the free list together are the blocks of overflow.pix, each once *)
Definition accounted (U : list N) (p : phys) : Prop :=
  Permutation (U ++ ph_free p) (over_offs (length (ph_over p))).

Lemma InvW_wl p HS i : InvW p HS -> (i < length HS)%nat -> wl p (N.of_nat i) (nth i HS []).
Proof. intros (_ & _ & _ & _ & I5 & _) Hi. exact (ph_walk_wl _ _ _ (I5 _ Hi)). Qed.

Lemma InvW_ok p HS : InvW p HS -> files_ok p.
Proof. intros (_ & I2 & I3 & _). exact (conj I2 I3). Qed.

Lemma InvW_accounted p HS : InvW p HS -> accounted (concat (map offs_of HS)) p.
Proof. intros (_ & _ & _ & _ & _ & P). exact P. Qed.

Lemma accounted_perm U V p : Permutation U V -> accounted U p -> accounted V p.
Proof. unfold accounted. intros <-. exact (fun H => H). Qed.

Lemma accounted_NoDup U p : accounted U p -> NoDup U.
Proof.
  intros A. exact (proj1 (NoDup_app_inv _ _ (Permutation_NoDup (Permutation_sym A) (over_offs_NoDup _)))).
Qed.

Definition avalid (p : phys) (a : bool * N) : Prop :=
  pb_read (if fst a then ph_main p else ph_over p) (snd a) <> None.

Lemma accounted_valid U p o : accounted U p -> In o U -> o <> 0 /\ avalid p (false, o).
Proof.
  intros A Ho. assert (Hin : In o (over_offs (length (ph_over p)))).
  { apply (Permutation_in _ A), in_or_app. left. exact Ho. }
  split; [|apply over_offs_read; exact Hin].
  apply over_offs_In in Hin. destruct Hin as (i & -> & _). apply bucket_off_nz.
Qed.

Lemma InvW_NoDup p HS : InvW p HS -> NoDup (concat (map offs_of HS) ++ ph_free p).
Proof.
  intros (_ & _ & _ & _ & _ & P). apply (Permutation_NoDup (Permutation_sym P)), over_offs_NoDup.
Qed.

Lemma InvW_valid p HS off : InvW p HS -> In off (concat (map offs_of HS) ++ ph_free p) ->
  exists j, off = bucket_off j /\ j < nlen (ph_over p).
Proof.
  intros (_ & _ & _ & _ & _ & P) H. apply (Permutation_in _ P) in H.
  apply over_offs_In in H. rewrite nlen_length. exact H.
Qed.

Lemma InvW_no_leak p HS j : InvW p HS -> j < nlen (ph_over p) ->
  In (bucket_off j) (concat (map offs_of HS) ++ ph_free p).
Proof.
  intros (_ & _ & _ & _ & _ & P) H. apply (Permutation_in _ (Permutation_sym P)).
  apply over_offs_In. exists j. rewrite nlen_length in H. auto.
Qed.

Lemma InvW_count p HS : InvW p HS ->
  nlen (ph_over p) = nlen (concat (map offs_of HS)) + nlen (ph_free p).
Proof.
  intros (_ & _ & _ & _ & _ & P). apply Permutation_length in P.
  rewrite over_offs_length, app_length in P. rewrite !nlen_length. lia.
Qed.

Definition hkey (h : bhandle) : bool * N * N := (bh_main h, bh_off h, pb_next (bh_b h)).

Lemma chained_ext hs : forall off hs', map hkey hs = map hkey hs' -> chained off hs -> chained off hs'.
Proof.
  induction hs as [|h hs IH]; intros off hs' E C; destruct hs' as [|h' hs']; try discriminate E.
  - exact C.
  - cbn [map] in E. injection E as E1 E2 E3 E4. cbn [chained] in *.
    destruct C as (C1 & C2 & C3 & C4). rewrite <- E2, <- E1, <- E3. repeat split; auto.
Qed.

Lemma chained0_ext H H' : map hkey H = map hkey H' -> chained0 H -> chained0 H'.
Proof.
  destruct H as [|h0 hs]; destruct H' as [|h0' hs']; cbn [map chained0]; try discriminate; try tauto.
  intros E C. injection E as _ _ E3 E4. rewrite <- E3. exact (chained_ext _ _ _ E4 C).
Qed.

Lemma heads_last base H a b T : addr b = addr a -> heads base (H ++ [a]) -> heads base (H ++ b :: T).
Proof. unfold heads. intros E. destruct H; cbn [app map hd_error]; [rewrite E|]; exact (fun X => X). Qed.

Lemma wl_frame p p' j H : wl p j H -> Forall (hreads p') H -> wl p' j H.
Proof. intros [D C _] R. constructor; assumption. Qed.

(* the addresses of a chain: its first bucket, then overflow offsets *)
Lemma chain_addrs (base : bool * N) H : heads base H -> chained0 H ->
  map addr H = base :: map (pair false) (offs_of H).
Proof.
  destruct H as [|h0 hs]; [discriminate|]. unfold heads, offs_of. cbn [map hd_error tl chained0].
  intros E C. injection E as ->. f_equal.
  pose proof (chained_over _ _ C) as F. clear C.
  induction F as [|h hs Hh _ IH]; [reflexivity|]. cbn [map]. rewrite IH. unfold addr. rewrite Hh. reflexivity.
Qed.

Lemma chain_addrs_nodup (x : N) (l : list N) : NoDup l -> NoDup ((true, x) :: map (pair false) l).
Proof.
  intros Nd. constructor.
  - intros Hc. apply in_map_iff in Hc. destruct Hc as (? & E & _). discriminate.
  - apply FinFun.Injective_map_NoDup; [|exact Nd]. intros u v E. congruence.
Qed.

(* walks from different main buckets without a common overflow offset have no common address *)
Lemma walks_disjoint p p' i j Hi Hj a : wl p i Hi -> wl p' j Hj -> i <> j ->
  (forall o, In o (offs_of Hi) -> In o (offs_of Hj) -> False) ->
  In a (map addr Hi) -> In a (map addr Hj) -> False.
Proof.
  intros [D1 C1 _] [D2 C2 _] Hne Ho. rewrite (chain_addrs _ _ D1 C1), (chain_addrs _ _ D2 C2).
  intros [<-|A1] [E|A2].
  - injection E as E. apply bucket_off_inj in E. congruence.
  - apply in_map_iff in A2. destruct A2 as (? & E & _). discriminate.
  - apply in_map_iff in A1. destruct A1 as (? & E1 & _). rewrite <- E1 in E. discriminate.
  - apply in_map_iff in A1. destruct A1 as (o & <- & O1). apply in_map_iff in A2.
    destruct A2 as (o' & E & O2). injection E as ->. exact (Ho _ O1 O2).
Qed.

(* p' is p after bucket writes at the addresses A and after allocations: the pointers and counters
   are the same, buckets at other addresses are still read, the files are as long or longer *)
Record grows (A : list (bool * N)) (p p' : phys) : Prop := {
  g_level : ph_level p' = ph_level p;
  g_split : ph_split p' = ph_split p;
  g_nkeys : ph_nkeys p' = ph_nkeys p;
  g_nbuckets : ph_nbuckets p' = ph_nbuckets p;
  g_main : length (ph_main p') = length (ph_main p);
  g_over : (length (ph_over p) <= length (ph_over p'))%nat;
  g_ok : files_ok p -> files_ok p';
  g_reads : forall h, hreads p h -> ~ In (addr h) A -> hreads p' h
}.

Lemma grows_refl p : grows [] p p.
Proof. constructor; auto. Qed.

Lemma grows_trans A B p p1 p2 : grows A p p1 -> grows B p1 p2 -> grows (A ++ B) p p2.
Proof.
  intros [a1 a2 a3 a4 a5 a6 a7 a8] [b1 b2 b3 b4 b5 b6 b7 b8].
  constructor; try congruence; [lia|auto|].
  intros h R Hn. apply b8; [apply a8; [exact R|]|]; intros Hc; apply Hn, in_or_app; auto.
Qed.

Lemma grows_incl A B p p' : incl A B -> grows A p p' -> grows B p p'.
Proof.
  intros I [a1 a2 a3 a4 a5 a6 a7 a8]. constructor; try assumption.
  intros h R Hn. apply a8; [exact R|]. intros Hc. exact (Hn (I _ Hc)).
Qed.

Lemma grows_valid A p p' a : grows A p p' -> avalid p a -> avalid p' a.
Proof.
  intros G. pose proof (g_main _ _ _ G). pose proof (g_over _ _ _ G).
  unfold avalid, pb_read. destruct (off_ok (snd a)); [|congruence].
  destruct (fst a); intros X; apply nth_error_Some; apply nth_error_Some in X; lia.
Qed.

Lemma grows_set_free p f : grows [] p (set_free p f).
Proof.
  constructor; first [reflexivity | apply Nat.le_refl | exact (fun X => X) | exact (fun h R _ => R)].
Qed.

Lemma write_bh_alloc p h :
  ph_free (write_bh p h) = ph_free p /\ length (ph_over (write_bh p h)) = length (ph_over p).
Proof.
  unfold write_bh. destruct (bh_main h); cbn [set_main set_over ph_free ph_over];
    rewrite ?pb_write_length; split; reflexivity.
Qed.

Lemma write_bh_same p h : avalid p (addr h) -> hreads (write_bh p h) h.
Proof.
  unfold avalid, hreads, write_bh, addr. cbn [fst snd]. intros V.
  destruct (bh_main h); cbn [set_main set_over ph_main ph_over]; apply pb_read_write_same; exact V.
Qed.

Lemma write_bh_other p h h0 : hreads p h0 -> addr h0 <> addr h -> hreads (write_bh p h) h0.
Proof.
  unfold hreads, write_bh, addr. intros R Hne.
  destruct (bh_main h) eqn:M; destruct (bh_main h0) eqn:M0; cbn [set_main set_over ph_main ph_over];
    try exact R; rewrite pb_read_write_other; try exact R; congruence.
Qed.

Lemma write_bh_ok p h : bucket_ok (bh_b h) -> files_ok p -> files_ok (write_bh p h).
Proof.
  intros Ok [Om Oo]. unfold files_ok, write_bh, pb_write.
  destruct (bh_main h); cbn [set_main set_over ph_main ph_over]; destruct (off_ok (bh_off h));
    split; try assumption; apply Forall_lupd; assumption.
Qed.

Lemma grows_write p h : bucket_ok (bh_b h) -> grows [addr h] p (write_bh p h).
Proof.
  intros Ok. constructor;
    try (unfold write_bh; destruct (bh_main h);
         cbn [set_main set_over ph_level ph_split ph_nkeys ph_nbuckets ph_main ph_over];
         rewrite ?pb_write_length; first [reflexivity | apply Nat.le_refl]).
  - apply write_bh_ok. exact Ok.
  - intros h0 R Hn. apply write_bh_other; [exact R|]. intros E. apply Hn. left. symmetry. exact E.
Qed.

Lemma grows_writes W : forall p, Forall (fun h => bucket_ok (bh_b h)) W ->
  grows (map addr W) p (fold_left write_bh W p).
Proof.
  induction W as [|h W IH]; intros p Ok; cbn [fold_left map]; [apply grows_refl|].
  inversion Ok as [|h_ W_ Okh OkW]; subst h_ W_.
  exact (grows_trans [addr h] _ _ _ _ (grows_write p h Okh) (IH _ OkW)).
Qed.

Lemma accounted_writes U W : forall p, accounted U p -> accounted U (fold_left write_bh W p).
Proof.
  induction W as [|h W IH]; intros p A; [exact A|]. apply IH. unfold accounted.
  destruct (write_bh_alloc p h) as [-> ->]. exact A.
Qed.

(* after the writes, every written handle reads back *)
Lemma writes_read W : forall p, NoDup (map addr W) -> Forall (avalid p) (map addr W) ->
  Forall (fun h => bucket_ok (bh_b h)) W -> Forall (hreads (fold_left write_bh W p)) W.
Proof.
  induction W as [|h W IH]; intros p Nd V Ok; cbn [fold_left map] in *; [constructor|].
  inversion Nd as [|a_ l_ Hnin Nd']; subst a_ l_. inversion V as [|a_ l_ Vh VW]; subst a_ l_.
  inversion Ok as [|h_ W_ Okh OkW]; subst h_ W_. constructor.
  - apply (g_reads _ _ _ (grows_writes W (write_bh p h) OkW)); [|exact Hnin].
    apply write_bh_same. exact Vh.
  - apply IH; [exact Nd'| |exact OkW]. eapply Forall_impl; [|exact VW].
    intros a. exact (grows_valid _ _ _ _ (grows_write p h Okh)).
Qed.

Lemma hreads_ext p p' em eo h : ph_main p' = ph_main p ++ em -> ph_over p' = ph_over p ++ eo ->
  hreads p h -> hreads p' h.
Proof.
  intros Em Eo. unfold hreads. rewrite Em, Eo.
  destruct (bh_main h); intros R; rewrite pb_read_app by congruence; exact R.
Qed.

Lemma offs_of_tl H : offs_of H = tl (map bh_off H).
Proof. destruct H; reflexivity. Qed.

(* one chain in focus: R = the overflow offsets of all the other chains *)
Lemma InvW_focus p HS i : InvW p HS -> (i < length HS)%nat ->
  exists R, accounted (R ++ offs_of (nth i HS [])) p /\
    (forall X ext p', accounted (R ++ offs_of X ++ concat (map offs_of ext)) p' ->
                      accounted (concat (map offs_of (lupd i X HS ++ ext))) p') /\
    (forall X p', accounted (R ++ offs_of X) p' -> accounted (concat (map offs_of (lupd i X HS))) p').
Proof.
  intros HI Hi. apply InvW_accounted in HI.
  destruct (concat_lupd_perm (map offs_of HS) i) as (R & R1); [rewrite map_length; exact Hi|].
  exists R. split; [|split].
  - revert HI. apply accounted_perm.
    rewrite <- (lupd_nth_id i [] HS) at 1. rewrite map_lupd, R1. apply Permutation_app_comm.
  - intros X ext p'. apply accounted_perm.
    rewrite map_app, concat_app, map_lupd, R1, app_assoc.
    apply Permutation_app_tail, Permutation_app_comm.
  - intros X p'. apply accounted_perm. rewrite map_lupd, R1. apply Permutation_app_comm.
Qed.

(* the re-establishing lemma: chain i is replaced by H', the chains [ext] are appended.  What is
   written lies in the new chains; that the old walks j <> i are not touched and that the fuel of
   every walk suffices follows from the accounting: it makes all overflow offsets different. *)
Lemma InvW_update p p' HS i H' ext :
  InvW p HS -> (i < length HS)%nat ->
  nlen (ph_main p') = ph_nbuckets p' ->
  length (ph_main p') = (length (ph_main p) + length ext)%nat ->
  files_ok p' ->
  (forall h, hreads p h -> (forall X, In X (H' :: ext) -> ~ In (addr h) (map addr X)) -> hreads p' h) ->
  wl p' (N.of_nat i) H' ->
  (forall k, (k < length ext)%nat -> wl p' (N.of_nat (length HS + k)) (nth k ext [])) ->
  accounted (concat (map offs_of (lupd i H' HS ++ ext))) p' ->
  InvW p' (lupd i H' HS ++ ext).
Proof.
  intros HI Hi N1 N2 [O1 O2] Fr Wi We P. pose proof HI as (_ & _ & _ & I4 & _).
  set (L := lupd i H' HS ++ ext) in *.
  assert (LL : length L = (length HS + length ext)%nat).
  { unfold L. rewrite app_length, lupd_length. reflexivity. }
  pose proof (NoDup_concat_nth _ (accounted_NoDup _ _ P)) as Nd.
  assert (Eo : forall j, nth j (map offs_of L) [] = offs_of (nth j L [])).
  { intros j. exact (map_nth offs_of L [] j). }
  assert (W : forall j, (j < length L)%nat -> wl p' (N.of_nat j) (nth j L [])).
  { intros j Hj. rewrite LL in Hj.
    pose proof (nth_lupd_app i H' [] HS ext j Hi) as Ej. fold L in Ej.
    destruct (Nat.eqb_spec j i) as [->|Hne]; [rewrite Ej; exact Wi|].
    destruct (Nat.ltb_spec j (length HS)) as [Lt|Ge]; rewrite Ej.
    2:{ replace j with (length HS + (j - length HS))%nat at 1 by lia. apply We. lia. }
    (* an old walk: the written chains stand at other positions of L *)
    pose proof (InvW_wl _ _ _ HI Lt) as Wj. apply (wl_frame p _ _ _ Wj), Forall_forall. intros h Hh.
    apply Fr; [exact (proj1 (Forall_forall _ _) (wl_reads _ _ _ Wj) h Hh)|]. intros X HX Hc.
    assert (Hk : exists k, k <> j /\ nth k L [] = X /\ wl p' (N.of_nat k) X).
    { destruct HX as [<-|HX].
      - exists i. split; [congruence|]. split; [|exact Wi].
        unfold L. rewrite (nth_lupd_app i H' [] HS ext i Hi), Nat.eqb_refl. reflexivity.
      - destruct (In_nth _ _ [] HX) as (n & Hn & <-). exists (length HS + n)%nat.
        split; [lia|]. split; [|exact (We n Hn)].
        unfold L. rewrite (nth_lupd_app i H' [] HS ext _ Hi).
        destruct (Nat.eqb_spec (length HS + n) i) as [E|_]; [lia|].
        destruct (Nat.ltb_spec (length HS + n) (length HS)) as [E|_]; [lia|]. f_equal. lia. }
    destruct Hk as (k & Hkj & <- & Wk).
    apply (walks_disjoint _ _ _ _ _ _ (addr h) Wj Wk); [lia| |apply in_map; exact Hh|exact Hc].
    intros o Oj Ok. apply (proj2 (Nd j) k o); [congruence| |rewrite Eo; exact Ok].
    rewrite Eo, Ej. exact Oj. }
  split; [exact N1|]. split; [exact O1|]. split; [exact O2|].
  split; [rewrite LL, N2, I4; reflexivity|]. split; [|exact P].
  intros j Hj. apply wl_walk; [exact (W j Hj)|]. rewrite <- Eo. exact (proj1 (Nd j)).
Qed.

(* no chain is appended, and p' is p after writes inside the new chain i *)
Lemma InvW_replace A p p' HS i H' :
  InvW p HS -> (i < length HS)%nat -> grows A p p' -> incl A (map addr H') ->
  wl p' (N.of_nat i) H' -> accounted (concat (map offs_of (lupd i H' HS))) p' ->
  InvW p' (lupd i H' HS).
Proof.
  intros HI Hi G IA W P. rewrite <- (app_nil_r (lupd i H' HS)) in *.
  apply (InvW_update p _ HS i _ []); try assumption.
  - rewrite (g_nbuckets _ _ _ G), nlen_length, (g_main _ _ _ G), <- nlen_length. exact (proj1 HI).
  - rewrite (g_main _ _ _ G). apply plus_n_O.
  - exact (g_ok _ _ _ G (InvW_ok _ _ HI)).
  - intros h Rh Hx. apply (g_reads _ _ _ G _ Rh). intros Hc. exact (Hx _ (or_introl eq_refl) (IA _ Hc)).
  - intros k Hk. destruct (Nat.nlt_0_r _ Hk).
Qed.

Lemma reads_after_write p H1 h H2 h' :
  Forall (hreads p) (H1 ++ h :: H2) -> NoDup (map addr (H1 ++ h :: H2)) -> addr h' = addr h ->
  Forall (hreads (write_bh p h')) (H1 ++ h' :: H2).
Proof.
  intros Rd Nd Ea. rewrite map_app in Nd. cbn [map] in Nd.
  pose proof (NoDup_remove_2 _ _ _ Nd) as Nin.
  apply Forall_app in Rd. destruct Rd as [R1 R2]. inversion R2 as [|h_ H_ Rh R2']; subst h_ H_.
  assert (X : forall l, Forall (hreads p) l -> (forall x, In x l -> In (addr x) (map addr H1 ++ map addr H2)) ->
                        Forall (hreads (write_bh p h')) l).
  { intros l Fl Hin. apply Forall_forall. intros x Hx. rewrite Forall_forall in Fl.
    apply write_bh_other; [apply Fl; exact Hx|]. rewrite Ea. intros Hc. apply Nin. rewrite <- Hc.
    apply Hin. exact Hx. }
  apply Forall_app. split; [|constructor].
  - apply X; [exact R1|]. intros x Hx. apply in_or_app. left. apply in_map. exact Hx.
  - apply write_bh_same. rewrite Ea. unfold avalid, addr. cbn [fst snd].
    unfold hreads in Rh. congruence.
  - apply X; [exact R2'|]. intros x Hx. apply in_or_app. right. apply in_map. exact Hx.
Qed.

(* one bucket of chain i is rewritten in place (same file, offset and next) *)
Lemma single_write p HS i H1 h H2 h' :
  InvW p HS -> (i < length HS)%nat -> nth i HS [] = H1 ++ h :: H2 ->
  hkey h' = hkey h -> bucket_ok (bh_b h') ->
  InvW (write_bh p h') (lupd i (H1 ++ h' :: H2) HS).
Proof.
  intros HI Hi En Hk Ok.
  destruct (InvW_focus p HS i HI Hi) as (R & P1 & _ & P3).
  pose proof (InvW_wl _ _ _ HI Hi) as [D C Rd]. rewrite En in P1, D, C, Rd.
  assert (Ea : addr h' = addr h) by (unfold addr, hkey in *; congruence).
  assert (Eo : offs_of (H1 ++ h' :: H2) = offs_of (H1 ++ h :: H2)).
  { rewrite !offs_of_tl, !map_app. cbn [map]. unfold addr in Ea. injection Ea as _ ->. reflexivity. }
  apply (InvW_replace [addr h'] p _ HS i _ HI Hi (grows_write p h' Ok)).
  - intros a [<-|[]]. apply in_map, in_elt.
  - constructor.
    + destruct H1; [unfold heads in *; cbn [app map hd_error] in *; rewrite Ea|]; exact D.
    + apply (chained0_ext (H1 ++ h :: H2)); [|exact C]. rewrite !map_app. cbn [map]. rewrite Hk. reflexivity.
    + apply (reads_after_write p H1 h); [exact Rd| |exact Ea].
      rewrite (chain_addrs _ _ D C). apply chain_addrs_nodup.
      exact (proj1 (proj2 (NoDup_app_inv _ _ (accounted_NoDup _ _ P1)))).
  - apply P3. rewrite Eo. unfold accounted. destruct (write_bh_alloc p h') as [-> ->]. exact P1.
Qed.

Lemma sim_bidx p c HS h : Sim p c HS -> ph_bidx p h = px_bidx c h.
Proof. intros (_ & R1 & R2 & _). unfold ph_bidx, px_bidx. rewrite R1, R2. reflexivity. Qed.

Lemma sim_nbuckets p c HS : Sim p c HS ->
  ph_nbuckets p = nlen (px_chains c) /\ ph_nbuckets p = N.of_nat (length HS).
Proof.
  intros ((I1 & _ & _ & I4 & _) & _ & _ & _ & R4).
  rewrite R4, <- I1, !nlen_length, map_length, I4. split; reflexivity.
Qed.

Lemma sim_walk p c HS b : Sim p c HS -> b < ph_nbuckets p ->
  (N.to_nat b < length HS)%nat /\ ph_walk p b = Some (nth (N.to_nat b) HS []) /\
  px_chain c b = hchain (nth (N.to_nat b) HS []).
Proof.
  intros S Hb. destruct (sim_nbuckets _ _ _ S) as [_ N2].
  destruct S as ((I1 & _ & _ & I4 & I5 & _) & _ & _ & _ & R4).
  assert (Hn : (N.to_nat b < length HS)%nat) by lia.
  split; [exact Hn|]. split.
  - rewrite <- (N2Nat.id b) at 1. apply I5. exact Hn.
  - unfold px_chain. rewrite R4. change [] with (hchain []) at 1. rewrite map_nth. reflexivity.
Qed.

Lemma sim_walk_out p c HS b : Sim p c HS -> ph_nbuckets p <= b ->
  ph_walk p b = None /\ px_chain c b = [].
Proof.
  intros S Hb. destruct (sim_nbuckets _ _ _ S) as [N1 N2].
  destruct S as ((I1 & _ & _ & I4 & I5 & _) & _ & _ & _ & R4). split.
  - unfold ph_walk. rewrite pb_read_bucket_off.
    replace (nth_error (ph_main p) (N.to_nat b)) with (@None pbucket); [reflexivity|].
    symmetry. apply nth_error_None. lia.
  - unfold px_chain. apply nth_overflow. rewrite N1, nlen_length in Hb. lia.
Qed.

(* the bucket a hash selects, on both sides *)
Lemma sim_home p c HS h : Sim p c HS -> PInv c ->
  ph_bidx p h = px_bidx c h /\ px_bidx c h < ph_nbuckets p /\
  (N.to_nat (px_bidx c h) < length HS)%nat /\
  ph_walk p (px_bidx c h) = Some (nth (N.to_nat (px_bidx c h)) HS []) /\
  px_chain c (px_bidx c h) = hchain (nth (N.to_nat (px_bidx c h)) HS []).
Proof.
  intros S HP. assert (Hb : px_bidx c h < ph_nbuckets p).
  { rewrite (proj1 (sim_nbuckets _ _ _ S)). apply PInv_bidx_lt. exact HP. }
  split; [exact (sim_bidx _ _ _ h S)|]. split; [exact Hb|]. exact (sim_walk _ _ _ _ S Hb).
Qed.

Lemma get_sim_aux p c HS h m : Sim p c HS -> ph_get p h m = px_get c h m.
Proof.
  intros S. unfold ph_get, px_get. rewrite (sim_bidx _ _ _ h S).
  destruct (N.lt_ge_cases (px_bidx c h) (ph_nbuckets p)) as [Lt|Ge].
  - destruct (sim_walk _ _ _ _ S Lt) as (_ & W & C). rewrite W, C. apply hit_loop_find.
  - destruct (sim_walk_out _ _ _ _ S Ge) as (W & C). rewrite W, C. reflexivity.
Qed.

Theorem phys_get_sim p c h m : PhysInv p -> R_phys p c ->
  ix_get phys_ops p h m = ix_get chain_ops c h m.
Proof.
  intros HI HR. destruct (sim_intro _ _ HI HR) as [HS S]. exact (get_sim_aux _ _ _ h m S).
Qed.

Theorem phys_count_sim p c : R_phys p c -> ix_count phys_ops p = ix_count chain_ops c.
Proof. intros (_ & _ & R3 & _). exact R3. Qed.

Theorem phys_nbuckets_sim p c : R_phys p c -> ix_nbuckets phys_ops p = ix_nbuckets chain_ops c.
Proof. intros (_ & _ & _ & R4 & _). exact R4. Qed.

Theorem phys_bucket_sim p c n : PhysInv p -> R_phys p c ->
  ix_bucket phys_ops p n = ix_bucket chain_ops c n.
Proof.
  intros HI HR. destruct (sim_intro _ _ HI HR) as [HS S].
  cbn [ix_bucket phys_ops chain_ops]. unfold ph_bucket. rewrite px_bucketE.
  destruct (N.lt_ge_cases n (ph_nbuckets p)) as [Lt|Ge].
  - destruct (sim_walk _ _ _ _ S Lt) as (_ & W & C). rewrite W, C. reflexivity.
  - destruct (sim_walk_out _ _ _ _ S Ge) as (W & C). rewrite W, C. reflexivity.
Qed.

Lemma InvW_empty : InvW ph_empty [[{| bh_main := true; bh_off := 512; bh_b := empty_pb |}]].
Proof.
  split; [reflexivity|]. split; [constructor; [apply empty_pb_ok|constructor]|].
  split; [constructor|]. split; [reflexivity|]. split.
  - intros i Hi. cbn [length] in Hi. assert (i = 0%nat) as -> by lia. reflexivity.
  - apply Permutation_refl.
Qed.

Theorem phys_empty_ok :
  PhysInv (ix_empty phys_ops) /\ R_phys (ix_empty phys_ops) (ix_empty chain_ops).
Proof.
  apply (sim_elim _ _ [[{| bh_main := true; bh_off := 512; bh_b := empty_pb |}]]).
  split; [exact InvW_empty|]. repeat split.
Qed.

Definition px_with_nkeys (c : pindex) (nk : N) : pindex :=
  {| px_level := px_level c; px_split := px_split c; px_nkeys := nk; px_chains := px_chains c |}.

Lemma Sim_set_nkeys p c HS nk : Sim p c HS -> Sim (set_nkeys p nk) (px_with_nkeys c nk) HS.
Proof.
  intros (HI & R1 & R2 & R3 & R4). split; [exact HI|]. repeat split; assumption.
Qed.

Lemma set_nkeys_id p : set_nkeys p (ph_nkeys p) = p.
Proof. destruct p; reflexivity. Qed.

Lemma px_with_nkeys_id c : px_with_nkeys c (px_nkeys c) = c.
Proof. destruct c; reflexivity. Qed.

(* a handle that reads holds a bucket of its file *)
Lemma hreads_In p h : hreads p h -> In (bh_b h) (if bh_main h then ph_main p else ph_over p).
Proof.
  intros Rd. destruct (pb_read_some _ _ _ Rd) as (k & _ & _ & Hk). exact (nth_error_In _ _ Hk).
Qed.

Lemma InvW_handles_ok p HS i : InvW p HS -> (i < length HS)%nat ->
  Forall (fun h => bucket_ok (bh_b h)) (nth i HS []).
Proof.
  intros HI Hi. destruct (InvW_ok _ _ HI) as [Om Oo]. rewrite Forall_forall in Om, Oo.
  eapply Forall_impl; [|exact (wl_reads _ _ _ (InvW_wl _ _ _ HI Hi))].
  intros h Rd. apply hreads_In in Rd. destruct (bh_main h); auto.
Qed.

Lemma hchain_app H1 H2 : hchain (H1 ++ H2) = hchain H1 ++ hchain H2.
Proof. apply map_app. Qed.

(* chain b is replaced, the pointers and numKeys stay *)
Lemma Sim_chain_set A p c HS p' b H' :
  Sim p c HS -> InvW p' (lupd (N.to_nat b) H' HS) -> grows A p p' ->
  Sim p' (px_set c b (hchain H') (px_nkeys c)) (lupd (N.to_nat b) H' HS).
Proof.
  intros (_ & R1 & R2 & R3 & R4) HI' G. split; [exact HI'|].
  cbn [px_set px_level px_split px_nkeys px_chains].
  rewrite (g_level _ _ _ G), (g_split _ _ _ G), (g_nkeys _ _ _ G), R4, map_lupd. auto.
Qed.

(* the bucket where the loop stops is rewritten by [upd] *)
Lemma subst_sim p c HS b f g j s hb upd :
  Sim p c HS -> b < ph_nbuckets p ->
  hit_loop f (nth (N.to_nat b) HS []) = Some (hb, j, s) ->
  (forall l1 r next, length l1 = j -> Forall nz l1 -> nz s ->
     bucket_ok {| pb_slots := l1 ++ s :: r; pb_next := next |} ->
     bucket_ok {| pb_slots := upd (l1 ++ s :: r); pb_next := next |} /\
     pb_live {| pb_slots := upd (l1 ++ s :: r); pb_next := next |} = l1 ++ g s ++ Bucket.dense r) ->
  exists cc HS', chain_subst f g (px_chain c b) = Some (cc, s) /\
    Sim (write_bh p {| bh_main := bh_main hb; bh_off := bh_off hb;
                       bh_b := {| pb_slots := upd (pb_slots (bh_b hb)); pb_next := pb_next (bh_b hb) |} |})
        (px_set c b cc (px_nkeys c)) HS'.
Proof.
  intros S Hb Hl Hupd. destruct (sim_walk _ _ _ _ S Hb) as (Hn & W & C).
  pose proof S as (HI & _).
  destruct (hit_loop_some f g _ _ _ _ Hl) as (H1 & H2 & l1 & r & EH & Es & N1 & Ns & Ej & El & Ec).
  set (hb' := {| bh_main := bh_main hb; bh_off := bh_off hb;
                 bh_b := {| pb_slots := upd (pb_slots (bh_b hb)); pb_next := pb_next (bh_b hb) |} |}).
  assert (Okb : bucket_ok (bh_b hb)).
  { pose proof (InvW_handles_ok p HS _ HI Hn) as F. rewrite EH, Forall_forall in F. apply F, in_elt. }
  assert (Okb' : bucket_ok {| pb_slots := l1 ++ s :: r; pb_next := pb_next (bh_b hb) |}).
  { unfold bucket_ok, pb_live in *. cbn [pb_slots]. rewrite <- Es. exact Okb. }
  destruct (Hupd l1 r (pb_next (bh_b hb)) (eq_sym Ej) N1 Ns Okb') as [U1 U2].
  rewrite <- Es in U1, U2.
  exists (hchain (H1 ++ hb' :: H2)), (lupd (N.to_nat b) (H1 ++ hb' :: H2) HS). split.
  - rewrite C, Ec, hchain_app, <- U2. reflexivity.
  - exact (Sim_chain_set _ p c HS _ b _ S (single_write p HS _ H1 hb H2 hb' HI Hn EH eq_refl U1)
             (grows_write p hb' U1)).
Qed.

Theorem phys_del_sim p c h m : PhysInv p -> R_phys p c -> PInv c ->
  snd (ix_del phys_ops p h m) = snd (ix_del chain_ops c h m) /\
  R_phys (fst (ix_del phys_ops p h m)) (fst (ix_del chain_ops c h m)) /\
  PhysInv (fst (ix_del phys_ops p h m)).
Proof.
  intros HI HR HP. destruct (sim_intro _ _ HI HR) as [HS S].
  cbn [ix_del phys_ops chain_ops]. unfold ph_del, px_del.
  destruct (sim_home _ _ _ h S HP) as (-> & Hb & Hn & -> & C).
  destruct (hit_loop (hit h m) (nth (N.to_nat (px_bidx c h)) HS [])) as [[[hb j] s]|] eqn:El.
  - destruct (subst_sim p c HS _ (hit h m) (fun _ => []) j s hb (del_slot j) S Hb El)
      as (cc & HS' & Ec & S').
    { intros l1 r next <- N1 Ns Ok. apply del_slot_hit; assumption. }
    rewrite Ec. cbn [fst snd]. split; [reflexivity|].
    rewrite (proj1 (proj2 (proj2 (proj2 S)))).
    apply (Sim_set_nkeys _ _ _ (px_nkeys c - 1)) in S'.
    apply sim_elim in S'. destruct S' as [S1 S2]. split; [exact S2|exact S1].
  - destruct (hit_loop_none _ (fun _ => []) _ El) as [Ec _]. rewrite C, Ec. cbn [fst snd].
    split; [reflexivity|]. split; [exact HR|exact HI].
Qed.

Theorem phys_repoint_sim p c h seg off nseg noff : PhysInv p -> R_phys p c -> PInv c -> noff <> 0 ->
  match ix_repoint phys_ops p h seg off nseg noff, ix_repoint chain_ops c h seg off nseg noff with
  | None, None => True
  | Some p', Some c' => R_phys p' c' /\ PhysInv p'
  | _, _ => False
  end.
Proof.
  intros HI HR HP Hnz. destruct (sim_intro _ _ HI HR) as [HS S].
  cbn [ix_repoint phys_ops chain_ops]. unfold ph_repoint, px_repoint.
  destruct (sim_home _ _ _ h S HP) as (-> & Hb & Hn & -> & C).
  destruct (hit_loop (rp_hit h seg off) (nth (N.to_nat (px_bidx c h)) HS [])) as [[[hb j] s]|] eqn:El.
  - destruct (subst_sim p c HS _ (rp_hit h seg off) (fun s => [rp_new nseg noff s]) j s hb
                (lupd j (rp_new nseg noff s)) S Hb El) as (cc & HS' & Ec & S').
    { intros l1 r next <- N1 Ns Ok. cbn [app]. apply set_slot_hit; assumption. }
    rewrite Ec. apply sim_elim in S'. destruct S' as [S1 S2]. split; [exact S2|exact S1].
  - destruct (hit_loop_none _ (fun s => [rp_new nseg noff s]) _ El) as [Ec _]. rewrite C, Ec. exact I.
Qed.

Lemma swr_write_fold p w : swr_write p w = fold_left write_bh (rev (sw_prev w) ++ [sw_cur w]) p.
Proof. unfold swr_write. rewrite fold_left_app. reflexivity. Qed.

Lemma perm_rev_snoc {A} (l : list A) x : Permutation (rev l ++ [x]) (l ++ [x]).
Proof. apply Permutation_app_tail. apply Permutation_sym, Permutation_rev. Qed.

(* createOverflowBucket; U = the offsets in use *)
Lemma create_overflow_spec p U : accounted U p ->
  exists o, snd (create_overflow p) = {| bh_main := false; bh_off := o; bh_b := empty_pb |} /\
    accounted (U ++ [o]) (fst (create_overflow p)) /\ grows [] p (fst (create_overflow p)).
Proof.
  unfold accounted, create_overflow. intros P. destruct (ph_free p) as [|o fr] eqn:Ef.
  - exists (bucket_off (nlen (ph_over p))). cbn [fst snd]. split; [reflexivity|]. split.
    + cbn [set_over ph_over ph_free]. rewrite Ef, app_length. cbn [length].
      rewrite Nat.add_1_r, over_offs_S, nlen_length, !app_nil_r. rewrite app_nil_r in P.
      apply Permutation_app_tail. exact P.
    + constructor; cbn [set_over ph_level ph_split ph_nkeys ph_nbuckets ph_main ph_over]; try reflexivity.
      * rewrite app_length. lia.
      * intros [Om Oo]. split; [exact Om|]. apply Forall_app. split; [exact Oo|].
        constructor; [apply empty_pb_ok|constructor].
      * intros h R _. exact (hreads_ext p (set_over p (ph_over p ++ [empty_pb])) [] [empty_pb] h
                 (eq_sym (app_nil_r _)) eq_refl R).
  - exists o. cbn [fst snd]. split; [reflexivity|]. split; [|apply grows_set_free].
    cbn [set_free ph_free ph_over]. rewrite <- P, <- app_assoc. reflexivity.
Qed.

Lemma chained_snoc hs : forall off hl o nb,
  chained off (hs ++ [hl]) -> o <> 0 -> bh_off nb = o -> bh_main nb = false -> pb_next (bh_b nb) = 0 ->
  chained off (hs ++ [bh_set_next hl o; nb]).
Proof.
  induction hs as [|h hs IH]; intros off hl o nb C Ho Eo Em En; cbn [app chained] in *.
  - destruct C as (C1 & C2 & C3 & C4). cbn [bh_set_next bh_off bh_main bh_b pb_next].
    repeat split; auto.
  - destruct C as (C1 & C2 & C3 & C4). repeat split; auto.
Qed.

Lemma chained0_snoc H hl o nb :
  chained0 (H ++ [hl]) -> o <> 0 -> bh_off nb = o -> bh_main nb = false -> pb_next (bh_b nb) = 0 ->
  chained0 (H ++ [bh_set_next hl o; nb]).
Proof.
  destruct H as [|h0 hs]; cbn [app chained0]; intros C Ho Eo Em En.
  - cbn [bh_set_next bh_b pb_next chained]. repeat split; auto.
  - apply chained_snoc; assumption.
Qed.

Lemma offs_of_snoc2 H a b c : bh_off b = bh_off a ->
  offs_of (H ++ [b; c]) = offs_of (H ++ [a]) ++ [bh_off c].
Proof.
  intros E. rewrite !offs_of_tl, !map_app. cbn [map]. rewrite E.
  destruct H as [|h0 H]; cbn [map app tl]; [reflexivity|]. rewrite <- app_assoc. reflexivity.
Qed.

Lemma offs_of_last H a b : bh_off b = bh_off a -> offs_of (H ++ [b]) = offs_of (H ++ [a]).
Proof. intros E. rewrite !offs_of_tl, !map_app. cbn [map]. rewrite E. reflexivity. Qed.

Lemma app_snoc2 {A} (l1 l2 : list A) a b : (l1 ++ l2 ++ [a]) ++ [b] = (l1 ++ l2) ++ [a; b].
Proof. rewrite <- !app_assoc. reflexivity. Qed.

Definition whandles (w : swriter) : list bhandle := sw_prev w ++ [sw_cur w].
(* the chain a writer is building behind the buckets [pre] that stay as they are *)
Definition wchain (pre : list bhandle) (w : swriter) : list bhandle := (pre ++ sw_prev w) ++ [sw_cur w].
Definition woffs (pre : list bhandle) (w : swriter) : list N := offs_of (wchain pre w).

Lemma wchain_app pre w : wchain pre w = pre ++ whandles w.
Proof. symmetry. apply app_assoc. Qed.

(* w, behind the buckets pre, holds the chain ch of the main bucket at offset off *)
Record WInv (off : N) (pre : list bhandle) (w : swriter) (ch : chain) : Prop := {
  wi_idx : sw_idx w = length (hlive (sw_cur w));
  wi_ok : Forall (fun h => bucket_ok (bh_b h)) (wchain pre w);
  wi_chained : chained0 (wchain pre w);
  wi_chain : hchain (wchain pre w) = ch;
  wi_head : heads (true, off) (wchain pre w)
}.

Lemma WInv_wl p i pre w ch : WInv (bucket_off i) pre w ch -> Forall (hreads p) (wchain pre w) ->
  wl p i (wchain pre w).
Proof. intros W R. constructor; [exact (wi_head _ _ _ _ W)|exact (wi_chained _ _ _ _ W)|exact R]. Qed.

(* slotWriter.insert; al = the offset it allocates, if any *)
Lemma swr_insert_step p w sl U off pre ch :
  WInv off pre w ch -> nz sl -> accounted U p ->
  exists al,
    WInv off pre (snd (swr_insert p w sl)) (sw_insert sl ch) /\
    woffs pre (snd (swr_insert p w sl)) = woffs pre w ++ al /\
    accounted (U ++ al) (fst (swr_insert p w sl)) /\
    grows [] p (fst (swr_insert p w sl)).
Proof.
  intros [Wi Wok Wc Wh Wb] Hnz P. destruct w as [cur idx prev].
  unfold woffs, wchain in *. cbn [sw_cur sw_idx sw_prev] in *. set (H := pre ++ prev) in *.
  assert (Okc : bucket_ok (bh_b cur)).
  { rewrite Forall_forall in Wok. apply Wok. apply in_or_app. right. left. reflexivity. }
  pose proof (bucket_ok_live_le _ Okc) as Lle. fold (hlive cur) in Lle.
  apply Forall_app in Wok. destruct Wok as [OkH _].
  unfold swr_insert. cbn [sw_cur sw_idx sw_prev].
  destruct (Nat.eqb_spec idx 31) as [E31|N31]; cbn [fst snd sw_cur sw_idx sw_prev].
  - (* the bucket is full: createOverflowBucket *)
    destruct (create_overflow_spec p U P) as (o & Enb & Pn & G). rewrite Enb. cbn [bh_off].
    set (nb' := bh_set_slot {| bh_main := false; bh_off := o; bh_b := empty_pb |} 0 sl).
    destruct (set_slot_free empty_pb sl (proj1 empty_pb_ok)) as [OkN LiveN]; [cbn; lia|exact Hnz|].
    assert (Hlive : hlive nb' = [sl]) by exact LiveN.
    destruct (accounted_valid _ _ o Pn) as [Ho _]; [apply in_or_app; right; left; reflexivity|].
    exists [o]. rewrite app_snoc2. fold H.
    split; [|split; [apply offs_of_snoc2; reflexivity|split; [exact Pn|exact G]]].
    constructor; unfold wchain; cbn [sw_cur sw_idx sw_prev]; rewrite ?app_snoc2; fold H.
    + rewrite Hlive. reflexivity.
    + apply Forall_app. split; [exact OkH|]. constructor; [exact Okc|]. constructor; [exact OkN|constructor].
    + apply chained0_snoc; auto.
    + rewrite <- Wh, !hchain_app. cbn [hchain map]. rewrite sw_insert_last.
      change (hlive (bh_set_next cur o)) with (hlive cur). rewrite Hlive.
      destruct (Nat.ltb_spec (length (hlive cur)) cap) as [Lt|_]; [unfold cap in Lt; lia|reflexivity].
    + apply (heads_last _ H cur); [reflexivity|exact Wb].
  - (* room in the current bucket *)
    assert (Lt : (length (hlive cur) < 31)%nat) by lia.
    destruct (set_slot_free (bh_b cur) sl Okc Lt Hnz) as [Ok' Live'].
    unfold hlive in Wi. rewrite <- Wi in Ok', Live'.
    set (cur' := bh_set_slot cur idx sl).
    assert (Hlive : hlive cur' = hlive cur ++ [sl]) by exact Live'.
    exists []. rewrite !app_nil_r.
    split; [|split; [apply offs_of_last; reflexivity|split; [exact P|apply grows_refl]]].
    constructor; unfold wchain; cbn [sw_cur sw_idx sw_prev]; fold H.
    + rewrite Hlive, app_length. cbn [length]. unfold hlive. lia.
    + apply Forall_app. split; [exact OkH|]. constructor; [exact Ok'|constructor].
    + apply (chained0_ext (H ++ [cur])); [|exact Wc]. rewrite !map_app. reflexivity.
    + rewrite <- Wh, !hchain_app. cbn [hchain map]. rewrite sw_insert_last, Hlive.
      destruct (Nat.ltb_spec (length (hlive cur)) cap) as [_|Ge]; [reflexivity|unfold cap in Ge; lia].
    + apply (heads_last _ H cur); [reflexivity|exact Wb].
Qed.

(* slotWriter.write: the chain of the writer is in the files; Nd and Vo come from the accounting *)
Lemma commit p w off pre ch :
  WInv off pre w ch -> Forall (hreads p) pre -> avalid p (true, off) ->
  NoDup (woffs pre w) -> (forall o, In o (woffs pre w) -> avalid p (false, o)) ->
  grows (map addr (whandles w)) p (swr_write p w) /\
  (forall V, accounted V p -> accounted V (swr_write p w)) /\
  Forall (hreads (swr_write p w)) (wchain pre w).
Proof.
  intros W Rp Vb Nd Vo.
  pose proof (chain_addrs _ _ (wi_head _ _ _ _ W) (wi_chained _ _ _ _ W)) as EA. fold (woffs pre w) in EA.
  assert (NdA : NoDup (map addr (wchain pre w))) by (rewrite EA; apply chain_addrs_nodup; exact Nd).
  assert (VA : Forall (avalid p) (map addr (wchain pre w))).
  { rewrite EA. constructor; [exact Vb|]. apply Forall_forall. intros a Ha. apply in_map_iff in Ha.
    destruct Ha as (o & <- & Ho). exact (Vo o Ho). }
  pose proof (wi_ok _ _ _ _ W) as OkW. rewrite wchain_app in *. rewrite map_app in NdA, VA.
  apply Forall_app in VA. destruct VA as [_ VA]. apply Forall_app in OkW. destruct OkW as [_ OkW].
  destruct (NoDup_app_inv _ _ NdA) as (_ & NdW & Dis).
  rewrite swr_write_fold. set (Wl := rev (sw_prev w) ++ [sw_cur w]).
  assert (PW : Permutation Wl (whandles w)) by apply perm_rev_snoc.
  pose proof (Permutation_map addr PW) as PA.
  assert (OkL : Forall (fun h => bucket_ok (bh_b h)) Wl).
  { exact (Permutation_Forall (Permutation_sym PW) OkW). }
  pose proof (grows_writes Wl p OkL) as G.
  split; [|split].
  - apply (grows_incl (map addr Wl)); [|exact G]. intros a. exact (Permutation_in _ PA).
  - intros V. apply accounted_writes.
  - apply Forall_app. split.
    + apply Forall_forall. intros h Hh.
      apply (g_reads _ _ _ G); [exact (proj1 (Forall_forall _ _) Rp h Hh)|].
      intros Hc. exact (Dis _ (in_map addr _ _ Hh) (Permutation_in _ PA Hc)).
    + apply (Permutation_Forall PW). apply writes_read; [| |exact OkL].
      * exact (Permutation_NoDup (Permutation_sym PA) NdW).
      * exact (Permutation_Forall (Permutation_sym PA) VA).
Qed.

Definition px_put_core_res (c : pindex) (sl : slot) (m : slot -> bool) := px_put_core c sl m.

Lemma last_app_single {A} (l : list A) x d : last (l ++ [x]) d = x.
Proof. induction l as [|a l IH]; [reflexivity|]. cbn [app]. destruct (l ++ [x]) eqn:E; [destruct l; discriminate|exact IH]. Qed.

Lemma exists_last' {A} (l : list A) : l <> [] -> exists l' x, l = l' ++ [x].
Proof. intros H. destruct (exists_last H) as (l' & x & E). exists l', x. exact E. Qed.

(* the chain is full: slotWriter.insert links a new overflow bucket behind its last bucket *)
Lemma append_bucket p HS i Hinit hl sl :
  InvW p HS -> (i < length HS)%nat -> nth i HS [] = Hinit ++ [hl] -> length (hlive hl) = 31%nat -> nz sl ->
  let r := swr_insert p (mk_writer hl 31) sl in
  exists A H', hchain H' = sw_insert sl (hchain (Hinit ++ [hl])) /\
    InvW (swr_write (fst r) (snd r)) (lupd i H' HS) /\ grows A p (swr_write (fst r) (snd r)).
Proof.
  intros HI Hi En Hfull Hnz.
  destruct (InvW_focus p HS i HI Hi) as (R & P1 & _ & P3).
  pose proof (InvW_wl _ _ _ HI Hi) as [D C Rd]. pose proof (InvW_handles_ok _ _ _ HI Hi) as OkH.
  rewrite En in P1, D, C, Rd, OkH.
  assert (W0 : WInv (bucket_off (N.of_nat i)) Hinit (mk_writer hl 31) (hchain (Hinit ++ [hl]))).
  { constructor; unfold wchain; cbn [mk_writer sw_cur sw_idx sw_prev]; rewrite ?app_nil_r; auto. }
  destruct (swr_insert_step p _ sl _ _ _ _ W0 Hnz P1) as (al & W1 & Eo & P' & G1).
  unfold woffs at 2, wchain in Eo. cbn [mk_writer sw_cur sw_prev] in Eo. rewrite app_nil_r in Eo.
  rewrite <- app_assoc, <- Eo in P'. cbn zeta.
  set (p1 := fst (swr_insert p (mk_writer hl 31) sl)) in *.
  set (w1 := snd (swr_insert p (mk_writer hl 31) sl)) in *.
  apply Forall_app in Rd. destruct Rd as [Rd _].
  destruct (commit p1 w1 _ Hinit _ W1) as (G2 & A2 & Rd2).
  { eapply Forall_impl; [|exact Rd]. intros h Rh. exact (g_reads _ _ _ G1 h Rh (fun X => X)). }
  { apply (grows_valid _ _ _ _ G1). unfold avalid. cbn [fst snd]. apply pb_read_in_range.
    rewrite nlen_length, <- (proj1 (proj2 (proj2 (proj2 HI)))). lia. }
  { exact (proj1 (proj2 (NoDup_app_inv _ _ (accounted_NoDup _ _ P')))). }
  { intros o Ho. apply (accounted_valid _ _ o P'). apply in_or_app. right. exact Ho. }
  pose proof (grows_trans _ _ _ _ _ G1 G2) as G.
  exists ([] ++ map addr (whandles w1)), (wchain Hinit w1).
  split; [exact (wi_chain _ _ _ _ W1)|]. split; [|exact G].
  apply (InvW_replace _ p _ HS i _ HI Hi G).
  - intros a Ha. rewrite wchain_app, map_app. apply in_or_app. right. exact Ha.
  - exact (WInv_wl _ _ _ _ _ W1 Rd2).
  - apply P3, A2. exact P'.
Qed.

(* slotWriter.insert and slotWriter.write of a fresh writer below slot 31: one bucket is rewritten *)
Lemma put_in_place p h j sl : (j < 31)%nat ->
  swr_write (fst (swr_insert p (mk_writer h j) sl)) (snd (swr_insert p (mk_writer h j) sl)) =
    write_bh p (bh_set_slot h j sl).
Proof.
  intros Hj. unfold swr_insert. cbn [mk_writer sw_idx sw_cur sw_prev].
  destruct (Nat.eqb_spec j 31) as [E|_]; [lia|]. reflexivity.
Qed.

Lemma wl_nonnil p i H : wl p i H -> H <> [].
Proof. intros [D _ _] ->. discriminate D. Qed.

Lemma put_core_sim p c sl m HS : Sim p c HS -> PInv c -> nz sl ->
  exists p1 HS1, ph_put_core p sl m = Some (p1, snd (px_put_core c sl m)) /\
                 Sim p1 (fst (px_put_core c sl m)) HS1.
Proof.
  intros S HP Hnz. unfold ph_put_core, px_put_core, chain_put.
  destruct (sim_home _ _ _ (sl_h sl) S HP) as (-> & Hb & Hn & W & C). rewrite W.
  set (b := px_bidx c (sl_h sl)) in *. set (f := hit (sl_h sl) m).
  pose proof S as (HI & _ & _ & R3 & _).
  set (H := nth (N.to_nat b) HS []) in *.
  pose proof (InvW_handles_ok p HS _ HI Hn) as OkH. fold H in OkH.
  pose proof (wl_nonnil _ _ _ (ph_walk_wl _ _ _ W)) as Hne.
  (* numKeys++ on both sides *)
  assert (Inc : forall A p' H', InvW p' (lupd (N.to_nat b) H' HS) -> grows A p p' ->
            Sim (set_nkeys p' (ph_nkeys p' + 1)) (px_set c b (hchain H') (px_nkeys c + 1))
                (lupd (N.to_nat b) H' HS)).
  { intros A p' H' HI' G. rewrite (g_nkeys _ _ _ G), R3.
    exact (Sim_set_nkeys _ _ _ _ (Sim_chain_set A p c HS p' b H' S HI' G)). }
  destruct (hit_loop f H) as [[[hb j] s]|] eqn:El.
  - (* the key is in the chain: overwrite *)
    destruct (subst_sim p c HS b f (fun _ => [sl]) j s hb (lupd j sl) S Hb El) as (cc & HS' & Ec & S').
    { intros l1 r next <- N1 Ns Ok. cbn [app]. apply set_slot_hit; assumption. }
    rewrite (find_ins_hit f H None hb j s El), Ec. cbn [fst snd].
    destruct (hit_loop_some f (fun _ => [sl]) _ _ _ _ El) as (H1 & H2 & l1 & r & EH & Es & _ & _ & Ej & _).
    assert (Hj : (j < 31)%nat).
    { rewrite EH, Forall_forall in OkH. destruct (OkH hb (in_elt _ _ _)) as [L _].
      rewrite Es, app_length in L. cbn [length] in L. clear - L Ej. lia. }
    rewrite (put_in_place p hb j sl Hj). eexists _, HS'. split; [reflexivity|]. exact S'.
  - destruct (hit_loop_none f (fun _ => [sl]) H El) as [Ec _]. rewrite C, Ec. cbn [fst snd].
    rewrite (find_ins_miss f H None El Hne OkH).
    destruct (free_writer H) as [w|] eqn:Ef.
    + (* a free slot in some bucket of the chain *)
      destruct (free_writer_some H w Ef) as (H1 & hf & H2 & EH & -> & Lf & Ins).
      rewrite (put_in_place p hf _ sl Lf).
      set (hf' := bh_set_slot hf (length (hlive hf)) sl).
      assert (Okf : bucket_ok (bh_b hf)).
      { rewrite EH, Forall_forall in OkH. apply OkH, in_elt. }
      destruct (set_slot_free (bh_b hf) sl Okf Lf Hnz) as [Ok' Live'].
      eexists _, _. split; [reflexivity|].
      replace (insert_free sl (hchain H)) with (hchain (H1 ++ hf' :: H2)).
      * exact (Inc _ _ _ (single_write p HS _ H1 hf H2 hf' HI Hn EH eq_refl Ok') (grows_write p hf' Ok')).
      * rewrite Ins, hchain_app. cbn [hchain map]. do 2 f_equal. exact Live'.
    + (* every bucket is full: a new overflow bucket *)
      destruct (exists_last' H Hne) as (Hinit & hl & EH). rewrite EH, last_app_single.
      pose proof (free_writer_none H OkH Ef) as Full. rewrite EH in Full.
      destruct (append_bucket p HS _ Hinit hl sl HI Hn EH) as (A & H' & Ech & HI' & G).
      { rewrite hchain_app in Full. apply Forall_app in Full. destruct Full as [_ Full].
        inversion Full as [|b_ l_ Lb _]; subst b_ l_. exact Lb. }
      { exact Hnz. }
      cbn zeta in HI', G. eexists _, _. split; [reflexivity|].
      rewrite (insert_free_full sl _ Full), <- Ech. exact (Inc _ _ _ HI' G).
Qed.

Lemma split_fold_fst lv sp ub H : forall st fr,
  fst (fold_left (split_bucket lv sp ub) H (st, fr)) =
    fold_left (split_body lv sp ub) (concat (hchain H)) st.
Proof.
  induction H as [|h H IH]; intros st fr; [reflexivity|].
  cbn [fold_left hchain map concat]. rewrite fold_left_app. unfold split_bucket at 2.
  cbn [fst snd]. rewrite IH. reflexivity.
Qed.

(* the offsets remembered by the bucket loop: every b.next <> 0, in order *)
Lemma split_fold_snd lv sp ub hs : forall h0 st fr, chained (pb_next (bh_b h0)) hs ->
  snd (fold_left (split_bucket lv sp ub) (h0 :: hs) (st, fr)) = fr ++ map bh_off hs.
Proof.
  induction hs as [|h hs IH]; intros h0 st fr C; cbn [chained] in C.
  - cbn [fold_left]. unfold split_bucket. cbn [fst snd map]. rewrite C. cbn [N.eqb].
    rewrite app_nil_r. reflexivity.
  - destruct C as (C1 & C2 & C3 & C4).
    change (fold_left (split_bucket lv sp ub) (h0 :: h :: hs) (st, fr))
      with (fold_left (split_bucket lv sp ub) (h :: hs) (split_bucket lv sp ub (st, fr) h0)).
    unfold split_bucket at 2. cbn [fst snd].
    destruct (N.eqb_spec (pb_next (bh_b h0)) 0) as [E|_]; [congruence|].
    rewrite (IH h _ _ C4). cbn [map]. rewrite <- app_assoc, C1. reflexivity.
Qed.

Lemma perm_mid {A} (a b c d : list A) : Permutation ((a ++ b ++ c) ++ d) (a ++ (b ++ d) ++ c).
Proof. rewrite <- !app_assoc. do 2 apply Permutation_app_head. apply Permutation_app_comm. Qed.

(* the state of the slot loop: two writers, the allocations of both accounted for behind U0 *)
Record SplitSt (p2 : phys) (U0 : list N) (ou on : N)
               (st : phys * swriter * swriter) (ab : chain * chain) : Prop := {
  ss_upd : WInv ou [] (snd (fst st)) (fst ab);
  ss_sw : WInv on [] (snd st) (snd ab);
  ss_acc : accounted (U0 ++ woffs [] (snd (fst st)) ++ woffs [] (snd st)) (fst (fst st));
  ss_grows : grows [] p2 (fst (fst st))
}.

Lemma split_slots_inv p2 U0 ou on lv sp ub l : forall st ab, Forall nz l ->
  SplitSt p2 U0 ou on st ab ->
  SplitSt p2 U0 ou on (fold_left (split_body lv sp ub) l st) (fold_left (split_step lv sp ub) l ab).
Proof.
  induction l as [|s l IH]; intros st ab Hl S; [exact S|].
  inversion Hl as [|s_ l_ Hs Hl']; subst s_ l_. cbn [fold_left]. apply IH; [exact Hl'|].
  destruct st as [[p upd] sw]. destruct ab as [cu cn]. destruct S as [S1 S2 S3 S4].
  cbn [fst snd] in *. unfold split_body, split_step. cbn [fst snd].
  destruct (bucket_index lv sp (sl_h s) =? ub).
  - destruct (swr_insert_step p upd s _ ou [] cu S1 Hs S3) as (al & W' & Eo & P' & G).
    constructor; cbn [fst snd]; [exact W'|exact S2| |exact (grows_trans [] [] _ _ _ S4 G)].
    rewrite Eo. revert P'. apply accounted_perm, perm_mid.
  - destruct (swr_insert_step p sw s _ on [] cn S2 Hs S3) as (al & W' & Eo & P' & G).
    constructor; cbn [fst snd]; [exact S1|exact W'| |exact (grows_trans [] [] _ _ _ S4 G)].
    rewrite Eo, !app_assoc. rewrite !app_assoc in P'. exact P'.
Qed.

Lemma fresh_writer_WInv off : WInv off [] (fresh_main_writer off) [[]].
Proof.
  constructor; unfold wchain, fresh_main_writer, mk_writer; cbn [sw_idx sw_cur sw_prev app];
    try reflexivity. constructor; [apply empty_pb_ok|constructor].
Qed.

Lemma hchain_nz H : Forall nz (concat (hchain H)).
Proof.
  induction H as [|h H IH]; cbn [hchain map concat]; [constructor|].
  apply Forall_app. split; [apply dense_nz|exact IH].
Qed.

(* index.split after the walk H of the split chain, with the free list F0 during the loop and the
   offsets FE appended to the free list after the loop.  index.split itself: F0 = the free list,
   FE = the overflow offsets of H. *)
Definition split_result (p : phys) (H : list bhandle) (F0 FE : list N) : phys :=
  let ub := ph_split p in
  let adv := advance (ph_level p) ub in
  let p2 := set_free (set_ptr (set_main p (ph_main p ++ [empty_pb])) (fst adv) (snd adv)) F0 in
  let st := fold_left (split_body (fst adv) (snd adv) ub) (concat (hchain H))
              (p2, fresh_main_writer (bucket_off ub), fresh_main_writer (bucket_off (nlen (ph_main p)))) in
  let p4 := set_free (fst (fst st)) (ph_free (fst (fst st)) ++ FE) in
  let p6 := swr_write (swr_write p4 (snd st)) (snd (fst st)) in
  set_nbuckets p6 (ph_nbuckets p6 + 1).

(* before the loop: the offsets FE count as in use, F0 is the free list *)
Lemma perm_split_start {A} (R FE F0 fr oh l : list A) :
  Permutation (F0 ++ FE) (fr ++ oh) -> Permutation ((R ++ oh) ++ fr) l ->
  Permutation (((R ++ FE) ++ [] ++ []) ++ F0) l.
Proof.
  intros HF <-. rewrite !app_nil_r, <- !app_assoc. apply Permutation_app_head.
  rewrite (Permutation_app_comm FE F0), HF. apply Permutation_app_comm.
Qed.

(* after the loop: FE goes to the free list *)
Lemma perm_split_end {A} (R FE wu ws f l : list A) :
  Permutation (((R ++ FE) ++ wu ++ ws) ++ f) l -> Permutation ((R ++ wu ++ ws) ++ f ++ FE) l.
Proof.
  intros <-. rewrite <- !app_assoc. apply Permutation_app_head.
  rewrite (Permutation_app_comm FE), <- !app_assoc. reflexivity.
Qed.

Lemma split_core p c HS F0 FE : Sim p c HS -> PInv c ->
  Permutation (F0 ++ FE) (ph_free p ++ offs_of (nth (N.to_nat (ph_split p)) HS [])) ->
  exists HS', Sim (split_result p (nth (N.to_nat (ph_split p)) HS []) F0 FE) (px_dosplit c) HS'.
Proof.
  intros SS HP HF. pose proof SS as (HI & R1 & R2 & R3 & R4).
  pose proof HI as (I1 & _ & _ & I4 & _).
  destruct (sim_nbuckets _ _ _ SS) as [Nb1 Nb2].
  assert (Hub : ph_split p < ph_nbuckets p).
  { rewrite R2, Nb1. apply PInv_split_lt. exact HP. }
  destruct (sim_walk _ _ _ _ SS Hub) as (Hn & _ & C).
  assert (Hm : ph_split p < nlen (ph_main p)) by (rewrite I1; exact Hub).
  unfold split_result, px_dosplit.
  set (ub := ph_split p) in *. set (i := N.to_nat ub) in *. set (H := nth i HS []) in *.
  destruct (InvW_focus p HS i HI Hn) as (R & P1 & P2 & _). fold H in P1.
  rewrite <- R1, <- R2. fold ub.
  set (adv := advance (ph_level p) ub). set (n := nlen (ph_main p)).
  set (p2 := set_free (set_ptr (set_main p (ph_main p ++ [empty_pb])) (fst adv) (snd adv)) F0).
  assert (S0 : SplitSt p2 (R ++ FE) (bucket_off ub) (bucket_off n)
                 (p2, fresh_main_writer (bucket_off ub), fresh_main_writer (bucket_off n)) ([[]], [[]])).
  { constructor; cbn [fst snd]; [apply fresh_writer_WInv|apply fresh_writer_WInv| |apply grows_refl].
    exact (perm_split_start _ _ _ _ _ _ HF P1). }
  pose proof (split_slots_inv p2 _ _ _ (fst adv) (snd adv) ub (concat (hchain H)) _ _
                (hchain_nz H) S0) as S1.
  rewrite C.
  set (ab := fold_left (split_step (fst adv) (snd adv) ub) (concat (hchain H)) ([[]], [[]])) in *.
  destruct (fold_left (split_body (fst adv) (snd adv) ub) (concat (hchain H))
              (p2, fresh_main_writer (bucket_off ub), fresh_main_writer (bucket_off n)))
    as [[p3 upd'] sw']. cbn [fst snd] in *.
  destruct S1 as [Su Sn SP G3]. cbn [fst snd] in *.
  set (p4 := set_free p3 (ph_free p3 ++ FE)).
  pose proof (grows_trans _ _ _ _ _ G3 (grows_set_free p3 (ph_free p3 ++ FE))) as G4. fold p4 in G4.
  assert (Ok4 : files_ok p4).
  { apply (g_ok _ _ _ G4). destruct (InvW_ok _ _ HI) as [Om Oo]. split; [|exact Oo].
    apply Forall_app. split; [exact Om|]. constructor; [apply empty_pb_ok|constructor]. }
  assert (Vn : avalid p4 (true, bucket_off n)).
  { apply (grows_valid _ _ _ _ G4). unfold avalid. cbn [fst snd p2 set_free set_ptr set_main ph_main].
    unfold n. rewrite pb_read_app_new. discriminate. }
  assert (Vu : avalid p4 (true, bucket_off ub)).
  { apply (grows_valid _ _ _ _ G4). unfold avalid. cbn [fst snd p2 set_free set_ptr set_main ph_main].
    rewrite pb_read_app by (apply pb_read_in_range; exact Hm). apply pb_read_in_range. exact Hm. }
  (* the overflow offsets of the two writers: all different, all in the file *)
  destruct (NoDup_app_inv _ _ (accounted_NoDup _ _ SP)) as (_ & NdW & _).
  destruct (NoDup_app_inv _ _ NdW) as (Ndu & Nds & Dus).
  assert (Vo : forall o, In o (woffs [] upd' ++ woffs [] sw') -> avalid p4 (false, o)).
  { intros o Ho. apply (accounted_valid _ _ o SP). apply in_or_app. right. exact Ho. }
  (* sw.write(), updatedBucket.write() *)
  destruct (commit p4 sw' _ [] _ Sn (Forall_nil _) Vn Nds
              (fun o Ho => Vo o (in_or_app _ _ _ (or_intror Ho)))) as (G5 & A5 & Rd5).
  set (p5 := swr_write p4 sw') in *.
  destruct (commit p5 upd' _ [] _ Su (Forall_nil _) (grows_valid _ _ _ _ G5 Vu) Ndu
              (fun o Ho => grows_valid _ _ _ _ G5 (Vo o (in_or_app _ _ _ (or_introl Ho)))))
    as (G6 & A6 & Rd6).
  set (p6 := swr_write p5 upd') in *.
  pose proof (grows_trans _ _ _ _ _ (grows_trans _ _ _ _ _ G4 G5) G6) as G. cbn [app] in G.
  pose proof (WInv_wl p6 ub [] upd' _ Su Rd6) as Wu.
  pose proof (WInv_wl p5 n [] sw' _ Sn Rd5) as Ws5.
  assert (Ws : wl p6 n (wchain [] sw')).
  { apply (wl_frame p5 _ _ _ Ws5), Forall_forall. intros h Hh.
    apply (g_reads _ _ _ G6); [exact (proj1 (Forall_forall _ _) Rd5 h Hh)|]. intros Hc.
    apply (walks_disjoint _ _ _ _ _ _ (addr h) Ws5 Wu);
      [exact (not_eq_sym (N.lt_neq _ _ Hm))| |apply in_map; exact Hh|exact Hc].
    intros o Os Ou. exact (Dus o Ou Os). }
  set (p' := set_nbuckets p6 (ph_nbuckets p6 + 1)).
  assert (HI' : InvW p' (lupd i (wchain [] upd') HS ++ [wchain [] sw'])).
  { apply (InvW_update p p' HS i _ [wchain [] sw']); try assumption.
    - cbn [p' set_nbuckets ph_main ph_nbuckets]. rewrite nlen_length, (g_main _ _ _ G), (g_nbuckets _ _ _ G).
      cbn [p2 set_free set_ptr set_main ph_main ph_nbuckets]. rewrite app_length, <- I1, nlen_length. cbn [length].
      clear. lia.
    - cbn [p' set_nbuckets ph_main]. rewrite (g_main _ _ _ G).
      cbn [p2 set_free set_ptr set_main ph_main]. rewrite app_length. reflexivity.
    - apply (g_ok _ _ _ G5), (g_ok _ _ _ G6) in Ok4. exact Ok4.
    - intros h Rh Hx. apply (g_reads _ _ _ G).
      + exact (hreads_ext p p2 [empty_pb] [] h eq_refl (eq_sym (app_nil_r _)) Rh).
      + intros Hc. apply in_app_or in Hc. destruct Hc as [Hc|Hc].
        * exact (Hx _ (or_intror (or_introl eq_refl)) Hc).
        * exact (Hx _ (or_introl eq_refl) Hc).
    - unfold i. rewrite N2Nat.id. exact (wl_frame p6 p' _ _ Wu (wl_reads _ _ _ Wu)).
    - intros k Hk. apply Nat.lt_1_r in Hk. subst k. cbn [nth].
      rewrite Nat.add_0_r, I4, <- nlen_length. exact (wl_frame p6 p' _ _ Ws (wl_reads _ _ _ Ws)).
    - apply P2. cbn [map concat]. rewrite app_nil_r. apply A6, A5. exact (perm_split_end _ _ _ _ _ _ SP). }
  eexists. split; [exact HI'|].
  cbn [p' set_nbuckets ph_level ph_split ph_nkeys px_level px_split px_nkeys px_chains].
  rewrite (g_level _ _ _ G), (g_split _ _ _ G), (g_nkeys _ _ _ G).
  cbn [p2 set_free set_ptr set_main ph_level ph_split ph_nkeys].
  split; [reflexivity|]. split; [reflexivity|]. split; [exact R3|].
  rewrite map_app, map_lupd, R4. cbn [map].
  rewrite (wi_chain _ _ _ _ Su), (wi_chain _ _ _ _ Sn). reflexivity.
Qed.

(* the walk of the split chain is not disturbed by main.extend and the pointer advance *)
Lemma split_walk p c HS p2 : Sim p c HS -> PInv c ->
  ph_main p2 = ph_main p ++ [empty_pb] -> ph_over p2 = ph_over p ->
  ph_walk p2 (ph_split p) = Some (nth (N.to_nat (ph_split p)) HS []) /\
  exists h0 hs, nth (N.to_nat (ph_split p)) HS [] = h0 :: hs /\ chained (pb_next (bh_b h0)) hs.
Proof.
  intros SS HP Em Eo. pose proof SS as (HI & R1 & R2 & R3 & R4).
  destruct (sim_nbuckets _ _ _ SS) as [Nb1 Nb2].
  assert (Hub : ph_split p < ph_nbuckets p).
  { rewrite R2, Nb1. apply PInv_split_lt. exact HP. }
  destruct (sim_walk _ _ _ _ SS Hub) as (Hn & W & C).
  destruct (InvW_focus p HS _ HI Hn) as (R & P1 & _).
  pose proof (ph_walk_wl _ _ _ W) as WH. split.
  - apply wl_walk; [|exact (proj1 (proj2 (NoDup_app_inv _ _ (accounted_NoDup _ _ P1))))].
    apply (wl_frame p _ _ _ WH). eapply Forall_impl; [|exact (wl_reads _ _ _ WH)].
    intros h. apply (hreads_ext p _ [empty_pb] []); [exact Em|rewrite app_nil_r; exact Eo].
  - destruct WH as [_ Ch _]. destruct (nth (N.to_nat (ph_split p)) HS []) as [|h0 hs]; [destruct Ch|].
    exists h0, hs. auto.
Qed.

Lemma split_sim p c HS : Sim p c HS -> PInv c -> exists HS', Sim (ph_dosplit p) (px_dosplit c) HS'.
Proof.
  intros SS HP.
  destruct (split_walk p c HS
              (set_ptr (set_main p (ph_main p ++ [empty_pb])) (fst (advance (ph_level p) (ph_split p)))
                 (snd (advance (ph_level p) (ph_split p)))) SS HP eq_refl eq_refl)
    as (W2 & h0 & hs & EH & Ch).
  assert (E : ph_dosplit p = split_result p (nth (N.to_nat (ph_split p)) HS []) (ph_free p)
                               (offs_of (nth (N.to_nat (ph_split p)) HS []))).
  { unfold ph_dosplit, split_result. rewrite W2. rewrite split_fold_fst. rewrite EH.
    rewrite (split_fold_snd _ _ _ hs h0 _ [] Ch). reflexivity. }
  rewrite E. apply split_core; [exact SS|exact HP|apply Permutation_refl].
Qed.

Lemma set_free_app_nil p : set_free p (ph_free p ++ []) = p.
Proof.
  destruct p as [a b c d e f g]. unfold set_free.
  cbn [ph_free ph_level ph_split ph_nkeys ph_nbuckets ph_main ph_over]. rewrite app_nil_r. reflexivity.
Qed.

(* FINDING: freeing the old overflow buckets of the chain BEFORE the re-insertion is equally
   correct (in every state, for every chain): the slot writers only write after the loop. *)
Lemma split_early_free_sim p c HS : Sim p c HS -> PInv c ->
  exists HS', Sim (PhysVariants.ph_dosplit_early_free p) (px_dosplit c) HS'.
Proof.
  intros SS HP.
  destruct (split_walk p c HS
              (set_ptr (set_main p (ph_main p ++ [empty_pb])) (fst (advance (ph_level p) (ph_split p)))
                 (snd (advance (ph_level p) (ph_split p)))) SS HP eq_refl eq_refl)
    as (W2 & h0 & hs & EH & Ch).
  assert (E : PhysVariants.ph_dosplit_early_free p =
              split_result p (nth (N.to_nat (ph_split p)) HS [])
                (ph_free p ++ offs_of (nth (N.to_nat (ph_split p)) HS [])) []).
  { unfold PhysVariants.ph_dosplit_early_free, split_result. rewrite W2. rewrite split_fold_fst.
    rewrite set_free_app_nil. reflexivity. }
  rewrite E. apply split_core; [exact SS|exact HP|]. rewrite app_nil_r. apply Permutation_refl.
Qed.

(* index.put over any split function D that simulates px_dosplit *)
Lemma put_sim_gen (D : phys -> phys) (grow : N -> N -> bool) p c sl m :
  (forall p c HS, Sim p c HS -> PInv c -> exists HS', Sim (D p) (px_dosplit c) HS') ->
  PhysInv p -> R_phys p c -> PInv c -> sl_off sl <> 0 ->
  let r : phys * option slot := match ph_put_core p sl m with
           | None => (p, None)
           | Some (p1, Some o) => (p1, Some o)
           | Some (p1, None) => (if grow (ph_nkeys p1) (ph_nbuckets p1) then D p1 else p1, None)
           end in
  snd r = snd (px_put grow c sl m) /\ R_phys (fst r) (fst (px_put grow c sl m)) /\ PhysInv (fst r).
Proof.
  intros HD HI HR HP Hnz. destruct (sim_intro _ _ HI HR) as [HS SS].
  destruct (put_core_sim p c sl m HS SS HP Hnz) as (p1 & HS1 & E & S1).
  unfold px_put, px_put_with. rewrite E.
  destruct (px_put_core c sl m) as [c1 o1] eqn:Ec. cbn [fst snd] in *.
  destruct (px_put_core_spec _ _ _ _ _ HP Ec) as (HP1 & _).
  destruct o1 as [o|]; cbn [fst snd].
  - split; [reflexivity|]. apply sim_elim in S1. tauto.
  - split; [reflexivity|].
    assert (Eg : grow (ph_nkeys p1) (ph_nbuckets p1) = grow (px_nkeys c1) (nlen (px_chains c1))).
    { rewrite (proj1 (sim_nbuckets _ _ _ S1)). destruct S1 as (_ & _ & _ & -> & _). reflexivity. }
    rewrite Eg. destruct (grow (px_nkeys c1) (nlen (px_chains c1))).
    + destruct (HD _ _ _ S1 HP1) as [HS2 S2]. apply sim_elim in S2. tauto.
    + apply sim_elim in S1. tauto.
Qed.

Theorem phys_put_sim grow p c sl m : PhysInv p -> R_phys p c -> PInv c -> sl_off sl <> 0 ->
  snd (ix_put phys_ops grow p sl m) = snd (ix_put chain_ops grow c sl m) /\
  R_phys (fst (ix_put phys_ops grow p sl m)) (fst (ix_put chain_ops grow c sl m)) /\
  PhysInv (fst (ix_put phys_ops grow p sl m)).
Proof. exact (put_sim_gen ph_dosplit grow p c sl m split_sim). Qed.

(* index.split alone *)
Theorem phys_split_sim p c : PhysInv p -> R_phys p c -> PInv c ->
  R_phys (ph_dosplit p) (px_dosplit c) /\ PhysInv (ph_dosplit p).
Proof.
  intros HI HR HP. destruct (sim_intro _ _ HI HR) as [HS SS].
  destruct (split_sim _ _ _ SS HP) as [HS2 S2]. apply sim_elim in S2. tauto.
Qed.

(* FINDING: the order "allocate the new overflow buckets, THEN free the old ones" of index.split is
   not needed: the variant that frees first simulates the same chain index and keeps PhysInv, in
   every state (it may pick different offsets and does not grow the file; see PhysRun.z72_split). *)
Theorem phys_split_early_free_sim p c : PhysInv p -> R_phys p c -> PInv c ->
  R_phys (PhysVariants.ph_dosplit_early_free p) (px_dosplit c) /\
  PhysInv (PhysVariants.ph_dosplit_early_free p).
Proof.
  intros HI HR HP. destruct (sim_intro _ _ HI HR) as [HS SS].
  destruct (split_early_free_sim _ _ _ SS HP) as [HS2 S2]. apply sim_elim in S2. tauto.
Qed.

Theorem phys_put_early_free_sim grow p c sl m : PhysInv p -> R_phys p c -> PInv c -> sl_off sl <> 0 ->
  snd (PhysVariants.ph_put_early_free grow p sl m) = snd (px_put grow c sl m) /\
  R_phys (fst (PhysVariants.ph_put_early_free grow p sl m)) (fst (px_put grow c sl m)) /\
  PhysInv (fst (PhysVariants.ph_put_early_free grow p sl m)).
Proof. exact (put_sim_gen PhysVariants.ph_dosplit_early_free grow p c sl m split_early_free_sim). Qed.

Lemma PhysInv_walks p : PhysInv p ->
  nlen (ph_main p) = ph_nbuckets p /\
  forall i, i < ph_nbuckets p -> exists H, ph_walk p i = Some H.
Proof.
  intros (HS & I1 & _ & _ & I4 & I5 & _). split; [exact I1|]. intros i Hi.
  exists (nth (N.to_nat i) HS []). rewrite <- (N2Nat.id i) at 1. apply I5.
  rewrite I4. rewrite <- I1, nlen_length in Hi. lia.
Qed.

(* every bucket array has 31 slots, the live ones first and every live slot has offset <> 0 *)
Theorem PhysInv_buckets p b : PhysInv p -> In b (ph_main p ++ ph_over p) ->
  length (pb_slots b) = 31%nat /\
  pb_slots b = pb_live b ++ repeat empty_slot (31 - length (pb_live b)) /\
  Forall (fun s => sl_off s <> 0) (pb_live b).
Proof.
  intros (HS & _ & I2 & I3 & _) Hb.
  assert (Ok : bucket_ok b).
  { apply in_app_or in Hb. destruct Hb as [Hb|Hb];
      [rewrite Forall_forall in I2; exact (I2 _ Hb)|rewrite Forall_forall in I3; exact (I3 _ Hb)]. }
  destruct Ok as [L E]. split; [exact L|]. split; [exact E|apply dense_nz].
Qed.

(* the overflow offsets reachable from the chains (in chain order), if every walk succeeds *)
Fixpoint all_walks (p : phys) (n : nat) : option (list (list bhandle)) :=
  match n with
  | O => Some []
  | S n' => match all_walks p n', ph_walk p (N.of_nat n') with
            | Some l, Some H => Some (l ++ [H])
            | _, _ => None
            end
  end.

Lemma all_walks_spec p HS : forall n, (n <= length HS)%nat ->
  (forall i, (i < length HS)%nat -> ph_walk p (N.of_nat i) = Some (nth i HS [])) ->
  all_walks p n = Some (firstn n HS).
Proof.
  induction n as [|n IH]; intros Hn W; [reflexivity|]. cbn [all_walks].
  rewrite IH by (try lia; exact W). rewrite W by lia. f_equal.
  clear - Hn. revert n Hn. induction HS as [|H0 HS IH]; intros n Hn; cbn [length] in Hn; [lia|].
  destruct n as [|n]; [reflexivity|]. cbn [firstn nth app]. f_equal. apply IH. lia.
Qed.

Lemma all_walks_sound p : forall n HS, all_walks p n = Some HS ->
  length HS = n /\ forall i, (i < n)%nat -> ph_walk p (N.of_nat i) = Some (nth i HS []).
Proof.
  induction n as [|n IH]; intros HS; cbn [all_walks].
  - intros E. injection E as <-. split; [reflexivity|]. intros i Hi. lia.
  - destruct (all_walks p n) as [l|] eqn:El; [|discriminate].
    destruct (ph_walk p (N.of_nat n)) as [H|] eqn:Ew; [|discriminate].
    intros E. injection E as <-. destruct (IH l eq_refl) as [L W]. split.
    + rewrite app_length. cbn [length]. lia.
    + intros i Hi. destruct (Nat.eq_dec i n) as [->|Hne].
      * rewrite app_nth2 by lia. rewrite L, Nat.sub_diag. exact Ew.
      * rewrite app_nth1 by lia. apply W. lia.
Qed.

Definition reachable (p : phys) : option (list N) :=
  option_map (fun HS => concat (map offs_of HS)) (all_walks p (length (ph_main p))).

(* no overflow bucket is shared, every next / free-list entry is a valid offset, chains are
   acyclic, nothing leaks: reachable offsets ++ free list is a duplicate-free enumeration of ALL
   the buckets of overflow.pix *)
Theorem PhysInv_overflow p : PhysInv p ->
  exists offs, reachable p = Some offs /\
    NoDup (offs ++ ph_free p) /\
    (forall o, In o (offs ++ ph_free p) <-> exists j, o = bucket_off j /\ j < nlen (ph_over p)) /\
    nlen (ph_over p) = nlen offs + nlen (ph_free p).
Proof.
  intros (HS & HI). pose proof HI as (_ & _ & _ & I4 & I5 & I6).
  exists (concat (map offs_of HS)). split.
  - unfold reachable. rewrite <- I4. rewrite (all_walks_spec p HS _ (Nat.le_refl _) I5).
    rewrite firstn_all. reflexivity.
  - split; [exact (InvW_NoDup _ _ HI)|]. split; [|exact (InvW_count _ _ HI)].
    intros o. split; [apply (InvW_valid _ _ _ HI)|]. intros (j & -> & Hj). exact (InvW_no_leak _ _ _ HI Hj).
Qed.

Definition slot_eq_dec (a b : slot) : {a = b} + {a <> b}.
Proof. decide equality; apply N.eq_dec. Defined.

Definition slots_eqb (a b : list slot) : bool := if list_eq_dec slot_eq_dec a b then true else false.

Definition bucket_ok_b (b : pbucket) : bool :=
  (length (pb_slots b) =? 31)%nat && slots_eqb (pb_slots b) (pad_slots (pb_live b)).

Lemma bucket_ok_b_ok b : bucket_ok_b b = true -> bucket_ok b.
Proof.
  unfold bucket_ok_b, bucket_ok, slots_eqb. rewrite andb_true_iff, Nat.eqb_eq.
  destruct (list_eq_dec slot_eq_dec (pb_slots b) (pad_slots (pb_live b))); [tauto|].
  intros [_ H]. discriminate.
Qed.

(* is l a permutation of the duplicate-free list r?  (same length, every element of r in l) *)
Definition perm_b (l r : list N) : bool :=
  (length l =? length r)%nat && forallb (fun x => existsb (N.eqb x) l) r.

Lemma perm_b_ok l r : NoDup r -> perm_b l r = true -> Permutation l r.
Proof.
  unfold perm_b. rewrite andb_true_iff, Nat.eqb_eq, forallb_forall. intros Nd [L F].
  apply Permutation_sym. apply NoDup_Permutation_bis; [exact Nd|lia|].
  intros x Hx. specialize (F x Hx). apply existsb_exists in F. destruct F as (y & Hy & E).
  apply N.eqb_eq in E. subst y. exact Hy.
Qed.

Definition phys_inv_b (p : phys) : bool :=
  (nlen (ph_main p) =? ph_nbuckets p) &&
  forallb bucket_ok_b (ph_main p) && forallb bucket_ok_b (ph_over p) &&
  match reachable p with
  | Some offs => perm_b (offs ++ ph_free p) (over_offs (length (ph_over p)))
  | None => false
  end.

Theorem phys_inv_b_ok p : phys_inv_b p = true -> PhysInv p.
Proof.
  unfold phys_inv_b, reachable. rewrite !andb_true_iff, N.eqb_eq, !forallb_forall.
  intros [[[E1 E2] E3] E4].
  destruct (all_walks p (length (ph_main p))) as [HS|] eqn:Ew; [|discriminate].
  cbn [option_map] in E4. destruct (all_walks_sound _ _ _ Ew) as [L W].
  exists HS. split; [exact E1|].
  split; [apply Forall_forall; intros b Hb; apply bucket_ok_b_ok, E2, Hb|].
  split; [apply Forall_forall; intros b Hb; apply bucket_ok_b_ok, E3, Hb|].
  split; [exact L|]. split; [rewrite L; exact W|].
  apply perm_b_ok; [apply over_offs_NoDup|exact E4].
Qed.

Definition chain_eqb (a b : chain) : bool :=
  if list_eq_dec (list_eq_dec slot_eq_dec) a b then true else false.

Definition phys_rel_b (p : phys) (c : pindex) : bool :=
  (ph_level p =? px_level c) && (ph_split p =? px_split c) && (ph_nkeys p =? px_nkeys c) &&
  (ph_nbuckets p =? nlen (px_chains c)) && (nlen (ph_main p) =? ph_nbuckets p) &&
  forallb (fun i => match ph_chain p (N.of_nat i) with
                    | Some ch => chain_eqb ch (px_chain c (N.of_nat i))
                    | None => false
                    end) (seq 0 (N.to_nat (ph_nbuckets p))).

Theorem phys_rel_b_ok p c : phys_rel_b p c = true -> R_phys p c.
Proof.
  unfold phys_rel_b, R_phys. rewrite !andb_true_iff, !N.eqb_eq, forallb_forall.
  intros [[[[[E1 E2] E3] E4] E5] E6]. repeat (split; [assumption|]).
  intros i Hi. specialize (E6 (N.to_nat i)). rewrite N2Nat.id in E6.
  assert (Hin : In (N.to_nat i) (seq 0 (N.to_nat (ph_nbuckets p)))) by (apply in_seq; lia).
  specialize (E6 Hin). destruct (ph_chain p i) as [ch|]; [|discriminate].
  unfold chain_eqb in E6.
  destruct (list_eq_dec (list_eq_dec slot_eq_dec) ch (px_chain c i)); [congruence|discriminate].
Qed.

Definition pb_wf (b : pbucket) : Prop :=
  length (pb_slots b) = 31%nat /\ Forall slot_wf (pb_slots b) /\ pb_next b < 2 ^ 64.

Lemma nlen_pb_bytes b : length (pb_slots b) = 31%nat -> nlen (pb_bytes b) = 512.
Proof. intros H. unfold pb_bytes. apply marshal_bucket_length. lia. Qed.

Lemma nlen_concat_pb_bytes bs : Forall (fun b => length (pb_slots b) = 31%nat) bs ->
  nlen (concat (map pb_bytes bs)) = 512 * nlen bs.
Proof.
  induction 1 as [|b bs Hb Hbs IH]; [reflexivity|].
  cbn [map concat]. rewrite nlen_app, nlen_pb_bytes by exact Hb. rewrite IH, nlen_cons. lia.
Qed.

Theorem file_bytes_length bs : Forall (fun b => length (pb_slots b) = 31%nat) bs ->
  nlen (file_bytes bs) = 512 * (1 + nlen bs).
Proof.
  intros H. unfold file_bytes. rewrite nlen_app, nlen_header_bytes, nlen_concat_pb_bytes by exact H. lia.
Qed.

Lemma pad_slots_full l : length l = 31%nat -> pad_slots l = l.
Proof. intros H. unfold pad_slots, slots_per_bucket. rewrite H. cbn [Nat.sub repeat]. apply app_nil_r. Qed.

Lemma unmarshal_pb_bytes b rest : pb_wf b ->
  unmarshal_bucket (pb_bytes b ++ rest) = (pb_slots b, pb_next b).
Proof.
  intros (L & Wf & Hn). rewrite pow2_64 in Hn. unfold pb_bytes, unmarshal_bucket, marshal_bucket.
  rewrite (pad_slots_full _ L). f_equal.
  - change slots_per_bucket with 31%nat. rewrite <- L, <- !app_assoc. apply slots_roundtrip. exact Wf.
  - assert (L496 : nlen (marshal_slots (pb_slots b)) = 496).
    { rewrite nlen_marshal_slots, nlen_length, L. reflexivity. }
    rewrite <- !app_assoc. rewrite (ndrop_app_exact' 496 _ _ L496).
    rewrite (ntake_app_exact' 8 (le 8 (pb_next b)) _ (nlen_le 8 (pb_next b))).
    apply unle_le8. exact Hn.
Qed.

(* the 512-byte block at the offset of bucket i decodes to bucket i *)
Theorem file_bytes_decode bs i b : Forall pb_wf bs -> nth_error bs (N.to_nat i) = Some b ->
  unmarshal_bucket (ntake 512 (ndrop (bucket_off i) (file_bytes bs))) = (pb_slots b, pb_next b) /\
  ntake 512 (ndrop (bucket_off i) (file_bytes bs)) = pb_bytes b.
Proof.
  intros Wf Hn. apply nth_error_split in Hn. destruct Hn as (l1 & l2 & -> & Ll).
  apply Forall_app in Wf. destruct Wf as [W1 W2]. inversion W2 as [|b_ l_ Wb W2']; subst b_ l_.
  assert (L1 : Forall (fun b => length (pb_slots b) = 31%nat) l1).
  { eapply Forall_impl; [|exact W1]. intros x Hx. exact (proj1 Hx). }
  assert (Ed : ndrop (bucket_off i) (file_bytes (l1 ++ b :: l2)) = pb_bytes b ++ concat (map pb_bytes l2)).
  { unfold file_bytes. rewrite map_app, concat_app. cbn [map concat]. rewrite app_assoc.
    apply ndrop_app_exact'. rewrite nlen_app, nlen_header_bytes, nlen_concat_pb_bytes by exact L1.
    unfold bucket_off. rewrite nlen_length. lia. }
  assert (Et : ntake 512 (ndrop (bucket_off i) (file_bytes (l1 ++ b :: l2))) = pb_bytes b).
  { rewrite Ed. apply ntake_app_exact'. apply nlen_pb_bytes. exact (proj1 Wb). }
  split; [|exact Et]. rewrite Et. rewrite <- (app_nil_r (pb_bytes b)). apply unmarshal_pb_bytes. exact Wb.
Qed.

Definition phys_wf (p : phys) : Prop := Forall pb_wf (ph_main p) /\ Forall pb_wf (ph_over p).

Theorem ph_bytes_lengths p : PhysInv p ->
  nlen (ph_main_bytes p) = 512 * (1 + nlen (ph_main p)) /\
  nlen (ph_over_bytes p) = 512 * (1 + nlen (ph_over p)).
Proof.
  intros (HS & _ & I2 & I3 & _). unfold ph_main_bytes, ph_over_bytes.
  split; apply file_bytes_length; (eapply Forall_impl; [|eassumption]); intros b Hb; exact (proj1 Hb).
Qed.

Theorem ph_main_bytes_decode p i b : phys_wf p -> pb_read (ph_main p) (bucket_off i) = Some b ->
  unmarshal_bucket (ntake 512 (ndrop (bucket_off i) (ph_main_bytes p))) = (pb_slots b, pb_next b).
Proof.
  intros [W _] H. rewrite pb_read_bucket_off in H. exact (proj1 (file_bytes_decode _ _ _ W H)).
Qed.

Theorem ph_over_bytes_decode p off b : phys_wf p -> pb_read (ph_over p) off = Some b ->
  unmarshal_bucket (ntake 512 (ndrop off (ph_over_bytes p))) = (pb_slots b, pb_next b).
Proof.
  intros [_ W] H. destruct (pb_read_some _ _ _ H) as (i & -> & _ & Hn).
  exact (proj1 (file_bytes_decode _ _ _ W Hn)).
Qed.

(* the checkers are complete, so that [checker = false] refutes the property *)

Lemma bucket_ok_b_complete b : bucket_ok b -> bucket_ok_b b = true.
Proof.
  intros [L E]. unfold bucket_ok_b, slots_eqb. rewrite L. cbn [Nat.eqb andb].
  destruct (list_eq_dec slot_eq_dec (pb_slots b) (pad_slots (pb_live b))); [reflexivity|contradiction].
Qed.

Lemma perm_b_complete l r : Permutation l r -> perm_b l r = true.
Proof.
  intros P. unfold perm_b. rewrite (Permutation_length P), Nat.eqb_refl. cbn [andb].
  apply forallb_forall. intros x Hx. apply existsb_exists. exists x.
  split; [exact (Permutation_in _ (Permutation_sym P) Hx)|apply N.eqb_refl].
Qed.

Theorem phys_inv_b_complete p : PhysInv p -> phys_inv_b p = true.
Proof.
  intros (HS & I1 & I2 & I3 & I4 & I5 & I6). unfold phys_inv_b, reachable.
  rewrite <- I4, (all_walks_spec p HS _ (Nat.le_refl _) I5), firstn_all. cbn [option_map].
  rewrite (perm_b_complete _ _ I6), andb_true_r.
  apply andb_true_iff. split; [apply andb_true_iff; split; [apply N.eqb_eq; exact I1|]|];
    apply forallb_forall; intros b Hb; apply bucket_ok_b_complete.
  - rewrite Forall_forall in I2. exact (I2 _ Hb).
  - rewrite Forall_forall in I3. exact (I3 _ Hb).
Qed.

Theorem phys_rel_b_complete p c : R_phys p c -> phys_rel_b p c = true.
Proof.
  intros (R1 & R2 & R3 & R4 & R5 & R6). unfold phys_rel_b.
  rewrite (proj2 (N.eqb_eq _ _) R1), (proj2 (N.eqb_eq _ _) R2), (proj2 (N.eqb_eq _ _) R3),
    (proj2 (N.eqb_eq _ _) R4), (proj2 (N.eqb_eq _ _) R5). cbn [andb].
  apply forallb_forall. intros i Hi. apply in_seq in Hi. rewrite R6 by lia.
  unfold chain_eqb. destruct (list_eq_dec (list_eq_dec slot_eq_dec) _ _); [reflexivity|congruence].
Qed.

Corollary phys_inv_b_false p : phys_inv_b p = false -> ~ PhysInv p.
Proof. intros E H. rewrite (phys_inv_b_complete _ H) in E. discriminate. Qed.

Corollary phys_rel_b_false p c : phys_rel_b p c = false -> ~ R_phys p c.
Proof. intros E H. rewrite (phys_rel_b_complete _ _ H) in E. discriminate. Qed.

Module PhysRun.
Import PxEx PhysVariants.

(* split exactly when the 40th key arrives *)
Definition grow40 (nk nb : N) : bool := nk =? 40.
Definition isk (k : N) (s : slot) : bool := sl_ks s =? k.

Definition pstep (grow : N -> N -> bool) (pc : phys * pindex) (sl : slot) : phys * pindex :=
  (fst (ph_put grow (fst pc) sl (isk (sl_ks sl))), fst (px_put grow (snd pc) sl (isk (sl_ks sl)))).

Definition both_ok (pc : phys * pindex) : bool := phys_inv_b (fst pc) && phys_rel_b (fst pc) (snd pc).

(* (live slots, next) of every bucket of both files; free list; level, split, numKeys, numBuckets *)
Definition shape (p : phys) :=
  (map (fun b => (length (pb_live b), pb_next b)) (ph_main p),
   map (fun b => (length (pb_live b), pb_next b)) (ph_over p), ph_free p,
   (ph_level p, ph_split p, ph_nkeys p, ph_nbuckets p)).

Lemma both_ok_sound pc : both_ok pc = true -> PhysInv (fst pc) /\ R_phys (fst pc) (snd pc).
Proof.
  unfold both_ok. rewrite andb_true_iff. intros [A B].
  split; [apply phys_inv_b_ok; exact A|apply phys_rel_b_ok; exact B].
Qed.

(* the chain side of a run keeps PInv *)
Lemma pstep_PInv grow l : forall pc, PInv (snd pc) -> PInv (snd (fold_left (pstep grow) l pc)).
Proof.
  induction l as [|sl l IH]; intros pc HP; [exact HP|]. cbn [fold_left]. apply IH.
  unfold pstep. cbn [snd].
  destruct (px_put grow (snd pc) sl (isk (sl_ks sl))) as [c' o] eqn:E.
  exact (proj1 (px_put_spec _ _ _ _ _ _ HP E)).
Qed.

Definition s0 : phys * pindex := (ph_empty, px_empty).

(* a run pc is evaluated once, to its value v (a lemma pc = v each); the examples are then checked
   on v *)
Lemma run_ok pc v sh : pc = v -> shape (fst v) = sh -> both_ok v = true -> PInv (snd pc) ->
  shape (fst pc) = sh /\ PhysInv (fst pc) /\ R_phys (fst pc) (snd pc) /\ PInv (snd pc).
Proof. intros -> Hs Hb HP. destruct (both_ok_sound v Hb) as [A B]. auto. Qed.

(* 39 slots in ONE chain (hashes 0,1,0,1,... at level 0): the main bucket is full and points to
   the first block of overflow.pix *)
Definition s39 := fold_left (pstep grow40) (map mkalt (seq 0 39)) s0.
Definition s39_v := Eval vm_compute in s39.
Lemma s39_eq : s39 = s39_v.
Proof. vm_compute. reflexivity. Qed.
Lemma s39_PInv : PInv (snd s39).
Proof. apply pstep_PInv. exact PInv_empty. Qed.
Example s39_ok :
  shape (fst s39) = ([(31%nat, 512)], [(8%nat, 0)], [], (0, 0, 39, 1)) /\
  PhysInv (fst s39) /\ R_phys (fst s39) (snd s39) /\ PInv (snd s39).
Proof. apply (run_ok s39 s39_v _ s39_eq); [vm_compute; reflexivity..|exact s39_PInv]. Qed.

(* the 40th key triggers index.split: both new chains fit into their main buckets, the overflow
   bucket at offset 512 is FREED (it keeps its stale 9 slots in the file) *)
Definition s40 := pstep grow40 s39 (mkalt 39).
Definition s40_v := Eval vm_compute in s40.
Lemma s40_eq : s40 = s40_v.
Proof. unfold s40. rewrite s39_eq. vm_compute. reflexivity. Qed.
Lemma s40_PInv : PInv (snd s40).
Proof. exact (pstep_PInv grow40 [mkalt 39] s39 s39_PInv). Qed.
Example s40_ok :
  shape (fst s40) = ([(20%nat, 0); (20%nat, 0)], [(9%nat, 0)], [512], (1, 0, 40, 2)) /\
  PhysInv (fst s40) /\ R_phys (fst s40) (snd s40) /\ PInv (snd s40).
Proof. apply (run_ok s40 s40_v _ s40_eq); [vm_compute; reflexivity..|exact s40_PInv]. Qed.

(* 12 more keys for bucket 0: the 32nd slot of chain 0 REUSES the freed offset 512; overflow.pix
   does not grow *)
Definition mke (k : nat) : slot :=
  {| sl_h := 2; sl_seg := 0; sl_ks := 100 + N.of_nat k; sl_vs := 1; sl_off := 900 + N.of_nat k |}.
Definition s52 := fold_left (pstep grow0) (map mke (seq 0 12)) s40.
Definition s52_v := Eval vm_compute in s52.
Lemma s52_eq : s52 = s52_v.
Proof. unfold s52. rewrite s40_eq. vm_compute. reflexivity. Qed.
Example s52_ok :
  shape (fst s52) = ([(31%nat, 512); (20%nat, 0)], [(1%nat, 0)], [], (1, 0, 52, 2)) /\
  PhysInv (fst s52) /\ R_phys (fst s52) (snd s52) /\ PInv (snd s52).
Proof.
  apply (run_ok s52 s52_v _ s52_eq); [vm_compute; reflexivity..|]. apply pstep_PInv. exact s40_PInv.
Qed.

(* a delete in the full main bucket makes a hole there (30 + 1 slots) *)
Definition sdel : phys * pindex := (fst (ph_del (fst s52) 0 (isk 4)), fst (px_del (snd s52) 0 (isk 4))).
Example sdel_ok :
  snd (ph_del (fst s52) 0 (isk 4)) = Some (mkalt 4) /\
  shape (fst sdel) = ([(30%nat, 512); (20%nat, 0)], [(1%nat, 0)], [], (1, 0, 51, 2)) /\
  PhysInv (fst sdel) /\ R_phys (fst sdel) (snd sdel).
Proof.
  unfold sdel. rewrite s52_eq. split; [vm_compute; reflexivity|]. split; [vm_compute; reflexivity|].
  apply both_ok_sound. vm_compute. reflexivity.
Qed.

(* the next new key goes into the hole of the main bucket, not behind the overflow bucket; the
   results of get agree *)
Example shole_ok :
  let pc := pstep grow0 sdel (mke 50) in
  shape (fst pc) = ([(31%nat, 512); (20%nat, 0)], [(1%nat, 0)], [], (1, 0, 52, 2)) /\
  both_ok pc = true /\
  ph_get (fst pc) 2 (isk 150) = Some (mke 50) /\ px_get (snd pc) 2 (isk 150) = Some (mke 50) /\
  ph_get (fst pc) 2 (isk 111) = px_get (snd pc) 2 (isk 111) /\
  ph_bucket (fst pc) 0 = px_bucket (snd pc) 0.
Proof. unfold sdel. rewrite s52_eq. vm_compute. repeat split. Qed.

(* the byte images: main.pix has the header and 2 blocks, the block of bucket 1 decodes to it *)
Example s52_bytes :
  nlen (ph_main_bytes (fst s52)) = 1536 /\ nlen (ph_over_bytes (fst s52)) = 1024 /\
  Some (unmarshal_bucket (ntake 512 (ndrop 1024 (ph_main_bytes (fst s52))))) =
    option_map (fun b => (pb_slots b, pb_next b)) (pb_read (ph_main (fst s52)) 1024).
Proof. rewrite s52_eq. vm_compute. repeat split. Qed.

(* 72 slots in one chain: main bucket + 2 overflow buckets (offsets 512, 1024) *)
Definition mkz (k : nat) : slot :=
  {| sl_h := 0; sl_seg := 0; sl_ks := N.of_nat k; sl_vs := 1; sl_off := 600 + N.of_nat k |}.
Definition z72 := fold_left (pstep grow0) (map mkz (seq 0 72)) s0.
Definition z72_v := Eval vm_compute in z72.
Lemma z72_eq : z72 = z72_v.
Proof. vm_compute. reflexivity. Qed.
Example z72_ok :
  shape (fst z72) = ([(31%nat, 512)], [(31%nat, 1024); (10%nat, 0)], [], (0, 0, 72, 1)) /\
  PhysInv (fst z72) /\ R_phys (fst z72) (snd z72) /\ PInv (snd z72).
Proof.
  apply (run_ok z72 z72_v _ z72_eq); [vm_compute; reflexivity..|]. apply pstep_PInv. exact PInv_empty.
Qed.

(* index.split as written: the two overflow buckets the re-insertion needs are taken by
   extending the file (offsets 1536, 2048) BEFORE 512 and 1024 are freed: overflow.pix doubles *)
Example z72_split :
  shape (ph_dosplit (fst z72)) =
    ([(31%nat, 1536); (0%nat, 0)], [(31%nat, 1024); (10%nat, 0); (31%nat, 2048); (10%nat, 0)],
     [512; 1024], (1, 0, 72, 2)) /\
  both_ok (ph_dosplit (fst z72), px_dosplit (snd z72)) = true.
Proof. rewrite z72_eq. vm_compute. split; reflexivity. Qed.

(* (a) FINDING: the variant that frees the old overflow buckets BEFORE re-inserting is NOT wrong.
   It hands out 512 and 1024 again while the loop still has to read them, but slotWriter only
   writes after the loop, so the stale blocks are read before they are overwritten: the result
   satisfies PhysInv and R_phys, and the file does not grow.  (General theorem, all states:
   phys_split_early_free_sim above; this is the concrete run where the reuse happens.) *)
Definition z72e : phys * pindex := (ph_dosplit_early_free (fst z72), px_dosplit (snd z72)).
Theorem split_early_free_not_refuted :
  shape (fst z72e) = ([(31%nat, 512); (0%nat, 0)], [(31%nat, 1024); (10%nat, 0)], [], (1, 0, 72, 2)) /\
  PhysInv (fst z72e) /\ R_phys (fst z72e) (snd z72e).
Proof.
  unfold z72e. rewrite z72_eq. split; [vm_compute; reflexivity|].
  apply (both_ok_sound (_, _)). vm_compute. reflexivity.
Qed.

(* (a') a split that forgets freeOverflowBucket: the chains are still right, but the two old
   overflow buckets are neither reachable nor free *)
Theorem split_no_free_refuted :
  exists p c, PhysInv p /\ R_phys p c /\ PInv c /\
    R_phys (ph_dosplit_no_free p) (px_dosplit c) /\ ~ PhysInv (ph_dosplit_no_free p).
Proof.
  exists (fst z72), (snd z72). destruct z72_ok as (_ & A & B & C).
  split; [exact A|]. split; [exact B|]. split; [exact C|]. rewrite z72_eq. split.
  - apply phys_rel_b_ok. vm_compute. reflexivity.
  - apply phys_inv_b_false. vm_compute. reflexivity.
Qed.

(* (b) createOverflowBucket that does not pop the free list: from s40 (free list [512]) chain 0
   and then chain 1 overflow; both link the SAME block 512, the second overwrites the first:
   a key of chain 0 is lost *)
Definition nstep (pc : phys * pindex) (sl : slot) : phys * pindex :=
  (fst (ph_put_nopop (fst pc) sl (isk (sl_ks sl))), fst (px_put grow0 (snd pc) sl (isk (sl_ks sl)))).
Definition mko (k : nat) : slot :=
  {| sl_h := 3; sl_seg := 0; sl_ks := 200 + N.of_nat k; sl_vs := 1; sl_off := 1200 + N.of_nat k |}.
Definition n64 := fold_left nstep (map mko (seq 0 12)) (fold_left nstep (map mke (seq 0 12)) s40).
Definition n64_v := Eval vm_compute in n64.
Lemma n64_eq : n64 = n64_v.
Proof. unfold n64. rewrite s40_eq. vm_compute. reflexivity. Qed.

Theorem create_overflow_nopop_refuted :
  PhysInv (fst s40) /\ R_phys (fst s40) (snd s40) /\ PInv (snd s40) /\
  map pb_next (ph_main (fst n64)) = [512; 512] /\
  ~ PhysInv (fst n64) /\ ~ R_phys (fst n64) (snd n64) /\
  px_get (snd n64) 2 (isk 111) = Some (mke 11) /\ ph_get (fst n64) 2 (isk 111) = None.
Proof.
  destruct s40_ok as (_ & A & B & C).
  split; [exact A|]. split; [exact B|]. split; [exact C|]. rewrite n64_eq.
  split; [vm_compute; reflexivity|].
  split; [apply phys_inv_b_false; vm_compute; reflexivity|].
  split; [apply phys_rel_b_false; vm_compute; reflexivity|].
  split; vm_compute; reflexivity.
Qed.

End PhysRun.

(* [PR p c] = the physical invariant, the abstraction relation and the invariant of the chain
   index.  The eight laws below are the fields of an exact simulation between [phys_ops] and
   [chain_ops] with respect to [PR] (same results, related new states). *)

Definition PR (p : phys) (c : pindex) : Prop := PhysInv p /\ R_phys p c /\ PInv c.

Theorem PR_empty : PR (ix_empty phys_ops) (ix_empty chain_ops).
Proof. destruct phys_empty_ok as [A B]. split; [exact A|]. split; [exact B|exact PInv_empty]. Qed.

Theorem PR_get p c h m : PR p c -> ix_get phys_ops p h m = ix_get chain_ops c h m.
Proof. intros (A & B & _). apply phys_get_sim; assumption. Qed.

Theorem PR_put grow p c sl m : PR p c -> sl_off sl <> 0 ->
  snd (ix_put phys_ops grow p sl m) = snd (ix_put chain_ops grow c sl m) /\
  PR (fst (ix_put phys_ops grow p sl m)) (fst (ix_put chain_ops grow c sl m)).
Proof.
  intros (A & B & C) Hnz. destruct (phys_put_sim grow p c sl m A B C Hnz) as (E & R' & I').
  split; [exact E|]. split; [exact I'|]. split; [exact R'|].
  cbn [ix_put chain_ops]. destruct (px_put grow c sl m) as [c' o] eqn:Ep.
  exact (proj1 (px_put_spec _ _ _ _ _ _ C Ep)).
Qed.

Theorem PR_del p c h m : PR p c ->
  snd (ix_del phys_ops p h m) = snd (ix_del chain_ops c h m) /\
  PR (fst (ix_del phys_ops p h m)) (fst (ix_del chain_ops c h m)).
Proof.
  intros (A & B & C). destruct (phys_del_sim p c h m A B C) as (E & R' & I').
  split; [exact E|]. split; [exact I'|]. split; [exact R'|].
  cbn [ix_del chain_ops]. destruct (px_del c h m) as [c' o] eqn:Ep.
  exact (proj1 (px_del_spec _ _ _ _ _ C Ep)).
Qed.

Theorem PR_repoint p c h seg off nseg noff : PR p c -> noff <> 0 ->
  match ix_repoint phys_ops p h seg off nseg noff, ix_repoint chain_ops c h seg off nseg noff with
  | None, None => True
  | Some p', Some c' => PR p' c'
  | _, _ => False
  end.
Proof.
  intros (A & B & C) Hnz. pose proof (phys_repoint_sim p c h seg off nseg noff A B C Hnz) as H.
  destruct (ix_repoint phys_ops p h seg off nseg noff) as [p'|];
    destruct (ix_repoint chain_ops c h seg off nseg noff) as [c'|] eqn:Ec; try exact H.
  destruct H as [R' I']. split; [exact I'|]. split; [exact R'|].
  cbn [ix_repoint chain_ops] in Ec. exact (proj1 (px_repoint_some _ _ _ _ _ _ _ C Ec)).
Qed.

Theorem PR_count p c : PR p c -> ix_count phys_ops p = ix_count chain_ops c.
Proof. intros (_ & B & _). apply phys_count_sim. exact B. Qed.

Theorem PR_nbuckets p c : PR p c -> ix_nbuckets phys_ops p = ix_nbuckets chain_ops c.
Proof. intros (_ & B & _). apply phys_nbuckets_sim. exact B. Qed.

Theorem PR_bucket p c n : PR p c -> ix_bucket phys_ops p n = ix_bucket chain_ops c n.
Proof. intros (A & B & _). apply phys_bucket_sim; assumption. Qed.

(* Machine ranges: every slot field fits its type and EVERY next pointer (stale buckets
   included) and every free-list entry lies below the end of overflow.pix.  This invariant is
   independent of PhysInv and is what the byte images need (phys_wf). *)

Definition obound (p : phys) : N := bucket_off (nlen (ph_over p)).
Definition bwf (B : N) (b : pbucket) : Prop := Forall slot_wf (pb_slots b) /\ pb_next b < B.
Definition hbwf (B : N) (h : bhandle) : Prop := bwf B (bh_b h).

Definition PhysWf (p : phys) : Prop :=
  Forall (bwf (obound p)) (ph_main p) /\ Forall (bwf (obound p)) (ph_over p) /\
  Forall (fun o => o < obound p) (ph_free p).

Lemma bwf_mono B B' b : B <= B' -> bwf B b -> bwf B' b.
Proof. intros H [A C]. split; [exact A|lia]. Qed.

Lemma Forall_bwf_mono B B' l : B <= B' -> Forall (bwf B) l -> Forall (bwf B') l.
Proof. intros H F. eapply Forall_impl; [|exact F]. intros b. apply bwf_mono. exact H. Qed.

Lemma Forall_hbwf_mono B B' l : B <= B' -> Forall (hbwf B) l -> Forall (hbwf B') l.
Proof. intros H F. eapply Forall_impl; [|exact F]. intros b. apply bwf_mono. exact H. Qed.

Lemma obound_ge p : 512 <= obound p.
Proof. unfold obound, bucket_off. lia. Qed.

Lemma empty_pb_bwf B : 512 <= B -> bwf B empty_pb.
Proof.
  intros H. split; [|cbn [empty_pb pb_next]; lia]. cbn [empty_pb pb_slots].
  apply Forall_forall. intros x Hx. apply repeat_spec in Hx. subst x. apply empty_slot_wf.
Qed.

Lemma PhysWf_empty : PhysWf ph_empty.
Proof.
  split; [constructor; [apply empty_pb_bwf; apply obound_ge|constructor]|]. split; constructor.
Qed.

Lemma write_bh_wf p h : PhysWf p -> hbwf (obound p) h ->
  PhysWf (write_bh p h) /\ obound (write_bh p h) = obound p.
Proof.
  intros (A & B & C) Hh. destruct (write_bh_alloc p h) as [Ef Eo].
  assert (E : obound (write_bh p h) = obound p) by (unfold obound; rewrite !nlen_length, Eo; reflexivity).
  split; [|exact E]. unfold PhysWf. rewrite E, Ef. unfold write_bh, pb_write.
  destruct (bh_main h); cbn [set_main set_over ph_main ph_over]; destruct (off_ok (bh_off h));
    repeat split; try assumption; apply Forall_lupd; assumption.
Qed.

Lemma writes_wf W : forall p, PhysWf p -> Forall (hbwf (obound p)) W ->
  PhysWf (fold_left write_bh W p) /\ obound (fold_left write_bh W p) = obound p.
Proof.
  induction W as [|h W IH]; intros p Hp F; cbn [fold_left]; [auto|].
  inversion F as [|h_ W_ Fh FW]; subst h_ W_. destruct (write_bh_wf p h Hp Fh) as [Hp1 E1].
  rewrite <- E1 in FW. destruct (IH _ Hp1 FW) as [Hp2 E2]. split; [exact Hp2|congruence].
Qed.

Lemma swr_write_wf p w : PhysWf p -> Forall (hbwf (obound p)) (whandles w) ->
  PhysWf (swr_write p w) /\ obound (swr_write p w) = obound p.
Proof.
  intros Hp F. rewrite swr_write_fold. apply writes_wf; [exact Hp|].
  unfold whandles in F. apply Forall_app in F. destruct F as [F1 F2].
  apply Forall_app. split; [apply Forall_rev; exact F1|exact F2].
Qed.

Lemma create_overflow_wf p : PhysWf p ->
  PhysWf (fst (create_overflow p)) /\ obound p <= obound (fst (create_overflow p)) /\
  bh_off (snd (create_overflow p)) < obound (fst (create_overflow p)) /\
  bh_b (snd (create_overflow p)) = empty_pb.
Proof.
  intros (A & B & C). unfold create_overflow. destruct (ph_free p) as [|o fr] eqn:Ef.
  - cbn [fst snd bh_off bh_b]. unfold PhysWf, obound.
    cbn [set_over ph_main ph_over ph_free]. rewrite Ef, nlen_app. cbn [nlen].
    assert (Hle : bucket_off (nlen (ph_over p)) <= bucket_off (nlen (ph_over p) + N.succ 0))
      by (unfold bucket_off; lia).
    split; [|split; [exact Hle|split; [unfold bucket_off; lia|reflexivity]]].
    split; [exact (Forall_bwf_mono _ _ _ Hle A)|]. split; [|constructor].
    apply Forall_app. split; [exact (Forall_bwf_mono _ _ _ Hle B)|].
    constructor; [|constructor]. apply empty_pb_bwf. unfold bucket_off. lia.
  - cbn [fst snd bh_off bh_b]. inversion C as [|o_ fr_ Co Cfr]; subst o_ fr_.
    split; [|split; [apply N.le_refl|split; [exact Co|reflexivity]]].
    split; [exact A|]. split; [exact B|exact Cfr].
Qed.

Lemma set_slot_bwf B h i sl : hbwf B h -> slot_wf sl -> hbwf B (bh_set_slot h i sl).
Proof. intros [A C] Hs. split; [apply Forall_lupd; assumption|exact C]. Qed.

Lemma del_slot_wf i : forall l, Forall slot_wf l -> Forall slot_wf (del_slot i l).
Proof.
  induction i as [|i IH]; intros l F; destruct l as [|s l]; cbn [del_slot]; try constructor.
  - inversion F; subst. apply Forall_app. split; [assumption|]. constructor; [apply empty_slot_wf|constructor].
  - inversion F; assumption.
  - apply IH. inversion F; assumption.
Qed.

Lemma swr_insert_wf p w sl : PhysWf p -> Forall (hbwf (obound p)) (whandles w) -> slot_wf sl ->
  PhysWf (fst (swr_insert p w sl)) /\
  Forall (hbwf (obound (fst (swr_insert p w sl)))) (whandles (snd (swr_insert p w sl))) /\
  obound p <= obound (fst (swr_insert p w sl)).
Proof.
  intros Hp F Hs. destruct w as [cur idx prev]. unfold whandles in *. cbn [sw_cur sw_prev] in *.
  apply Forall_app in F. destruct F as [F1 F2]. inversion F2 as [|c_ l_ Fc _]; subst c_ l_.
  unfold swr_insert. cbn [sw_cur sw_idx sw_prev]. destruct (idx =? 31)%nat.
  - destruct (create_overflow_wf p Hp) as (Hp1 & Hle & Ho & Eb).
    cbn [fst snd sw_cur sw_idx sw_prev]. split; [exact Hp1|]. split; [|exact Hle].
    apply Forall_app. split.
    + apply Forall_app. split; [exact (Forall_hbwf_mono _ _ _ Hle F1)|].
      constructor; [|constructor]. destruct Fc as [Fc1 Fc2]. split; [exact Fc1|exact Ho].
    + constructor; [|constructor]. apply set_slot_bwf; [|exact Hs]. unfold hbwf. rewrite Eb.
      apply empty_pb_bwf. apply obound_ge.
  - cbn [fst snd sw_cur sw_idx sw_prev]. split; [exact Hp|]. split; [|apply N.le_refl].
    apply Forall_app. split; [exact F1|]. constructor; [|constructor]. apply set_slot_bwf; assumption.
Qed.

(* the three-component state of the slot loop of index.split *)
Definition Wf3 (st : phys * swriter * swriter) : Prop :=
  PhysWf (fst (fst st)) /\ Forall (hbwf (obound (fst (fst st)))) (whandles (snd (fst st))) /\
  Forall (hbwf (obound (fst (fst st)))) (whandles (snd st)).

Lemma split_body_wf lv sp ub st s : Wf3 st -> slot_wf s ->
  Wf3 (split_body lv sp ub st s) /\ obound (fst (fst st)) <= obound (fst (fst (split_body lv sp ub st s))).
Proof.
  destruct st as [[p u] w]. intros (A & B & C) Hs. unfold Wf3, split_body. cbn [fst snd] in *.
  destruct (bucket_index lv sp (sl_h s) =? ub); cbn [fst snd].
  - destruct (swr_insert_wf p u s A B Hs) as (A1 & B1 & Hle).
    split; [|exact Hle]. split; [exact A1|]. split; [exact B1|exact (Forall_hbwf_mono _ _ _ Hle C)].
  - destruct (swr_insert_wf p w s A C Hs) as (A1 & C1 & Hle).
    split; [|exact Hle]. split; [exact A1|]. split; [exact (Forall_hbwf_mono _ _ _ Hle B)|exact C1].
Qed.

Lemma split_slots_wf lv sp ub l : forall st, Wf3 st -> Forall slot_wf l ->
  Wf3 (fold_left (split_body lv sp ub) l st) /\
  obound (fst (fst st)) <= obound (fst (fst (fold_left (split_body lv sp ub) l st))).
Proof.
  induction l as [|s l IH]; intros st H F; cbn [fold_left]; [split; [exact H|apply N.le_refl]|].
  inversion F as [|s_ l_ Fs Fl]; subst s_ l_.
  destruct (split_body_wf lv sp ub st s H Fs) as [H1 L1]. destruct (IH _ H1 Fl) as [H2 L2].
  split; [exact H2|lia].
Qed.

Lemma dense_wf l : Forall slot_wf l -> Forall slot_wf (Bucket.dense l).
Proof.
  induction 1 as [|s l Hs Hl IH]; cbn [Bucket.dense]; [constructor|].
  destruct (sl_off s =? 0); constructor; assumption.
Qed.

Lemma split_buckets_wf lv sp ub B0 hs : forall st fr, Wf3 st -> B0 <= obound (fst (fst st)) ->
  Forall (fun o => o < obound (fst (fst st))) fr -> Forall (hbwf B0) hs ->
  let r := fold_left (split_bucket lv sp ub) hs (st, fr) in
  Wf3 (fst r) /\ Forall (fun o => o < obound (fst (fst (fst r)))) (snd r).
Proof.
  induction hs as [|h hs IH]; intros st fr H HB Ffr Fh; cbn [fold_left]; [split; assumption|].
  inversion Fh as [|h_ hs_ [Fh1 Fh2] Fhs]; subst h_ hs_.
  unfold split_bucket at 2. cbn [fst snd].
  destruct (split_slots_wf lv sp ub (pb_live (bh_b h)) st H (dense_wf _ Fh1)) as [H1 L1].
  apply IH; [exact H1|lia| |exact Fhs].
  assert (Ffr' : Forall (fun o => o < obound (fst (fst (fold_left (split_body lv sp ub) (pb_live (bh_b h)) st)))) fr).
  { eapply Forall_impl; [|exact Ffr]. cbn beta. intros o Ho. lia. }
  destruct (pb_next (bh_b h) =? 0); [exact Ffr'|]. apply Forall_app. split; [exact Ffr'|].
  constructor; [lia|constructor].
Qed.

(* the handles of a walk hold buckets of the files *)
Lemma walk_wf p i H : PhysWf p -> ph_walk p i = Some H -> Forall (hbwf (obound p)) H.
Proof.
  intros (A & B & _) W. rewrite Forall_forall in A, B.
  eapply Forall_impl; [|exact (wl_reads _ _ _ (ph_walk_wl _ _ _ W))].
  intros h Rd. apply hreads_In in Rd. unfold hbwf. destruct (bh_main h); auto.
Qed.

Lemma PhysWf_main_ext p : PhysWf p -> forall lv sp, PhysWf (set_ptr (set_main p (ph_main p ++ [empty_pb])) lv sp).
Proof.
  intros (A & B & C) lv sp. split; [|split; [exact B|exact C]].
  cbn [set_ptr set_main ph_main]. apply Forall_app. split; [exact A|].
  constructor; [apply empty_pb_bwf, obound_ge|constructor].
Qed.

Lemma fresh_writer_wf B off : 512 <= B -> Forall (hbwf B) (whandles (fresh_main_writer off)).
Proof. intros H. constructor; [apply empty_pb_bwf; exact H|constructor]. Qed.

Theorem ph_dosplit_wf p : PhysWf p -> PhysWf (ph_dosplit p).
Proof.
  intros Hp. unfold ph_dosplit.
  set (adv := advance (ph_level p) (ph_split p)).
  pose proof (PhysWf_main_ext p Hp (fst adv) (snd adv)) as Hp2.
  set (p2 := set_ptr (set_main p (ph_main p ++ [empty_pb])) (fst adv) (snd adv)) in *.
  destruct (ph_walk p2 (ph_split p)) as [hs|] eqn:W; [|exact Hp2].
  pose proof (walk_wf p2 _ _ Hp2 W) as Fh.
  assert (W0 : Wf3 (p2, fresh_main_writer (bucket_off (ph_split p)), fresh_main_writer (bucket_off (nlen (ph_main p))))).
  { split; [exact Hp2|]. cbn [fst snd]. split; apply fresh_writer_wf, obound_ge. }
  destruct (split_buckets_wf (fst adv) (snd adv) (ph_split p) (obound p2) hs _ [] W0 (N.le_refl _)
              (Forall_nil _) Fh) as [H3 Ffr].
  cbn zeta in H3, Ffr.
  set (r := fold_left (split_bucket (fst adv) (snd adv) (ph_split p)) hs
              (p2, fresh_main_writer (bucket_off (ph_split p)), fresh_main_writer (bucket_off (nlen (ph_main p))), [])) in *.
  destruct (fst r) as [[p3 u] w]. cbn [fst snd] in *. destruct H3 as (A3 & B3 & C3). cbn [fst snd] in *.
  set (p4 := set_free p3 (ph_free p3 ++ snd r)).
  assert (Hp4 : PhysWf p4).
  { destruct A3 as (X & Y & Z). split; [exact X|]. split; [exact Y|]. apply Forall_app. split; assumption. }
  destruct (swr_write_wf p4 w Hp4 C3) as [Hp5 E5].
  assert (B5 : Forall (hbwf (obound (swr_write p4 w))) (whandles u)) by (rewrite E5; exact B3).
  destruct (swr_write_wf _ u Hp5 B5) as [Hp6 E6]. exact Hp6.
Qed.

Lemma find_ins_wf f B H : Forall (hbwf B) H -> forall free w o,
  (forall w0, free = Some w0 -> Forall (hbwf B) (whandles w0)) ->
  find_ins f H free = Some (w, o) -> Forall (hbwf B) (whandles w).
Proof.
  induction 1 as [|h H Fh FH IH]; intros free w o Hfree; cbn [find_ins]; [discriminate|].
  assert (Hm : forall i, Forall (hbwf B) (whandles (mk_writer h i))).
  { intros i. constructor; [exact Fh|constructor]. }
  destruct (scan_slots f (pb_slots (bh_b h)) 0) as [j s|j|j].
  - intros E. injection E as <- _. apply Hm.
  - destruct H as [|h1 H].
    + destruct free as [w0|]; intros E; injection E as <- _; [apply Hfree; reflexivity|apply Hm].
    + apply IH. intros w0 E. destruct free as [w1|]; injection E as <-; [apply Hfree; reflexivity|apply Hm].
  - destruct H as [|h1 H].
    + destruct free as [w0|]; intros E; injection E as <- _; [apply Hfree; reflexivity|apply Hm].
    + apply IH. exact Hfree.
Qed.

Lemma PhysWf_set_nkeys p n : PhysWf p -> PhysWf (set_nkeys p n).
Proof. exact (fun H => H). Qed.

Lemma ph_put_core_wf p sl m p1 o : PhysWf p -> slot_wf sl -> ph_put_core p sl m = Some (p1, o) -> PhysWf p1.
Proof.
  intros Hp Hs. unfold ph_put_core.
  destruct (ph_walk p (ph_bidx p (sl_h sl))) as [H|] eqn:W; [|discriminate].
  pose proof (walk_wf p _ _ Hp W) as FH.
  destruct (find_ins (hit (sl_h sl) m) H None) as [[w old]|] eqn:Ef; [|discriminate].
  assert (Fw : Forall (hbwf (obound p)) (whandles w)).
  { apply (find_ins_wf (hit (sl_h sl) m) _ _ FH None w old); [discriminate|exact Ef]. }
  destruct (swr_insert_wf p w sl Hp Fw Hs) as (A1 & B1 & _).
  destruct (swr_write_wf _ _ A1 B1) as [A2 _].
  destruct old; intros E; injection E as <- _; [exact A2|apply PhysWf_set_nkeys; exact A2].
Qed.

Theorem ph_put_wf grow p sl m : PhysWf p -> slot_wf sl -> PhysWf (fst (ph_put grow p sl m)).
Proof.
  intros Hp Hs. unfold ph_put. destruct (ph_put_core p sl m) as [[p1 o]|] eqn:E; [|exact Hp].
  pose proof (ph_put_core_wf _ _ _ _ _ Hp Hs E) as H1.
  destruct o; cbn [fst]; [exact H1|]. destruct (grow _ _); [apply ph_dosplit_wf; exact H1|exact H1].
Qed.

Lemma hit_loop_in f H h j s : hit_loop f H = Some (h, j, s) ->
  In h H /\ In s (pb_slots (bh_b h)).
Proof.
  intros E. destruct (hit_loop_some f (fun _ => []) _ _ _ _ E) as (H1 & H2 & l1 & r & -> & Es & _).
  split; [apply in_elt|rewrite Es; apply in_elt].
Qed.

Theorem ph_del_wf p h m : PhysWf p -> PhysWf (fst (ph_del p h m)).
Proof.
  intros Hp. unfold ph_del. destruct (ph_walk p (ph_bidx p h)) as [H|] eqn:W; [|exact Hp].
  pose proof (walk_wf p _ _ Hp W) as FH.
  destruct (hit_loop (hit h m) H) as [[[b i] s]|] eqn:E; [|exact Hp]. cbn [fst].
  apply PhysWf_set_nkeys. apply write_bh_wf; [exact Hp|].
  destruct (hit_loop_in _ _ _ _ _ E) as [Hb _]. rewrite Forall_forall in FH.
  destruct (FH _ Hb) as [A C]. split; [apply del_slot_wf; exact A|exact C].
Qed.

Theorem ph_repoint_wf p h seg off nseg noff p' : PhysWf p -> nseg < 2 ^ 16 -> noff < 2 ^ 32 ->
  ph_repoint p h seg off nseg noff = Some p' -> PhysWf p'.
Proof.
  intros Hp Hg Ho. unfold ph_repoint. destruct (ph_walk p (ph_bidx p h)) as [H|] eqn:W; [|discriminate].
  pose proof (walk_wf p _ _ Hp W) as FH.
  destruct (hit_loop (rp_hit h seg off) H) as [[[b i] s]|] eqn:E; [|discriminate].
  intros X. injection X as <-. apply write_bh_wf; [exact Hp|].
  destruct (hit_loop_in _ _ _ _ _ E) as [Hb Hsl]. rewrite Forall_forall in FH.
  pose proof (FH _ Hb) as Fb. apply set_slot_bwf; [exact Fb|].
  destruct Fb as [A _]. rewrite Forall_forall in A. destruct (A _ Hsl) as (W1 & W2 & W3 & W4 & W5).
  unfold slot_wf, rp_new. cbn [sl_h sl_seg sl_ks sl_vs sl_off]. auto.
Qed.

(* with the file size in int64 range, the byte images decode *)
Theorem PhysWf_phys_wf p : PhysInv p -> PhysWf p -> obound p <= 2 ^ 64 -> phys_wf p.
Proof.
  intros (HS & _ & I2 & I3 & _) (A & B & _) Hb.
  assert (X : forall l, Forall bucket_ok l -> Forall (bwf (obound p)) l -> Forall pb_wf l).
  { intros l F1 F2. apply Forall_forall. intros b Hin. rewrite Forall_forall in F1, F2.
    destruct (F1 _ Hin) as [L _]. destruct (F2 _ Hin) as [S1 S2]. split; [exact L|]. split; [exact S1|lia]. }
  split; apply X; assumption.
Qed.

Print Assumptions phys_empty_ok.
Print Assumptions phys_get_sim.
Print Assumptions phys_put_sim.
Print Assumptions phys_del_sim.
Print Assumptions phys_repoint_sim.
Print Assumptions phys_count_sim.
Print Assumptions phys_nbuckets_sim.
Print Assumptions phys_bucket_sim.
Print Assumptions phys_split_sim.
Print Assumptions phys_split_early_free_sim.
Print Assumptions phys_put_early_free_sim.
Print Assumptions PR_empty.
Print Assumptions PR_get.
Print Assumptions PR_put.
Print Assumptions PR_del.
Print Assumptions PR_repoint.
Print Assumptions PR_count.
Print Assumptions PR_nbuckets.
Print Assumptions PR_bucket.
Print Assumptions PhysInv_buckets.
Print Assumptions PhysInv_overflow.
Print Assumptions PhysInv_walks.
Print Assumptions phys_inv_b_ok.
Print Assumptions phys_inv_b_complete.
Print Assumptions phys_rel_b_ok.
Print Assumptions phys_rel_b_complete.
Print Assumptions file_bytes_length.
Print Assumptions file_bytes_decode.
Print Assumptions ph_bytes_lengths.
Print Assumptions ph_main_bytes_decode.
Print Assumptions ph_over_bytes_decode.
Print Assumptions PhysWf_empty.
Print Assumptions ph_put_wf.
Print Assumptions ph_del_wf.
Print Assumptions ph_repoint_wf.
Print Assumptions ph_dosplit_wf.
Print Assumptions PhysWf_phys_wf.
Print Assumptions PhysRun.s39_ok.
Print Assumptions PhysRun.s40_ok.
Print Assumptions PhysRun.s52_ok.
Print Assumptions PhysRun.sdel_ok.
Print Assumptions PhysRun.shole_ok.
Print Assumptions PhysRun.split_early_free_not_refuted.
Print Assumptions PhysRun.split_no_free_refuted.
Print Assumptions PhysRun.create_overflow_nopop_refuted.
