(* PowerLoss3.v -- POWER LOSS AT ANY INSTANT of a history of epochs, and process crashes in the middle of a
   clean Open.  Closes the two gaps named in the header of PowerLoss2.v ("NOT COVERED"): (a) one statement for
   "any instant", with the proof that the instants covered by the theorems there are ALL instants;
   (b) a process crash in the middle of a CLEAN Open as an epoch boundary.

   WHICH INSTANTS THE THEOREMS OF PowerLoss2.v COVER.  A history after the sync point is a list of chunks K
   (events [CE es]; partial writes of dying processes [CT ..]).  [hcut Kcut K] (PowerLoss2.v) cuts K inside, or
   at either end of, ANY chunk of events -- also between the last event of Close (the removal of the lock file)
   and the first event of the clean Open that follows (the creation of the lock file): [hcut] does not
   exclude these cuts.  C06_with_recovery excludes them, by its premise d_lock (hrun Kcut d) = true: at these
   cuts the lock file does not exist, the next Open is a clean one, and the conclusion "OOpened true" would be
   false.  They are covered by C09_reopen_epochs (every admissible image of a history that ends with a complete
   Close is the closed directory).  The only instant that is not an [hcut] is the end of the empty history (the
   sync point itself), where the lock file exists.  The DICHOTOMY ([instant_dichotomy]) proves that this is
   all: at every event boundary of a history of epochs either the lock file exists and the boundary is an
   [hcut] (premises of C06_with_recovery), or the lock file does not exist and the boundary is the instant
   right after the last event of a completed Close, before the first event of the next clean Open
   ([closed_window]: premises of C09_reopen_epochs).  The cuts INSIDE that clean Open (lock file created) are
   [hcut]s with the lock file: C06_with_recovery covers them; that the contents are exactly the closed ones
   there too (C09_power_loss_during_reopen, for one process) is [power_loss_reopen_exact].

   HOW.  [hflat] / [hlen]: the events of a chunked history, a torn write counting as one; [hpre n K]: K up to
   its n-th event; [instant Kc K] := hcut Kc K or Kc = K; [hpre_instant]: EVERY event boundary 0 <= n <= hlen K
   is an [instant].  Section Epochs: histories [run] that are sequences of epochs [stp], each keeping
   [step_main], whatever the kinds of epochs: a cut of a history lies in one of its epochs, the dichotomy, power
   loss at any instant.  [mrun] is such ([mstep]), and so is [mrun3] = [mrun] + the epoch "Close; the clean
   Open is killed after a non-empty prefix of its events; recovery attempts" ([crash_during_clean_open]).
   Non-vacuity (vm_compute), on the history Put [1]; Sync; Put [3]; Close; clean Open of PowerLoss2.v (19
   events after the Sync): the theorem applies at every n; n = 10 lies inside Close (lock file present),
   n = 18 in the window (lock file absent: every admissible image opens cleanly with [3] and [1]; losing
   the append of [3], admissible at n = 4, is not admissible there), n = 19 after the Open; an extended
   history in which the clean Open is killed after creating the lock file.
   FINDING: nothing is refuted; the property holds at every instant, in the model as it is.
   NOT COVERED: a power failure between two epochs counted as the beginning of a further history (two
   successive power failures; PowerLoss.v has C09_power_loss_during_reopen for that, for one process);
   concurrency finer than the micro-steps of xstep; the model's abstractions are those of PowerLoss.v. *)
From Coq Require Import ZArith Lia ZifyN ZifyNat ZifyBool Permutation Sorted.
From Pogreb Require Import Base BaseLemmas Crc Bytes Record RecordProofs Flat Spec DB DBInv DBLemmas
  DBProofsOps DBMeta DBProofsRecovery DBProofsCompact DBProofsCrash PowerLoss PowerLoss2.
Ltac Zify.zify_post_hook ::= Z.div_mod_to_equations.

Local Notation disk := (@DB.disk flat).
Local Notation st := (@DB.st flat).
Local Notation mem := (@DB.mem flat).
Local Notation fsev := (@DB.fsev flat).
Local Notation run_evs := (fold_left (apply_ev flat_ops)).

(* the events of a chunked history, one by one: a torn write counts as one event *)
Inductive hev := HE (e : fsev) | HT (id seq : N) (r : rec) (c : N).
Definition hflat1 (k : chunk) : list hev :=
  match k with CE es => map HE es | CT id seq r c => [HT id seq r c] end.
Definition hflat (K : list chunk) : list hev := flat_map hflat1 K.
Definition hlen (K : list chunk) : nat := length (hflat K).

(* [instant Kc K]: Kc is the history K up to some event boundary: a cut inside (or at either end of) a
   chunk of events ([hcut]), or the whole of K *)
Definition instant (Kc K : list chunk) : Prop := hcut Kc K \/ Kc = K.

(* the history up to its n-th event *)
Fixpoint hpre (n : nat) (K : list chunk) : list chunk :=
  match K with
  | [] => []
  | CE es :: K' => if (n <=? length es)%nat then [CE (firstn n es)] else CE es :: hpre (n - length es) K'
  | CT id seq r c :: K' => match n with O => [] | S n' => CT id seq r c :: hpre n' K' end
  end.

Lemma hflat_app K1 K2 : hflat (K1 ++ K2) = hflat K1 ++ hflat K2.
Proof. unfold hflat. apply flat_map_app. Qed.

(* [hpre n K] consists of the first n events of K (all of them if n exceeds their number) *)
Lemma hpre_flat K : forall n, hflat (hpre n K) = firstn n (hflat K).
Proof.
  induction K as [|k K IH]; intros n; [destruct n; reflexivity|].
  destruct k as [es|id seq r c]; cbn [hpre].
  - change (hflat (CE es :: K)) with (map HE es ++ hflat K). rewrite firstn_app, map_length.
    destruct (n <=? length es)%nat eqn:E.
    + apply Nat.leb_le in E. replace (n - length es)%nat with O by lia. cbn [firstn]. rewrite app_nil_r.
      change (hflat [CE (firstn n es)]) with (map HE (firstn n es) ++ []). rewrite app_nil_r. symmetry. apply firstn_map.
    + apply Nat.leb_gt in E. change (hflat (CE es :: hpre (n - length es) K)) with (map HE es ++ hflat (hpre (n - length es) K)).
      rewrite IH, (firstn_all2 (n:=n) (map HE es)); [reflexivity|rewrite map_length; lia].
  - destruct n as [|n]; [reflexivity|].
    change (hflat (CT id seq r c :: hpre n K)) with (HT id seq r c :: hflat (hpre n K)). rewrite IH. reflexivity.
Qed.

Lemma hpre_len K n : hlen (hpre n K) = Nat.min n (hlen K).
Proof. unfold hlen. rewrite hpre_flat. apply firstn_length. Qed.

(* histories in which every torn write follows a chunk of events (those of [mrun] are such) *)
Inductive hwf : list chunk -> Prop :=
| hwf_nil : hwf []
| hwf_ce es K : hwf K -> hwf (CE es :: K)
| hwf_ct es id seq r c K : hwf K -> hwf (CE es :: CT id seq r c :: K).

Lemma hwf_app K1 K2 : hwf K1 -> hwf K2 -> hwf (K1 ++ K2).
Proof.
  intros H1 H2. induction H1 as [|es K H IH|es id seq r c K H IH]; cbn [app]; [exact H2|apply hwf_ce; exact IH|apply hwf_ct; exact IH].
Qed.

Lemma instant_cons k Kc K : instant Kc K -> instant (k :: Kc) (k :: K).
Proof. intros [H| ->]; [left; apply hcut_cons; exact H|right; reflexivity]. Qed.

Lemma hcut_firstn n es K : hcut [CE (firstn n es)] (CE es :: K).
Proof. rewrite <- (firstn_skipn n es) at 2. apply hcut_here. Qed.

(* EVERY event boundary is an instant *)
Lemma hpre_instant K : hwf K -> forall n, instant (hpre n K) K.
Proof.
  intros H. induction H as [|es K H IH|es id seq r c K H IH]; intros n.
  - right. reflexivity.
  - cbn [hpre]. destruct (n <=? length es)%nat.
    + left. apply hcut_firstn.
    + apply instant_cons. apply IH.
  - cbn [hpre]. destruct (n <=? length es)%nat eqn:E.
    + left. apply hcut_firstn.
    + apply Nat.leb_gt in E. destruct (n - length es)%nat as [|n'] eqn:En; [lia|].
      apply instant_cons. apply instant_cons. apply IH.
Qed.

Lemma hcut_app_l Kc K1 K2 : hcut Kc K1 -> hcut Kc (K1 ++ K2).
Proof. intros H. induction H as [es1 es2 K|k Kc K H IH]; cbn [app]; [apply hcut_here|apply hcut_cons; exact IH]. Qed.

Lemma hcut_last K es : hcut (K ++ [CE es]) (K ++ [CE es]).
Proof. apply hcut_app. rewrite <- (app_nil_r es) at 2. apply hcut_here. Qed.

(* [run] is the list closure of the epoch relation [stp] (run_nil, run_cons, run_ind).  Every epoch keeps
   [step_main] and issues chunks as in [hwf] that end with a chunk of events.  [mrun] with [mstep], and
   [mrun3] with [mstep3], below, are such. *)
Section Epochs.
Variable P : params.
Variable run : cfg -> list mitem -> list chunk -> cfg -> Prop.
Variable stp : cfg -> mitem -> list chunk -> cfg -> Prop.
Hypothesis HP : params_ok P.
Hypothesis run_nil : forall cf, run cf [] [] cf.
Hypothesis run_cons : forall cf it Kit cf1 mh K cf',
  stp cf it Kit cf1 -> run cf1 mh K cf' -> run cf (it :: mh) (Kit ++ K) cf'.
Hypothesis run_ind : forall Q : cfg -> list mitem -> list chunk -> cfg -> Prop,
  (forall cf, Q cf [] [] cf) ->
  (forall cf it Kit cf1 mh K cf',
     stp cf it Kit cf1 -> run cf1 mh K cf' -> Q cf1 mh K cf' -> Q cf (it :: mh) (Kit ++ K) cf') ->
  forall cf mh K cf', run cf mh K cf' -> Q cf mh K cf'.
Hypothesis stp_main : forall cf it Kit cf1 u,
  XOpen P cf -> DurS u (fst cf) -> stp cf it Kit cf1 -> step_main P cf it Kit cf1 u.
Hypothesis stp_shape : forall cf it Kit cf1, stp cf it Kit cf1 -> hwf Kit /\ exists K' es, Kit = K' ++ [CE es].

Lemma runs_main cf mh K cf' : run cf mh K cf' ->
  forall u, XOpen P cf -> DurS u (fst cf) -> hist_ok P cf mh K cf' u.
Proof.
  intros H. induction H as [cf|cf it Kit cf1 mh K cf' Hs H IH] using run_ind; intros u HX HD.
  - apply hist_nil; assumption.
  - apply (hist_cons P cf it Kit cf1 u mh K cf' (stp_main _ _ _ _ u HX HD Hs) IH).
Qed.

(* torn writes follow events; a history of at least one epoch ends with a chunk of events *)
Lemma runs_shape cf mh K cf' : run cf mh K cf' ->
  hwf K /\ ((mh = [] /\ K = [] /\ cf' = cf) \/ exists K' es, K = K' ++ [CE es]).
Proof.
  intros H. induction H as [cf|cf it Kit cf1 mh K cf' Hs H (W' & IH)] using run_ind; [split; [apply hwf_nil|left; repeat split]|].
  destruct (stp_shape _ _ _ _ Hs) as (W & K1 & es1 & E1). split; [apply hwf_app; assumption|]. right.
  destruct IH as [(_ & -> & _)|(K' & es & ->)].
  - rewrite app_nil_r. exists K1, es1. exact E1.
  - exists (Kit ++ K'), es. apply app_assoc.
Qed.

(* a cut of a history lies in one of its epochs *)
Lemma runs_cut_split cf mh K cf' : run cf mh K cf' -> forall Kcut, hcut Kcut K ->
  exists mh1 K1 cfb it Kit cfn mh2 K2 Kc,
    run cf mh1 K1 cfb /\ stp cfb it Kit cfn /\ run cfn mh2 K2 cf' /\
    mh = mh1 ++ it :: mh2 /\ K = K1 ++ Kit ++ K2 /\ Kcut = K1 ++ Kc /\ hcut Kc Kit.
Proof.
  intros H. induction H as [cf|cf it Kit cf1 mh K cf' Hs H IH] using run_ind; intros Kcut Hcut; [inversion Hcut|].
  destruct (hcut_app_inv _ _ _ Hcut) as [Hl|(Kc2 & -> & Hc2)].
  - exists [], [], cf, it, Kit, cf1, mh, K, Kcut. split; [apply run_nil|]. split; [exact Hs|]. split; [exact H|].
    split; [reflexivity|]. split; [reflexivity|]. split; [reflexivity|exact Hl].
  - destruct (IH _ Hc2) as (mh1 & K1 & cfb & it2 & Kit2 & cfn & mh2 & K2 & Kc & A1 & A2 & A3 & -> & -> & -> & A7).
    exists (it :: mh1), (Kit ++ K1), cfb, it2, Kit2, cfn, mh2, K2, Kc.
    split; [apply (run_cons _ _ _ _ _ _ _ Hs A1)|]. split; [exact A2|]. split; [exact A3|].
    split; [reflexivity|]. split; [rewrite <- app_assoc; reflexivity|]. split; [rewrite <- app_assoc; reflexivity|exact A7].
Qed.

(* [window cf1 mh K Kcut s s1]: the instant Kcut of the history (mh, K) from cf1 lies after the last event
   of a COMPLETED Close -- of the open database s, leaving the closed directory s_disk s1 -- and before the
   first event of what follows (for a clean Open: the creation of the lock file) *)
Definition window (cf1 : cfg) (mh : list mitem) (K Kcut : list chunk) (s s1 : st) : Prop :=
  exists mh1 K1 c mh2 Krest,
    run cf1 mh1 K1 (s, c) /\ db_close flat_ops (clear_trace s) = (s1, OOk) /\
    mh = mh1 ++ mh2 /\ K = K1 ++ CE (s_trace s1) :: Krest /\
    (Kcut = K1 ++ [CE (s_trace s1)] \/ Kcut = K1 ++ [CE (s_trace s1); CE []]).

(* ... together with the epoch in which that Close happens and the rest of the history up to cf' *)
Definition window_in (cf1 : cfg) (mh : list mitem) (K : list chunk) (cf' : cfg) (Kcut : list chunk) (s s1 : st) : Prop :=
  exists mh1 K1 c Krest cfn mh2 K2,
    run cf1 mh1 K1 (s, c) /\ db_close flat_ops (clear_trace s) = (s1, OOk) /\
    stp (s, c) MClose (CE (s_trace s1) :: Krest) cfn /\ run cfn mh2 K2 cf' /\
    mh = mh1 ++ MClose :: mh2 /\ K = K1 ++ (CE (s_trace s1) :: Krest) ++ K2 /\
    (Kcut = K1 ++ [CE (s_trace s1)] \/ Kcut = K1 ++ [CE (s_trace s1); CE []]).

Lemma window_in_window cf1 mh K cf' Kcut s s1 : window_in cf1 mh K cf' Kcut s s1 -> window cf1 mh K Kcut s s1.
Proof.
  intros (mh1 & K1 & c & Krest & cfn & mh2 & K2 & Hr1 & Ec & _ & _ & Emh & EK & EKc).
  exists mh1, K1, c, (MClose :: mh2), (Krest ++ K2).
  split; [exact Hr1|]. split; [exact Ec|]. split; [exact Emh|]. split; [exact EK|exact EKc].
Qed.

(* in the window the directory is the closed one: no lock file *)
Lemma window_disk cf1 mh K Kcut s s1 : XOpen P cf1 -> window cf1 mh K Kcut s s1 ->
  hrun Kcut (s_disk (fst cf1)) = s_disk s1 /\ d_lock (s_disk s1) = false.
Proof.
  intros HX1 (mh1 & K1 & c & mh2 & Krest & Hr1 & Ec & Emh & EK & EKc).
  destruct (runs_main _ _ _ _ Hr1 None HX1 (open_DurS_None P cf1 HX1)) as ([(HI & Hm & Hb) _] & Ed & _).
  cbn [fst] in HI, Hm, Hb, Ed. destruct (s_mem s) as [m|] eqn:Em; [|congruence].
  destruct (closed_facts P s m s1 OOk HI Em Hb Ec) as (_ & _ & _ & _ & Hl1 & _ & _ & _ & _ & _ & Ed1).
  split; [|exact Hl1].
  destruct EKc as [-> | ->]; rewrite hrun_app, <- Ed; cbn [hrun fold_left hstep]; symmetry; exact Ed1.
Qed.

(* the dichotomy ([instant_dichotomy] below), with the epoch in which the Close happens *)
Theorem runs_dichotomy cf1 mh K cf' Kcut :
  XOpen P cf1 -> run cf1 mh K cf' -> instant Kcut K ->
  (d_lock (hrun Kcut (s_disk (fst cf1))) = true /\ (hcut Kcut K \/ (Kcut = [] /\ K = [] /\ mh = []))) \/
  (d_lock (hrun Kcut (s_disk (fst cf1))) = false /\ hcut Kcut K /\
   exists s s1, window_in cf1 mh K cf' Kcut s s1).
Proof.
  intros HX1 Hr Hin.
  assert (Hc : hcut Kcut K \/ (Kcut = [] /\ K = [] /\ mh = [])).
  { destruct Hin as [H| ->]; [left; exact H|].
    destruct (runs_shape _ _ _ _ Hr) as (_ & [(A & B & _)|(K' & es & ->)]); [right; repeat split; assumption|left; apply hcut_last]. }
  destruct Hc as [Hcut|(-> & -> & ->)].
  - destruct (runs_cut_split _ _ _ _ Hr _ Hcut) as (mh1 & K1 & cfb & it & Kit & cfn & mh2 & K2 & Kc & A1 & A2 & A3 & Emh & EK & EKc & A7).
    destruct (runs_main _ _ _ _ A1 None HX1 (open_DurS_None P cf1 HX1)) as (HXb & Edb & (ub & _ & HDb) & _).
    destruct (stp_main _ _ _ _ ub HXb HDb A2) as (_ & _ & Hlk).
    destruct (Hlk Kc A7) as [Hl|(s1 & Krest & -> & Ec & -> & HKc)].
    + left. split; [rewrite EKc, hrun_app, <- Edb; exact Hl|left; exact Hcut].
    + assert (Hw : window_in cf1 mh K cf' Kcut (fst cfb) s1).
      { exists mh1, K1, (snd cfb), Krest, cfn, mh2, K2. rewrite <- surjective_pairing.
        split; [exact A1|]. split; [exact Ec|]. split; [exact A2|]. split; [exact A3|]. split; [exact Emh|].
        split; [exact EK|]. rewrite EKc. destruct HKc as [-> | ->]; [left|right]; reflexivity. }
      right. destruct (window_disk _ _ _ _ _ _ HX1 (window_in_window _ _ _ _ _ _ _ Hw)) as [E1 E2].
      split; [rewrite E1; exact E2|]. split; [exact Hcut|]. exists (fst cfb), s1. exact Hw.
  - left. split; [|right; repeat split]. cbn [hrun fold_left]. destruct HX1 as [(HI & Hm & Hb) _].
    apply (Inv_Good P _ HI Hm Hb).
Qed.

(* the window after a completed Close: every admissible image is the closed directory *)
Lemma window_power_loss seed cf0 mh0 K0 cfa osync cf1 mh K Kcut s s1 L' img' :
  XOpen P cf0 -> run cf0 mh0 K0 cfa -> xstep P cfa osync cf1 ->
  window cf1 mh K Kcut s s1 ->
  plh fnone (s_disk (fst cf0)) (K0 ++ CE (s_trace (fst cf1)) :: Kcut) L' img' ->
  img' = set_orphans (s_disk s1) (d_orphans img') /\ d_lock img' = false /\
  exists s2, db_open flat_ops P seed (closed img') = (s2, OOpened false) /\ Inv P s2 /\ s_mem s2 <> None /\
    ceq (cont (s_disk s2)) (cont (s_disk s)) /\ after (cont (s_disk (fst cf1))) mh (cont (s_disk s2)).
Proof.
  intros HX0 Hr0 Hs (mh1 & K1 & c & mh2 & Krest & Hr1 & Ec & Emh & EK & EKc) Hpl.
  destruct (runs_main _ _ _ _ Hr0 None HX0 (open_DurS_None P cf0 HX0)) as (HXa & Eda & _).
  destruct (xstep_ok P _ _ _ HP HXa Hs) as (HX1 & _ & Ed1).
  destruct (runs_main _ _ _ _ Hr1 None HX1 (open_DurS_None P cf1 HX1)) as ([(HI & Hm & Hb) _] & Ed & _ & Hcr).
  cbn [fst] in HI, Hm, Hb, Ed. destruct (s_mem s) as [m|] eqn:Em; [|congruence].
  assert (Eds : s_disk s = hrun (K0 ++ CE (s_trace (fst cf1)) :: K1) (s_disk (fst cf0))).
  { rewrite hrun_app. cbn [hrun fold_left hstep]. rewrite <- Eda, <- Ed1. exact Ed. }
  assert (Hpl' : plh fnone (s_disk (fst cf0)) ((K0 ++ CE (s_trace (fst cf1)) :: K1) ++ [CE (s_trace s1)]) L' img').
  { destruct EKc as [-> | ->].
    - rewrite <- app_assoc. exact Hpl.
    - change [CE (s_trace s1); CE []] with ([CE (s_trace s1)] ++ [CE []]) in Hpl.
      rewrite app_assoc, app_comm_cons, app_assoc in Hpl.
      destruct (plh_app_inv _ _ _ _ _ _ Hpl) as (L1 & d1 & Hp1 & Hp2). apply plh_one_inv in Hp2.
      inversion Hp2; subst. rewrite <- app_assoc. exact Hp1. }
  destruct (closed_image P seed s m s1 OOk _ _ L' img' HI Em Eds Ec Hpl') as (E1 & E2 & s2 & E3 & HI2 & Hm2 & Hc2).
  split; [exact E1|]. split; [exact E2|]. exists s2. split; [exact E3|]. split; [exact HI2|]. split; [exact Hm2|].
  split; [exact Hc2|]. rewrite Emh. apply after_app_l.
  destruct (Hcr _ (hcrash_full K1 _)) as (_ & _ & Haf). rewrite <- Ed in Haf.
  apply (after_ceq_r _ _ _ _ Haf Hc2).
Qed.

(* power loss at any instant ([power_loss_any_instant] below): recovery by [sync_then_power_loss] where the lock
   file exists, the closed directory by [window_power_loss] in the window *)
Theorem runs_power_loss seed cf0 mh0 K0 cfa osync cf1 mh K cf' Kcut L' img' :
  XOpen P cf0 -> run cf0 mh0 K0 cfa -> xstep P cfa osync cf1 -> sync_point P osync ->
  run cf1 mh K cf' -> instant Kcut K ->
  plh fnone (s_disk (fst cf0)) (K0 ++ CE (s_trace (fst cf1)) :: Kcut) L' img' ->
  exists s2 b, db_open flat_ops P seed (closed img') = (s2, OOpened b) /\ Inv P s2 /\ s_mem s2 <> None /\
    after (cont (s_disk (fst cf1))) mh (cont (s_disk s2)) /\
    b = d_lock (hrun Kcut (s_disk (fst cf1))) /\ d_lock img' = b /\
    (b = false -> exists s s1, window_in cf1 mh K cf' Kcut s s1) /\
    (forall s s1, window cf1 mh K Kcut s s1 ->
       b = false /\ img' = set_orphans (s_disk s1) (d_orphans img') /\ ceq (cont (s_disk s2)) (cont (s_disk s))).
Proof.
  intros HX0 Hr0 Hs Hsp Hr Hin Hpl.
  destruct (runs_main _ _ _ _ Hr0 None HX0 (open_DurS_None P cf0 HX0)) as (HXa & Eda & _).
  destruct (xstep_ok P _ _ _ HP HXa Hs) as (HX1 & _ & Ed1).
  assert (Hlockimg : d_lock img' = d_lock (hrun Kcut (s_disk (fst cf1)))).
  { pose proof (plh_agree _ _ _ _ _ Hpl _ (Agree_refl _ _)) as (_ & _ & _ & _ & _ & A6 & _).
    rewrite A6, hrun_app. cbn [hrun fold_left hstep]. rewrite <- Eda, <- Ed1. reflexivity. }
  destruct (runs_dichotomy _ _ _ _ _ HX1 Hr Hin) as [[Hl _]|(Hl & _ & s & s1 & Hw)].
  - (* the lock file exists *)
    destruct (sync_then_power_loss P run HP runs_main seed _ _ _ _ _ _ _ _ _ _ _ _ HX0 Hr0 Hs Hsp Hr Hin Hl Hpl)
      as (s2 & E2 & HI2 & Hm2 & Haf).
    exists s2, true. split; [exact E2|]. split; [exact HI2|]. split; [exact Hm2|]. split; [exact Haf|].
    split; [symmetry; exact Hl|]. split; [rewrite Hlockimg; exact Hl|]. split; [discriminate|].
    intros t t1 Hw. exfalso. destruct (window_disk _ _ _ _ _ _ HX1 Hw) as [E1 E2']. congruence.
  - (* the window after a completed Close *)
    destruct (window_power_loss seed _ _ _ _ _ _ _ _ _ _ _ _ _ HX0 Hr0 Hs (window_in_window _ _ _ _ _ _ _ Hw) Hpl)
      as (_ & Hli & s2 & E2 & HI2 & Hm2 & _ & Haf).
    exists s2, false. split; [exact E2|]. split; [exact HI2|]. split; [exact Hm2|]. split; [exact Haf|].
    split; [symmetry; exact Hl|]. split; [exact Hli|]. split; [intros _; exists s, s1; exact Hw|].
    intros t t1 Hw'. split; [reflexivity|].
    destruct (window_power_loss seed _ _ _ _ _ _ _ _ _ _ _ _ _ HX0 Hr0 Hs Hw' Hpl)
      as (Ei & _ & s2' & E2' & _ & _ & Hc' & _).
    rewrite E2 in E2'. inversion E2'; subst s2'. split; [exact Ei|exact Hc'].
Qed.
End Epochs.

(* [mstep P cf it Kit cf1]: the epoch item it, run from the open database cf, issues the chunks Kit and
   ends in the open database cf1 (the constructors of [mrun], without the rest of the history) *)
Inductive mstep (P : params) : cfg -> mitem -> list chunk -> cfg -> Prop :=
| ms_ops cf os cfs tr cf1 : xrun P cf os cfs tr cf1 -> mstep P cf (MOps os) [CE tr] cf1
| ms_crash cf o cfx Kc cimg Kr s1 :
    xstep P cf o cfx -> cutof (s_disk (fst cf)) (s_trace (fst cfx)) Kc cimg -> rrun P cimg Kr s1 ->
    mstep P cf (MCrash o) (Kc ++ Kr) (s1, None)
| ms_kill cf Kr s1 : rrun P (s_disk (fst cf)) Kr s1 -> mstep P cf MKill Kr (s1, None)
| ms_close cf s1 seed s2 :
    db_close flat_ops (clear_trace (fst cf)) = (s1, OOk) ->
    db_open flat_ops P seed (closed (s_disk s1)) = (s2, OOpened false) ->
    mstep P cf MClose [CE (s_trace s1); CE (s_trace s2)] (s2, None)
| ms_crash_close cf s1 o p e q Kr s1' :
    db_close flat_ops (clear_trace (fst cf)) = (s1, o) -> s_trace s1 = p ++ e :: q ->
    rrun P (run_evs p (s_disk (fst cf))) Kr s1' -> mstep P cf MKill (CE p :: Kr) (s1', None).

Lemma mrun_cons P cf it Kit cf1 mh K cf' :
  mstep P cf it Kit cf1 -> mrun P cf1 mh K cf' -> mrun P cf (it :: mh) (Kit ++ K) cf'.
Proof.
  intros Hs Hr. destruct Hs as [cf os cfs tr cf1 Hx|cf o cfx Kc cimg Kr s1 Hx Hcut Hrr|cf Kr s1 Hrr
                                |cf s1 seed s2 Ec Eo|cf s1 o p e q Kr s1' Ec Etr Hrr]; cbn [app].
  - eapply mr_ops; eassumption.
  - rewrite <- app_assoc. eapply mr_crash; eassumption.
  - eapply mr_kill; eassumption.
  - eapply mr_close; eassumption.
  - eapply mr_crash_close; eassumption.
Qed.

Lemma mrun_one P cf it Kit cf1 : mstep P cf it Kit cf1 -> mrun P cf [it] Kit cf1.
Proof. intros Hs. rewrite <- (app_nil_r Kit). apply (mrun_cons P _ _ _ _ _ _ _ Hs). apply mr_nil. Qed.

Lemma mrun_epochs_ind P (Q : cfg -> list mitem -> list chunk -> cfg -> Prop) :
  (forall cf, Q cf [] [] cf) ->
  (forall cf it Kit cf1 mh K cf',
     mstep P cf it Kit cf1 -> mrun P cf1 mh K cf' -> Q cf1 mh K cf' -> Q cf (it :: mh) (Kit ++ K) cf') ->
  forall cf mh K cf', mrun P cf mh K cf' -> Q cf mh K cf'.
Proof.
  intros Hn Hc cf mh K cf' H.
  induction H as [cf|cf os cfs tr cf1 mh K cf' Hr H IH|cf o cfx Kc cimg Kr s1 mh K cf' Hs Hcut Hrr H IH
                  |cf Kr s1 mh K cf' Hrr H IH|cf s1 seed s2 mh K cf' Ec Eo H IH
                  |cf s1 o p e q Kr s1' mh K cf' Ec Etr Hrr H IH].
  - apply Hn.
  - apply (Hc cf (MOps os) [CE tr] cf1 mh K cf' (ms_ops P _ _ _ _ _ Hr) H IH).
  - rewrite app_assoc. apply (Hc cf (MCrash o) (Kc ++ Kr) (s1, None) mh K cf' (ms_crash P _ _ _ _ _ _ _ Hs Hcut Hrr) H IH).
  - apply (Hc cf MKill Kr (s1, None) mh K cf' (ms_kill P _ _ _ Hrr) H IH).
  - apply (Hc cf MClose [CE (s_trace s1); CE (s_trace s2)] (s2, None) mh K cf' (ms_close P _ _ _ _ Ec Eo) H IH).
  - apply (Hc cf MKill (CE p :: Kr) (s1', None) mh K cf' (ms_crash_close P _ _ _ _ _ _ _ _ Ec Etr Hrr) H IH).
Qed.

(* the chunks of an epoch: not empty, the last one is a chunk of events, torn writes follow events *)
Lemma rrun_shape P d Kr s1 : rrun P d Kr s1 -> hwf Kr /\ exists K' es, Kr = K' ++ [CE es].
Proof.
  intros H. induction H as [d seed s' E|d seed p q K s' Etr H (IH1 & K' & es & IH2)].
  - split; [apply hwf_ce; apply hwf_nil|]. exists [], (s_trace s'). reflexivity.
  - split; [apply hwf_ce; exact IH1|]. exists (CE p :: K'), es. rewrite IH2. reflexivity.
Qed.

Lemma cutof_hwf d es Kc cimg : cutof d es Kc cimg -> hwf Kc.
Proof. intros H. destruct H; [apply hwf_ce; apply hwf_nil|apply hwf_ct; apply hwf_nil]. Qed.

Lemma mstep_shape P cf it Kit cf1 : mstep P cf it Kit cf1 -> hwf Kit /\ exists K' es, Kit = K' ++ [CE es].
Proof.
  intros Hs. destruct Hs as [cf os cfs tr cf1 Hx|cf o cfx Kc cimg Kr s1 Hx Hcut Hrr|cf Kr s1 Hrr
                             |cf s1 seed s2 Ec Eo|cf s1 o p e q Kr s1' Ec Etr Hrr].
  - split; [apply hwf_ce; apply hwf_nil|]. exists [], tr. reflexivity.
  - destruct (rrun_shape P _ _ _ Hrr) as (W & K' & es & ->).
    split; [apply hwf_app; [eapply cutof_hwf; exact Hcut|exact W]|]. exists (Kc ++ K'), es. apply app_assoc.
  - apply (rrun_shape P _ _ _ Hrr).
  - split; [apply hwf_ce; apply hwf_ce; apply hwf_nil|]. exists [CE (s_trace s1)], (s_trace s2). reflexivity.
  - destruct (rrun_shape P _ _ _ Hrr) as (W & K' & es & ->).
    split; [apply hwf_ce; exact W|]. exists (CE p :: K'), es. reflexivity.
Qed.

Lemma mrun_shape P cf mh K cf' : mrun P cf mh K cf' ->
  hwf K /\ ((mh = [] /\ K = [] /\ cf' = cf) \/ exists K' es, K = K' ++ [CE es]).
Proof. apply (runs_shape _ _ (mrun_epochs_ind P) (mstep_shape P)). Qed.

(* an instant of a history of epochs lies in one of its epochs *)
Lemma mrun_cut_split P mh : forall cf K cf' Kcut, mrun P cf mh K cf' -> hcut Kcut K ->
  exists mh1 K1 cfb it Kit cfn mh2 K2 Kc,
    mrun P cf mh1 K1 cfb /\ mstep P cfb it Kit cfn /\ mrun P cfn mh2 K2 cf' /\
    mh = mh1 ++ it :: mh2 /\ K = K1 ++ Kit ++ K2 /\ Kcut = K1 ++ Kc /\ hcut Kc Kit.
Proof.
  intros cf K cf' Kcut Hr. apply (runs_cut_split _ _ (mr_nil P) (mrun_cons P) (mrun_epochs_ind P) _ _ _ _ Hr).
Qed.

Lemma mstep_main P : params_ok P -> forall cf it Kit cf1 u,
  XOpen P cf -> DurS u (fst cf) -> mstep P cf it Kit cf1 -> step_main P cf it Kit cf1 u.
Proof.
  intros HP cf it Kit cf1 u HX HD Hs.
  destruct Hs as [cf os cfs tr cf1 Hx|cf o cfx Kc cimg Kr s1 Hx Hcut Hrr|cf Kr s1 Hrr
                  |cf s1 seed s2 Ec Eo|cf s1 o p e q Kr s1' Ec Etr Hrr].
  - eapply ops_main; eassumption.
  - eapply crash_main; eassumption.
  - apply kill_main; assumption.
  - eapply close_main; eassumption.
  - eapply crash_close_main; eassumption.
Qed.


(* [closed_window P cf1 mh K cf' Kcut s s1]: the instant Kcut of the history (mh, K) from cf1 to cf' lies
   after the last event of a COMPLETED Close -- of the open database s, leaving the closed directory
   s_disk s1 -- and before the first event (the creation of the lock file) of the clean Open that follows *)
Definition closed_window (P : params) (cf1 : cfg) (mh : list mitem) (K : list chunk) (cf' : cfg)
  (Kcut : list chunk) (s s1 : st) : Prop :=
  exists mh1 K1 c seed s2 mh2 K2,
    mrun P cf1 mh1 K1 (s, c) /\ db_close flat_ops (clear_trace s) = (s1, OOk) /\
    db_open flat_ops P seed (closed (s_disk s1)) = (s2, OOpened false) /\
    mrun P (s2, None) mh2 K2 cf' /\ mh = mh1 ++ MClose :: mh2 /\
    K = K1 ++ CE (s_trace s1) :: CE (s_trace s2) :: K2 /\
    (Kcut = K1 ++ [CE (s_trace s1)] \/ Kcut = K1 ++ [CE (s_trace s1); CE []]).

Lemma window_in_closed P cf1 mh K cf' Kcut s s1 :
  window_in (mrun P) (mstep P) cf1 mh K cf' Kcut s s1 -> closed_window P cf1 mh K cf' Kcut s s1.
Proof.
  intros (mh1 & K1 & c & Krest & cfn & mh2 & K2 & Hr1 & Ec & Hs & Hr2 & Emh & EK & EKc).
  inversion Hs as [| | |cf s1' seed s2 Ec' Eo|]; subst. cbn [fst] in Ec'. rewrite Ec in Ec'. injection Ec' as <-.
  exists mh1, K1, c, seed, s2, mh2, K2. split; [exact Hr1|]. split; [exact Ec|]. split; [exact Eo|]. split; [exact Hr2|].
  split; [reflexivity|]. split; [reflexivity|exact EKc].
Qed.

Lemma closed_window_window P cf1 mh K cf' Kcut s s1 :
  closed_window P cf1 mh K cf' Kcut s s1 -> window (mrun P) cf1 mh K Kcut s s1.
Proof.
  intros (mh1 & K1 & c & seed & s2 & mh2 & K2 & Hr1 & Ec & Eo & Hr2 & Emh & EK & EKc).
  exists mh1, K1, c, (MClose :: mh2), (CE (s_trace s2) :: K2).
  split; [exact Hr1|]. split; [exact Ec|]. split; [exact Emh|]. split; [exact EK|exact EKc].
Qed.

(* THE DICHOTOMY.  Every instant of a history of epochs is either an instant at which the lock file exists
   -- then it is a cut [hcut] of the history, as C06_with_recovery wants it (or the history is empty and
   the instant is its starting point) -- or it lies in the window after a completed Close, as
   C09_reopen_epochs wants it.  The two cases exclude each other (d_lock is true in one, false in the
   other). *)
Theorem instant_dichotomy P cf1 mh K cf' Kcut :
  params_ok P -> XOpen P cf1 -> mrun P cf1 mh K cf' -> instant Kcut K ->
  (d_lock (hrun Kcut (s_disk (fst cf1))) = true /\ (hcut Kcut K \/ (Kcut = [] /\ K = [] /\ mh = []))) \/
  (d_lock (hrun Kcut (s_disk (fst cf1))) = false /\ hcut Kcut K /\
   exists s s1, closed_window P cf1 mh K cf' Kcut s s1).
Proof.
  intros HP HX1 Hr Hin.
  destruct (runs_dichotomy P _ _ (mr_nil P) (mrun_cons P) (mrun_epochs_ind P) (mstep_main P HP) (mstep_shape P)
              _ _ _ _ _ HX1 Hr Hin) as [H|(Hl & Hcut & s & s1 & Hw)]; [left; exact H|].
  right. split; [exact Hl|]. split; [exact Hcut|]. exists s, s1. apply window_in_closed. exact Hw.
Qed.


Lemma sync_epoch P cf0 mh0 K0 cfa osync cf1 mh1 K1 cfb :
  mrun P cf0 mh0 K0 cfa -> xstep P cfa osync cf1 -> mrun P cf1 mh1 K1 cfb ->
  mrun P cf0 (mh0 ++ MOps [osync] :: mh1) (K0 ++ CE (s_trace (fst cf1)) :: K1) cfb.
Proof.
  intros Hr0 Hs Hr1. apply (mrun_app P _ _ _ _ Hr0).
  rewrite <- (app_nil_r (s_trace (fst cf1))). eapply mr_ops; [|exact Hr1].
  apply (xr_cons P cfa osync cf1 [] [] [] cf1 Hs). apply xr_nil.
Qed.

(* POWER LOSS AT ANY INSTANT.  A history of epochs from a durable directory; in some epoch a Sync (or,
   with p_sync, a Put / Delete) completes: contents A0 = cont (s_disk (fst cf1)).  The history goes on
   through any number of epochs mh (acknowledged steps; process crashes in the middle of a step, with torn
   writes, between steps, in the middle of Close; recovery attempts that die themselves; Close and clean
   Open).  The power fails at ANY instant of it: Kcut is the history up to any event boundary, first and
   last included.  Whatever the file system kept (every admissible image img'):
   - the next Open succeeds, through a recovery (b = true) exactly if the lock file exists at that
     instant, cleanly (b = false) otherwise; the invariant holds;
   - the contents are A0 followed by a prefix of (a linearisation of) the later operations;
   - if the lock file does not exist, the instant lies in the window after a completed Close, and
     whenever it does the image is the closed directory itself and the contents are EXACTLY those of the
     database that was closed. *)
Theorem power_loss_any_instant P seed cf0 mh0 K0 cfa osync cf1 mh K cf' Kcut L' img' :
  params_ok P -> XOpen P cf0 ->
  mrun P cf0 mh0 K0 cfa -> xstep P cfa osync cf1 -> sync_point P osync ->
  mrun P cf1 mh K cf' -> instant Kcut K ->
  plh fnone (s_disk (fst cf0)) (K0 ++ CE (s_trace (fst cf1)) :: Kcut) L' img' ->
  exists s2 b, db_open flat_ops P seed (closed img') = (s2, OOpened b) /\ Inv P s2 /\ s_mem s2 <> None /\
    after (cont (s_disk (fst cf1))) mh (cont (s_disk s2)) /\
    b = d_lock (hrun Kcut (s_disk (fst cf1))) /\ d_lock img' = b /\
    (b = false -> exists s s1, closed_window P cf1 mh K cf' Kcut s s1) /\
    (forall s s1, closed_window P cf1 mh K cf' Kcut s s1 ->
       b = false /\ img' = set_orphans (s_disk s1) (d_orphans img') /\ ceq (cont (s_disk s2)) (cont (s_disk s))).
Proof.
  intros HP HX0 Hr0 Hs Hsp Hr Hin Hpl.
  destruct (runs_power_loss P _ _ HP (mr_nil P) (mrun_cons P) (mrun_epochs_ind P) (mstep_main P HP) (mstep_shape P)
              seed _ _ _ _ _ _ _ _ _ _ _ _ HX0 Hr0 Hs Hsp Hr Hin Hpl)
    as (s2 & b & E2 & HI2 & Hm2 & Haf & Eb & El & Hw1 & Hw2).
  exists s2, b. split; [exact E2|]. split; [exact HI2|]. split; [exact Hm2|]. split; [exact Haf|].
  split; [exact Eb|]. split; [exact El|]. split.
  - intros Hb. destruct (Hw1 Hb) as (s & s1 & Hw). exists s, s1. apply window_in_closed. exact Hw.
  - intros s s1 Hw. apply Hw2. exact (closed_window_window _ _ _ _ _ _ _ _ Hw).
Qed.

(* ... in particular after ANY NUMBER n of events of the history (all of it, if n exceeds their number) *)
Corollary power_loss_after_n_events P seed cf0 mh0 K0 cfa osync cf1 mh K cf' n L' img' :
  params_ok P -> XOpen P cf0 ->
  mrun P cf0 mh0 K0 cfa -> xstep P cfa osync cf1 -> sync_point P osync ->
  mrun P cf1 mh K cf' ->
  plh fnone (s_disk (fst cf0)) (K0 ++ CE (s_trace (fst cf1)) :: hpre n K) L' img' ->
  hflat (hpre n K) = firstn n (hflat K) /\
  exists s2 b, db_open flat_ops P seed (closed img') = (s2, OOpened b) /\ Inv P s2 /\ s_mem s2 <> None /\
    after (cont (s_disk (fst cf1))) mh (cont (s_disk s2)) /\
    b = d_lock (hrun (hpre n K) (s_disk (fst cf1))) /\ d_lock img' = b /\
    (b = false -> exists s s1, closed_window P cf1 mh K cf' (hpre n K) s s1) /\
    (forall s s1, closed_window P cf1 mh K cf' (hpre n K) s s1 ->
       b = false /\ img' = set_orphans (s_disk s1) (d_orphans img') /\ ceq (cont (s_disk s2)) (cont (s_disk s))).
Proof.
  intros HP HX0 Hr0 Hs Hsp Hr Hpl. split; [apply hpre_flat|].
  apply (power_loss_any_instant P seed _ _ _ _ _ _ _ _ _ _ L' _ HP HX0 Hr0 Hs Hsp Hr); [|exact Hpl].
  apply hpre_instant. apply (mrun_shape P _ _ _ _ Hr).
Qed.

(* the power fails at any instant of the epoch that follows the history (mh, K) *)
Corollary power_loss_last_epoch P seed cf0 mh0 K0 cfa osync cf1 mh K cfb it Kit cfn Kc L' img' :
  params_ok P -> XOpen P cf0 ->
  mrun P cf0 mh0 K0 cfa -> xstep P cfa osync cf1 -> sync_point P osync ->
  mrun P cf1 mh K cfb -> mstep P cfb it Kit cfn -> instant Kc Kit ->
  plh fnone (s_disk (fst cf0)) (K0 ++ CE (s_trace (fst cf1)) :: K ++ Kc) L' img' ->
  exists s2 b, db_open flat_ops P seed (closed img') = (s2, OOpened b) /\ Inv P s2 /\ s_mem s2 <> None /\
    after (cont (s_disk (fst cf1))) (mh ++ [it]) (cont (s_disk s2)) /\
    b = d_lock (hrun Kc (s_disk (fst cfb))) /\ d_lock img' = b.
Proof.
  intros HP HX0 Hr0 Hs Hsp Hr Hst Hin Hpl.
  pose proof (sync_XOpen P _ _ _ _ _ _ HP HX0 Hr0 Hs) as HX1.
  destruct (mrun_main P _ _ _ _ HP Hr None HX1 (open_DurS_None P cf1 HX1)) as (_ & Edb & _).
  pose proof (mrun_app P _ _ _ _ Hr _ _ _ (mrun_one P _ _ _ _ Hst)) as Hr'.
  assert (Hin' : instant (K ++ Kc) (K ++ Kit)) by (destruct Hin as [H| ->]; [left; apply hcut_app; exact H|right; reflexivity]).
  destruct (power_loss_any_instant P seed _ _ _ _ _ _ _ _ _ _ _ _ HP HX0 Hr0 Hs Hsp Hr' Hin' Hpl)
    as (s2 & b & E2 & HI2 & Hm2 & Haf & Eb & El & _).
  exists s2, b. split; [exact E2|]. split; [exact HI2|]. split; [exact Hm2|]. split; [exact Haf|].
  split; [rewrite Eb, hrun_app, <- Edb; reflexivity|exact El].
Qed.

Lemma lin_drop_close mh : forall l, lin (mh ++ [MClose]) l -> lin mh l.
Proof.
  induction mh as [|it mh IH]; intros l H; cbn [app] in H.
  - inversion H as [| | | | |mh' l' H']; subst. exact H'.
  - inversion H as [|os mh' l' H'|o mh' l' H'|o mh' l' H'|mh' l' H'|mh' l' H']; subst.
    + apply lin_ops. apply IH. exact H'.
    + apply lin_lost. apply IH. exact H'.
    + apply lin_done. apply IH. exact H'.
    + apply lin_kill. apply IH. exact H'.
    + apply lin_close. apply IH. exact H'.
Qed.

Lemma after_drop_close c mh c' : after c (mh ++ [MClose]) c' -> after c mh c'.
Proof. intros (l & j & Hl & Hj & Hc). exists l, j. split; [apply lin_drop_close; exact Hl|split; assumption]. Qed.

(* the power fails after any prefix es1 of the events of a Close that ends the history (C09 "during Close",
   for histories of epochs): recovery while the lock file exists, clean Open with EXACTLY the closed contents
   after the complete Close *)
Corollary power_loss_during_close P seed cf0 mh0 K0 cfa osync cf1 mh K (s : st) c s1 o es1 es2 L' img' :
  params_ok P -> XOpen P cf0 ->
  mrun P cf0 mh0 K0 cfa -> xstep P cfa osync cf1 -> sync_point P osync ->
  mrun P cf1 mh K (s, c) ->
  db_close flat_ops (clear_trace s) = (s1, o) -> s_trace s1 = es1 ++ es2 ->
  plh fnone (s_disk (fst cf0)) (K0 ++ CE (s_trace (fst cf1)) :: K ++ [CE es1]) L' img' ->
  exists s2 b, db_open flat_ops P seed (closed img') = (s2, OOpened b) /\ Inv P s2 /\ s_mem s2 <> None /\
    after (cont (s_disk (fst cf1))) mh (cont (s_disk s2)) /\
    (es2 <> [] -> b = true) /\
    (es2 = [] -> b = false /\ img' = set_orphans (s_disk s1) (d_orphans img') /\ ceq (cont (s_disk s2)) (cont (s_disk s))).
Proof.
  intros HP HX0 Hr0 Hs Hsp Hr Ec Etr Hpl.
  pose proof (sync_XOpen P _ _ _ _ _ _ HP HX0 Hr0 Hs) as HX1.
  destruct (mrun_main P _ _ _ _ HP Hr None HX1 (open_DurS_None P cf1 HX1)) as (HXs & Eds & _).
  pose proof HXs as [HOs _]. cbn [fst] in HOs, Eds.
  destruct HOs as (HI & Hm & Hb). destruct (s_mem s) as [m|] eqn:Em; [|congruence].
  destruct (closed_facts P s m s1 o HI Em Hb Ec) as (-> & _).
  destruct (db_open flat_ops P 0 (closed (s_disk s1))) as [s2' o2] eqn:Eo.
  destruct (reopen_ok P 0 s m s1 OOk s2' o2 HI Em Hb Ec Eo) as (-> & _).
  assert (Hst : mstep P (s, c) MClose [CE (s_trace s1); CE (s_trace s2')] (s2', None)) by (eapply ms_close; [exact Ec|exact Eo]).
  pose proof (mrun_app P _ _ _ _ Hr _ _ _ (mrun_one P _ _ _ _ Hst)) as Hr'.
  assert (Hin : instant (K ++ [CE es1]) (K ++ [CE (s_trace s1); CE (s_trace s2')])).
  { left. apply hcut_app. rewrite Etr. apply hcut_here. }
  destruct (power_loss_any_instant P seed _ _ _ _ _ _ _ _ _ _ _ _ HP HX0 Hr0 Hs Hsp Hr' Hin Hpl)
    as (s2 & b & E2 & HI2 & Hm2 & Haf & Eb & _ & _ & Hw).
  exists s2, b. split; [exact E2|]. split; [exact HI2|]. split; [exact Hm2|]. split; [apply after_drop_close; exact Haf|].
  split.
  - intros Hne. rewrite Eb, hrun_app, <- Eds. cbn [hrun fold_left hstep].
    destruct es2 as [|e2 es2]; [contradiction Hne; reflexivity|].
    exact (close_prefix_lock P s m s1 OOk es1 e2 es2 HI Em Hb Ec Etr).
  - intros ->. rewrite app_nil_r in Etr. subst es1. apply (Hw s s1).
    exists mh, K, c, 0, s2', [], []. split; [exact Hr|]. split; [exact Ec|]. split; [exact Eo|]. split; [apply mr_nil|].
    split; [reflexivity|]. split; [reflexivity|left; reflexivity].
Qed.

(* the clean Open that follows a completed Close is cut short (C09 "during the next Open", for histories
   of epochs): EXACTLY the closed contents, whatever prefix e1 of its events was issued *)
Theorem power_loss_during_reopen_exact P seed cf0 mh K (s : st) c s1 seed' s2' e1 e2 L' img' :
  params_ok P -> XOpen P cf0 -> mrun P cf0 mh K (s, c) ->
  db_close flat_ops (clear_trace s) = (s1, OOk) ->
  db_open flat_ops P seed' (closed (s_disk s1)) = (s2', OOpened false) -> s_trace s2' = e1 ++ e2 ->
  plh fnone (s_disk (fst cf0)) (K ++ [CE (s_trace s1); CE e1]) L' img' ->
  exists s3 b, db_open flat_ops P seed (closed img') = (s3, OOpened b) /\ Inv P s3 /\ s_mem s3 <> None /\
    ceq (cont (s_disk s3)) (cont (s_disk s)) /\ b = match e1 with [] => false | _ :: _ => true end.
Proof.
  intros HP HX0 Hr Ec Eo Etr Hpl.
  destruct (mrun_main P _ _ _ _ HP Hr None HX0 (open_DurS_None P cf0 HX0)) as ([(HI & Hm & Hb) _] & Ed & (u' & Hd & HD') & _).
  cbn [fst] in HI, Hm, Hb, Ed, HD'. destruct HD' as (m & Em & HDm).
  destruct (closed_facts P s m s1 OOk HI Em Hb Ec) as (_ & Hm1 & Hok1 & Hb1 & Hl1 & Hi1 & Hov1 & Him1 & Hh1 & Hc1 & Ed1).
  change [CE (s_trace s1); CE e1] with ([CE (s_trace s1)] ++ [CE e1]) in Hpl. rewrite app_assoc in Hpl.
  destruct (plh_app_inv _ _ _ _ _ _ Hpl) as (L1 & img1 & Hp1 & Hp2). apply plh_one_inv in Hp2.
  destruct e1 as [|a e1].
  - inversion Hp2; subst.
    destruct (C09_reopen_epochs P seed _ _ _ _ _ _ _ _ _ _ HP HX0 Hr Em Ec Hp1) as (_ & _ & s3 & E3 & HI3 & Hm3 & Hc3).
    exists s3, false. split; [exact E3|]. split; [exact HI3|]. split; [exact Hm3|]. split; [exact Hc3|reflexivity].
  - assert (Hdur : hdur2 None (K ++ [CE (s_trace s1)]) = Some None).
    { apply (hdur2_cat _ _ _ _ _ Hd). rewrite hdur2_one.
      pose proof (close_dur2 s m u' Em HDm) as Hdc. rewrite Ec in Hdc. exact Hdc. }
    pose proof (plh_clean _ _ _ _ Hp1 Hdur) as HL1.
    assert (HA1 : Agree L1 (s_disk s1) img1).
    { replace (s_disk s1) with (hrun (K ++ [CE (s_trace s1)]) (s_disk (fst cf0))).
      - apply (plh_agree _ _ _ _ _ Hp1). apply Agree_refl.
      - rewrite hrun_app, <- Ed. cbn [hrun fold_left hstep]. symmetry. exact Ed1. }
    destruct (clean_open_power_loss P seed' seed (s_disk s1) _ _ L1 img1 a e1 e2 L' img' HP Hok1 Hb1 Hl1 Hi1 Hov1 Him1 Hh1)
      as (s3 & E3 & HI3 & Hm3 & Hc3); [rewrite Eo; exact Etr|exact HL1|exact HA1|exact Hp2|].
    exists s3, true. split; [exact E3|]. split; [exact HI3|]. split; [exact Hm3|]. split; [|reflexivity].
    eapply ceq_trans; [exact Hc3|exact Hc1].
Qed.


(* CRASH DURING A CLEAN OPEN.  The database cf is closed (Close returns nil); the next Open, a clean one,
   is killed after a non-empty prefix p of its events (the lock file created; possibly a new, empty segment
   file created; possibly its header written); recovery attempts Kr follow (any number that die, one that
   completes: s1').  Then everything [mrun_main] asserts of an epoch MKill holds of this epoch
   K = Close ; p ; Kr:  the recovery ends in an open database with the invariant and UNCHANGED contents, on
   the disk [hrun K]; the automaton accepts K and the unflushed segment file, if any, is the current segment;
   every process-crash image of K is recoverable (or the closed directory) with the same contents.
   Hence the history can go on with any [mrun] from (s1', None). *)
Theorem crash_during_clean_open P seed cf s1 s2 p q Kr s1' u :
  params_ok P -> XOpen P cf -> DurS u (fst cf) ->
  db_close flat_ops (clear_trace (fst cf)) = (s1, OOk) ->
  db_open flat_ops P seed (closed (s_disk s1)) = (s2, OOpened false) ->
  s_trace s2 = p ++ q -> p <> [] ->
  rrun P (run_evs p (s_disk s1)) Kr s1' ->
  XOpen P (s1', None) /\
  s_disk s1' = hrun (CE (s_trace s1) :: CE p :: Kr) (s_disk (fst cf)) /\
  ceq (cont (s_disk s1')) (cont (s_disk (fst cf))) /\
  (exists u', hdur2 u (CE (s_trace s1) :: CE p :: Kr) = Some u' /\ DurS u' s1') /\
  d_lock (run_evs p (s_disk s1)) = true /\
  (forall x, hcrash (s_disk (fst cf)) (CE (s_trace s1) :: CE p :: Kr) x ->
     DiskOK x /\ bac_ok x /\ ceq (cont x) (cont (s_disk (fst cf))) /\ (d_lock x = true \/ x = s_disk s1)).
Proof.
  intros HP HX HD Ec Eo Etr Hne Hrr. pose proof HX as [(HI & Hm & Hb) _]. destruct HD as (m & Em & HDm).
  destruct (closed_facts P (fst cf) m s1 OOk HI Em Hb Ec) as (_ & Hm1 & Hok1 & Hb1 & Hl1 & Hi1 & Hov1 & Him1 & Hh1 & Hc1 & Ed1).
  destruct (clean_open_prefix P seed (fst cf) m s1 s2 p q HI Em Hb Ec Eo Etr) as ((u_p & Hdp & HNp) & Himg & Hlk).
  specialize (Hlk Hne).
  destruct (Himg _ (crash_image_full p _)) as (Gp1 & Gp2 & Hop & _).
  assert (Hgp : Good (run_evs p (s_disk s1))) by (split; [exact Gp1|split; [exact Gp2|exact Hlk]]).
  assert (Hcp : ceq (cont (run_evs p (s_disk s1))) (cont (s_disk (fst cf)))).
  { intros k. unfold cont. rewrite (olog_abs _ _ Hop). apply Hc1. }
  destruct (rrun_ok P _ Kr s1' HP Hrr u_p Hgp HNp) as (HO1 & Hc1' & Ed1' & (u1 & Hd1 & HD1) & Hcrr).
  pose proof (close_dur2 (fst cf) m u Em HDm) as Hdc. rewrite Ec in Hdc. cbn [fst] in Hdc.
  split; [split; [exact HO1|exact Logic.I]|].
  split; [cbn [hrun fold_left hstep]; rewrite <- Ed1; exact Ed1'|].
  split; [eapply ceq_trans; eassumption|].
  split; [exists u1; split; [cbn [hdur2 hdur2_step]; rewrite Hdc, Hdp; exact Hd1|exact HD1]|].
  split; [exact Hlk|].
  assert (Hcl : DiskOK (s_disk s1) /\ bac_ok (s_disk s1) /\ ceq (cont (s_disk s1)) (cont (s_disk (fst cf))) /\
                (d_lock (s_disk s1) = true \/ s_disk s1 = s_disk s1)).
  { split; [exact Hok1|]. split; [exact Hb1|]. split; [exact Hc1|right; reflexivity]. }
  intros x Hx. inversion Hx as [d0 K0|d0 es0 K0 cimg Hci|d0 es0 K0 cimg Hc| |]; subst.
  - destruct (Inv_Good P _ HI Hm Hb) as (G1 & G2 & G3). split; [exact G1|]. split; [exact G2|]. split; [apply ceq_refl|left; exact G3].
  - destruct (crash_close P (fst cf) s1 OOk x HI Hm Hb Ec Hci) as [(G1 & G2 & G3 & Hc)| ->]; [|exact Hcl].
    split; [exact G1|]. split; [exact G2|]. split; [exact Hc|left; exact G3].
  - rewrite <- Ed1 in Hc. inversion Hc as [d0 K0|d0 es0 K0 cimg Hci|d0 es0 K0 cimg Hc2| |]; subst.
    + exact Hcl.
    + destruct (Himg x Hci) as (G1 & G2 & Ho & Hl). split; [exact G1|]. split; [exact G2|].
      split; [intros k; unfold cont; rewrite (olog_abs _ _ Ho); apply Hc1|].
      destruct Hl as [->|Hl]; [right; reflexivity|left; exact Hl].
    + destruct (Hcrr x Hc2) as [(G1 & G2 & G3) Hcx]. split; [exact G1|]. split; [exact G2|].
      split; [eapply ceq_trans; eassumption|left; exact G3].
Qed.

(* [reopen_window P cf1 mh K cf' Kcut s s1]: the instant Kcut lies after the completed Close of the open
   database s and not after the end of the clean Open that follows it: in the window of [closed_window]
   (e1 = []) or inside that Open, e1 being the events of it issued so far *)
Definition reopen_window (P : params) (cf1 : cfg) (mh : list mitem) (K : list chunk) (cf' : cfg)
  (Kcut : list chunk) (s s1 : st) : Prop :=
  exists mh1 K1 c seed s2 mh2 K2 e1 e2,
    mrun P cf1 mh1 K1 (s, c) /\ db_close flat_ops (clear_trace s) = (s1, OOk) /\
    db_open flat_ops P seed (closed (s_disk s1)) = (s2, OOpened false) /\
    mrun P (s2, None) mh2 K2 cf' /\ mh = mh1 ++ MClose :: mh2 /\
    K = K1 ++ CE (s_trace s1) :: CE (s_trace s2) :: K2 /\
    s_trace s2 = e1 ++ e2 /\ Kcut = K1 ++ [CE (s_trace s1); CE e1].

(* ... there too the contents are EXACTLY those of the database that was closed (a recovery, if the lock
   file has been created; a clean Open otherwise) *)
Theorem power_loss_reopen_exact P seed cf0 mh0 K0 cfa osync cf1 mh K cf' Kcut s s1 L' img' :
  params_ok P -> XOpen P cf0 ->
  mrun P cf0 mh0 K0 cfa -> xstep P cfa osync cf1 -> sync_point P osync ->
  reopen_window P cf1 mh K cf' Kcut s s1 ->
  plh fnone (s_disk (fst cf0)) (K0 ++ CE (s_trace (fst cf1)) :: Kcut) L' img' ->
  exists s3 b, db_open flat_ops P seed (closed img') = (s3, OOpened b) /\ Inv P s3 /\ s_mem s3 <> None /\
    ceq (cont (s_disk s3)) (cont (s_disk s)) /\ b = d_lock (hrun Kcut (s_disk (fst cf1))) /\ d_lock img' = b.
Proof.
  intros HP HX0 Hr0 Hs Hsp (mh1 & K1 & c & seed' & s2 & mh2 & K2 & e1 & e2 & Hr1 & Ec & Eo & Hr2 & Emh & EK & Etr & ->) Hpl.
  pose proof (sync_epoch P _ _ _ _ _ _ _ _ _ Hr0 Hs Hr1) as Hrall.
  rewrite app_comm_cons, app_assoc in Hpl.
  destruct (power_loss_during_reopen_exact P seed _ _ _ _ _ _ _ _ _ _ _ _ HP HX0 Hrall Ec Eo Etr Hpl)
    as (s3 & b & E3 & HI3 & Hm3 & Hc3 & Eb).
  exists s3, b. split; [exact E3|]. split; [exact HI3|]. split; [exact Hm3|]. split; [exact Hc3|].
  pose proof (sync_XOpen P _ _ _ _ _ _ HP HX0 Hr0 Hs) as HX1.
  destruct (mrun_main P _ _ _ _ HP Hrall None HX0 (open_DurS_None P cf0 HX0)) as ([(HI & Hm & Hb) _] & Edall & _).
  destruct (mrun_main P _ _ _ _ HP Hr1 None HX1 (open_DurS_None P cf1 HX1)) as (_ & Ed & _).
  cbn [fst] in HI, Hm, Hb, Ed, Edall. destruct (s_mem s) as [m|] eqn:Em; [|congruence].
  destruct (closed_facts P s m s1 OOk HI Em Hb Ec) as (_ & _ & _ & _ & Hl1 & _ & _ & _ & _ & _ & Ed1).
  assert (Hlk : d_lock (run_evs e1 (s_disk s1)) = b).
  { rewrite Eb. destruct e1 as [|a e1]; [exact Hl1|].
    destruct (clean_open_prefix P seed' s m s1 s2 (a :: e1) e2 HI Em Hb Ec Eo Etr) as (_ & _ & Hlk). apply Hlk. discriminate. }
  split.
  - rewrite hrun_app, <- Ed. cbn [hrun fold_left hstep]. rewrite <- Ed1. symmetry. exact Hlk.
  - pose proof (plh_agree _ _ _ _ _ Hpl _ (Agree_refl _ _)) as (_ & _ & _ & _ & _ & A6 & _).
    rewrite A6, hrun_app, <- Edall. cbn [hrun fold_left hstep]. rewrite <- Ed1. exact Hlk.
Qed.


(* the epochs of [mrun], and the new one (labelled MClose: a Close completes in it; no operation) *)
Inductive mstep3 (P : params) : cfg -> mitem -> list chunk -> cfg -> Prop :=
| ms3_old cf it Kit cf1 : mstep P cf it Kit cf1 -> mstep3 P cf it Kit cf1
| ms3_crash_open cf s1 seed s2 p q Kr s1' :
    db_close flat_ops (clear_trace (fst cf)) = (s1, OOk) ->
    db_open flat_ops P seed (closed (s_disk s1)) = (s2, OOpened false) ->
    s_trace s2 = p ++ q -> p <> [] -> rrun P (run_evs p (s_disk s1)) Kr s1' ->
    mstep3 P cf MClose (CE (s_trace s1) :: CE p :: Kr) (s1', None).

Inductive mrun3 (P : params) : cfg -> list mitem -> list chunk -> cfg -> Prop :=
| m3_nil cf : mrun3 P cf [] [] cf
| m3_cons cf it Kit cf1 mh K cf' :
    mstep3 P cf it Kit cf1 -> mrun3 P cf1 mh K cf' -> mrun3 P cf (it :: mh) (Kit ++ K) cf'.

Lemma mrun_mrun3 P mh : forall cf K cf', mrun P cf mh K cf' -> mrun3 P cf mh K cf'.
Proof.
  intros cf K cf' H. induction H as [cf|cf it Kit cf1 mh K cf' Hs H IH] using mrun_epochs_ind; [apply m3_nil|].
  apply (m3_cons P _ _ _ _ _ _ _ (ms3_old P _ _ _ _ Hs) IH).
Qed.

(* the new epoch: by [crash_during_clean_open]; its cuts are those of Close and the prefix of the clean Open,
   or lie in the recovery attempts *)
Lemma mstep3_main P : params_ok P -> forall cf it Kit cf1 u,
  XOpen P cf -> DurS u (fst cf) -> mstep3 P cf it Kit cf1 -> step_main P cf it Kit cf1 u.
Proof.
  intros HP cf it Kit cf1 u HX HD Hs. destruct Hs as [cf it Kit cf1 Hs|cf s1 seed s2 p q Kr s1' Ec Eo Etr Hne Hrr].
  - apply mstep_main; assumption.
  - destruct (crash_during_clean_open P seed cf s1 s2 p q Kr s1' u HP HX HD Ec Eo Etr Hne Hrr) as (B1 & B2 & B3 & B4 & _ & B6).
    split; [split; [exact B1|]; split; [exact B2|]; split; [exact B4|]|split].
    + intros x Hx. destruct (B6 x Hx) as (G1 & G2 & Hc & _). split; [exact G1|]. split; [exact G2|apply after_here; exact Hc].
    + exists []. split; [intros mh l2 H; apply lin_close; exact H|exact B3].
    + intros Kc Hcut. pose proof HX as [(HI & Hm & Hb) _]. destruct (s_mem (fst cf)) as [m|] eqn:Em; [|congruence].
      change (CE (s_trace s1) :: CE p :: Kr) with ([CE (s_trace s1); CE p] ++ Kr) in Hcut.
      destruct (hcut_app_inv _ _ _ Hcut) as [Hl|(Kc2 & -> & Hc2)].
      * destruct (close_open_cuts P seed (fst cf) m s1 s2 p q Kc HI Em Hb Ec Eo Etr Hl) as [Hlk|HKc]; [left; exact Hlk|].
        right. exists s1, (CE p :: Kr). split; [reflexivity|]. split; [exact Ec|]. split; [reflexivity|exact HKc].
      * (* inside the recovery attempts *)
        left. rewrite hrun_app. cbn [hrun fold_left hstep].
        destruct (closed_facts P (fst cf) m s1 OOk HI Em Hb Ec) as (_ & _ & _ & _ & _ & _ & _ & _ & _ & _ & Ed1). rewrite <- Ed1.
        destruct (clean_open_prefix P seed (fst cf) m s1 s2 p q HI Em Hb Ec Eo Etr) as ((u_p & Hdp & HNp) & Himg & Hlk).
        destruct (Himg _ (crash_image_full p _)) as (Gp1 & Gp2 & _).
        assert (Hgp : Good (run_evs p (s_disk s1))) by (split; [exact Gp1|split; [exact Gp2|exact (Hlk Hne)]]).
        destruct (rrun_ok P _ Kr s1' HP Hrr u_p Hgp HNp) as (_ & _ & _ & _ & Hcrr).
        destruct (Hcrr _ (hcut_self _ _ Hc2 _)) as [(_ & _ & G3) _]. exact G3.
Qed.

Theorem mrun3_main P cf mh K cf' : params_ok P -> mrun3 P cf mh K cf' -> forall u, XOpen P cf -> DurS u (fst cf) ->
  XOpen P cf' /\ s_disk (fst cf') = hrun K (s_disk (fst cf)) /\
  (exists u', hdur2 u K = Some u' /\ DurS u' (fst cf')) /\
  (forall x, hcrash (s_disk (fst cf)) K x ->
     DiskOK x /\ bac_ok x /\ after (cont (s_disk (fst cf))) mh (cont x)).
Proof. intros HP. apply (runs_main P _ _ (mrun3_ind P) (mstep3_main P HP)). Qed.

Theorem C06_with_recovery3 P seed cf0 mh0 K0 cfa osync cf1 mh K cf' Kcut L' img' :
  params_ok P -> XOpen P cf0 ->
  mrun3 P cf0 mh0 K0 cfa -> xstep P cfa osync cf1 -> sync_point P osync ->
  mrun3 P cf1 mh K cf' -> hcut Kcut K -> d_lock (hrun Kcut (s_disk (fst cf1))) = true ->
  plh fnone (s_disk (fst cf0)) (K0 ++ CE (s_trace (fst cf1)) :: Kcut) L' img' ->
  exists s2, db_open flat_ops P seed (closed img') = (s2, OOpened true) /\ Inv P s2 /\ s_mem s2 <> None /\
    after (cont (s_disk (fst cf1))) mh (cont (s_disk s2)).
Proof.
  intros HP HX0 Hr0 Hs Hsp Hr Hcut.
  exact (sync_then_power_loss P (mrun3 P) HP (fun cf mh K cf' => mrun3_main P cf mh K cf' HP) seed _ _ _ _ _ _ _ _ _ _ _ _
           HX0 Hr0 Hs Hsp Hr (or_introl Hcut)).
Qed.

Theorem C09_reopen_epochs3 P seed cf0 mh K (s : st) c (m : mem) s1 o L' img' :
  params_ok P -> XOpen P cf0 -> mrun3 P cf0 mh K (s, c) -> s_mem s = Some m ->
  db_close flat_ops (clear_trace s) = (s1, o) ->
  plh fnone (s_disk (fst cf0)) (K ++ [CE (s_trace s1)]) L' img' ->
  img' = set_orphans (s_disk s1) (d_orphans img') /\ d_lock img' = false /\
  exists s2, db_open flat_ops P seed (closed img') = (s2, OOpened false) /\ Inv P s2 /\ s_mem s2 <> None /\
    ceq (cont (s_disk s2)) (cont (s_disk s)).
Proof.
  intros HP HX0 Hr Em Ec Hpl.
  destruct (mrun3_main P _ _ _ _ HP Hr None HX0 (open_DurS_None P cf0 HX0)) as ([(HI & _ & _) _] & Ed & _).
  apply (closed_image P seed s m s1 o _ K L' img' HI Em Ed Ec Hpl).
Qed.

Lemma mstep3_shape P cf it Kit cf1 : mstep3 P cf it Kit cf1 -> hwf Kit /\ exists K' es, Kit = K' ++ [CE es].
Proof.
  intros Hs. destruct Hs as [cf it Kit cf1 Hs|cf s1 seed s2 p q Kr s1' Ec Eo Etr Hne Hrr]; [apply (mstep_shape P _ _ _ _ Hs)|].
  destruct (rrun_shape P _ _ _ Hrr) as (W & K' & es & ->).
  split; [apply hwf_ce; apply hwf_ce; exact W|]. exists (CE (s_trace s1) :: CE p :: K'), es. reflexivity.
Qed.

Definition closed_window3 (P : params) (cf1 : cfg) (mh : list mitem) (K Kcut : list chunk) (s s1 : st) : Prop :=
  exists mh1 K1 c mh2 Krest,
    mrun3 P cf1 mh1 K1 (s, c) /\ db_close flat_ops (clear_trace s) = (s1, OOk) /\
    mh = mh1 ++ mh2 /\ K = K1 ++ CE (s_trace s1) :: Krest /\
    (Kcut = K1 ++ [CE (s_trace s1)] \/ Kcut = K1 ++ [CE (s_trace s1); CE []]).

Lemma closed_window_window3 P cf1 mh K cf' Kcut s s1 :
  closed_window P cf1 mh K cf' Kcut s s1 -> closed_window3 P cf1 mh K Kcut s s1.
Proof.
  intros (mh1 & K1 & c & seed & s2 & mh2 & K2 & Hr1 & Ec & Eo & Hr2 & Emh & EK & EKc).
  exists mh1, K1, c, (MClose :: mh2), (CE (s_trace s2) :: K2). split; [apply mrun_mrun3; exact Hr1|].
  split; [exact Ec|]. split; [exact Emh|]. split; [exact EK|exact EKc].
Qed.

Theorem instant_dichotomy3 P cf1 mh K cf' Kcut :
  params_ok P -> XOpen P cf1 -> mrun3 P cf1 mh K cf' -> instant Kcut K ->
  (d_lock (hrun Kcut (s_disk (fst cf1))) = true /\ (hcut Kcut K \/ (Kcut = [] /\ K = [] /\ mh = []))) \/
  (d_lock (hrun Kcut (s_disk (fst cf1))) = false /\ hcut Kcut K /\
   exists s s1, closed_window3 P cf1 mh K Kcut s s1).
Proof.
  intros HP HX1 Hr Hin.
  destruct (runs_dichotomy P _ _ (m3_nil P) (m3_cons P) (mrun3_ind P) (mstep3_main P HP) (mstep3_shape P)
              _ _ _ _ _ HX1 Hr Hin) as [H|(Hl & Hcut & s & s1 & Hw)]; [left; exact H|].
  right. split; [exact Hl|]. split; [exact Hcut|]. exists s, s1. exact (window_in_window _ _ _ _ _ _ _ _ _ Hw).
Qed.

(* POWER LOSS AT ANY INSTANT, for the extended histories: the statement of [power_loss_any_instant], with
   process crashes in the middle of a clean Open among the epochs *)
Theorem power_loss_any_instant3 P seed cf0 mh0 K0 cfa osync cf1 mh K cf' Kcut L' img' :
  params_ok P -> XOpen P cf0 ->
  mrun3 P cf0 mh0 K0 cfa -> xstep P cfa osync cf1 -> sync_point P osync ->
  mrun3 P cf1 mh K cf' -> instant Kcut K ->
  plh fnone (s_disk (fst cf0)) (K0 ++ CE (s_trace (fst cf1)) :: Kcut) L' img' ->
  exists s2 b, db_open flat_ops P seed (closed img') = (s2, OOpened b) /\ Inv P s2 /\ s_mem s2 <> None /\
    after (cont (s_disk (fst cf1))) mh (cont (s_disk s2)) /\
    b = d_lock (hrun Kcut (s_disk (fst cf1))) /\ d_lock img' = b /\
    (b = false -> exists s s1, closed_window3 P cf1 mh K Kcut s s1) /\
    (forall s s1, closed_window3 P cf1 mh K Kcut s s1 ->
       b = false /\ img' = set_orphans (s_disk s1) (d_orphans img') /\ ceq (cont (s_disk s2)) (cont (s_disk s))).
Proof.
  intros HP HX0 Hr0 Hs Hsp Hr Hin Hpl.
  destruct (runs_power_loss P _ _ HP (m3_nil P) (m3_cons P) (mrun3_ind P) (mstep3_main P HP) (mstep3_shape P)
              seed _ _ _ _ _ _ _ _ _ _ _ _ HX0 Hr0 Hs Hsp Hr Hin Hpl)
    as (s2 & b & E2 & HI2 & Hm2 & Haf & Eb & El & Hw1 & Hw2).
  exists s2, b. split; [exact E2|]. split; [exact HI2|]. split; [exact Hm2|]. split; [exact Haf|].
  split; [exact Eb|]. split; [exact El|]. split; [|exact Hw2].
  intros Hb. destruct (Hw1 Hb) as (s & s1 & Hw). exists s, s1. exact (window_in_window _ _ _ _ _ _ _ _ _ Hw).
Qed.

(* Non-vacuity: Put [1]; Sync; Put [3]; Close; clean Open -- the history ez_K of PowerLoss2.v, 19 events
   after the Sync -- and the power fails after n of them *)

(* the choice "nothing is lost" *)
Definition keep_all (K : list chunk) : list hch :=
  map (fun k => match k with CE es => HC (map (fun _ => Keep) es) | CT _ _ _ _ => HKeep end) K.

Definition ew_hist (n : nat) : list chunk := ey_K0 ++ CE (s_trace ey2) :: hpre n ez_K.

(* the theorem applies at EVERY instant n, to every admissible image *)
Example power_loss_any_instant_nonvacuous :
  forall n hs, is_some (plh_exec hs fnone (s_disk pl_q0) (ew_hist n)) = true ->
  let img := img_of (plh_exec hs fnone (s_disk pl_q0) (ew_hist n)) in
  exists s2 b, db_open flat_ops ey_P 11 (closed img) = (s2, OOpened b) /\ Inv ey_P s2 /\ s_mem s2 <> None /\
    after (cont (s_disk ey2)) ez_mh (cont (s_disk s2)) /\
    b = d_lock (hrun (hpre n ez_K) (s_disk ey2)) /\ d_lock img = b.
Proof.
  intros n hs Hhs img. destruct (hexec_image hs _ _ _ Hhs) as (L & Hpl). fold img in Hpl.
  destruct (power_loss_after_n_events ey_P 11 (pl_q0, None) ey_mh0 ey_K0 (ey1, None) (XOp OpSync) (ey2, None)
              ez_mh ez_K (ez_o, None) n L img ey_params_ok (conj (pl_open0 ey_P) Logic.I) ey_mrun0 ey_sync Logic.I ez_mrun Hpl)
    as (_ & s2 & b & E2 & HI2 & Hm2 & Haf & Eb & El & _).
  exists s2, b. split; [exact E2|]. split; [exact HI2|]. split; [exact Hm2|]. split; [exact Haf|]. split; [exact Eb|exact El].
Qed.

(* an instant INSIDE an epoch (n = 10: in the middle of Close; n = 19: after the clean Open): the lock file
   exists; an instant in the WINDOW after the completed Close (n = 18): it does not; admissible images exist *)
Example power_loss_any_instant_nonvacuous_instants :
  hlen ez_K = 19%nat /\
  hpre 18 ez_K = [CE (s_trace ey3 ++ []); CE (s_trace ez_cl)] /\
  d_lock (hrun (hpre 10 ez_K) (s_disk ey2)) = true /\
  d_lock (hrun (hpre 18 ez_K) (s_disk ey2)) = false /\
  d_lock (hrun (hpre 19 ez_K) (s_disk ey2)) = true /\
  is_some (plh_exec (keep_all (ew_hist 10)) fnone (s_disk pl_q0) (ew_hist 10)) = true /\
  is_some (plh_exec (keep_all (ew_hist 18)) fnone (s_disk pl_q0) (ew_hist 18)) = true /\
  is_some (plh_exec (keep_all (ew_hist 19)) fnone (s_disk pl_q0) (ew_hist 19)) = true /\
  (* early in Close (n = 4) the append of [3] may still be lost; in the window (n = 18) that is not admissible *)
  is_some (plh_exec [HC [Keep; Keep]; HC [Keep]; HC [Drop; Keep]; HC [Keep; Keep]]
             fnone (s_disk pl_q0) (ew_hist 4)) = true /\
  abs (img_of (plh_exec [HC [Keep; Keep]; HC [Keep]; HC [Drop; Keep]; HC [Keep; Keep]]
             fnone (s_disk pl_q0) (ew_hist 4))) = [([1], [2])] /\
  plh_exec [HC [Keep; Keep]; HC [Keep]; HC [Drop; Keep];
            HC [Keep; Keep; Keep; Keep; Keep; Keep; Keep; Keep; Keep; Keep; Keep; Keep; Keep; Keep; Keep; Keep]]
           fnone (s_disk pl_q0) (ew_hist 18) = None.
Proof.
  split; [vm_compute; reflexivity|]. split; [vm_compute; reflexivity|]. split; [vm_compute; reflexivity|].
  split; [vm_compute; reflexivity|]. split; [vm_compute; reflexivity|]. split; [vm_compute; reflexivity|].
  split; [vm_compute; reflexivity|]. split; [vm_compute; reflexivity|]. split; [vm_compute; reflexivity|].
  split; vm_compute; reflexivity.
Qed.

(* in the window: every admissible image opens CLEANLY, with exactly the contents of the closed database *)
Example power_loss_any_instant_nonvacuous_window :
  forall hs, is_some (plh_exec hs fnone (s_disk pl_q0) (ew_hist 18)) = true ->
  let img := img_of (plh_exec hs fnone (s_disk pl_q0) (ew_hist 18)) in
  exists s2, db_open flat_ops ey_P 11 (closed img) = (s2, OOpened false) /\ Inv ey_P s2 /\ s_mem s2 <> None /\
    d_lock img = false /\ img = set_orphans (s_disk ez_cl) (d_orphans img) /\
    ceq (cont (s_disk s2)) (cont (s_disk ey3)) /\ abs (s_disk ey3) = [([3], [4]); ([1], [2])].
Proof.
  intros hs Hhs img. destruct (hexec_image hs _ _ _ Hhs) as (L & Hpl). fold img in Hpl.
  destruct (power_loss_after_n_events ey_P 11 (pl_q0, None) ey_mh0 ey_K0 (ey1, None) (XOp OpSync) (ey2, None)
              ez_mh ez_K (ez_o, None) 18 L img ey_params_ok (conj (pl_open0 ey_P) Logic.I) ey_mrun0 ey_sync Logic.I ez_mrun Hpl)
    as (_ & s2 & b & E2 & HI2 & Hm2 & _ & _ & El & _ & Hw).
  assert (W : closed_window ey_P (ey2, None) ez_mh ez_K (ez_o, None) (hpre 18 ez_K) ey3 ez_cl).
  { exists [MOps [XOp (OpPut [3] [4])]], [CE (s_trace ey3 ++ [])], None, 13, ez_o, [], [].
    split; [eapply mr_ops; [apply ey_run1; apply (ey_step _ _ _ _ ey_E3); vm_compute; reflexivity|apply mr_nil]|].
    split; [exact ez_Ecl|]. split; [exact ez_Eo|]. split; [apply mr_nil|]. split; [reflexivity|]. split; [reflexivity|].
    left. vm_compute. reflexivity. }
  destruct (Hw ey3 ez_cl W) as (-> & Ei & Hc). exists s2. split; [exact E2|]. split; [exact HI2|]. split; [exact Hm2|].
  split; [exact El|]. split; [exact Ei|]. split; [exact Hc|vm_compute; reflexivity].
Qed.

(* gap (b): Put [1]; Sync; Put [3]; Close; the clean Open is killed after creating the lock file;
   recovery; and the power fails anywhere *)
Definition ex_d : disk := Eval vm_compute in run_evs (s_trace ez_o) (s_disk ez_cl).
Definition ex_r : st := Eval vm_compute in fst (db_open flat_ops ey_P 17 (closed ex_d)).
Lemma ex_Ed : run_evs (s_trace ez_o) (s_disk ez_cl) = ex_d. Proof. vm_compute. reflexivity. Qed.
Lemma ex_Er : db_open flat_ops ey_P 17 (closed ex_d) = (ex_r, OOpened true). Proof. vm_compute. reflexivity. Qed.

Definition ex_K : list chunk := [CE (s_trace ey3 ++ [])] ++ (CE (s_trace ez_cl) :: CE (s_trace ez_o) :: [CE (s_trace ex_r)]) ++ [].

Lemma ex_mrun3 : mrun3 ey_P (ey2, None) ez_mh ex_K (ex_r, None).
Proof.
  apply (m3_cons ey_P (ey2, None) (MOps [XOp (OpPut [3] [4])]) [CE (s_trace ey3 ++ [])] (ey3, None) [MClose]
           ((CE (s_trace ez_cl) :: CE (s_trace ez_o) :: [CE (s_trace ex_r)]) ++ []) (ex_r, None)).
  { apply ms3_old. eapply ms_ops. apply ey_run1. apply (ey_step _ _ _ _ ey_E3); vm_compute; reflexivity. }
  apply (m3_cons ey_P (ey3, None) MClose (CE (s_trace ez_cl) :: CE (s_trace ez_o) :: [CE (s_trace ex_r)]) (ex_r, None) [] [] (ex_r, None)); [|apply m3_nil].
  apply (ms3_crash_open ey_P (ey3, None) ez_cl 13 ez_o (s_trace ez_o) [] [CE (s_trace ex_r)] ex_r ez_Ecl ez_Eo).
  - symmetry. apply app_nil_r.
  - vm_compute. discriminate.
  - rewrite ex_Ed. apply (rr_done ey_P ex_d 17 ex_r ex_Er).
Qed.

Example crash_during_clean_open_nonvacuous :
  s_trace ez_o = [ECreate FLock] /\ d_lock ex_d = true /\ abs (s_disk ex_r) = [([3], [4]); ([1], [2])] /\
  forall n hs, is_some (plh_exec hs fnone (s_disk pl_q0) (ey_K0 ++ CE (s_trace ey2) :: hpre n ex_K)) = true ->
  let img := img_of (plh_exec hs fnone (s_disk pl_q0) (ey_K0 ++ CE (s_trace ey2) :: hpre n ex_K)) in
  exists s2 b, db_open flat_ops ey_P 11 (closed img) = (s2, OOpened b) /\ Inv ey_P s2 /\ s_mem s2 <> None /\
    after (cont (s_disk ey2)) ez_mh (cont (s_disk s2)) /\ b = d_lock (hrun (hpre n ex_K) (s_disk ey2)).
Proof.
  split; [vm_compute; reflexivity|]. split; [vm_compute; reflexivity|]. split; [vm_compute; reflexivity|].
  intros n hs Hhs img.
  destruct (hexec_image hs _ _ _ Hhs) as (L & Hpl). fold img in Hpl.
  destruct (power_loss_any_instant3 ey_P 11 (pl_q0, None) ey_mh0 ey_K0 (ey1, None) (XOp OpSync) (ey2, None)
              ez_mh ex_K (ex_r, None) (hpre n ex_K) L img ey_params_ok (conj (pl_open0 ey_P) Logic.I)
              (mrun_mrun3 _ _ _ _ _ ey_mrun0) ey_sync Logic.I ex_mrun3
              (hpre_instant _ (proj1 (runs_shape _ _ (mrun3_ind ey_P) (mstep3_shape ey_P) _ _ _ _ ex_mrun3)) n) Hpl)
    as (s2 & b & E2 & HI2 & Hm2 & Haf & Eb & _).
  exists s2, b. split; [exact E2|]. split; [exact HI2|]. split; [exact Hm2|]. split; [exact Haf|exact Eb].
Qed.

Print Assumptions hpre_flat.
Print Assumptions hpre_instant.
Print Assumptions mrun_shape.
Print Assumptions mrun_cut_split.
Print Assumptions instant_dichotomy.
Print Assumptions power_loss_any_instant.
Print Assumptions power_loss_after_n_events.
Print Assumptions power_loss_last_epoch.
Print Assumptions power_loss_during_close.
Print Assumptions power_loss_during_reopen_exact.
Print Assumptions power_loss_reopen_exact.
Print Assumptions clean_open_prefix.
Print Assumptions crash_during_clean_open.
Print Assumptions mrun3_main.
Print Assumptions C06_with_recovery3.
Print Assumptions C09_reopen_epochs3.
Print Assumptions instant_dichotomy3.
Print Assumptions power_loss_any_instant3.
Print Assumptions power_loss_any_instant_nonvacuous.
Print Assumptions power_loss_any_instant_nonvacuous_instants.
Print Assumptions power_loss_any_instant_nonvacuous_window.
Print Assumptions crash_during_clean_open_nonvacuous.
