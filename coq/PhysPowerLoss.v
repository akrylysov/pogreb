(* PhysPowerLoss.v -- the power-loss theorems (C06 "writes acknowledged before a completed Sync survive a
   power failure at any later instant", C09 "a cleanly closed database is a durable checkpoint") for the
   database on the bucket-chain index ([chain_ops]) and on the physical index ([phys_ops], Phys.v).

   PowerLoss.v / PowerLoss2.v prove them for the flat reference index only ([pl], [plh] are defined over
   [@fsev flat]).  [gpl] / [gplh] are their rules, word for word, for any index (gpl_flat, gplh_flat: on
   flat_ops they are pl / plh).  The theorems are transferred along
        s1 : st phys   --- gst_rel PR ---   sp : st pindex   --- st_rel ---   sf : st flat
   Nothing is assumed about the phys or chain state beyond the relations; every other hypothesis (XOpen,
   the run [xrun] with its side conditions) is about the FLAT run on the same operations.

   The same choice list (which write is kept, dropped, cut where) is admissible on related histories and
   gives related images with the same set of files that lost a write (pl_exec_g); an index-file event
   carries related index values and is kept or dropped on both sides.  What the relations do not give is
   EQUALITY of the stored phys index with that of the real disk: that is [idx_agree] (gpl_idx_agree),
   from "the disk changes only through emit" ([ext]).

   - The phys history is given as a FUNCTION of the operations (gxtrace); the flat [xrun] on the same
     operations supplies the side conditions; the power failure of C06 is "after n events" (firstn n).
   - Contents are stated with [answers1 P s2 ms] for a map ms with NoDup keys whose lookups are the
     specification ([xspec_hist]), plus the related chain / flat states.
   - Histories of several epochs (PowerLoss2: process crashes, recovery attempts, Close / clean re-Open)
     are PARTIAL: C06_with_recovery_phys_partial and C09_reopen_epochs_phys_partial hold for every phys
     chunked history that is RELATED chunk by chunk (Forall2 gch1 / gchp) to the flat history of [mrun];
     this relation is a HYPOTHESIS.  Missing: a phys analogue of PowerLoss2.mrun and the proof that it
     stays related to the flat mrun; chunks_ops, chunks_close, chunks_open are the pieces. *)
From Coq Require Import ZArith Lia ZifyN ZifyNat ZifyBool Permutation List.
From Pogreb Require Import Base BaseLemmas Crc Bytes Record RecordProofs Flat Index Spec DB DBInv
  DBLemmas DBProofsOps DBMeta DBProofsCompact DBProofsRecovery DBSim DBRun DBSimExact
  Bucket Phys PhysProofs PhysDB DBProofsCrash DBSimSessions PhysCrash PowerLoss PowerLoss2.
Import ListNotations.
Ltac Zify.zify_post_hook ::= Z.div_mod_to_equations.

Local Notation st1 := (@DB.st phys).
Local Notation stp := (@DB.st pindex).
Local Notation stf := (@DB.st flat).
Local Notation disk1 := (@DB.disk phys).
Local Notation diskp := (@DB.disk pindex).
Local Notation diskf := (@DB.disk flat).

Section GPL.
Context {I : Type}.
Variable ops : idx_ops I.
Local Notation gdisk := (@DB.disk I).
Local Notation gfsev := (@DB.fsev I).
Local Notation grun := (fold_left (apply_ev ops)).

Definition gdata_file (e : gfsev) : option fname :=
  match e with
  | EHeader f => Some f
  | EAppend id seq _ _ => Some (FSeg id seq)
  | ETrunc f _ => Some f
  | EIndex _ => Some FMain
  | EGobSeg id seq _ => Some (FSegMeta id seq)
  | EGobIndex _ => Some FIndexMeta
  | EGobDb _ => Some FDbMeta
  | _ => None
  end.

Definition gsync_file (e : gfsev) : option fname := match e with ESync f => Some f | _ => None end.

Definition gforget (e : gfsev) (L : fset) : fset :=
  match e with ERemove f => fdel f L | ERename f _ => fdel f L | _ => L end.

(* the rules of PowerLoss.pl, word for word *)
Inductive gpl : fset -> gdisk -> list gfsev -> fset -> gdisk -> Prop :=
| gpl_nil L d : gpl L d [] L d
| gpl_keep L d e es L' img :
    (forall f, gdata_file e = Some f -> L f = false) ->
    (forall f, gsync_file e = Some f -> L f = false) ->
    gpl (gforget e L) (apply_ev ops d e) es L' img ->
    gpl L d (e :: es) L' img
| gpl_drop L d e f es L' img :
    gdata_file e = Some f ->
    gpl (fadd f L) d es L' img ->
    gpl L d (e :: es) L' img
| gpl_tear L d id seq off r c es L' img :
    L (FSeg id seq) = false -> 0 < c -> c < rsize r ->
    gpl (fadd (FSeg id seq) L) (gtorn d id seq r c) es L' img ->
    gpl L d (EAppend id seq off r :: es) L' img.

Lemma gpl_app_inv es1 : forall L d es2 L' img,
  gpl L d (es1 ++ es2) L' img -> exists L1 d1, gpl L d es1 L1 d1 /\ gpl L1 d1 es2 L' img.
Proof.
  induction es1 as [|e es1 IH]; intros L d es2 L' img H.
  - exists L, d. split; [apply gpl_nil|exact H].
  - (* whichever rule took [e]: split the rest, then the same rule *)
    rewrite <- app_comm_cons in H.
    inversion H as [|L0 d0 e0 es0 L0' img0 H1 H2 H3|L0 d0 e0 f es0 L0' img0 H1 H3
                    |L0 d0 id seq off r c es0 L0' img0 H1 H2 H2' H3]; subst;
      destruct (IH _ _ _ _ _ H3) as (L1 & d1 & A & B); exists L1, d1; (split; [|exact B]).
    + exact (gpl_keep _ _ _ _ _ _ H1 H2 A).
    + exact (gpl_drop _ _ _ _ _ _ _ H1 A).
    + exact (gpl_tear _ _ _ _ _ _ _ _ _ _ H1 H2 H2' A).
Qed.

Lemma gpl_app es1 : forall L d es2 L1 d1 L' img,
  gpl L d es1 L1 d1 -> gpl L1 d1 es2 L' img -> gpl L d (es1 ++ es2) L' img.
Proof.
  intros L d es2 L1 d1 L' img H.
  induction H as [L d|L d e es L1 d1 H1 H2 _ IH|L d e f es L1 d1 H1 _ IH
                  |L d id seq off r c es L1 d1 H1 H2 H2' _ IH]; intros H'; cbn [app].
  - exact H'.
  - exact (gpl_keep _ _ _ _ _ _ H1 H2 (IH H')).
  - exact (gpl_drop _ _ _ _ _ _ _ H1 (IH H')).
  - exact (gpl_tear _ _ _ _ _ _ _ _ _ _ H1 H2 H2' (IH H')).
Qed.

(* one choice Keep | Drop | Tear c per event (PowerLoss.pl_exec for any index) *)
Fixpoint gpl_exec (cs : list plc) (L : fset) (d : gdisk) (es : list gfsev) : option (fset * gdisk) :=
  match cs with
  | [] => match es with [] => Some (L, d) | _ :: _ => None end
  | c :: cs' =>
    match es with
    | [] => None
    | e :: es' =>
      match c with
      | Keep =>
          if match gdata_file e with Some f => L f | None => false end then None
          else if match gsync_file e with Some f => L f | None => false end then None
          else gpl_exec cs' (gforget e L) (apply_ev ops d e) es'
      | Drop =>
          match gdata_file e with
          | Some f => gpl_exec cs' (fadd f L) d es'
          | None => None
          end
      | Tear n =>
          match e with
          | EAppend id seq off r =>
              if L (FSeg id seq) then None
              else if negb ((0 <? n) && (n <? rsize r)) then None
              else gpl_exec cs' (fadd (FSeg id seq) L) (gtorn d id seq r n) es'
          | _ => None
          end
      end
    end
  end.

Lemma gpl_exec_sound cs : forall L d es L' img,
  gpl_exec cs L d es = Some (L', img) -> gpl L d es L' img.
Proof.
  induction cs as [|c cs IH]; intros L d es L' img H.
  - destruct es; [|discriminate H]. cbn [gpl_exec] in H. inversion H; subst. apply gpl_nil.
  - destruct es as [|e es]; [discriminate H|]. destruct c as [| |c].
    + cbn [gpl_exec] in H.
      destruct (match gdata_file e with Some f => L f | None => false end) eqn:E1; [discriminate|].
      destruct (match gsync_file e with Some f => L f | None => false end) eqn:E2; [discriminate|].
      apply gpl_keep; [| |apply IH; exact H].
      * intros f Hf. rewrite Hf in E1. exact E1.
      * intros f Hf. rewrite Hf in E2. exact E2.
    + cbn [gpl_exec] in H. destruct (gdata_file e) as [f|] eqn:E1; [|discriminate].
      eapply gpl_drop; [exact E1|apply IH; exact H].
    + destruct e as [f|f|id seq off r|i|id seq m|i|sd|f n|f g|f|f]; try discriminate H.
      cbn [gpl_exec] in H. destruct (L (FSeg id seq)) eqn:E1; [discriminate|].
      destruct ((0 <? c) && (c <? rsize r)) eqn:E2; [|discriminate]. cbn [negb] in H.
      apply andb_true_iff in E2. destruct E2 as [A B].
      apply (gpl_tear _ _ _ _ _ _ c); [exact E1|apply N.ltb_lt; exact A|apply N.ltb_lt; exact B|apply IH; exact H].
Qed.

Lemma gpl_exec_complete L d es L' img :
  gpl L d es L' img -> exists cs, gpl_exec cs L d es = Some (L', img).
Proof.
  induction 1 as [L d|L d e es L1 d1 H1 H2 H3 (cs & IH)|L d e f es L1 d1 H1 H3 (cs & IH)
                  |L d id seq off r c es L1 d1 H1 H2 H2' H3 (cs & IH)].
  - exists []. reflexivity.
  - exists (Keep :: cs). cbn [gpl_exec].
    assert (E1 : match gdata_file e with Some f => L f | None => false end = false).
    { destruct (gdata_file e) as [f|]; [apply H1; reflexivity|reflexivity]. }
    assert (E2 : match gsync_file e with Some f => L f | None => false end = false).
    { destruct (gsync_file e) as [f|]; [apply H2; reflexivity|reflexivity]. }
    rewrite E1, E2. exact IH.
  - exists (Drop :: cs). cbn [gpl_exec]. rewrite H1. exact IH.
  - exists (Tear c :: cs). cbn [gpl_exec]. rewrite H1.
    rewrite (proj2 (N.ltb_lt _ _) H2), (proj2 (N.ltb_lt _ _) H2'). cbn [andb negb]. exact IH.
Qed.

(* nothing is lost: the complete history is an admissible image *)
Lemma gpl_full es : forall L d, (forall f, L f = false) ->
  exists L', gpl L d es L' (grun es d) /\ forall f, L' f = false.
Proof.
  induction es as [|e es IH]; intros L d HL; [exists L; split; [apply gpl_nil|exact HL]|].
  destruct (IH (gforget e L) (apply_ev ops d e)) as (L' & H & HL').
  { intros f. destruct e; cbn [gforget]; try apply HL; unfold fdel; rewrite HL; apply andb_false_r. }
  exists L'. split; [|exact HL']. apply gpl_keep; [intros f _; apply HL|intros f _; apply HL|exact H].
Qed.

(* PowerLoss2.chunk / plh for any index *)
Inductive gchunk := GCE (es : list gfsev) | GCT (id seq : N) (r : rec) (c : N).

Definition ghstep (d : gdisk) (k : gchunk) : gdisk :=
  match k with GCE es => grun es d | GCT id seq r c => gtorn d id seq r c end.
Definition ghrun (H : list gchunk) (d : gdisk) : gdisk := fold_left ghstep H d.

Inductive gplh : fset -> gdisk -> list gchunk -> fset -> gdisk -> Prop :=
| gplh_nil L d : gplh L d [] L d
| gplh_evs L d es L1 d1 H L' img' : gpl L d es L1 d1 -> gplh L1 d1 H L' img' -> gplh L d (GCE es :: H) L' img'
| gplh_tkeep L d id seq r c H L' img' :
    L (FSeg id seq) = false -> gplh L (gtorn d id seq r c) H L' img' -> gplh L d (GCT id seq r c :: H) L' img'
| gplh_tdrop L d id seq r c H L' img' :
    gplh (fadd (FSeg id seq) L) d H L' img' -> gplh L d (GCT id seq r c :: H) L' img'
| gplh_ttear L d id seq r c c' H L' img' :
    L (FSeg id seq) = false -> 0 < c' -> c' < c ->
    gplh (fadd (FSeg id seq) L) (gtorn d id seq r c') H L' img' -> gplh L d (GCT id seq r c :: H) L' img'.

End GPL.

(* on the flat index these are PowerLoss.pl and PowerLoss2.plh *)
Lemma gdata_file_flat (e : @fsev flat) : gdata_file e = data_file e.
Proof. reflexivity. Qed.
Lemma gsync_file_flat (e : @fsev flat) : gsync_file e = sync_file e.
Proof. reflexivity. Qed.
Lemma gforget_flat (e : @fsev flat) L : gforget e L = forget e L.
Proof. reflexivity. Qed.

(* the same four rules *)
Theorem gpl_flat L (d : diskf) es L' img : gpl flat_ops L d es L' img <-> pl L d es L' img.
Proof. split; induction 1; econstructor; eassumption. Qed.

Lemma gpl_exec_flat cs : forall L (d : diskf) es, gpl_exec flat_ops cs L d es = pl_exec cs L d es.
Proof.
  induction cs as [|c cs IH]; intros L d es; [reflexivity|].
  destruct es as [|e es]; [reflexivity|]. destruct c as [| |n]; cbn [gpl_exec pl_exec].
  - rewrite IH. reflexivity.
  - rewrite gdata_file_flat. destruct (data_file e); [apply IH|reflexivity].
  - destruct e; try reflexivity; rewrite IH; reflexivity.
Qed.

Definition gch (k : chunk) : @gchunk flat :=
  match k with CE es => GCE es | CT id seq r c => GCT id seq r c end.

Theorem gplh_flat L (d : diskf) H L' img : gplh flat_ops L d (map gch H) L' img <-> plh L d H L' img.
Proof.
  split.
  - revert L d. induction H as [|[es|id seq r c] H IH]; intros L d Hp; cbn [map gch] in Hp; inversion Hp; subst.
    + apply plh_nil.
    + eapply plh_evs; [apply gpl_flat; eassumption|apply IH; assumption].
    + apply plh_tkeep; [assumption|apply IH; assumption].
    + apply plh_tdrop, IH. assumption.
    + eapply plh_ttear; [eassumption|eassumption|eassumption|apply IH; assumption].
  - induction 1 as [L d|L d es L1 d1 H L' img' A _ IH|L d id seq r c H L' img' A _ IH
                    |L d id seq r c H L' img' _ IH|L d id seq r c c' H L' img' A A1 A2 _ IH]; cbn [map gch].
    + apply gplh_nil.
    + exact (gplh_evs flat_ops _ _ _ _ _ _ _ _ (proj2 (gpl_flat _ _ _ _ _) A) IH).
    + exact (gplh_tkeep flat_ops _ _ _ _ _ _ _ _ _ A IH).
    + exact (gplh_tdrop flat_ops _ _ _ _ _ _ _ _ _ IH).
    + exact (gplh_ttear flat_ops _ _ _ _ _ _ _ _ _ _ A A1 A2 IH).
Qed.

Section PLRel.
Context {I1 I2 : Type}.
Variable ops1 : idx_ops I1.
Variable ops2 : idx_ops I2.
Variable R : I1 -> I2 -> Prop.
Hypothesis RE : R (ix_empty ops1) (ix_empty ops2).

Lemma gdata_file_rel e1 e2 : gev_rel R e1 e2 -> gdata_file e1 = gdata_file e2.
Proof. intros H. destruct H; reflexivity. Qed.
Lemma gsync_file_rel e1 e2 : gev_rel R e1 e2 -> gsync_file e1 = gsync_file e2.
Proof. intros H. destruct H; reflexivity. Qed.
Lemma gforget_rel e1 e2 L : gev_rel R e1 e2 -> gforget e1 L = gforget e2 L.
Proof. intros H. destruct H; reflexivity. Qed.

(* the result of a choice list: the same set of files that lost a write, related images *)
Definition pimg_rel (a : fset * @DB.disk I1) (b : fset * @DB.disk I2) : Prop :=
  fst a = fst b /\ gdisk_rel R (snd a) (snd b).

(* THE SAME CHOICES (which writes are kept, dropped, cut where) are admissible on both sides and give
   related images.  An index-file event (EIndex: main.pix/overflow.pix, EGobIndex: index.pmt) carries
   R-related index values on the two sides; it is kept on both sides or dropped on both sides, so the
   index content of the two images is the pair of related written values, or the pair of earlier ones. *)
Theorem pl_exec_g cs : forall es1 es2, Forall2 (gev_rel R) es1 es2 -> forall L d1 d2,
  gdisk_rel R d1 d2 ->
  opt_rel pimg_rel (gpl_exec ops1 cs L d1 es1) (gpl_exec ops2 cs L d2 es2).
Proof.
  induction cs as [|c cs IH]; intros es1 es2 Hes L d1 d2 Hd.
  - destruct Hes; cbn [gpl_exec]; constructor. split; [reflexivity|exact Hd].
  - destruct Hes as [|e1 e2 es1 es2 He Hes]; [cbn [gpl_exec]; constructor|].
    destruct c as [| |n]; cbn [gpl_exec].
    + rewrite (gdata_file_rel _ _ He), (gsync_file_rel _ _ He), (gforget_rel _ _ L He).
      destruct (match gdata_file e2 with Some f => L f | None => false end); [constructor|].
      destruct (match gsync_file e2 with Some f => L f | None => false end); [constructor|].
      apply IH; [exact Hes|]. apply (apply_ev_rel R ops1 ops2 RE); assumption.
    + rewrite (gdata_file_rel _ _ He). destruct (gdata_file e2); [|constructor].
      apply IH; assumption.
    + destruct He; try constructor.
      destruct (L (FSeg id seq)); [constructor|].
      destruct (negb ((0 <? n) && (n <? rsize r))); [constructor|].
      apply IH; [exact Hes|]. apply (gtorn_g R). exact Hd.
Qed.

Theorem pl_image_g d1 d2 es1 es2 L :
  gdisk_rel R d1 d2 -> Forall2 (gev_rel R) es1 es2 ->
  (forall L' img1, gpl ops1 L d1 es1 L' img1 ->
     exists img2, gpl ops2 L d2 es2 L' img2 /\ gdisk_rel R img1 img2) /\
  (forall L' img2, gpl ops2 L d2 es2 L' img2 ->
     exists img1, gpl ops1 L d1 es1 L' img1 /\ gdisk_rel R img1 img2).
Proof.
  intros Hd Hes. split.
  - intros L' img1 H. destruct (gpl_exec_complete ops1 _ _ _ _ _ H) as (cs & E).
    pose proof (pl_exec_g cs es1 es2 Hes L d1 d2 Hd) as Hr. rewrite E in Hr.
    inversion Hr as [|a b [Hab1 Hab2] Ea Eb]; subst. destruct b as [Lb img2]. cbn [fst snd] in Hab1, Hab2. subst Lb.
    exists img2. split; [|exact Hab2]. apply (gpl_exec_sound ops2 cs). symmetry. exact Eb.
  - intros L' img2 H. destruct (gpl_exec_complete ops2 _ _ _ _ _ H) as (cs & E).
    pose proof (pl_exec_g cs es1 es2 Hes L d1 d2 Hd) as Hr. rewrite E in Hr.
    inversion Hr as [|a b [Hab1 Hab2] Ea Eb]; subst. destruct a as [La img1]. cbn [fst snd] in Hab1, Hab2. subst La.
    exists img1. split; [|exact Hab2]. apply (gpl_exec_sound ops1 cs). symmetry. exact Ea.
Qed.

Inductive gch_rel : @gchunk I1 -> @gchunk I2 -> Prop :=
| chr_evs es1 es2 : Forall2 (gev_rel R) es1 es2 -> gch_rel (GCE es1) (GCE es2)
| chr_torn id seq r c : gch_rel (GCT id seq r c) (GCT id seq r c).

Lemma ghrun_g H1 H2 : Forall2 gch_rel H1 H2 -> forall d1 d2, gdisk_rel R d1 d2 ->
  gdisk_rel R (ghrun ops1 H1 d1) (ghrun ops2 H2 d2).
Proof.
  unfold ghrun. induction 1 as [|k1 k2 H1 H2 Hk HH IH]; intros d1 d2 Hd; cbn [fold_left]; [exact Hd|].
  apply IH. destruct Hk as [es1 es2 Hes|id seq r c]; cbn [ghstep].
  - revert d1 d2 Hd. induction Hes as [|e1 e2 es1 es2 He Hes IHe]; intros d1 d2 Hd; cbn [fold_left]; [exact Hd|].
    apply IHe. apply (apply_ev_rel R ops1 ops2 RE); assumption.
  - apply (gtorn_g R). exact Hd.
Qed.

Theorem plh_image_fwd H1 H2 : Forall2 gch_rel H1 H2 -> forall L d1 d2 L' img1,
  gdisk_rel R d1 d2 -> gplh ops1 L d1 H1 L' img1 ->
  exists img2, gplh ops2 L d2 H2 L' img2 /\ gdisk_rel R img1 img2.
Proof.
  induction 1 as [|k1 k2 H1 H2 Hk HH IH]; intros L d1 d2 L' img1 Hd Hp.
  - inversion Hp; subst. exists d2. split; [apply gplh_nil|exact Hd].
  - destruct Hk as [es1 es2 Hes|id seq r c].
    + inversion Hp as [|L0 d0 es0 L1 x1 H0 L0' img0 A B| | |]; subst.
      destruct (proj1 (pl_image_g d1 d2 es1 es2 L Hd Hes) L1 x1 A) as (x2 & A2 & Hx).
      destruct (IH L1 x1 x2 L' img1 Hx B) as (img2 & B2 & Hi).
      exists img2. split; [apply (gplh_evs ops2 L d2 es2 L1 x2); assumption|exact Hi].
    + inversion Hp as [| |L0 d0 id0 seq0 r0 c0 H0 L0' img0 A B|L0 d0 id0 seq0 r0 c0 H0 L0' img0 B
                       |L0 d0 id0 seq0 r0 c0 c' H0 L0' img0 A A1 A2 B]; subst.
      * destruct (IH L _ _ L' img1 (gtorn_g R d1 d2 id seq r c Hd) B) as (img2 & B2 & Hi).
        exists img2. split; [apply gplh_tkeep; assumption|exact Hi].
      * destruct (IH _ _ _ L' img1 Hd B) as (img2 & B2 & Hi).
        exists img2. split; [apply gplh_tdrop; assumption|exact Hi].
      * destruct (IH _ _ _ L' img1 (gtorn_g R d1 d2 id seq r c' Hd) B) as (img2 & B2 & Hi).
        exists img2. split; [apply (gplh_ttear ops2 _ _ _ _ _ _ c'); assumption|exact Hi].
Qed.

End PLRel.

(* the other direction is the same theorem for the converse relation *)
Section Flip.
Context {I1 I2 : Type}.
Variable R : I1 -> I2 -> Prop.
Local Notation R' := (fun b a => R a b).

Lemma Forall2_flip {A B} (Q : A -> B -> Prop) (Q' : B -> A -> Prop) :
  (forall a b, Q a b -> Q' b a) -> forall l1 l2, Forall2 Q l1 l2 -> Forall2 Q' l2 l1.
Proof. intros HQ l1 l2. induction 1; constructor; auto. Qed.
Lemma gdisk_rel_flip d1 d2 : gdisk_rel R d1 d2 -> gdisk_rel R' d2 d1.
Proof. intros [segs orph i1 i2 ov g1 g2 dbm lk bac [|] [| |]]; repeat constructor; assumption. Qed.
Lemma gev_rel_flip e1 e2 : gev_rel R e1 e2 -> gev_rel R' e2 e1.
Proof. intros []; constructor; assumption. Qed.
Lemma gch_rel_flip k1 k2 : gch_rel R k1 k2 -> gch_rel R' k2 k1.
Proof. intros [es1 es2 H|]; constructor. exact (Forall2_flip _ _ gev_rel_flip _ _ H). Qed.
End Flip.

Theorem plh_image_bwd {I1 I2} (ops1 : idx_ops I1) (ops2 : idx_ops I2) (R : I1 -> I2 -> Prop)
    (RE : R (ix_empty ops1) (ix_empty ops2)) H1 H2 :
  Forall2 (gch_rel R) H1 H2 -> forall L d1 d2 L' img2,
  gdisk_rel R d1 d2 -> gplh ops2 L d2 H2 L' img2 ->
  exists img1, gplh ops1 L d1 H1 L' img1 /\ gdisk_rel R img1 img2.
Proof.
  intros HH L d1 d2 L' img2 Hd Hp.
  destruct (plh_image_fwd ops2 ops1 (fun b a => R a b) RE H2 H1 (Forall2_flip _ _ (gch_rel_flip R) _ _ HH)
              L d2 d1 L' img2 (gdisk_rel_flip R _ _ Hd) Hp) as (img1 & A & B).
  exists img1. split; [exact A|exact (gdisk_rel_flip _ _ _ B)].
Qed.

Theorem chain_pl_image (dp : diskp) (df : diskf) tp tf L :
  disk_rel dp df -> Forall2 ev_rel tp tf ->
  (forall L' imgp, gpl chain_ops L dp tp L' imgp -> exists imgf, pl L df tf L' imgf /\ disk_rel imgp imgf) /\
  (forall L' imgf, pl L df tf L' imgf -> exists imgp, gpl chain_ops L dp tp L' imgp /\ disk_rel imgp imgf).
Proof.
  intros Hd Ht. destruct (pl_image_g chain_ops flat_ops idx_rel idx_rel_empty dp df tp tf L Hd Ht) as [A B].
  split.
  - intros L' imgp H. destruct (A L' imgp H) as (imgf & H1 & H2). exists imgf. split; [apply gpl_flat; exact H1|exact H2].
  - intros L' imgf H. apply gpl_flat in H. exact (B L' imgf H).
Qed.

Theorem phys_pl_image_chain (d1 : disk1) (dp : diskp) t1 tp L :
  gdisk_rel PR d1 dp -> Forall2 (gev_rel PR) t1 tp ->
  (forall L' img1, gpl phys_ops L d1 t1 L' img1 ->
     exists imgp, gpl chain_ops L dp tp L' imgp /\ gdisk_rel PR img1 imgp) /\
  (forall L' imgp, gpl chain_ops L dp tp L' imgp ->
     exists img1, gpl phys_ops L d1 t1 L' img1 /\ gdisk_rel PR img1 imgp).
Proof. intros Hd Ht. exact (pl_image_g phys_ops chain_ops PR PR_empty d1 dp t1 tp L Hd Ht). Qed.

(* every admissible power-loss image of the phys history has a PR-related admissible image of the
   chain history and a disk_rel-related admissible image ([pl] of PowerLoss.v) of the flat history with
   the SAME set L' of files that lost a write; and conversely *)
Theorem phys_pl_image (d1 : disk1) (dp : diskp) (df : diskf) t1 tp tf L :
  gdisk_rel PR d1 dp -> disk_rel dp df -> Forall2 (gev_rel PR) t1 tp -> Forall2 ev_rel tp tf ->
  (forall L' img1, gpl phys_ops L d1 t1 L' img1 ->
     exists imgp imgf, gpl chain_ops L dp tp L' imgp /\ pl L df tf L' imgf /\
                       gdisk_rel PR img1 imgp /\ disk_rel imgp imgf) /\
  (forall L' imgf, pl L df tf L' imgf ->
     exists img1 imgp, gpl phys_ops L d1 t1 L' img1 /\ gpl chain_ops L dp tp L' imgp /\
                       gdisk_rel PR img1 imgp /\ disk_rel imgp imgf).
Proof.
  intros H1 Hd Ht1 Ht.
  destruct (phys_pl_image_chain d1 dp t1 tp L H1 Ht1) as [A1 B1].
  destruct (chain_pl_image dp df tp tf L Hd Ht) as [A2 B2].
  split.
  - intros L' img1 H. destruct (A1 L' img1 H) as (imgp & Hp & Hr1). destruct (A2 L' imgp Hp) as (imgf & Hf & Hr2).
    exists imgp, imgf. split; [exact Hp|]. split; [exact Hf|]. split; [exact Hr1|exact Hr2].
  - intros L' imgf H. destruct (B2 L' imgf H) as (imgp & Hp & Hr2). destruct (B1 L' imgp Hp) as (img1 & H1' & Hr1).
    exists img1, imgp. split; [exact H1'|]. split; [exact Hp|]. split; [exact Hr1|exact Hr2].
Qed.

(* whatever the file system kept: the index files of a phys image hold values with the physical
   invariant (each is one of the written values, or the earlier one) *)
Corollary phys_pl_image_inv (d1 : disk1) (dp : diskp) t1 tp L L' img1 :
  gdisk_rel PR d1 dp -> Forall2 (gev_rel PR) t1 tp -> gpl phys_ops L d1 t1 L' img1 -> phys_disk_ok img1.
Proof.
  intros Hd Ht H. destruct (proj1 (phys_pl_image_chain d1 dp t1 tp L Hd Ht) L' img1 H) as (imgp & _ & Hr).
  exact (PR_disk_ok img1 imgp Hr).
Qed.

Definition gch1 := gch_rel (I1 := phys) (I2 := pindex) PR.
Definition gchp := gch_rel (I1 := pindex) (I2 := flat) idx_rel.

Theorem phys_plh_image (d1 : disk1) (dp : diskp) (df : diskf) H1 Hp Hf L :
  gdisk_rel PR d1 dp -> disk_rel dp df -> Forall2 gch1 H1 Hp -> Forall2 gchp Hp (map gch Hf) ->
  (forall L' img1, gplh phys_ops L d1 H1 L' img1 ->
     exists imgp imgf, gplh chain_ops L dp Hp L' imgp /\ plh L df Hf L' imgf /\
                       gdisk_rel PR img1 imgp /\ disk_rel imgp imgf) /\
  (forall L' imgf, plh L df Hf L' imgf ->
     exists img1 imgp, gplh phys_ops L d1 H1 L' img1 /\ gplh chain_ops L dp Hp L' imgp /\
                       gdisk_rel PR img1 imgp /\ disk_rel imgp imgf).
Proof.
  intros Hd1 Hd HH1 HHp. split.
  - intros L' img1 H.
    destruct (plh_image_fwd phys_ops chain_ops PR PR_empty H1 Hp HH1 L d1 dp L' img1 Hd1 H) as (imgp & A & Hr1).
    destruct (plh_image_fwd chain_ops flat_ops idx_rel idx_rel_empty Hp _ HHp L dp df L' imgp Hd A) as (imgf & B & Hr2).
    exists imgp, imgf. split; [exact A|]. split; [apply gplh_flat; exact B|]. split; [exact Hr1|exact Hr2].
  - intros L' imgf H. apply gplh_flat in H.
    destruct (plh_image_bwd chain_ops flat_ops idx_rel idx_rel_empty Hp _ HHp L dp df L' imgf Hd H) as (imgp & A & Hr2).
    destruct (plh_image_bwd phys_ops chain_ops PR PR_empty H1 Hp HH1 L d1 dp L' imgp Hd1 A) as (img1 & B & Hr1).
    exists img1, imgp. split; [exact B|]. split; [exact A|]. split; [exact Hr1|exact Hr2].
Qed.

Section Ext.
Context {I : Type}.
Variable ops : idx_ops I.
Local Notation gst := (@DB.st I).
Local Notation gdisk := (@DB.disk I).
Local Notation gfsev := (@DB.fsev I).
Local Notation grun := (fold_left (apply_ev ops)).

(* "the disk changes only through emit": [s'] is [s] after some more events *)
Definition ext (s s' : gst) : Prop :=
  exists es, s_trace s' = s_trace s ++ es /\ s_disk s' = grun es (s_disk s).

Lemma ext_refl s : ext s s.
Proof. exists []. rewrite app_nil_r. split; reflexivity. Qed.
Lemma ext_eq s s' : s_trace s' = s_trace s -> s_disk s' = s_disk s -> ext s s'.
Proof. intros A B. exists []. rewrite app_nil_r. split; assumption. Qed.
Lemma ext_trans a b c : ext a b -> ext b c -> ext a c.
Proof.
  intros (e1 & T1 & D1) (e2 & T2 & D2). exists (e1 ++ e2).
  split; [rewrite T2, T1, app_assoc; reflexivity|rewrite D2, D1, fold_left_app; reflexivity].
Qed.
Lemma ext_emit e s : ext s (emit ops e s).
Proof. exists [e]. split; reflexivity. Qed.
Lemma ext_emits es : forall s, ext s (emits ops es s).
Proof.
  unfold emits. induction es as [|e es IH]; intros s; cbn [fold_left]; [apply ext_refl|].
  eapply ext_trans; [apply ext_emit|apply IH].
Qed.
Lemma ext_with_mem m s : ext s (with_mem m s).
Proof. apply ext_eq; reflexivity. Qed.
Lemma ext_fold {A} (f : gst -> A -> gst) (l : list A) :
  (forall s a, ext s (f s a)) -> forall s, ext s (fold_left f l s).
Proof.
  intros Hf. induction l as [|a l IH]; intros s; cbn [fold_left]; [apply ext_refl|].
  eapply ext_trans; [apply Hf|apply IH].
Qed.

Lemma ext_seal id s m : ext s (fst (seal ops id s m)).
Proof.
  unfold seal. destruct (find_mseg id (m_segs m)) as [g|]; [|apply ext_refl].
  destruct (sm_full (g_meta g)); cbn [fst]; [apply ext_refl|apply ext_emit].
Qed.
Lemma ext_swap s m : ext s (fst (swap_segment ops s m)).
Proof.
  unfold swap_segment. destruct (find _ (m_segs m)); cbn [fst]; [apply ext_refl|apply ext_emits].
Qed.
Lemma ext_prelude P r s m : ext s (fst (gprelude ops P r s m)).
Proof.
  unfold gprelude.
  destruct (match cur_seg m with None => true | Some g => sm_full (g_meta g) || (p_maxseg P <? g_size g + rsize r) end);
    [|apply ext_refl].
  destruct (cur_seg m) as [g|].
  - pose proof (ext_seal (g_id g) s m) as H1. destruct (seal ops (g_id g) s m) as [s0 m0]. cbn [fst] in H1.
    eapply ext_trans; [exact H1|apply ext_swap].
  - apply ext_swap.
Qed.
Lemma ext_write_record P r s m s' m' id off :
  write_record ops P r s m = Some (s', m', id, off) -> ext s s'.
Proof.
  rewrite write_record_g. pose proof (ext_prelude P r s m) as H1.
  destruct (gprelude ops P r s m) as [s1 m1]. cbn [fst] in H1. unfold gtail.
  destruct (cur_seg m1) as [g|]; [|discriminate]. destruct (find_dseg (g_id g) (s_disk s1)) as [f|]; [|discriminate].
  destruct (negb ((f_seq f =? g_seq g) && (flen f =? g_size g))); [discriminate|].
  intros E. injection E as <- _ _ _. eapply ext_trans; [exact H1|apply ext_emit].
Qed.
Lemma ext_do_sync s m : ext s (do_sync ops s m).
Proof. unfold do_sync. destruct (cur_seg m); [apply ext_emit|apply ext_refl]. Qed.
Lemma ext_finish P s m : ext s (fst (finish ops P s m)).
Proof.
  unfold finish. cbn [fst]. eapply ext_trans; [|apply ext_with_mem].
  destruct (p_sync P); [apply ext_do_sync|apply ext_refl].
Qed.

Lemma ext_put P k v s : ext s (fst (db_put ops P k v s)).
Proof.
  unfold db_put. destruct (s_mem s) as [m|]; [|apply ext_refl].
  destruct (max_key_len <? nlen k); [apply ext_refl|]. destruct (max_val_len <? nlen v); [apply ext_refl|].
  destruct (write_record ops P (mkput k v) s m) as [[[[s1 m1] id] off]|] eqn:Ew; [|apply ext_refl].
  destruct (ix_put ops (p_grow P) (m_idx m1) _ (matchf (s_disk s1) k)) as [i2 old].
  eapply ext_trans; [exact (ext_write_record _ _ _ _ _ _ _ _ Ew)|].
  eapply ext_trans; [apply (ext_emit (EIndex i2))|apply ext_finish].
Qed.
Lemma ext_delete P k s : ext s (fst (db_delete ops P k s)).
Proof.
  unfold db_delete. destruct (s_mem s) as [m|]; [|apply ext_refl].
  destruct (ix_del ops (m_idx m) _ (matchf (s_disk s) k)) as [i1 old].
  destruct old as [o|]; [|apply ext_finish].
  destruct (write_record ops P (mkdel k) s (track_del o m)) as [[[[s1 m1] id] off]|] eqn:Ew; [|apply ext_refl].
  eapply ext_trans; [exact (ext_write_record _ _ _ _ _ _ _ _ Ew)|].
  eapply ext_trans; [apply (ext_emit (EIndex i1))|apply ext_finish].
Qed.
Lemma ext_sync s : ext s (fst (db_sync ops s)).
Proof. unfold db_sync. destruct (s_mem s); cbn [fst]; [apply ext_do_sync|apply ext_refl]. Qed.

Lemma ext_pick P s s' c : compact_pick ops P s = Some (s', c) -> ext s s'.
Proof.
  unfold compact_pick. destruct (s_mem s) as [m|]; [|discriminate].
  assert (H : forall l (sm : gst * @DB.mem I),
            ext (fst sm) (fst (fold_left (fun sm g => seal ops (g_id g) (fst sm) (snd sm)) l sm))).
  { induction l as [|g l IH]; intros sm; cbn [fold_left]; [apply ext_refl|].
    eapply ext_trans; [apply (ext_seal (g_id g) (fst sm) (snd sm))|apply IH]. }
  specialize (H (pick P m) (s, m)). cbn [fst] in H.
  destruct (fold_left _ (pick P m) (s, m)) as [s1 m1]. cbn [fst] in H.
  intros E. injection E as <- _. eapply ext_trans; [exact H|apply ext_with_mem].
Qed.
Lemma ext_remove_segment id seq s m : ext s (remove_segment ops id seq s m).
Proof.
  unfold remove_segment. eapply ext_trans; [apply (ext_do_sync s m)|].
  eapply ext_trans; [|apply ext_with_mem].
  destruct (exists_file (s_disk (do_sync ops s m)) (FSegMeta id seq)).
  - eapply ext_trans; apply ext_emit.
  - apply ext_emit.
Qed.
Lemma ext_cstep P s c s' c' : compact_step ops P s c = CMore s' c' -> ext s s'.
Proof.
  intros E. destruct (s_mem s) as [m|] eqn:Em; [|unfold compact_step in E; rewrite Em in E; discriminate E].
  destruct (compact_step_inv ops P s c m s' c' Em E)
    as [id seq todo _ _|id seq off f r _ _ _ _|id seq off f r i1 s1 m1 nid noff i2 _ _ _ _ _ Ew _|id seq off f _ _ _ _ _].
  - apply ext_with_mem.
  - apply ext_refl.
  - eapply ext_trans; [exact (ext_write_record _ _ _ _ _ _ _ _ Ew)|].
    eapply ext_trans; [apply (ext_emit (EIndex i2))|apply ext_with_mem].
  - apply ext_remove_segment.
Qed.

Lemma ext_gob_write f b s : ext s (gob_write ops f b s).
Proof.
  unfold gob_write. eapply ext_trans; [|apply ext_emits].
  destruct (exists_file (s_disk s) f); apply ext_emit.
Qed.
Lemma ext_close s : ext s (fst (db_close ops s)).
Proof.
  unfold db_close. destruct (s_mem s) as [m|]; [|apply ext_refl]. cbn [fst].
  eapply ext_trans; [|apply ext_eq; reflexivity].
  eapply ext_trans; [|apply ext_emits].
  eapply ext_trans; [|apply ext_gob_write].
  eapply ext_trans; [apply ext_gob_write|].
  apply ext_fold. intros s0 g. eapply ext_trans; [apply ext_emit|apply ext_gob_write].
Qed.

Lemma ext_clear s s' : ext (clear_trace s) s' -> s_disk s' = grun (s_trace s') (s_disk s).
Proof. intros (es & T & D). cbn [clear_trace s_trace s_disk app] in T, D. rewrite T. exact D. Qed.

(* what an image has in common with the real disk on the two index files *)
Definition idx_agree (L : fset) (d img : gdisk) : Prop :=
  (L FMain = false -> d_index img = d_index d) /\ (L FIndexMeta = false -> d_imeta img = d_imeta d).

(* [pi] reads the content of the file [f0] off a disk: what it is after an event is a function of the event
   and of what it was before; data events of other files and torn records leave it; a removal sets it *)
Definition tracks {T} (f0 : fname) (pi : gdisk -> T) : Prop :=
  (forall e d d', pi d = pi d' -> pi (apply_ev ops d e) = pi (apply_ev ops d' e)) /\
  (forall e f d, gdata_file e = Some f -> f <> f0 -> pi (apply_ev ops d e) = pi d) /\
  (forall d d', pi (apply_ev ops d (ERemove f0)) = pi (apply_ev ops d' (ERemove f0))) /\
  (forall d d' g, pi (apply_ev ops d (ERename f0 g)) = pi (apply_ev ops d' (ERename f0 g))) /\
  (forall d id seq r c, pi (gtorn d id seq r c) = pi d).

Lemma tracks_index : tracks FMain (@d_index I).
Proof.
  split; [|split; [|split; [|split]]]; try reflexivity.
  - intros e d d' H. destruct e as [f|f|id seq off r|i|id seq m|i|sd|f n|f g|f|f]; try destruct f; try exact H; reflexivity.
  - intros e f d E Hf. destruct e as [g|g|id seq off r|i|id seq m|i|sd|g n|g h|g|g]; try discriminate E;
      try destruct g; try reflexivity. cbn [gdata_file] in E. congruence.
Qed.
Lemma tracks_imeta : tracks FIndexMeta (@d_imeta I).
Proof.
  split; [|split; [|split; [|split]]]; try reflexivity.
  - intros e d d' H. destruct e as [f|f|id seq off r|i|id seq m|i|sd|f n|f g|f|f]; try destruct f; try exact H; reflexivity.
  - intros e f d E Hf. destruct e as [g|g|id seq off r|i|id seq m|i|sd|g n|g h|g|g]; try discriminate E;
      try destruct g; try reflexivity; cbn [gdata_file] in E; congruence.
Qed.

(* an event that makes a name forget its loss removes the file, or renames it *)
Lemma gforget_names (e : gfsev) L f : L f = true -> gforget e L f = false -> e = ERemove f \/ exists g, e = ERename f g.
Proof.
  intros HL Hf.
  assert (Hx : forall g, fdel g L f = false -> g = f).
  { intros g H. unfold fdel in H. rewrite HL, andb_true_r in H. apply negb_false_iff in H.
    apply rc_fname_eqb_spec in H. congruence. }
  destruct e as [g|g|id seq off r|i|id seq m|i|sd|g n|g h|g|g]; cbn [gforget] in Hf; try congruence;
    apply Hx in Hf; subst g; [right; exists h; reflexivity|left; reflexivity].
Qed.
Lemma fadd_neq f L g : fadd f L g = false -> f <> g.
Proof. intros H ->. rewrite fadd_same in H. discriminate H. Qed.

Lemma gpl_agree1 {T} f0 (pi : gdisk -> T) : tracks f0 pi -> forall L img es L' img', gpl ops L img es L' img' ->
  forall d, (L f0 = false -> pi img = pi d) -> L' f0 = false -> pi img' = pi (grun es d).
Proof.
  intros (Hev & Hdata & Hrm & Hrn & Htorn) L img es L' img'.
  induction 1 as [L d0|L d0 e es L1 d1 H1 H2 _ IH|L d0 e f es L1 d1 H1 _ IH
                  |L d0 id seq off r c es L1 d1 H1 H2 H2' _ IH]; intros d A; cbn [fold_left].
  - exact A.
  - apply IH. intros Hf. destruct (L f0) eqn:El; [|exact (Hev _ _ _ (A eq_refl))].
    destruct (gforget_names e L f0 El Hf) as [->|[g ->]]; [apply Hrm|apply Hrn].
  - apply IH. intros Hf. rewrite (Hdata e f d H1 (fadd_neq _ _ _ Hf)). exact (A (fadd_false _ _ _ Hf)).
  - apply IH. intros Hf. rewrite Htorn, (Hdata (EAppend id seq off r) _ d eq_refl (fadd_neq _ _ _ Hf)).
    exact (A (fadd_false _ _ _ Hf)).
Qed.

Theorem gpl_idx_agree L img es L' img' :
  gpl ops L img es L' img' -> forall d, idx_agree L d img -> idx_agree L' (grun es d) img'.
Proof.
  intros H d [A B].
  exact (conj (gpl_agree1 FMain _ tracks_index _ _ _ _ _ H d A) (gpl_agree1 FIndexMeta _ tracks_imeta _ _ _ _ _ H d B)).
Qed.

Lemma gplh_agree1 {T} f0 (pi : gdisk -> T) : tracks f0 pi -> forall L img H L' img', gplh ops L img H L' img' ->
  forall d, (L f0 = false -> pi img = pi d) -> L' f0 = false -> pi img' = pi (ghrun ops H d).
Proof.
  intros Ht L img H L' img'. pose proof Ht as (_ & _ & _ & _ & Htorn). unfold ghrun.
  induction 1 as [L d0|L d0 es L1 d1 H L' img' A _ IH|L d0 id seq r c H L' img' A _ IH
                  |L d0 id seq r c H L' img' _ IH|L d0 id seq r c c' H L' img' A A1 A2 _ IH];
    intros d HA; cbn [fold_left ghstep]; [exact HA|apply IH..].
  - exact (gpl_agree1 f0 pi Ht _ _ _ _ _ A d HA).
  - rewrite !Htorn. exact HA.
  - intros Hf. rewrite Htorn. exact (HA (fadd_false _ _ _ Hf)).
  - intros Hf. rewrite !Htorn. exact (HA (fadd_false _ _ _ Hf)).
Qed.

Lemma gplh_idx_agree L img H L' img' :
  gplh ops L img H L' img' -> forall d, idx_agree L d img -> idx_agree L' (ghrun ops H d) img'.
Proof.
  intros Hp d [A B].
  exact (conj (gplh_agree1 FMain _ tracks_index _ _ _ _ _ Hp d A) (gplh_agree1 FIndexMeta _ tracks_imeta _ _ _ _ _ Hp d B)).
Qed.

End Ext.

(* What [gpl] does to main.pix: every event that touches it SETS its content (creation: the empty index;
   EIndex i: i; removal / rename: gone), so the content found in an image is the one the power-loss-free disk
   had at SOME instant of the history: one of the written values, or the earlier one. *)
Section IdxHist.
Context {I : Type}.
Variable ops : idx_ops I.

Fixpoint idx_hist (d : @DB.disk I) (es : list (@fsev I)) : list (option I) :=
  match es with
  | [] => []
  | e :: es' => d_index (apply_ev ops d e) :: idx_hist (apply_ev ops d e) es'
  end.

Lemma d_index_set_or_keep e (d : @DB.disk I) :
  d_index (apply_ev ops d e) = d_index d \/
  forall d0 : @DB.disk I, d_index (apply_ev ops d0 e) = d_index (apply_ev ops d e).
Proof.
  destruct e as [f|f|id seq off r|i|id seq m|i|sd|f n|f g|f|f]; try destruct f; try (left; reflexivity);
    right; intros d0; reflexivity.
Qed.

Theorem gpl_index_cases L d es L' img :
  gpl ops L d es L' img -> forall d0, d_index img = d_index d \/ In (d_index img) (idx_hist d0 es).
Proof.
  induction 1 as [L d|L d e es L1 d1 H1 H2 H3 IH|L d e f es L1 d1 H1 H3 IH
                  |L d id seq off r c es L1 d1 H1 H2 H2' H3 IH]; intros d0; cbn [idx_hist].
  - left. reflexivity.
  - destruct (IH (apply_ev ops d0 e)) as [E|E]; [|right; right; exact E].
    destruct (d_index_set_or_keep e d) as [K|K]; [left; congruence|].
    right. left. rewrite (K d0). symmetry. exact E.
  - destruct (IH (apply_ev ops d0 e)) as [E|E]; [left; exact E|right; right; exact E].
  - destruct (IH (apply_ev ops d0 (EAppend id seq off r))) as [E|E]; [left; exact E|right; right; exact E].
Qed.
End IdxHist.

Definition gcfg (I : Type) : Type := (@DB.st I * option cursor)%type.

Definition grun_op {I} (ops : idx_ops I) (P : params) (o : DBProofsCrash.op) (s : @DB.st I) : @DB.st I :=
  match o with
  | DBProofsCrash.OpPut k v => fst (db_put ops P k v (clear_trace s))
  | DBProofsCrash.OpDelete k => fst (db_delete ops P k (clear_trace s))
  | DBProofsCrash.OpSync => fst (db_sync ops (clear_trace s))
  end.

(* one step: a writer operation, the pick of a compaction, one critical section of a compaction
   (a step that does not apply leaves everything as it is) *)
Definition gxstep {I} (ops : idx_ops I) (P : params) (cf : gcfg I) (o : xop) : gcfg I :=
  match o with
  | XOp o => (grun_op ops P o (fst cf), snd cf)
  | XPick => match snd cf, compact_pick ops P (clear_trace (fst cf)) with
             | None, Some (s', c) => (s', Some c)
             | _, _ => (clear_trace (fst cf), snd cf)
             end
  | XStep => match snd cf with
             | Some c => match compact_step ops P (clear_trace (fst cf)) c with
                         | CMore s' c' => (s', Some c')
                         | CDone => (clear_trace (fst cf), None)
                         | CFail _ => (clear_trace (fst cf), snd cf)
                         end
             | None => (clear_trace (fst cf), snd cf)
             end
  end.

Definition gxrun {I} (ops : idx_ops I) (P : params) (cf : gcfg I) (os : list xop) : gcfg I :=
  fold_left (gxstep ops P) os cf.

Fixpoint gxtrace {I} (ops : idx_ops I) (P : params) (cf : gcfg I) (os : list xop) : list (@fsev I) :=
  match os with
  | [] => []
  | o :: os' => s_trace (fst (gxstep ops P cf o)) ++ gxtrace ops P (gxstep ops P cf o) os'
  end.

Lemma gxrun_app {I} (ops : idx_ops I) P cf os1 os2 :
  gxrun ops P cf (os1 ++ os2) = gxrun ops P (gxrun ops P cf os1) os2.
Proof. apply fold_left_app. Qed.
Lemma gxtrace_app {I} (ops : idx_ops I) P os1 : forall cf os2,
  gxtrace ops P cf (os1 ++ os2) = gxtrace ops P cf os1 ++ gxtrace ops P (gxrun ops P cf os1) os2.
Proof.
  induction os1 as [|o os1 IH]; intros cf os2; [reflexivity|].
  cbn [app gxtrace]. rewrite IH, app_assoc. reflexivity.
Qed.

Lemma gxstep_disk {I} (ops : idx_ops I) P cf o :
  s_disk (fst (gxstep ops P cf o)) = fold_left (apply_ev ops) (s_trace (fst (gxstep ops P cf o))) (s_disk (fst cf)).
Proof.
  destruct cf as [s c]. destruct o as [o| |]; cbn [gxstep fst snd].
  - apply ext_clear. destruct o as [k v|k|]; cbn [grun_op]; [apply ext_put|apply ext_delete|apply ext_sync].
  - destruct c as [c|]; [reflexivity|].
    destruct (compact_pick ops P (clear_trace s)) as [[s' c']|] eqn:E; [|reflexivity].
    cbn [fst]. apply ext_clear. exact (ext_pick ops P _ _ _ E).
  - destruct c as [c|]; [|reflexivity].
    destruct (compact_step ops P (clear_trace s) c) as [|s' c'|w] eqn:E; [reflexivity| |reflexivity].
    cbn [fst]. apply ext_clear. exact (ext_cstep ops P _ _ _ _ E).
Qed.

Lemma gxrun_disk {I} (ops : idx_ops I) P os : forall cf,
  s_disk (fst (gxrun ops P cf os)) = fold_left (apply_ev ops) (gxtrace ops P cf os) (s_disk (fst cf)).
Proof.
  induction os as [|o os IH]; intros cf; [reflexivity|].
  unfold gxrun. cbn [fold_left gxtrace]. rewrite fold_left_app, <- gxstep_disk. apply IH.
Qed.

(* on the flat index this is PowerLoss.xstep / xrun *)
Lemma grun_op_flat P o (s : stf) : grun_op flat_ops P o s = run_op P o s.
Proof. destruct o; reflexivity. Qed.

Lemma gxstep_flat P cf o cf' : xstep P cf o cf' -> gxstep flat_ops P cf o = cf'.
Proof.
  intros H. destruct H as [s c o Hpre|s s' c HM E|s c s' c' Hroom E|s c E]; cbn [gxstep fst snd].
  - rewrite grun_op_flat. reflexivity.
  - rewrite E. reflexivity.
  - rewrite E. reflexivity.
  - rewrite E. reflexivity.
Qed.

Lemma gxrun_flat P cf os cfs tr cf' :
  xrun P cf os cfs tr cf' -> gxrun flat_ops P cf os = cf' /\ gxtrace flat_ops P cf os = tr.
Proof.
  induction 1 as [cf|cf o cf1 os cfs tr cf' Hs H [IH1 IH2]]; [split; reflexivity|].
  unfold gxrun. cbn [fold_left gxtrace]. rewrite (gxstep_flat P cf o cf1 Hs). split; [exact IH1|rewrite IH2; reflexivity].
Qed.

(* the three layers stay related along a history *)
Definition T3 (cf1 : gcfg phys) (cfp : gcfg pindex) (cff : cfg) : Prop :=
  gst_rel PR (fst cf1) (fst cfp) /\ st_rel (fst cfp) (fst cff) /\ snd cf1 = snd cff /\ snd cfp = snd cff.

Lemma T3_step P cf1 cfp cff o cff' :
  params_ok P -> XOpen P cff -> xstep P cff o cff' -> T3 cf1 cfp cff ->
  T3 (gxstep phys_ops P cf1 o) (gxstep chain_ops P cfp o) cff'.
Proof.
  intros HP [(HI & Hm & Hb) HC] Hs (H1 & Hsr & Ec1 & Ecp).
  destruct cf1 as [s1 c1], cfp as [sp cp]. cbn [fst snd] in *.
  pose proof (clear_trace_rel PR _ _ H1) as H1c.
  destruct Hs as [sf c o Hpre|sf sf' c HM E|sf c sf' c' Hroom E|sf c E]; cbn [fst snd] in *; subst c1 cp;
    pose proof (clear_trace_rel idx_rel _ _ Hsr) as Hsc; cbn [gxstep fst snd]; unfold T3.
  - assert (X : forall o', put_side sf o' ->
                gst_rel PR (fst (step phys_ops P (clear_trace s1) o')) (fst (step chain_ops P (clear_trace sp) o')) /\
                st_rel (fst (step chain_ops P (clear_trace sp) o')) (fst (step flat_ops P (clear_trace sf) o'))).
    { intros o' Hsd. destruct (op3 P o' _ _ _ H1c Hsc (Inv_clear P sf HI) Hsd) as ([_ A] & B & _). exact (conj A B). }
    destruct o as [k v|k|]; cbn [grun_op run_op op_pre fst snd] in *.
    + destruct Hpre as (Hroom & Hbk & Hbv & _).
      destruct (X (DBSim.OpPut k v) (conj Hroom (conj Hbk Hbv))) as [A B]. exact (conj A (conj B (conj eq_refl eq_refl))).
    + destruct (X (DBSim.OpDelete k) Logic.I) as [A B]. exact (conj A (conj B (conj eq_refl eq_refl))).
    + destruct (X DBSim.OpSync Logic.I) as [A B]. exact (conj A (conj B (conj eq_refl eq_refl))).
  - pose proof (compact_pick3 P _ _ _ H1c Hsc) as X. rewrite E in X.
    inversion X as [|s1' sp' ? ? H1' Hs' E1 Ep Ef]; subst. exact (conj H1' (conj Hs' (conj eq_refl eq_refl))).
  - pose proof (compact_step3 P _ _ _ c H1c Hsc (Inv_clear P sf HI) Hroom) as X. rewrite E in X.
    inversion X as [|s1' sp' ? ? H1' Hs' E1 Ep Ef|]; subst. exact (conj H1' (conj Hs' (conj eq_refl eq_refl))).
  - destruct (proj1 (compact_step_done flat_ops P _ _) E) as (Hmf & E1 & E2).
    pose proof (fun A => Hmf (proj1 (gst_rel_mem_none idx_rel _ _ Hsc) A)) as Hmp.
    pose proof (fun A => Hmp (proj1 (gst_rel_mem_none PR _ _ H1c) A)) as Hm1.
    rewrite (proj2 (compact_step_done phys_ops P _ _) (conj Hm1 (conj E1 E2))),
            (proj2 (compact_step_done chain_ops P _ _) (conj Hmp (conj E1 E2))).
    exact (conj H1c (conj Hsc (conj eq_refl eq_refl))).
Qed.

Theorem T3_run P cff os cfs tr cff' :
  params_ok P -> xrun P cff os cfs tr cff' -> forall cf1 cfp, XOpen P cff -> T3 cf1 cfp cff ->
  T3 (gxrun phys_ops P cf1 os) (gxrun chain_ops P cfp os) cff' /\
  Forall2 (gev_rel PR) (gxtrace phys_ops P cf1 os) (gxtrace chain_ops P cfp os) /\
  Forall2 ev_rel (gxtrace chain_ops P cfp os) tr.
Proof.
  intros HP H. induction H as [cf|cf o cfn os cfs tr cf' Hs H IH]; intros cf1 cfp HX HT.
  - split; [exact HT|]. split; constructor.
  - pose proof (T3_step P cf1 cfp cf o cfn HP HX Hs HT) as HT1.
    destruct (xstep_ok P cf o cfn HP HX Hs) as (HX1 & _).
    destruct (IH _ _ HX1 HT1) as (A & B & C).
    unfold gxrun. cbn [fold_left gxtrace]. split; [exact A|].
    destruct HT1 as (R1 & R2 & _).
    split; (apply Forall2_app; [|assumption]).
    + exact (st_rel_trace PR _ _ R1).
    + exact (st_rel_trace idx_rel _ _ R2).
Qed.

Lemma rel_rest {I1 I2} (R : I1 -> I2 -> Prop) (a : @DB.disk I1) (b : @DB.disk I2) :
  gdisk_rel R a b ->
  d_segs a = d_segs b /\ d_overflow a = d_overflow b /\ d_dbmeta a = d_dbmeta b /\ d_lock a = d_lock b /\
  d_bac a = d_bac b.
Proof. intros H. apply disk_rel_iff in H. tauto. Qed.

Lemma gdisk_eq_orph {I} (d img : @DB.disk I) :
  d_segs img = d_segs d -> d_index img = d_index d -> d_overflow img = d_overflow d ->
  d_imeta img = d_imeta d -> d_dbmeta img = d_dbmeta d -> d_lock img = d_lock d -> d_bac img = d_bac d ->
  img = set_orphans d (d_orphans img).
Proof.
  destruct d as [a1 a2 a3 a4 a5 a6 a7 a8], img as [b1 b2 b3 b4 b5 b6 b7 b8].
  cbn [d_segs d_orphans d_index d_overflow d_imeta d_dbmeta d_lock d_bac set_orphans].
  intros -> -> -> -> -> -> ->. reflexivity.
Qed.

(* the files flushed by Close, in particular main.pix and index.pmt, have lost nothing in an image of its
   events: a phys image that agrees with the real phys disk on what was not lost holds the real disk's index
   files, and they store the index Close wrote *)
Lemma closed_index_files P (sf : stf) m sf1 o L1 x1 L' (imgf : diskf) (imgp : diskp) (img1 d1 : disk1) :
  Inv P sf -> s_mem sf = Some m -> db_close flat_ops (clear_trace sf) = (sf1, o) ->
  pl L1 x1 (s_trace sf1) L' imgf -> imgf = set_orphans (s_disk sf1) (d_orphans imgf) ->
  gdisk_rel PR img1 imgp -> disk_rel imgp imgf -> idx_agree L' d1 img1 ->
  d_index img1 = d_index d1 /\ d_imeta img1 = d_imeta d1 /\ stored_index img1 (m_idx m).
Proof.
  intros HI Em Ec Hpl Eimg Hr1 Hr2 [Ai Am].
  destruct (close_cl_run (clear_trace sf) m Em) as (es & T & _ & Hcov). rewrite Ec in T.
  cbn [fst clear_trace s_trace app] in T. rewrite T in Hpl.
  assert (HL : L' FMain = false /\ L' FIndexMeta = false)
    by (split; apply (pl_clr _ _ _ _ _ Hpl _ false); try discriminate; apply Hcov; unfold CloseF; tauto).
  pose proof (close_ok P (clear_trace sf) m (Inv_clear P sf HI) Em) as Hc. rewrite Ec in Hc.
  destruct Hc as (_ & _ & _ & _ & _ & Hdi & _ & Him & _).
  split; [exact (Ai (proj1 HL))|]. split; [exact (Am (proj2 HL))|].
  apply (stored_index_of_rel img1 imgp imgf _ Hr1 Hr2); rewrite Eimg; [exact Hdi|exact Him].
Qed.

(* C09, first part.  Any history of Put / Delete / Sync / compaction steps on the physical-index
   database (the run of the flat database on the same operations supplies the side conditions), then
   a completed Close.  EVERY admissible power-loss image of the whole phys history is the closed phys
   directory itself -- in particular main.pix / overflow.pix and index.pmt hold EXACTLY the index values
   the real disk held when Close returned (not merely related ones), which satisfy the physical
   invariant and represent the closed flat index -- up to the bookkeeping list d_orphans.  The image is
   related to an admissible image of the flat history, which is the closed flat directory. *)
Theorem C09_closed_is_durable_phys P cf1 cfp cff0 os cfs tr (sf : stf) c (m : @DB.mem flat) sf1 o L' img1 :
  params_ok P -> XOpen P cff0 -> T3 cf1 cfp cff0 ->
  xrun P cff0 os cfs tr (sf, c) -> s_mem sf = Some m ->
  db_close flat_ops (clear_trace sf) = (sf1, o) ->
  let s1 := fst (gxrun phys_ops P cf1 os) in
  let s1a := fst (db_close phys_ops (clear_trace s1)) in
  gpl phys_ops fnone (s_disk (fst cf1)) (gxtrace phys_ops P cf1 os ++ s_trace s1a) L' img1 ->
  snd (db_close phys_ops (clear_trace s1)) = OOk /\ s_mem s1a = None /\
  img1 = set_orphans (s_disk s1a) (d_orphans img1) /\
  d_index img1 = d_index (s_disk s1a) /\ d_imeta img1 = d_imeta (s_disk s1a) /\ d_lock img1 = false /\
  stored_index img1 (m_idx m) /\ phys_disk_ok img1 /\
  exists imgp imgf,
    gpl chain_ops fnone (s_disk (fst cfp))
        (gxtrace chain_ops P cfp os ++ s_trace (fst (db_close chain_ops (clear_trace (fst (gxrun chain_ops P cfp os)))))) L' imgp /\
    pl fnone (s_disk (fst cff0)) (tr ++ s_trace sf1) L' imgf /\
    gdisk_rel PR img1 imgp /\ disk_rel imgp imgf /\ imgf = set_orphans (s_disk sf1) (d_orphans imgf).
Proof.
  intros HP HX HT Hr Em Ec. cbv zeta. intros Hpl.
  destruct (T3_run P _ _ _ _ _ HP Hr cf1 cfp HX HT) as ((H1 & Hsr & _ & _) & Ht1 & Htp). cbn [fst] in H1, Hsr.
  destruct (xrun_ok P _ _ _ _ _ HP Hr HX) as ([(HI & _ & _) _] & _). cbn [fst] in HI.
  pose proof (gxrun_disk phys_ops P os cf1) as Ed1.
  set (s1 := fst (gxrun phys_ops P cf1 os)) in *. set (sp := fst (gxrun chain_ops P cfp os)) in *.
  pose proof (clear_trace_rel PR _ _ H1) as H1c. pose proof (clear_trace_rel idx_rel _ _ Hsr) as Hsc.
  destruct (xsim_close phys_ops chain_ops PR phys_exact_sim _ _ H1c) as [Eo1 H1a].
  destruct (sim_close_so _ _ Hsc) as [Eo Hs1]. rewrite Ec in Eo, Hs1. cbn [fst snd] in Eo, Hs1.
  pose proof (close_ok P (clear_trace sf) m (Inv_clear P sf HI) Em) as Hc. rewrite Ec in Hc.
  destruct Hc as (-> & Hn1 & _ & _ & Hl1 & _).
  pose proof (ext_clear phys_ops _ _ (ext_close phys_ops (clear_trace s1))) as Eda.
  set (s1a := fst (db_close phys_ops (clear_trace s1))) in *.
  set (spa := fst (db_close chain_ops (clear_trace sp))) in *.
  destruct HT as (HT1 & HT2 & _).
  assert (Hes1 : Forall2 (gev_rel PR) (gxtrace phys_ops P cf1 os ++ s_trace s1a) (gxtrace chain_ops P cfp os ++ s_trace spa))
    by (apply Forall2_app; [exact Ht1|exact (st_rel_trace PR _ _ H1a)]).
  assert (Hesp : Forall2 ev_rel (gxtrace chain_ops P cfp os ++ s_trace spa) (tr ++ s_trace sf1))
    by (apply Forall2_app; [exact Htp|exact (st_rel_trace idx_rel _ _ Hs1)]).
  destruct (proj1 (phys_pl_image _ _ _ _ _ _ fnone (st_rel_disk PR _ _ HT1) (st_rel_disk idx_rel _ _ HT2) Hes1 Hesp)
              L' img1 Hpl) as (imgp & imgf & Hgp & Hpf & Hr1 & Hr2).
  destruct (C09_closed_is_durable P _ _ _ _ _ _ _ _ _ _ _ HP HX Hr Em Ec Hpf)
    as (Eimg & Esegs & Eidx & Eov & Eim & Edb & Elock & Ebac).
  (* main.pix and index.pmt of the image are those of the real phys disk *)
  destruct (pl_app_inv _ _ _ _ _ _ Hpf) as (L1 & x1 & _ & Hpl2).
  pose proof (gpl_idx_agree phys_ops _ _ _ _ _ Hpl (s_disk (fst cf1)) (conj (fun _ => eq_refl) (fun _ => eq_refl))) as Hag.
  rewrite fold_left_app, <- Ed1, <- Eda in Hag.
  destruct (closed_index_files P sf m sf1 OOk L1 x1 L' imgf imgp img1 _ HI Em Ec Hpl2 Eimg Hr1 Hr2 Hag) as (Ai & Am & Hst).
  destruct (rel_rest _ _ _ Hr1) as (R1a & R1b & R1c & R1d & R1e).
  destruct (rel_rest _ _ _ Hr2) as (R2a & R2b & R2c & R2d & R2e).
  destruct (rel_rest _ _ _ (st_rel_disk PR _ _ H1a)) as (Q1a & Q1b & Q1c & Q1d & Q1e).
  destruct (rel_rest _ _ _ (st_rel_disk idx_rel _ _ Hs1)) as (Q2a & Q2b & Q2c & Q2d & Q2e).
  split; [rewrite Eo1; exact Eo|].
  split; [exact (proj2 (gst_rel_mem_none PR _ _ H1a) (proj2 (gst_rel_mem_none idx_rel _ _ Hs1) Hn1))|].
  split.
  { apply gdisk_eq_orph; [congruence|exact Ai|congruence|exact Am|congruence|congruence|congruence]. }
  split; [exact Ai|]. split; [exact Am|]. split; [congruence|]. split; [exact Hst|].
  split; [exact (PR_disk_ok _ _ Hr1)|].
  exists imgp, imgf. split; [exact Hgp|]. split; [exact Hpf|]. split; [exact Hr1|]. split; [exact Hr2|exact Eimg].
Qed.

(* a clean Open (no lock file) TRUSTS the index files: the index it loads is the content of main.pix *)
Lemma open_clean_loads_index {I} (ops : idx_ops I) P seed (d : @DB.disk I) s2 :
  d_lock d = false -> db_open ops P seed {| s_mem := None; s_disk := d; s_trace := [] |} = (s2, OOpened false) ->
  d_index d <> None -> exists m2, s_mem s2 = Some m2 /\ d_index d = Some (m_idx m2).
Proof.
  intros Hl E Hi. unfold db_open in E. cbn [s_mem s_disk] in E. rewrite Hl in E.
  set (s0 := emit ops (ECreate FLock) _) in E.
  assert (Ei0 : d_index (s_disk s0) = d_index d) by reflexivity.
  unfold open_index in E. rewrite Ei0 in E. destruct (d_index d) as [i|] eqn:Edi; [|congruence].
  set (sx := if d_overflow (s_disk s0) then s0 else emits ops [ECreate FOverflow; EHeader FOverflow] s0) in E.
  assert (Eix : d_index (s_disk sx) = Some i).
  { unfold sx. destruct (d_overflow (s_disk s0)); [exact Ei0|]. exact Edi. }
  rewrite Eix in E. destruct (d_imeta (s_disk sx)) as [| |j]; try discriminate E.
  destruct (open_segments ops sx) as [s3 segs].
  match type of E with context [swap_segment ops s3 ?m] => set (m0 := m) in E end.
  assert (Em1 : m_idx (snd (swap_segment ops s3 m0)) = i).
  { unfold swap_segment. destruct (find _ (m_segs m0)); reflexivity. }
  destruct (swap_segment ops s3 m0) as [s4 m1]. cbn [snd] in Em1.
  destruct (if ix_count ops i =? 0 then Some seed else match d_dbmeta (s_disk s4) with GOk sd => Some sd | _ => None end);
    [|discriminate E].
  injection E as <-. eexists. split; [reflexivity|]. cbn [m_idx]. rewrite Em1. reflexivity.
Qed.

(* Open on related images without a lock file, where the flat Open succeeds: the phys Open succeeds too,
   answers as the flat contents say, and has loaded the index stored in its image *)
Lemma phys_reopen_clean P seed ms (img1 : disk1) (imgp : diskp) (imgf : diskf) (sf2 : stf) :
  gdisk_rel PR img1 imgp -> disk_rel imgp imgf -> d_lock img1 = false -> d_index img1 <> None ->
  db_open flat_ops P seed (closed imgf) = (sf2, OOpened false) -> Inv P sf2 -> s_mem sf2 <> None ->
  meq (abs (s_disk sf2)) ms -> NoDup (map fst ms) ->
  exists s2 sp2, db_open phys_ops P seed (closed1 img1) = (s2, OOpened false) /\
    gst_rel PR s2 sp2 /\ st_rel sp2 sf2 /\ phys_open_ok s2 /\ answers1 P s2 ms /\
    exists m2, s_mem s2 = Some m2 /\ d_index img1 = Some (m_idx m2) /\ PhysInv (m_idx m2).
Proof.
  intros Hr1 Hr2 Hl1 Hi Ef2 HI2 Hopen2 Hc2 Hnd.
  destruct (rel_rest _ _ _ Hr1) as (_ & _ & _ & R1d & _). destruct (rel_rest _ _ _ Hr2) as (_ & _ & _ & R2d & _).
  assert (Hlp : d_lock imgp = false) by congruence. assert (Hlf : d_lock imgf = false) by congruence.
  destruct (sim_open_clean_so P seed (closedp imgp) (closed imgf) (closed_rel imgp imgf Hr2) Hlf) as [Eo2 Hs2].
  rewrite Ef2 in Eo2, Hs2. cbn [fst snd] in Eo2, Hs2.
  destruct (db_open chain_ops P seed (closedp imgp)) as [sp2 op2] eqn:Ep2. cbn [fst snd] in Eo2, Hs2. subst op2.
  destruct (phys_open_of_chain P seed false ms img1 imgp sp2 sf2 (phys_open_clean_image P seed img1 imgp Hr1 Hlp)
              Ep2 Hs2 HI2 Hopen2 Hc2 Hnd) as (s2 & E1 & H2 & Hpo & Hans).
  destruct (open_clean_loads_index phys_ops P seed img1 s2 Hl1 E1 Hi) as (m2 & Em2 & Ei2).
  exists s2, sp2. split; [exact E1|]. split; [exact H2|]. split; [exact Hs2|]. split; [exact Hpo|]. split; [exact Hans|].
  exists m2. split; [exact Em2|]. split; [exact Ei2|].
  destruct Hpo as [(m2' & Em2' & Hinv) _]. congruence.
Qed.

(* C09, second part: the next Open on ANY admissible image is a clean one (OOpened false); it loads the
   index stored in the image, which satisfies the physical invariant; every answer of the reopened
   database is the one the database gave before the Close. *)
Theorem C09_reopen_phys P seed cf1 cfp cff0 os cfs tr (sf : stf) c (m : @DB.mem flat) sf1 o L' img1 :
  params_ok P -> XOpen P cff0 -> T3 cf1 cfp cff0 ->
  xrun P cff0 os cfs tr (sf, c) -> s_mem sf = Some m ->
  db_close flat_ops (clear_trace sf) = (sf1, o) ->
  let s1 := fst (gxrun phys_ops P cf1 os) in
  let s1a := fst (db_close phys_ops (clear_trace s1)) in
  gpl phys_ops fnone (s_disk (fst cf1)) (gxtrace phys_ops P cf1 os ++ s_trace s1a) L' img1 ->
  answers1 P s1 (abs (s_disk sf)) /\
  exists s2, db_open phys_ops P seed (closed1 img1) = (s2, OOpened false) /\
    phys_open_ok s2 /\ answers1 P s2 (abs (s_disk sf)) /\
    (exists m2, s_mem s2 = Some m2 /\ d_index img1 = Some (m_idx m2) /\ d_index (s_disk s1a) = Some (m_idx m2) /\
                PhysInv (m_idx m2)) /\
    exists sp2 sf2, gst_rel PR s2 sp2 /\ st_rel sp2 sf2 /\ Inv P sf2 /\ s_mem sf2 <> None /\
                    meq (abs (s_disk sf2)) (abs (s_disk sf)).
Proof.
  intros HP HX HT Hr Em Ec. cbv zeta. intros Hpl.
  destruct (C09_closed_is_durable_phys P cf1 cfp cff0 os cfs tr sf c m sf1 o L' img1 HP HX HT Hr Em Ec Hpl)
    as (_ & _ & _ & Ei1 & _ & Hl1 & Hst & _ & imgp & imgf & _ & Hpf & Hr1 & Hr2 & _).
  destruct (T3_run P _ _ _ _ _ HP Hr cf1 cfp HX HT) as ((H1 & Hsr & _ & _) & _ & _). cbn [fst] in H1, Hsr.
  destruct (xrun_ok P _ _ _ _ _ HP Hr HX) as ([(HI & _ & _) _] & _). cbn [fst] in HI.
  assert (Hopen : s_mem sf <> None) by congruence.
  split; [exact (answers1_of_chain P _ _ _ H1 (answers_of_rel P _ sf Hsr HI Hopen))|].
  destruct (C09_reopen P seed _ _ _ _ _ _ _ _ _ _ _ HP HX Hr Em Ec Hpf) as (sf2 & Ef2 & HI2 & Hc2 & m2f & Em2f & _).
  assert (Hopen2 : s_mem sf2 <> None) by congruence.
  destruct (phys_reopen_clean P seed _ img1 imgp imgf sf2 Hr1 Hr2 Hl1 (proj1 (proj2 (stored_index_inv _ _ Hst)))
              Ef2 HI2 Hopen2 Hc2 (abs_NoDup _)) as (s2 & sp2 & E1 & H2 & Hs2 & Hpo & Hans & m2 & Em2 & Ei2 & Hinv).
  exists s2. split; [exact E1|]. split; [exact Hpo|]. split; [exact Hans|].
  split; [exists m2; split; [exact Em2|]; split; [exact Ei2|]; split; [rewrite <- Ei1; exact Ei2|exact Hinv]|].
  exists sp2, sf2. split; [exact H2|]. split; [exact Hs2|]. split; [exact HI2|]. split; [exact Hopen2|exact Hc2].
Qed.

Lemma Forall2_firstn_g {A B} (Q : A -> B -> Prop) n : forall l1 l2,
  Forall2 Q l1 l2 -> Forall2 Q (firstn n l1) (firstn n l2).
Proof.
  induction n as [|n IH]; intros l1 l2 H; [constructor|].
  destruct H as [|a b l1 l2 Hab H]; cbn [firstn]; constructor; [exact Hab|apply IH; exact H].
Qed.

(* C06.  A history of Put / Delete / Sync / compaction steps [os0] on the physical-index database; a
   Sync (or, with p_sync, any Put / Delete) [osync] completes: the database answers A0 (the contents of
   the flat database at that point); any further steps [os]; the power fails after ANY number [n] of the
   events they issue (the lock file exists throughout: the database is open).  Whatever the file system
   kept (any admissible image [img1], whatever it holds in main.pix / overflow.pix / index.pmt):
   [db_open phys_ops] RECOVERS (OOpened true: the index files are set aside and the index is rebuilt
   from the log), the recovered in-memory index and the stored ones satisfy the physical invariant, and
   the database answers A0 followed by a prefix of [os]. *)
Theorem C06_synced_writes_survive_phys P seed c10 cp0 cff0 os0 cfs0 tr0 cffa osync cff1 os cfs tr cff' n L' img1 :
  params_ok P -> XOpen P cff0 -> T3 c10 cp0 cff0 ->
  xrun P cff0 os0 cfs0 tr0 cffa -> xstep P cffa osync cff1 -> sync_point P osync ->
  xrun P cff1 os cfs tr cff' ->
  let c1a := gxrun phys_ops P c10 os0 in
  let c1s := gxstep phys_ops P c1a osync in
  gpl phys_ops fnone (s_disk (fst c10))
      (gxtrace phys_ops P c10 os0 ++ s_trace (fst c1s) ++ firstn n (gxtrace phys_ops P c1s os)) L' img1 ->
  answers1 P (fst c1s) (abs (s_disk (fst cff1))) /\
  exists s2, db_open phys_ops P seed (closed1 img1) = (s2, OOpened true) /\ phys_open_ok s2 /\
    exists j ms, (j <= length os)%nat /\ answers1 P s2 ms /\ NoDup (map fst ms) /\
      (forall k, sget ms k = xspec_hist (firstn j os) (cont (s_disk (fst cff1))) k) /\
      exists imgp imgf sp2 sf2,
        pl fnone (s_disk (fst cff0)) (tr0 ++ s_trace (fst cff1) ++ firstn n tr) L' imgf /\
        gdisk_rel PR img1 imgp /\ disk_rel imgp imgf /\ ms = abs imgf /\
        gst_rel PR s2 sp2 /\ st_rel sp2 sf2 /\ Inv P sf2 /\
        db_open flat_ops P seed (closed imgf) = (sf2, OOpened true).
Proof.
  intros HP HX0 HT0 Hr0 Hs Hsp Hr. cbv zeta. intros Hpl.
  destruct (T3_run P _ _ _ _ _ HP Hr0 c10 cp0 HX0 HT0) as (HTa & Ta1 & Tap).
  destruct (xrun_ok P _ _ _ _ _ HP Hr0 HX0) as (HXa & _).
  pose proof (T3_step P _ _ _ _ _ HP HXa Hs HTa) as HT1.
  destruct (xstep_ok P _ _ _ HP HXa Hs) as (HX1 & _).
  destruct (T3_run P _ _ _ _ _ HP Hr _ _ HX1 HT1) as (_ & Tb1 & Tbp).
  set (c1s := gxstep phys_ops P (gxrun phys_ops P c10 os0) osync) in *.
  set (cps := gxstep chain_ops P (gxrun chain_ops P cp0 os0) osync) in *.
  pose proof HT1 as (R1 & R2 & _).
  assert (Hes1 : Forall2 (gev_rel PR)
            (gxtrace phys_ops P c10 os0 ++ s_trace (fst c1s) ++ firstn n (gxtrace phys_ops P c1s os))
            (gxtrace chain_ops P cp0 os0 ++ s_trace (fst cps) ++ firstn n (gxtrace chain_ops P cps os))).
  { apply Forall2_app; [exact Ta1|]. apply Forall2_app; [exact (st_rel_trace PR _ _ R1)|].
    apply Forall2_firstn_g. exact Tb1. }
  assert (Hesp : Forall2 ev_rel
            (gxtrace chain_ops P cp0 os0 ++ s_trace (fst cps) ++ firstn n (gxtrace chain_ops P cps os))
            (tr0 ++ s_trace (fst cff1) ++ firstn n tr)).
  { apply Forall2_app; [exact Tap|]. apply Forall2_app; [exact (st_rel_trace idx_rel _ _ R2)|].
    apply Forall2_firstn_g. exact Tbp. }
  destruct HT0 as (HT01 & HT02 & _).
  destruct (proj1 (phys_pl_image _ _ _ _ _ _ fnone (st_rel_disk PR _ _ HT01) (st_rel_disk idx_rel _ _ HT02) Hes1 Hesp)
              L' img1 Hpl) as (imgp & imgf & _ & Hpf & Hr1 & Hr2).
  (* the flat theorem, step by step (C06_synced_writes_survive does not export [Good] of the image) *)
  pose proof Hpf as Hpf'. rewrite app_assoc in Hpf'.
  destruct (pl_app_inv _ _ _ _ _ _ Hpf') as (L1 & x1 & Hpl1 & Hpl2).
  destruct (sync_point_clean P _ _ _ _ _ _ _ _ L1 x1 HP HX0 Hr0 Hs Hsp eq_refl Hpl1) as (_ & _ & Hcl & HA).
  assert (HD1 : DurS None (fst cff1)).
  { destruct HX1 as [(_ & Hm & _) _]. destruct (s_mem (fst cff1)) as [m|] eqn:Em; [|congruence].
    exists m. split; [exact Em|apply DurM_None]. }
  destruct (C06_image P cff1 os cfs tr cff' None L1 x1 (firstn n tr) (skipn n tr) L' imgf HP HX1 Hr HD1 Hcl HA
              (eq_sym (firstn_skipn n tr)) Hpl2) as ((G1 & G2 & G3) & j & Hj & Hc).
  destruct (phys_recover_image P seed img1 imgp imgf HP Hr1 Hr2 G1 G2 G3)
    as (s2 & sp2 & sf2 & E1 & _ & Ef & H2 & Hs2 & HI2 & _ & _ & _ & _ & Hpo & _ & Hans).
  split.
  { destruct HX1 as [(HI1 & Hm1 & _) _].
    exact (answers1_of_chain P _ _ _ R1 (answers_of_rel P _ _ R2 HI1 Hm1)). }
  exists s2. split; [exact E1|]. split; [exact Hpo|].
  exists j, (abs imgf). split; [exact Hj|]. split; [exact Hans|]. split; [apply abs_NoDup|].
  split; [exact Hc|].
  exists imgp, imgf, sp2, sf2. split; [exact Hpf|]. split; [exact Hr1|]. split; [exact Hr2|]. split; [reflexivity|].
  split; [exact H2|]. split; [exact Hs2|]. split; [exact HI2|exact Ef].
Qed.

(* per key: the value at the sync point, or the value after one of the later operations *)
Corollary C06_per_key_phys P seed c10 cp0 cff0 os0 cfs0 tr0 cffa osync cff1 os cfs tr cff' n L' img1 :
  params_ok P -> XOpen P cff0 -> T3 c10 cp0 cff0 ->
  xrun P cff0 os0 cfs0 tr0 cffa -> xstep P cffa osync cff1 -> sync_point P osync ->
  xrun P cff1 os cfs tr cff' ->
  let c1a := gxrun phys_ops P c10 os0 in
  let c1s := gxstep phys_ops P c1a osync in
  gpl phys_ops fnone (s_disk (fst c10))
      (gxtrace phys_ops P c10 os0 ++ s_trace (fst c1s) ++ firstn n (gxtrace phys_ops P c1s os)) L' img1 ->
  exists s2, db_open phys_ops P seed (closed1 img1) = (s2, OOpened true) /\ phys_open_ok s2 /\
    forall k, exists j, (j <= length os)%nat /\
      db_get phys_ops P k s2 = OVal (xspec_hist (firstn j os) (cont (s_disk (fst cff1))) k).
Proof.
  intros HP HX0 HT0 Hr0 Hs Hsp Hr. cbv zeta. intros Hpl.
  destruct (C06_synced_writes_survive_phys P seed _ _ _ _ _ _ _ _ _ _ _ _ _ n L' img1 HP HX0 HT0 Hr0 Hs Hsp Hr Hpl)
    as (_ & s2 & E & Hpo & j & ms & Hj & (Hget & _) & _ & Hms & _).
  exists s2. split; [exact E|]. split; [exact Hpo|]. intros k. exists j. split; [exact Hj|].
  rewrite Hget, Hms. reflexivity.
Qed.

(* PowerLoss2.C06_with_recovery, with the facts about the image itself exported (same proof) *)
Lemma C06_with_recovery_image P cf0 mh0 K0 cfa osync cf1 mh K cf' Kcut L' img' :
  params_ok P -> XOpen P cf0 ->
  mrun P cf0 mh0 K0 cfa -> xstep P cfa osync cf1 -> sync_point P osync ->
  mrun P cf1 mh K cf' -> hcut Kcut K -> d_lock (hrun Kcut (s_disk (fst cf1))) = true ->
  plh fnone (s_disk (fst cf0)) (K0 ++ CE (s_trace (fst cf1)) :: Kcut) L' img' ->
  DiskOK img' /\ bac_ok img' /\ d_lock img' = true /\ after (cont (s_disk (fst cf1))) mh (cont img').
Proof.
  intros HP HX0 Hr0 Hs Hsp Hr Hcut Hlock Hpl.
  change (K0 ++ CE (s_trace (fst cf1)) :: Kcut) with (K0 ++ [CE (s_trace (fst cf1))] ++ Kcut) in Hpl. rewrite app_assoc in Hpl.
  destruct (plh_app_inv _ _ _ _ _ _ Hpl) as (L1 & img1 & Hpl1 & Hpl2).
  destruct (msync_clean P _ _ _ _ _ _ L1 img1 HP HX0 Hr0 Hs Hsp Hpl1) as (HX1 & Hcl & HA).
  destruct (mrun_main P _ _ _ _ HP Hr None HX1 (open_DurS_None P cf1 HX1)) as (_ & _ & (u' & Hd & _) & Hcr).
  assert (Hne : hdur2 None Kcut <> None) by (apply (hcut_hdur2 Kcut K Hcut); rewrite Hd; discriminate).
  pose proof (plh_agree _ _ _ _ _ Hpl2 _ HA) as (_ & _ & _ & _ & _ & A6 & A7).
  destruct (Hcr _ (hcut_self Kcut K Hcut _)) as (_ & Hbf & _).
  destruct (plh_crash_image _ _ _ _ _ _ None Hpl2 Hcl HA Hne) as (cimg & Hci & Hsame).
  destruct (Hcr cimg (hcut_hcrash Kcut K Hcut _ _ Hci)) as (G1 & _ & Haf).
  split; [apply (same_log_DiskOK _ _ Hsame G1)|]. split; [unfold bac_ok; rewrite A7; exact Hbf|].
  split; [rewrite A6; exact Hlock|].
  apply (after_ceq_r _ _ _ _ Haf). intros k. unfold cont. rewrite (same_log_abs _ _ Hsame). reflexivity.
Qed.

(* The statement one wants:

     C06_with_recovery_phys:  for a history of EPOCHS of the physical-index database (operations; process
     crashes in the middle of a step or between steps; recovery attempts; Close and clean re-Open) with a
     sync point, and a power failure at any later event at which the lock file exists: every admissible
     image recovers, phys_open_ok, answers = sync point + prefix of the later operations,

   needs an analogue of PowerLoss2.mrun for phys_ops together with the proof that it stays related,
   chunk by chunk, to the flat [mrun] (T3_run does this for an epoch of operations; a crash cut, the
   recovery attempts and Close / clean Open would be handled with phys_crash_image, phys_open_image_flat,
   xsim_close / open_clean_g).  That construction is NOT done here.  What is proved is the theorem with the
   relation between the two histories as a HYPOTHESIS ([Forall2 gch1], [Forall2 gchp]: the phys history,
   a chain history and the flat history have the same chunks, with PR- resp. idx_rel-related index values
   in their index-file events): *)
Theorem C06_with_recovery_phys_partial P seed cf0 mh0 K0 cfa osync cf1 mh K cf' Kcut L'
        (d1 : disk1) (dp : diskp) H1 Hp img1 :
  params_ok P -> XOpen P cf0 ->
  mrun P cf0 mh0 K0 cfa -> xstep P cfa osync cf1 -> sync_point P osync ->
  mrun P cf1 mh K cf' -> hcut Kcut K -> d_lock (hrun Kcut (s_disk (fst cf1))) = true ->
  gdisk_rel PR d1 dp -> disk_rel dp (s_disk (fst cf0)) ->
  Forall2 gch1 H1 Hp -> Forall2 gchp Hp (map gch (K0 ++ CE (s_trace (fst cf1)) :: Kcut)) ->
  gplh phys_ops fnone d1 H1 L' img1 ->
  exists s2, db_open phys_ops P seed (closed1 img1) = (s2, OOpened true) /\ phys_open_ok s2 /\
    exists ms, answers1 P s2 ms /\ NoDup (map fst ms) /\
               after (cont (s_disk (fst cf1))) mh (fun k => sget ms k).
Proof.
  intros HP HX0 Hr0 Hs Hsp Hr Hcut Hlock Hd1 Hd HH1 HHp Hpl.
  destruct (proj1 (phys_plh_image d1 dp _ H1 Hp _ fnone Hd1 Hd HH1 HHp) L' img1 Hpl)
    as (imgp & imgf & _ & Hpf & Hr1 & Hr2).
  destruct (C06_with_recovery_image P _ _ _ _ _ _ _ _ _ _ _ _ HP HX0 Hr0 Hs Hsp Hr Hcut Hlock Hpf)
    as (G1 & G2 & G3 & Haf).
  destruct (phys_recover_image P seed img1 imgp imgf HP Hr1 Hr2 G1 G2 G3)
    as (s2 & sp2 & sf2 & E1 & _ & _ & _ & _ & _ & _ & _ & _ & _ & Hpo & _ & Hans).
  exists s2. split; [exact E1|]. split; [exact Hpo|]. exists (abs imgf).
  split; [exact Hans|]. split; [apply abs_NoDup|exact Haf].
Qed.

(* C09 after a history of several epochs, in the same form: every admissible image of a phys history
   related to the flat one has no lock file, holds in main.pix / index.pmt exactly what the real phys
   disk holds at the end of the history ([ghrun]), and that represents the closed flat index; the next
   Open is clean, loads that index, and answers the closed contents. *)
Theorem C09_reopen_epochs_phys_partial P seed cf0 mh K (s : stf) c (m : @DB.mem flat) s1 o L'
        (d1 : disk1) (dp : diskp) H1 Hp img1 :
  params_ok P -> XOpen P cf0 -> mrun P cf0 mh K (s, c) -> s_mem s = Some m ->
  db_close flat_ops (clear_trace s) = (s1, o) ->
  gdisk_rel PR d1 dp -> disk_rel dp (s_disk (fst cf0)) ->
  Forall2 gch1 H1 Hp -> Forall2 gchp Hp (map gch (K ++ [CE (s_trace s1)])) ->
  gplh phys_ops fnone d1 H1 L' img1 ->
  d_lock img1 = false /\ stored_index img1 (m_idx m) /\
  d_index img1 = d_index (ghrun phys_ops H1 d1) /\ d_imeta img1 = d_imeta (ghrun phys_ops H1 d1) /\
  exists s2, db_open phys_ops P seed (closed1 img1) = (s2, OOpened false) /\ phys_open_ok s2 /\
    answers1 P s2 (abs (s_disk s)) /\
    exists m2, s_mem s2 = Some m2 /\ d_index img1 = Some (m_idx m2) /\ PhysInv (m_idx m2).
Proof.
  intros HP HX0 Hr Em Ec Hd1 Hd HH1 HHp Hpl.
  destruct (proj1 (phys_plh_image d1 dp _ H1 Hp _ fnone Hd1 Hd HH1 HHp) L' img1 Hpl)
    as (imgp & imgf & _ & Hpf & Hr1 & Hr2).
  destruct (C09_reopen_epochs P seed _ _ _ _ _ _ _ _ _ _ HP HX0 Hr Em Ec Hpf)
    as (Eimg & Elock & sf2 & Ef2 & HI2 & Hopen2 & Hc2).
  destruct (mrun_main P _ _ _ _ HP Hr None HX0 (open_DurS_None P cf0 HX0)) as ([(HI & _ & _) _] & _). cbn [fst] in HI.
  destruct (plh_app_inv _ _ _ _ _ _ Hpf) as (L1 & x1 & _ & Hpl2). apply plh_one_inv in Hpl2.
  destruct (closed_index_files P s m s1 o L1 x1 L' imgf imgp img1 _ HI Em Ec Hpl2 Eimg Hr1 Hr2
              (gplh_idx_agree phys_ops _ _ _ _ _ Hpl d1 (conj (fun _ => eq_refl) (fun _ => eq_refl)))) as (Ai & Am & Hst).
  destruct (rel_rest _ _ _ Hr1) as (_ & _ & _ & R1d & _). destruct (rel_rest _ _ _ Hr2) as (_ & _ & _ & R2d & _).
  assert (Hl1 : d_lock img1 = false) by congruence.
  split; [exact Hl1|]. split; [exact Hst|]. split; [exact Ai|]. split; [exact Am|].
  destruct (phys_reopen_clean P seed _ img1 imgp imgf sf2 Hr1 Hr2 Hl1 (proj1 (proj2 (stored_index_inv _ _ Hst)))
              Ef2 HI2 Hopen2 Hc2 (abs_NoDup _)) as (s2 & _ & E1 & _ & _ & Hpo & Hans & Hm2).
  exists s2. split; [exact E1|]. split; [exact Hpo|]. split; [exact Hans|exact Hm2].
Qed.

(* Building blocks for the hypotheses [Forall2 gch1] / [Forall2 gchp] of the two theorems above: the
   chunks of an epoch of operations, of a Close, and of an Open (recovering or clean) on related
   directories are related, and so are the states they end in. *)
Lemma chunks_ops P cff os cfs tr cff' cf1 cfp :
  params_ok P -> xrun P cff os cfs tr cff' -> XOpen P cff -> T3 cf1 cfp cff ->
  gch1 (GCE (gxtrace phys_ops P cf1 os)) (GCE (gxtrace chain_ops P cfp os)) /\
  gchp (GCE (gxtrace chain_ops P cfp os)) (gch (CE tr)) /\
  T3 (gxrun phys_ops P cf1 os) (gxrun chain_ops P cfp os) cff'.
Proof.
  intros HP Hr HX HT. destruct (T3_run P _ _ _ _ _ HP Hr cf1 cfp HX HT) as (A & B & C).
  split; [constructor; exact B|]. split; [constructor; exact C|exact A].
Qed.

Lemma chunks_close (s1 : st1) (sp : stp) (sf : stf) :
  gst_rel PR s1 sp -> st_rel sp sf ->
  let s1a := fst (db_close phys_ops (clear_trace s1)) in
  let spa := fst (db_close chain_ops (clear_trace sp)) in
  let sfa := fst (db_close flat_ops (clear_trace sf)) in
  gch1 (GCE (s_trace s1a)) (GCE (s_trace spa)) /\ gchp (GCE (s_trace spa)) (gch (CE (s_trace sfa))) /\
  gst_rel PR s1a spa /\ st_rel spa sfa.
Proof.
  intros H1 Hs. cbv zeta.
  destruct (xsim_close phys_ops chain_ops PR phys_exact_sim _ _ (clear_trace_rel PR _ _ H1)) as [_ A].
  destruct (sim_close_so _ _ (clear_trace_rel idx_rel _ _ Hs)) as [_ B].
  split; [constructor; exact (st_rel_trace PR _ _ A)|]. split; [constructor; exact (st_rel_trace idx_rel _ _ B)|].
  split; assumption.
Qed.

Lemma chunks_open P seed (d1 : disk1) (dp : diskp) (df : diskf) :
  gdisk_rel PR d1 dp -> disk_rel dp df -> (d_lock df = true -> DiskOK df /\ bac_ok df) ->
  let s1' := fst (db_open phys_ops P seed (closed1 d1)) in
  let sp' := fst (db_open chain_ops P seed (closedp dp)) in
  let sf' := fst (db_open flat_ops P seed (closed df)) in
  gch1 (GCE (s_trace s1')) (GCE (s_trace sp')) /\ gchp (GCE (s_trace sp')) (gch (CE (s_trace sf'))) /\
  gst_rel PR s1' sp' /\ st_rel sp' sf' /\
  snd (db_open phys_ops P seed (closed1 d1)) = snd (db_open flat_ops P seed (closed df)).
Proof.
  intros H1 Hd Hok. cbv zeta.
  destruct (phys_open_image_flat P seed d1 dp df H1 Hd (fun El => proj1 (Hok El))) as [Eo A].
  destruct (chain_open_image_flat P seed dp df Hd Hok) as [Eo' B].
  split; [constructor; exact (st_rel_trace PR _ _ A)|]. split; [constructor; exact (st_rel_trace idx_rel _ _ B)|].
  split; [exact A|]. split; [exact B|congruence].
Qed.

(* Non-vacuity: the state of PhysCrash.PhysCrashEx (35 colliding keys: 31 slots in the main bucket, 4 in an
   overflow bucket), by vm_compute *)

Module PhysPLEx.
Import SessEx PhysCrashEx.

Definition k2 : key := [78].
Definition v2 : val := [8; 8].
Definition oP1 : xop := XOp (DBProofsCrash.OpPut kX vX).
Definition oS : xop := XOp DBProofsCrash.OpSync.
Definition oP2 : xop := XOp (DBProofsCrash.OpPut k2 v2).

(* the flat run that supplies the side conditions: Put kX; Sync; Put k2 *)
Definition fA : stf := Eval vm_compute in run_op exP (DBProofsCrash.OpPut kX vX) sfX.
Definition fS : stf := Eval vm_compute in run_op exP DBProofsCrash.OpSync fA.
Definition fB : stf := Eval vm_compute in run_op exP (DBProofsCrash.OpPut k2 v2) fS.
Lemma fA_eq : run_op exP (DBProofsCrash.OpPut kX vX) sfX = fA. Proof. vm_compute. reflexivity. Qed.
Lemma fS_eq : run_op exP DBProofsCrash.OpSync fA = fS. Proof. vm_compute. reflexivity. Qed.
Lemma fB_eq : run_op exP (DBProofsCrash.OpPut k2 v2) fS = fB. Proof. vm_compute. reflexivity. Qed.

Lemma X_open : XOpen exP (sfX, None).
Proof.
  destruct put_hyps as (HI & (m & Em & _) & Hb & _). split; [|exact Logic.I]. cbn [fst].
  split; [exact HI|]. split; [congruence|exact Hb].
Qed.
Lemma X_T3 : T3 (s1X, None) (spX, None) (sfX, None).
Proof. destruct X_rel1 as (A & B & _). split; [exact A|]. split; [exact B|]. split; reflexivity. Qed.

Lemma X_run0 : xrun exP (sfX, None) [oP1] [(fA, None)] (s_trace fA ++ []) (fA, None).
Proof.
  destruct put_hyps as (_ & Hroom & _ & Hbk & Hbv & Hk & Hv).
  pose proof (xs_op exP sfX None (DBProofsCrash.OpPut kX vX) (conj Hroom (conj Hbk (conj Hbv (conj Hk Hv))))) as H.
  rewrite fA_eq in H. exact (xr_cons exP _ _ _ _ _ _ _ H (xr_nil exP _)).
Qed.
Lemma X_sync : xstep exP (fA, None) oS (fS, None).
Proof. pose proof (xs_op exP fA None DBProofsCrash.OpSync Logic.I) as H. rewrite fS_eq in H. exact H. Qed.
Lemma X_run1 : xrun exP (fS, None) [oP2] [(fB, None)] (s_trace fB ++ []) (fB, None).
Proof.
  assert (Hpre : op_pre (DBProofsCrash.OpPut k2 v2) fS).
  { split; [apply open_room_b_ok; vm_compute; reflexivity|].
    split; [apply forallb_byte; vm_compute; reflexivity|]. split; [apply forallb_byte; vm_compute; reflexivity|].
    split; vm_compute; discriminate. }
  pose proof (xs_op exP fS None (DBProofsCrash.OpPut k2 v2) Hpre) as H.
  rewrite fB_eq in H. exact (xr_cons exP _ _ _ _ _ _ _ H (xr_nil exP _)).
Qed.

(* the phys history: Put kX (record, index write, Sync of the segment: p_sync); Sync; then the first
   five events of Put k2, which rolls over (Sync of the sealed segment, creation and header of the new
   segment file, record, index write): the power fails before the Sync of the new segment *)
Definition c1s : gcfg phys := gxstep phys_ops exP (gxrun phys_ops exP (s1X, None) [oP1]) oS.
Definition ev_all : list (@fsev phys) :=
  gxtrace phys_ops exP (s1X, None) [oP1] ++ s_trace (fst c1s) ++ firstn 5 (gxtrace phys_ops exP c1s [oP2]).

Definition img_of1 (r : option (fset * disk1)) : disk1 := match r with Some (_, img) => img | None => disk0 end.
Definition ev_kind (e : @fsev phys) : N :=
  match e with EAppend _ _ _ _ => 1 | EIndex _ => 2 | ESync (FSeg _ _) => 3 | ESync _ => 4 | EGobIndex _ => 5
             | ERemove FLock => 6 | _ => 0 end.

(* image A: the record of Put k2 is lost although the index write that followed it was kept (main.pix
   of the image holds 37 keys, one of them points past the end of the log);
   image B: nothing is lost *)
Definition cs_lostA : list plc := [Keep; Keep; Keep; Keep; Keep; Keep; Keep; Drop; Keep].
Definition cs_lostB : list plc := [Keep; Keep; Keep; Keep; Keep; Keep; Keep; Keep; Keep].

Lemma ex_image (es : list (@fsev phys)) (cs : list plc) :
  is_some (gpl_exec phys_ops cs fnone (s_disk s1X) es) = true ->
  exists L, gpl phys_ops fnone (s_disk s1X) es L (img_of1 (gpl_exec phys_ops cs fnone (s_disk s1X) es)).
Proof.
  intros H. destruct (gpl_exec phys_ops cs fnone (s_disk s1X) es) as [[L img]|] eqn:E; [|discriminate H].
  exists L. apply (gpl_exec_sound phys_ops cs). exact E.
Qed.

(* what C06_synced_writes_survive_phys gives for any admissible image of this history *)
Lemma ex_C06_any L img1 :
  gpl phys_ops fnone (s_disk s1X) ev_all L img1 ->
  exists s2, db_open phys_ops exP 9 (closed1 img1) = (s2, OOpened true) /\ phys_open_ok s2 /\
    exists j ms, (j <= 1)%nat /\ answers1 exP s2 ms /\
      (forall k, sget ms k = xspec_hist (firstn j [oP2]) (cont (s_disk fS)) k).
Proof.
  intros Hpl.
  destruct (C06_synced_writes_survive_phys exP 9 (s1X, None) (spX, None) (sfX, None) [oP1] _ _ (fA, None) oS (fS, None)
              [oP2] _ _ (fB, None) 5 L img1 exP_ok X_open X_T3 X_run0 X_sync Logic.I X_run1 Hpl)
    as (_ & s2 & E & Hpo & j & ms & Hj & Hans & _ & Hms & _).
  exists s2. split; [exact E|]. split; [exact Hpo|]. exists j, ms. split; [exact Hj|]. split; [exact Hans|exact Hms].
Qed.

(* the history and the two recovered states, evaluated once *)
Definition ev_all_v : list (@fsev phys) := Eval vm_compute in ev_all.
Lemma ev_all_eq : ev_all = ev_all_v. Proof. vm_compute. reflexivity. Qed.
Definition sA_v : st1 :=
  Eval vm_compute in fst (db_open phys_ops exP 9 (closed1 (img_of1 (gpl_exec phys_ops cs_lostA fnone (s_disk s1X) ev_all_v)))).
Definition sB_v : st1 :=
  Eval vm_compute in fst (db_open phys_ops exP 9 (closed1 (img_of1 (gpl_exec phys_ops cs_lostB fnone (s_disk s1X) ev_all_v)))).
Lemma sA_eq :
  db_open phys_ops exP 9 (closed1 (img_of1 (gpl_exec phys_ops cs_lostA fnone (s_disk s1X) ev_all_v))) = (sA_v, OOpened true).
Proof. vm_compute. reflexivity. Qed.
Lemma sB_eq :
  db_open phys_ops exP 9 (closed1 (img_of1 (gpl_exec phys_ops cs_lostB fnone (s_disk s1X) ev_all_v))) = (sB_v, OOpened true).
Proof. vm_compute. reflexivity. Qed.

Lemma ex_C06_open cs s :
  is_some (gpl_exec phys_ops cs fnone (s_disk s1X) ev_all_v) = true ->
  db_open phys_ops exP 9 (closed1 (img_of1 (gpl_exec phys_ops cs fnone (s_disk s1X) ev_all_v))) = (s, OOpened true) ->
  phys_open_ok s.
Proof.
  rewrite <- ev_all_eq. intros Hs E. destruct (ex_image ev_all cs Hs) as (L & Hpl).
  destruct (ex_C06_any L _ Hpl) as (s2 & E2 & Hpo & _). rewrite E in E2. injection E2 as <-. exact Hpo.
Qed.

Example C06_phys_nonvacuous :
  let imgA := img_of1 (gpl_exec phys_ops cs_lostA fnone (s_disk s1X) ev_all) in
  let imgB := img_of1 (gpl_exec phys_ops cs_lostB fnone (s_disk s1X) ev_all) in
  map ev_kind ev_all = [1; 2; 3; 3; 3; 0; 0; 1; 2] /\
  (* losing the record of the FIRST Put (flushed by its Sync) is not admissible *)
  gpl_exec phys_ops [Drop; Keep; Keep; Keep; Keep; Keep; Keep; Keep; Keep] fnone (s_disk s1X) ev_all = None /\
  (* image A: main.pix knows 37 keys, the log has 36 records *)
  nkeys_on_disk imgA = 37 /\
  (exists sA, db_open phys_ops exP 9 (closed1 imgA) = (sA, OOpened true) /\ phys_open_ok sA /\
     db_get phys_ops exP kX sA = OVal (Some vX) /\ db_get phys_ops exP k2 sA = OVal None /\
     db_count phys_ops sA = ONum 36) /\
  (exists sB, db_open phys_ops exP 9 (closed1 imgB) = (sB, OOpened true) /\ phys_open_ok sB /\
     db_get phys_ops exP kX sB = OVal (Some vX) /\ db_get phys_ops exP k2 sB = OVal (Some v2) /\
     db_count phys_ops sB = ONum 37).
Proof.
  cbv zeta. rewrite ev_all_eq.
  split; [vm_compute; reflexivity|]. split; [vm_compute; reflexivity|]. split; [vm_compute; reflexivity|].
  split.
  - exists sA_v. split; [exact sA_eq|].
    split; [apply (ex_C06_open cs_lostA); [vm_compute; reflexivity|exact sA_eq]|].
    split; [|split]; vm_compute; reflexivity.
  - exists sB_v. split; [exact sB_eq|].
    split; [apply (ex_C06_open cs_lostB); [vm_compute; reflexivity|exact sB_eq]|].
    split; [|split]; vm_compute; reflexivity.
Qed.

(* Put kX; Close; power failure; clean Open with the index from the image *)
Definition fC : stf := Eval vm_compute in fst (db_close flat_ops (clear_trace fA)).
Lemma fC_eq : db_close flat_ops (clear_trace fA) = (fC, OOk). Proof. vm_compute. reflexivity. Qed.

Definition s1A : st1 := fst (gxrun phys_ops exP (s1X, None) [oP1]).
Definition s1C : st1 := fst (db_close phys_ops (clear_trace s1A)).
Definition ev_close : list (@fsev phys) := gxtrace phys_ops exP (s1X, None) [oP1] ++ s_trace s1C.
Definition cs_keep : list plc := map (fun _ => Keep) ev_close.
(* the index write of the Put is dropped: admissible before Close flushes main.pix, not after *)
Definition cs_drop_index : list plc := Keep :: Drop :: map (fun _ => Keep) (tl (tl ev_close)).

Lemma ex_C09_any L img1 :
  gpl phys_ops fnone (s_disk s1X) ev_close L img1 ->
  img1 = set_orphans (s_disk s1C) (d_orphans img1) /\
  exists s2, db_open phys_ops exP 9 (closed1 img1) = (s2, OOpened false) /\ phys_open_ok s2 /\
    answers1 exP s2 (abs (s_disk fA)) /\
    exists m2, s_mem s2 = Some m2 /\ d_index img1 = Some (m_idx m2) /\ PhysInv (m_idx m2).
Proof.
  (* [ev_close] in the shape in which the two theorems state it *)
  unfold ev_close, s1C, s1A. intros Hpl.
  assert (Em : exists m, s_mem fA = Some m) by (eexists; reflexivity). destruct Em as [m Em].
  destruct (C09_closed_is_durable_phys exP (s1X, None) (spX, None) (sfX, None) [oP1] _ _ fA None m fC OOk L img1
              exP_ok X_open X_T3 X_run0 Em fC_eq Hpl) as (_ & _ & Eimg & _).
  destruct (C09_reopen_phys exP 9 (s1X, None) (spX, None) (sfX, None) [oP1] _ _ fA None m fC OOk L img1
              exP_ok X_open X_T3 X_run0 Em fC_eq Hpl) as (_ & s2 & E & Hpo & Hans & (m2 & Em2 & Ei & _ & Hinv) & _).
  split; [exact Eimg|]. exists s2. split; [exact E|]. split; [exact Hpo|]. split; [exact Hans|].
  exists m2. split; [exact Em2|]. split; [exact Ei|exact Hinv].
Qed.

Definition ev_close_v : list (@fsev phys) := Eval vm_compute in ev_close.
Lemma ev_close_eq : ev_close = ev_close_v. Proof. vm_compute. reflexivity. Qed.
Definition sC_v : st1 :=
  Eval vm_compute in
    fst (db_open phys_ops exP 9
           (closed1 (img_of1 (gpl_exec phys_ops (map (fun _ => Keep) ev_close_v) fnone (s_disk s1X) ev_close_v)))).
Lemma sC_eq :
  db_open phys_ops exP 9 (closed1 (img_of1 (gpl_exec phys_ops (map (fun _ => Keep) ev_close_v) fnone (s_disk s1X) ev_close_v)))
  = (sC_v, OOpened false).
Proof. vm_compute. reflexivity. Qed.

Example C09_phys_nonvacuous :
  let img := img_of1 (gpl_exec phys_ops cs_keep fnone (s_disk s1X) ev_close) in
  (* the Put (3 events), then Close: db.pmt, per segment (6 of them) a Sync and its side file, index.pmt
     (event kind 5) and its Sync, Sync of main.pix and of overflow.pix, removal of the lock file *)
  map ev_kind ev_close =
    [1; 2; 3; 0; 0; 0; 4; 3; 0; 0; 0; 4; 3; 0; 0; 0; 4; 3; 0; 0; 0; 4; 3;
     0; 0; 0; 4; 3; 0; 0; 0; 4; 3; 0; 0; 0; 4; 0; 0; 5; 4; 4; 4; 6] /\
  is_some (gpl_exec phys_ops cs_keep fnone (s_disk s1X) ev_close) = true /\
  (* after the complete Close, an image without the index write of the Put is NOT admissible *)
  gpl_exec phys_ops cs_drop_index fnone (s_disk s1X) ev_close = None /\
  d_lock img = false /\ nkeys_on_disk img = 36 /\
  exists s2, db_open phys_ops exP 9 (closed1 img) = (s2, OOpened false) /\ phys_open_ok s2 /\
    answers1 exP s2 (abs (s_disk fA)) /\
    (exists m2, s_mem s2 = Some m2 /\ d_index img = Some (m_idx m2) /\ PhysInv (m_idx m2)) /\
    db_get phys_ops exP kX s2 = OVal (Some vX) /\ db_count phys_ops s2 = ONum 36 /\
    match s_mem s2 with
    | Some m2 => map pb_next (ph_main (m_idx m2)) = [512] /\ ph_nkeys (m_idx m2) = 36
    | None => False
    end.
Proof.
  cbv zeta. unfold cs_keep, cs_drop_index. rewrite ev_close_eq.
  assert (Hs : is_some (gpl_exec phys_ops (map (fun _ => Keep) ev_close_v) fnone (s_disk s1X) ev_close_v) = true)
    by (vm_compute; reflexivity).
  split; [vm_compute; reflexivity|]. split; [exact Hs|].
  split; [vm_compute; reflexivity|]. split; [vm_compute; reflexivity|]. split; [vm_compute; reflexivity|].
  destruct (ex_image _ _ Hs) as (L & Hpl). rewrite <- ev_close_eq in Hpl.
  destruct (ex_C09_any L _ Hpl) as (_ & s2 & E & Hpo & Hans & Hm2).
  rewrite ev_close_eq in E, Hm2. rewrite sC_eq in E. injection E as <-.
  exists sC_v. split; [exact sC_eq|]. split; [exact Hpo|]. split; [exact Hans|]. split; [exact Hm2|].
  split; [vm_compute; reflexivity|]. split; [vm_compute; reflexivity|]. vm_compute. split; reflexivity.
Qed.
End PhysPLEx.

Print Assumptions gpl_flat.
Print Assumptions gpl_exec_flat.
Print Assumptions gplh_flat.
Print Assumptions pl_exec_g.
Print Assumptions pl_image_g.
Print Assumptions plh_image_fwd.
Print Assumptions plh_image_bwd.
Print Assumptions chain_pl_image.
Print Assumptions phys_pl_image.
Print Assumptions phys_pl_image_inv.
Print Assumptions phys_plh_image.
Print Assumptions gpl_idx_agree.
Print Assumptions gplh_idx_agree.
Print Assumptions gpl_index_cases.
Print Assumptions gxrun_disk.
Print Assumptions gxrun_flat.
Print Assumptions T3_run.
Print Assumptions C09_closed_is_durable_phys.
Print Assumptions open_clean_loads_index.
Print Assumptions C09_reopen_phys.
Print Assumptions C06_synced_writes_survive_phys.
Print Assumptions C06_per_key_phys.
Print Assumptions C06_with_recovery_image.
Print Assumptions C06_with_recovery_phys_partial.
Print Assumptions C09_reopen_epochs_phys_partial.
Print Assumptions chunks_ops.
Print Assumptions chunks_close.
Print Assumptions chunks_open.
Print Assumptions PhysPLEx.C06_phys_nonvacuous.
Print Assumptions PhysPLEx.C09_phys_nonvacuous.
