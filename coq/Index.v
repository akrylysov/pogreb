(* Index.v -- executable model of pogreb's on-disk linear-hashing index (index.go, bucket.go,
   iterator.go: fetchItems, compaction.go: promoteRecord) and proofs that it behaves like a finite
   multiset of slots with lookup by (hash, match callback).

   Abstraction: a chain owns its buckets.  The physical offsets of overflow buckets and the free
   list of overflow buckets are not modelled; a bucket is the list of its slots before the first
   empty one (the Go code keeps buckets dense: bucket.del shifts the later slots left), a chain is
   the list of its buckets in next-pointer order (the head bucket lives in the main file).

   Not modelled: the MaxKeys guard of index.put (errFull), I/O errors, wrap-around of the uint32
   counters (under PInv numKeys-- never underflows).

   Name clash in the specification: [px_split] is the record field (splitBucketIdx); the function
   modelling index.split is called [px_dosplit].

   Main results (arbitrary split policy [grow], arbitrary match callback):
     PInv_empty, px_get_some, px_get_none, px_put_spec (+ px_put_old_is_get, px_put_count),
     px_split_spec, px_del_spec (+ px_del_old_is_get), px_repoint_some, px_repoint_none,
     px_iter_all, px_split_moves_forward, px_split_dest, px_split_dense, px_split_slot_forward,
     px_put_factor, px_put_other_chains, px_del_other_chains, px_repoint_other_chains,
     pinned_put_refuted (the old findInsertionBucket violates the put specification). *)
From Coq Require Import ZArith Lia ZifyN ZifyNat ZifyBool Permutation.
From Pogreb Require Import Base BaseLemmas.
Ltac Zify.zify_post_hook ::= Z.div_mod_to_equations.

Lemma nlen_perm {A} (a b : list A) : Permutation a b -> nlen a = nlen b.
Proof. intros H. rewrite !nlen_length. f_equal. apply Permutation_length. exact H. Qed.

(* replace the n-th element (no change if n is out of range) *)
Fixpoint lupd {A} (n : nat) (x : A) (l : list A) {struct l} : list A :=
  match l with
  | [] => []
  | y :: l' => match n with O => x :: l' | S n' => y :: lupd n' x l' end
  end.

Lemma lupd_length {A} n (x : A) l : length (lupd n x l) = length l.
Proof.
  revert n. induction l as [|y l IH]; intros n; [reflexivity|].
  destruct n as [|n]; cbn [lupd length]; [reflexivity|]. rewrite IH. reflexivity.
Qed.

Lemma lupd_app_exact {A} (l1 : list A) x y l2 : lupd (length l1) x (l1 ++ y :: l2) = l1 ++ x :: l2.
Proof.
  induction l1 as [|a l1 IH]; cbn [length app lupd]; [reflexivity|]. rewrite IH. reflexivity.
Qed.

Lemma lupd_nth_split {A} n (x d : A) l : (n < length l)%nat ->
  exists l1 l2, l = l1 ++ nth n l d :: l2 /\ length l1 = n /\ lupd n x l = l1 ++ x :: l2.
Proof.
  intros H. destruct (nth_split l d H) as (l1 & l2 & E & L).
  exists l1, l2. split; [exact E|]. split; [exact L|].
  rewrite E at 1. rewrite <- L. apply lupd_app_exact.
Qed.

Lemma nth_lupd_other {A} n m (x d : A) l : n <> m -> nth m (lupd n x l) d = nth m l d.
Proof.
  revert n m. induction l as [|y l IH]; intros n m H; [reflexivity|].
  destruct n as [|n]; destruct m as [|m]; cbn [lupd nth]; try reflexivity; try congruence.
  apply IH. congruence.
Qed.

Lemma nth_lupd_same {A} n (x d : A) l : (n < length l)%nat -> nth n (lupd n x l) d = x.
Proof.
  revert n. induction l as [|y l IH]; intros n H; cbn [length] in H; [lia|].
  destruct n as [|n]; cbn [lupd nth]; [reflexivity|]. apply IH. lia.
Qed.

Lemma lupd_nth_id {A} n (d : A) l : lupd n (nth n l d) l = l.
Proof.
  revert n. induction l as [|y l IH]; intros n; [reflexivity|].
  destruct n as [|n]; cbn [lupd nth]; [reflexivity|]. rewrite IH. reflexivity.
Qed.

Lemma nth_error_lupd_same {A} n (x : A) l : (n < length l)%nat -> nth_error (lupd n x l) n = Some x.
Proof.
  revert n. induction l as [|y l IH]; intros n H; cbn [length] in H; [lia|].
  destruct n as [|n]; cbn [lupd nth_error]; [reflexivity|]. apply IH. lia.
Qed.

Lemma nth_error_lupd_other {A} n m (x : A) l : n <> m -> nth_error (lupd n x l) m = nth_error l m.
Proof.
  revert n m. induction l as [|y l IH]; intros n m H; [reflexivity|].
  destruct n as [|n]; destruct m as [|m]; cbn [lupd nth_error]; try reflexivity; try congruence.
  apply IH. congruence.
Qed.

Lemma Forall_lupd {A} (P : A -> Prop) n x l : Forall P l -> P x -> Forall P (lupd n x l).
Proof.
  intros H Hx. revert n. induction H as [|y l Hy Hl IH]; intros n; [constructor|].
  destruct n as [|n]; cbn [lupd]; constructor; auto.
Qed.

Lemma map_lupd {A B} (f : A -> B) n x l : map f (lupd n x l) = lupd n (f x) (map f l).
Proof.
  revert n. induction l as [|y l IH]; intros n; [reflexivity|].
  destruct n as [|n]; cbn [lupd map]; [reflexivity|]. rewrite IH. reflexivity.
Qed.

Lemma nth_lupd_app {A} i (x d : A) l ext k : (i < length l)%nat ->
  nth k (lupd i x l ++ ext) d =
    if (k =? i)%nat then x else if (k <? length l)%nat then nth k l d else nth (k - length l) ext d.
Proof.
  intros Hi. destruct (Nat.eqb_spec k i) as [->|Hne].
  - rewrite app_nth1 by (rewrite lupd_length; exact Hi). apply nth_lupd_same. exact Hi.
  - destruct (Nat.ltb_spec k (length l)) as [Lt|Ge].
    + rewrite app_nth1 by (rewrite lupd_length; exact Lt). apply nth_lupd_other. congruence.
    + rewrite app_nth2 by (rewrite lupd_length; exact Ge). rewrite lupd_length. reflexivity.
Qed.

Lemma nth_app_exact {A} (l1 : list A) x l2 d : nth (length l1) (l1 ++ x :: l2) d = x.
Proof. induction l1 as [|a l1 IH]; cbn [length app nth]; [reflexivity|exact IH]. Qed.

Lemma find_mid {A} (f : A -> bool) l1 x l2 :
  find f l1 = None -> f x = true -> find f (l1 ++ x :: l2) = Some x.
Proof. intros H1 H2. rewrite find_app, H1. cbn [find]. rewrite H2. reflexivity. Qed.

Lemma filter_partition_perm {A} (f : A -> bool) l :
  Permutation (filter f l ++ filter (fun x => negb (f x)) l) l.
Proof.
  induction l as [|a l IH]; cbn [filter app]; [constructor|].
  destruct (f a); cbn [negb app].
  - constructor. exact IH.
  - symmetry. apply Permutation_cons_app. symmetry. exact IH.
Qed.

Lemma map_nth_seq {A} (l : list A) d : map (fun i => nth i l d) (seq 0 (length l)) = l.
Proof.
  induction l as [|a l IH]; [reflexivity|].
  cbn [length seq map nth]. f_equal.
  rewrite <- seq_shift, map_map. exact IH.
Qed.

Definition bucket_index (level split h : N) : N :=
  let b := N.land h (N.ones level) in
  if b <? split then N.land h (N.ones (level + 1)) else b.

(* index.split: splitBucketIdx++; if splitBucketIdx == 1<<level { level++; splitBucketIdx = 0 } *)
Definition advance (level split : N) : N * N :=
  if split + 1 =? 2 ^ level then (level + 1, 0) else (level, split + 1).

Lemma mod_double h L : h mod 2 ^ (L + 1) = h mod 2 ^ L \/ h mod 2 ^ (L + 1) = h mod 2 ^ L + 2 ^ L.
Proof.
  rewrite N.pow_add_r, N.pow_1_r.
  assert (Hp : 2 ^ L <> 0) by (apply N.pow_nonzero; lia).
  rewrite N.mod_mul_r by lia.
  assert (Hq : (h / 2 ^ L) mod 2 < 2) by (apply N.mod_upper_bound; lia).
  generalize dependent ((h / 2 ^ L) mod 2). intros q Hq.
  generalize dependent (2 ^ L). intros P _.
  generalize (h mod P). intros r.
  assert (q = 0 \/ q = 1) as [->| ->] by lia; [left|right]; lia.
Qed.

Lemma bucket_index_lt level split h :
  bucket_index level split h < 2 ^ level + split.
Proof.
  unfold bucket_index. rewrite !N.land_ones.
  assert (Hm : h mod 2 ^ level < 2 ^ level) by (apply N.mod_upper_bound, N.pow_nonzero; lia).
  destruct (mod_double h level) as [E|E]; rewrite E; clear E;
    generalize dependent (h mod 2 ^ level); generalize dependent (2 ^ level); intros P r Hm;
    destruct (N.ltb_spec r split); lia.
Qed.

(* Keys outside the split bucket keep their bucket; keys of the split bucket stay or go to the
   new last bucket numBuckets = 2^level + split. *)
Theorem bucket_index_after_split level split h :
  split < 2 ^ level ->
  let '(level', split') := advance level split in
  let old := bucket_index level split h in
  let new := bucket_index level' split' h in
  (old <> split -> new = old) /\
  (old = split -> new = split \/ new = 2 ^ level + split) /\
  split' < 2 ^ level' /\ 2 ^ level' + split' = 2 ^ level + split + 1.
Proof.
  intros Hs. unfold advance, bucket_index.
  assert (Hm : h mod 2 ^ level < 2 ^ level) by (apply N.mod_upper_bound, N.pow_nonzero; lia).
  pose proof (mod_double h level) as E1.
  destruct (N.eqb_spec (split + 1) (2 ^ level)) as [Ee|Ee]; cbv beta iota zeta.
  (* after the last split of a round the new pointer is 0: nothing is below it *)
  1: replace (N.land h (N.ones (level + 1)) <? 0) with false by (symmetry; apply N.ltb_ge, N.le_0_l).
  all: rewrite !N.land_ones.
  all: rewrite ?(N.pow_add_r 2 level 1), ?N.pow_1_r in *.
  all: revert Hs Hm E1 Ee.
  all: generalize (h mod (2 ^ level * 2)); generalize (h mod 2 ^ level); generalize (2 ^ level).
  all: intros P r r2 Hs Hm E1 Ee.
  all: destruct (N.ltb_spec r split); try destruct (N.ltb_spec r (split + 1)).
  all: lia.
Qed.

Definition cap : nat := 31.                       (* slotsPerBucket *)
Definition bucket := list slot.                   (* the slots before the first empty one *)
Definition chain := list bucket.                  (* head bucket first, then overflow buckets; never [] *)

(* hash != sl.hash -> continue; otherwise matchKey(sl) *)
Definition hit (h : N) (m : slot -> bool) (s : slot) : bool := (sl_h s =? h) && m s.

(* promoteRecord: hash != sl.hash || rec.offset != sl.offset || rec.segmentID != sl.segmentID -> continue *)
Definition rp_hit (h seg off : N) (s : slot) : bool :=
  (sl_h s =? h) && (sl_off s =? off) && (sl_seg s =? seg).
Definition rp_new (nseg noff : N) (s : slot) : slot :=
  {| sl_h := sl_h s; sl_seg := nseg; sl_ks := sl_ks s; sl_vs := sl_vs s; sl_off := noff |}.

(* The scan loop shared by index.get, fetchItems: bucket by bucket, slot by slot. *)
Fixpoint chain_find (f : slot -> bool) (c : chain) : option slot :=
  match c with
  | [] => None
  | b :: c' => match find f b with Some s => Some s | None => chain_find f c' end
  end.

Lemma chain_find_concat f c : chain_find f c = find f (concat c).
Proof.
  induction c as [|b c IH]; [reflexivity|].
  cbn [chain_find concat]. rewrite find_app, IH. reflexivity.
Qed.

Section Subst.
  (* The scan loop shared by findInsertionBucket (match branch), index.delete and promoteRecord:
     at the first slot [s] with [f s], the slot is replaced in its bucket by the slots [g s]
       [g s = [new]]  overwrite in place (slotWriter.insert at slotIdx = i, promoteRecord),
       [g s = []]     bucket.del(i): the later slots of THIS bucket shift left,
     the other buckets of the chain are untouched.  Returns the new bucket/chain and [s]. *)
  Variable f : slot -> bool.
  Variable g : slot -> list slot.

  Fixpoint bucket_subst (b : bucket) : option (bucket * slot) :=
    match b with
    | [] => None
    | s :: b' => if f s then Some (g s ++ b', s)
                 else match bucket_subst b' with
                      | Some (b'', o) => Some (s :: b'', o)
                      | None => None
                      end
    end.

  Fixpoint chain_subst (c : chain) : option (chain * slot) :=
    match c with
    | [] => None
    | b :: c' => match bucket_subst b with
                 | Some (b', o) => Some (b' :: c', o)
                 | None => match chain_subst c' with
                           | Some (c'', o) => Some (b :: c'', o)
                           | None => None
                           end
                 end
    end.

  Lemma bucket_subst_none b : bucket_subst b = None <-> find f b = None.
  Proof.
    induction b as [|s b IH]; cbn [bucket_subst find]; [tauto|].
    destruct (f s); [split; discriminate|].
    destruct (bucket_subst b) as [[b0 o0]|].
    - split; intros H; [discriminate|]. apply IH in H. discriminate.
    - split; intros _; [apply IH|]; reflexivity.
  Qed.

  Lemma bucket_subst_some b b' o : bucket_subst b = Some (b', o) ->
    exists l1 l2, b = l1 ++ o :: l2 /\ b' = l1 ++ g o ++ l2 /\ f o = true /\ find f l1 = None.
  Proof.
    revert b'. induction b as [|s b IH]; intros b' H; cbn [bucket_subst] in H; [discriminate|].
    destruct (f s) eqn:Hs.
    - injection H as <- <-. exists [], b. cbn [app find]. auto.
    - destruct (bucket_subst b) as [[b0 o0]|] eqn:E; [|discriminate].
      injection H as <- <-.
      destruct (IH _ eq_refl) as (l1 & l2 & -> & -> & Hf & Hn).
      exists (s :: l1), l2. cbn [app find]. rewrite Hs. auto.
  Qed.

  Lemma chain_subst_none c : chain_subst c = None <-> find f (concat c) = None.
  Proof.
    induction c as [|b c IH]; cbn [chain_subst concat]; [cbn [find]; tauto|].
    rewrite find_app.
    destruct (bucket_subst b) as [[b0 o0]|] eqn:E.
    - apply bucket_subst_some in E. destruct E as (l1 & l2 & -> & _ & Hf & Hn).
      rewrite (find_mid _ _ _ _ Hn Hf). split; discriminate.
    - apply bucket_subst_none in E. rewrite E.
      destruct (chain_subst c) as [[c0 o0]|].
      + split; intros H; [discriminate|]. apply IH in H. discriminate.
      + split; intros _; [apply IH|]; reflexivity.
  Qed.

  Lemma chain_subst_some c c' o : chain_subst c = Some (c', o) ->
    exists l1 l2, concat c = l1 ++ o :: l2 /\ concat c' = l1 ++ g o ++ l2 /\
                  f o = true /\ find f l1 = None.
  Proof.
    revert c'. induction c as [|b c IH]; intros c' H; cbn [chain_subst] in H; [discriminate|].
    destruct (bucket_subst b) as [[b0 o0]|] eqn:E.
    - injection H as <- <-. apply bucket_subst_some in E.
      destruct E as (l1 & l2 & -> & -> & Hf & Hn).
      exists l1, (l2 ++ concat c). cbn [concat]. rewrite <- !app_assoc. cbn [app]. auto.
    - destruct (chain_subst c) as [[c0 o1]|] eqn:E2; [|discriminate].
      injection H as <- <-.
      destruct (IH _ eq_refl) as (l1 & l2 & Hc & Hc' & Hf & Hn).
      apply bucket_subst_none in E.
      exists (b ++ l1), l2. cbn [concat]. rewrite Hc, Hc', <- !app_assoc.
      rewrite find_app, E. auto.
  Qed.

  Lemma chain_subst_find c c' o : chain_subst c = Some (c', o) -> find f (concat c) = Some o.
  Proof.
    intros H. apply chain_subst_some in H. destruct H as (l1 & l2 & -> & _ & Hf & Hn).
    apply find_mid; assumption.
  Qed.

  (* what the scan returns is what get finds *)
  Lemma chain_subst_old c : option_map snd (chain_subst c) = find f (concat c).
  Proof.
    destruct (chain_subst c) as [[c' o]|] eqn:E; cbn [option_map snd]; symmetry.
    - exact (chain_subst_find _ _ _ E).
    - apply chain_subst_none. exact E.
  Qed.

End Subst.

(* No matching slot in the chain: the new slot goes to the first bucket with a free slot
   ([free], slotIdx = number of slots of that bucket); if every bucket is full, the slot writer is
   positioned at slotIdx = 31 of the LAST bucket and slotWriter.insert links a new overflow bucket. *)
Fixpoint insert_free (new : slot) (c : chain) : chain :=
  match c with
  | [] => [[new]]
  | b :: c' => if (length b <? cap)%nat then (b ++ [new]) :: c' else b :: insert_free new c'
  end.

(* findInsertionBucket + slotWriter.insert + slotWriter.write on one chain *)
Definition chain_put (f : slot -> bool) (new : slot) (c : chain) : chain * option slot :=
  match chain_subst f (fun _ => [new]) c with
  | Some (c', o) => (c', Some o)
  | None => (insert_free new c, None)
  end.

(* The OLD findInsertionBucket: returns the first empty slot it meets, without looking at the
   later buckets of the chain. *)
Fixpoint chain_put_pinned (f : slot -> bool) (new : slot) (c : chain) : chain * option slot :=
  match c with
  | [] => ([[new]], None)
  | b :: c' => match bucket_subst f (fun _ => [new]) b with
               | Some (b', o) => (b' :: c', Some o)
               | None => if (length b <? cap)%nat then ((b ++ [new]) :: c', None)
                         else let r := chain_put_pinned f new c' in (b :: fst r, snd r)
               end
  end.

(* slotWriter.insert on the chain built so far by the writer: the current bucket is the last one;
   when it holds 31 slots a new overflow bucket is linked behind it. *)
Fixpoint sw_insert (s : slot) (c : chain) : chain :=
  match c with
  | [] => [[s]]
  | b :: c' => match c' with
               | [] => if (length b <? cap)%nat then [b ++ [s]] else [b; [s]]
               | _ :: _ => b :: sw_insert s c'
               end
  end.

(* one iteration of the loop body of index.split; the state is (updatedBucket writer, sw writer) *)
Definition split_step (lv sp ub : N) (st : chain * chain) (s : slot) : chain * chain :=
  if bucket_index lv sp (sl_h s) =? ub then (sw_insert s (fst st), snd st)
  else (fst st, sw_insert s (snd st)).

Lemma insert_free_perm new c : Permutation (concat (insert_free new c)) (new :: concat c).
Proof.
  induction c as [|b c IH]; cbn [insert_free concat app]; [reflexivity|].
  destruct (length b <? cap)%nat; cbn [concat].
  - rewrite <- app_assoc. cbn [app]. symmetry. apply Permutation_middle.
  - rewrite IH. symmetry. apply Permutation_middle.
Qed.

Lemma cap_pos : (1 <= cap)%nat.
Proof. unfold cap. lia. Qed.

Lemma sw_insert_concat s c : concat (sw_insert s c) = concat c ++ [s].
Proof.
  induction c as [|b c IH]; [reflexivity|].
  cbn [sw_insert]. destruct c as [|b1 c].
  - destruct (length b <? cap)%nat; cbn [concat app]; rewrite ?app_nil_r; [reflexivity|].
    reflexivity.
  - cbn [concat] in *. rewrite IH, app_assoc. reflexivity.
Qed.

Lemma sw_insert_nonnil s c : sw_insert s c <> [].
Proof.
  destruct c as [|b c]; cbn [sw_insert]; [discriminate|].
  destruct c; [destruct (length b <? cap)%nat|]; discriminate.
Qed.

Lemma sw_insert_bounded s c :
  Forall (fun b : bucket => (length b <= cap)%nat) c ->
  Forall (fun b : bucket => (length b <= cap)%nat) (sw_insert s c).
Proof.
  induction 1 as [|b c Hb Hc IH]; cbn [sw_insert].
  - constructor; [apply cap_pos|constructor].
  - destruct c as [|b1 c].
    + destruct (Nat.ltb_spec (length b) cap).
      * constructor; [|constructor]. rewrite app_length. cbn [length]. lia.
      * constructor; [exact Hb|]. constructor; [apply cap_pos|constructor].
    + constructor; [exact Hb|exact IH].
Qed.

Record pindex := { px_level : N; px_split : N; px_nkeys : N; px_chains : list chain }.
(* numBuckets = nlen px_chains *)

Definition px_empty : pindex :=
  {| px_level := 0; px_split := 0; px_nkeys := 0; px_chains := [[[]]] |}.

Definition px_bidx (p : pindex) (h : N) : N := bucket_index (px_level p) (px_split p) h.
Definition px_chain (p : pindex) (n : N) : chain := nth (N.to_nat n) (px_chains p) [].
Definition px_set (p : pindex) (n : N) (c : chain) (nk : N) : pindex :=
  {| px_level := px_level p; px_split := px_split p; px_nkeys := nk;
     px_chains := lupd (N.to_nat n) c (px_chains p) |}.

Definition px_count (p : pindex) : N := px_nkeys p.
Definition px_nbuckets (p : pindex) : N := nlen (px_chains p).
(* ItemIterator.fetchItems *)
Definition px_bucket (p : pindex) (n : N) : list slot := concat (nth (N.to_nat n) (px_chains p) []).

(* index.get *)
Definition px_get (p : pindex) (h : N) (m : slot -> bool) : option slot :=
  chain_find (hit h m) (px_chain p (px_bidx p h)).

(* index.split *)
Definition px_dosplit (p : pindex) : pindex :=
  let ub := px_split p in                                   (* updatedBucketIdx *)
  let adv := advance (px_level p) (px_split p) in           (* pointer advanced FIRST *)
  let st := fold_left (split_step (fst adv) (snd adv) ub) (concat (px_chain p ub)) ([[]], [[]]) in
  {| px_level := fst adv; px_split := snd adv; px_nkeys := px_nkeys p;
     px_chains := lupd (N.to_nat ub) (fst st) (px_chains p) ++ [snd st] |}.

(* index.put up to and including numKeys++ *)
Definition px_put_core (p : pindex) (sl : slot) (m : slot -> bool) : pindex * option slot :=
  let b := px_bidx p (sl_h sl) in
  let r := chain_put (hit (sl_h sl) m) sl (px_chain p b) in
  match snd r with
  | Some o => (px_set p b (fst r) (px_nkeys p), Some o)           (* overwritingExisting *)
  | None => (px_set p b (fst r) (px_nkeys p + 1), None)
  end.

Definition px_put_with (core : pindex -> slot -> (slot -> bool) -> pindex * option slot)
    (grow : N -> N -> bool) (p : pindex) (sl : slot) (m : slot -> bool) : pindex * option slot :=
  let r := core p sl m in
  match snd r with
  | Some o => (fst r, Some o)
  | None => (if grow (px_nkeys (fst r)) (nlen (px_chains (fst r))) then px_dosplit (fst r) else fst r,
             None)
  end.

(* index.put *)
Definition px_put := px_put_with px_put_core.

(* index.put with the old findInsertionBucket *)
Definition px_put_core_pinned (p : pindex) (sl : slot) (m : slot -> bool) : pindex * option slot :=
  let b := px_bidx p (sl_h sl) in
  let r := chain_put_pinned (hit (sl_h sl) m) sl (px_chain p b) in
  match snd r with
  | Some o => (px_set p b (fst r) (px_nkeys p), Some o)
  | None => (px_set p b (fst r) (px_nkeys p + 1), None)
  end.
Definition px_put_pinned := px_put_with px_put_core_pinned.

(* index.delete *)
Definition px_del (p : pindex) (h : N) (m : slot -> bool) : pindex * option slot :=
  let b := px_bidx p h in
  match chain_subst (hit h m) (fun _ => []) (px_chain p b) with
  | Some (c', o) => (px_set p b c' (px_nkeys p - 1), Some o)
  | None => (p, None)
  end.

(* promoteRecord, index part *)
Definition px_repoint (p : pindex) (h seg off nseg noff : N) : option pindex :=
  let b := px_bidx p h in
  match chain_subst (rp_hit h seg off) (fun s => [rp_new nseg noff s]) (px_chain p b) with
  | Some (c', _) => Some (px_set p b c' (px_nkeys p))
  | None => None
  end.

Definition chain_ops : idx_ops pindex :=
  {| ix_empty := px_empty; ix_get := px_get; ix_put := px_put; ix_del := px_del;
     ix_repoint := px_repoint; ix_count := px_count; ix_nbuckets := px_nbuckets;
     ix_bucket := px_bucket |}.

Definition grow0 (_ _ : N) : bool := false.
(* example states and helpers live in a module so that short names do not leak to importers *)
Module PxEx.
(* hash 7 for every key; the key is identified by sl_ks *)
Definition mk (k : N) : slot := {| sl_h := 7; sl_seg := 0; sl_ks := k; sl_vs := 1; sl_off := 512 + k |}.
Definition mk' (k : N) : slot := {| sl_h := 7; sl_seg := 1; sl_ks := k; sl_vs := 2; sl_off := 9000 + k |}.
Definition is (k : N) (s : slot) : bool := sl_ks s =? k.
Definition put_keys (grow : N -> N -> bool) (p : pindex) (n : nat) : pindex :=
  fold_left (fun p i => fst (px_put grow p (mk (N.of_nat i)) (is (N.of_nat i)))) (seq 1 n) p.

Definition ex40 : pindex := put_keys grow0 px_empty 40.

(* 40 slots with equal hash and no split: one chain, head bucket full, 9 slots in the overflow *)
Example ex40_shape :
  map (map (@length slot)) (px_chains ex40) = [[31; 9]]%nat /\ px_nkeys ex40 = 40 /\
  px_bucket ex40 0 = map mk (map N.of_nat (seq 1 40)) /\
  px_get ex40 7 (is 35) = Some (mk 35) /\ px_get ex40 7 (is 41) = None /\
  px_get ex40 8 (is 35) = None.
Proof. vm_compute. repeat split. Qed.

(* deleting key 3 opens a hole in the head bucket: 30 + 9 slots, later buckets untouched *)
Definition ex40_del : pindex := fst (px_del ex40 7 (is 3)).
Example ex40_del_shape :
  snd (px_del ex40 7 (is 3)) = Some (mk 3) /\
  map (map (@length slot)) (px_chains ex40_del) = [[30; 9]]%nat /\ px_nkeys ex40_del = 39 /\
  px_get ex40_del 7 (is 3) = None /\ px_get ex40_del 7 (is 35) = Some (mk 35).
Proof. vm_compute. repeat split. Qed.

(* re-put of key 35 (it lives in the overflow bucket, the head bucket has a hole): OVERWRITE *)
Example ex40_reput :
  let r := px_put grow0 ex40_del (mk' 35) (is 35) in
  snd r = Some (mk 35) /\
  map (map (@length slot)) (px_chains (fst r)) = [[30; 9]]%nat /\ px_nkeys (fst r) = 39 /\
  filter (is 35) (px_bucket (fst r) 0) = [mk' 35].
Proof. vm_compute. repeat split. Qed.

(* the old findInsertionBucket inserted a duplicate into the hole *)
Example ex40_reput_pinned :
  let r := px_put_pinned grow0 ex40_del (mk' 35) (is 35) in
  snd r = None /\
  map (map (@length slot)) (px_chains (fst r)) = [[31; 9]]%nat /\ px_nkeys (fst r) = 40 /\
  filter (is 35) (px_bucket (fst r) 0) = [mk' 35; mk 35].
Proof. vm_compute. repeat split. Qed.

(* a new key goes into the hole of the head bucket *)
Example ex40_put_new :
  let r := px_put grow0 ex40_del (mk 77) (is 77) in
  snd r = None /\ map (map (@length slot)) (px_chains (fst r)) = [[31; 9]]%nat /\
  nth 30 (px_bucket (fst r) 0) (mk 0) = mk 77.
Proof. vm_compute. repeat split. Qed.

(* splits: slots with hashes 0..39, one per hash, split after every put that makes
   numKeys > numBuckets (a small threshold to see many splits) *)
Definition grow1 (nk nb : N) : bool := nb <? nk.
Definition mkh (h : N) : slot := {| sl_h := h; sl_seg := 0; sl_ks := h; sl_vs := 1; sl_off := 512 + h |}.
Definition ex_split : pindex :=
  fold_left (fun p i => fst (px_put grow1 p (mkh (N.of_nat i)) (is (N.of_nat i)))) (seq 0 12) px_empty.
Example ex_split_shape :
  px_level ex_split = 3 /\ px_split ex_split = 4 /\ px_nkeys ex_split = 12 /\
  map (fun c => map (map sl_h) c) (px_chains ex_split) =
    [[[0]]; [[1]]; [[2]]; [[3]]; [[4]]; [[5]]; [[6]]; [[7]]; [[8]]; [[9]]; [[10]]; [[11]]].
Proof. vm_compute. repeat split. Qed.

(* splitting a 2-bucket overflow chain: 40 slots with hashes 0,1,0,1,..., in bucket 0 of a
   1-bucket index; the split sends the odd hashes to the new last bucket, order preserved, and the
   slot writers regroup the slots from the start of each chain *)
Definition mkalt (i : nat) : slot :=
  {| sl_h := N.of_nat i mod 2; sl_seg := 0; sl_ks := N.of_nat i; sl_vs := 1; sl_off := 512 + N.of_nat i |}.
Definition ex_alt : pindex :=
  fold_left (fun p i => fst (px_put grow0 p (mkalt i) (is (N.of_nat i)))) (seq 0 40) px_empty.
Example ex_alt_split :
  map (map (@length slot)) (px_chains ex_alt) = [[31; 9]]%nat /\ 
  let q := px_dosplit ex_alt in
  (px_level q = 1 /\ px_split q = 0 /\ px_nkeys q = 40 /\ 
   map (map (@length slot)) (px_chains q) = [[20]; [20]]%nat /\ 
   map sl_ks (px_bucket q 0) = map N.of_nat (map (fun i => 2 * i)%nat (seq 0 20)) /\ 
   map sl_ks (px_bucket q 1) = map N.of_nat (map (fun i => 2 * i + 1)%nat (seq 0 20))).
Proof. vm_compute. repeat split. Qed.

(* the load-factor policy of index.put, numKeys/(numBuckets*31) > 0.7, in exact arithmetic (used in
   this example only; every theorem below holds for an arbitrary policy).  40 slots whose hashes
   agree in the low 6 bits: the split at numKeys = 22 moves all of them to the new bucket 1, where
   they then overflow. *)
Definition grow_lf (nk nb : N) : bool := 7 * (31 * nb) <? 10 * nk.
Definition mklow (i : nat) : slot :=
  {| sl_h := 5 + 64 * N.of_nat i; sl_seg := 0; sl_ks := N.of_nat i; sl_vs := 1; sl_off := 512 + N.of_nat i |}.
Definition ex_lf : pindex :=
  fold_left (fun p i => fst (px_put grow_lf p (mklow i) (is (N.of_nat i)))) (seq 0 40) px_empty.
Example ex_lf_shape :
  px_level ex_lf = 1 /\ px_split ex_lf = 0 /\ px_nkeys ex_lf = 40 /\
  map (map (@length slot)) (px_chains ex_lf) = [[0]; [31; 9]]%nat /\
  map sl_ks (px_bucket ex_lf 1) = map N.of_nat (seq 0 40) /\
  px_get ex_lf (5 + 64 * 39) (is 39) = Some (mklow 39).
Proof. vm_compute. repeat split. Qed.

End PxEx.

Definition all_slots (p : pindex) : list slot := concat (map (@concat slot) (px_chains p)).

Definition cslots (cs : list chain) : list slot := concat (map (@concat slot) cs).

Lemma all_slotsE p : all_slots p = cslots (px_chains p).
Proof. reflexivity. Qed.
Lemma cslots_app a b : cslots (a ++ b) = cslots a ++ cslots b.
Proof. unfold cslots. rewrite map_app, concat_app. reflexivity. Qed.
Lemma cslots_cons c cs : cslots (c :: cs) = concat c ++ cslots cs.
Proof. reflexivity. Qed.
Lemma cslots_mid k1 c k2 : cslots (k1 ++ c :: k2) = cslots k1 ++ concat c ++ cslots k2.
Proof. rewrite cslots_app, cslots_cons. reflexivity. Qed.

Definition bounded (c : chain) : Prop := Forall (fun b : bucket => (length b <= cap)%nat) c.
(* a chain has a head bucket; every bucket has at most 31 slots *)
Definition chain_wf (c : chain) : Prop := c <> [] /\ bounded c.

Lemma chain_subst_wf f g c c' o : (length (g o) <= 1)%nat -> chain_subst f g c = Some (c', o) ->
  bounded c -> chain_wf c'.
Proof.
  intros Hg. revert c'. induction c as [|b c IH]; intros c' H Hb; cbn [chain_subst] in H;
    [discriminate|].
  inversion Hb as [|b_ c_ Hb1 Hb2]; subst.
  destruct (bucket_subst f g b) as [[b0 o0]|] eqn:E.
  - injection H as <- <-. apply bucket_subst_some in E.
    destruct E as (l1 & l2 & -> & -> & _ & _).
    split; [discriminate|]. constructor; [|exact Hb2].
    rewrite !app_length in *. cbn [length] in Hb1. lia.
  - destruct (chain_subst f g c) as [[c0 o1]|] eqn:E2; [|discriminate].
    injection H as <- <-. split; [discriminate|].
    constructor; [exact Hb1|]. exact (proj2 (IH _ eq_refl Hb2)).
Qed.

Lemma insert_free_wf new c : bounded c -> chain_wf (insert_free new c).
Proof.
  intros H. split; [destruct c as [|b c]; cbn [insert_free]; [|destruct (length b <? cap)%nat]; discriminate|].
  induction H as [|b c Hb Hc IH]; cbn [insert_free].
  - constructor; [apply cap_pos|constructor].
  - destruct (Nat.ltb_spec (length b) cap); constructor; auto.
    rewrite app_length. cbn [length]. lia.
Qed.

(* every slot of the i-th chain of [cs] hashes to bucket number [b + i] *)
Fixpoint placed (lv sp b : N) (cs : list chain) : Prop :=
  match cs with
  | [] => True
  | c :: cs' => Forall (fun s => bucket_index lv sp (sl_h s) = b) (concat c) /\
                placed lv sp (N.succ b) cs'
  end.

Definition PInv (p : pindex) : Prop :=
  nlen (px_chains p) = 2 ^ px_level p + px_split p /\
  px_split p < 2 ^ px_level p /\
  Forall chain_wf (px_chains p) /\
  placed (px_level p) (px_split p) 0 (px_chains p) /\
  px_nkeys p = nlen (all_slots p).

Lemma placed_app lv sp b l1 l2 :
  placed lv sp b (l1 ++ l2) <-> placed lv sp b l1 /\ placed lv sp (b + nlen l1) l2.
Proof.
  revert b. induction l1 as [|c l1 IH]; intros b; cbn [app placed nlen].
  - rewrite N.add_0_r. tauto.
  - rewrite IH. replace (N.succ b + nlen l1) with (b + N.succ (nlen l1)) by lia. tauto.
Qed.

Lemma placed_nth lv sp b cs i c s :
  placed lv sp b cs -> nth_error cs i = Some c -> In s (concat c) ->
  bucket_index lv sp (sl_h s) = b + N.of_nat i.
Proof.
  revert b i. induction cs as [|c0 cs IH]; intros b i Hp Hn Hs.
  - destruct i; discriminate.
  - cbn [placed] in Hp. destruct Hp as [Hp1 Hp2]. destruct i as [|i]; cbn [nth_error] in Hn.
    + injection Hn as ->. rewrite Forall_forall in Hp1. rewrite (Hp1 _ Hs). lia.
    + rewrite (IH _ _ Hp2 Hn Hs). lia.
Qed.

(* the placement clause in the form of the specification *)
Lemma PInv_placed p b c s :
  PInv p -> nth_error (px_chains p) b = Some c -> In s (concat c) ->
  bucket_index (px_level p) (px_split p) (sl_h s) = N.of_nat b.
Proof.
  intros (_ & _ & _ & Hpl & _) Hn Hs. rewrite (placed_nth _ _ _ _ _ _ _ Hpl Hn Hs). lia.
Qed.

Lemma placed_weaken lv sp lv' sp' u b cs :
  (forall h, bucket_index lv sp h <> u -> bucket_index lv' sp' h = bucket_index lv sp h) ->
  u < b \/ b + nlen cs <= u -> placed lv sp b cs -> placed lv' sp' b cs.
Proof.
  intros H. revert b. induction cs as [|c cs IH]; intros b Hu Hp; [exact I|].
  cbn [placed] in *. destruct Hp as [Hp1 Hp2]. rewrite nlen_cons in Hu. split.
  - eapply Forall_impl; [|exact Hp1]. cbn beta. intros s Hs. rewrite H; [exact Hs|]. lia.
  - apply IH; [lia|exact Hp2].
Qed.

Lemma in_cslots cs s : In s (cslots cs) -> exists i c, nth_error cs i = Some c /\ In s (concat c).
Proof.
  induction cs as [|c cs IH]; [intros []|].
  rewrite cslots_cons, in_app_iff. intros [H|H].
  - exists 0%nat, c. auto.
  - destruct (IH H) as (i & c' & Hi & Hc). exists (S i), c'. auto.
Qed.

Lemma px_chain_in_all p n s : In s (concat (px_chain p n)) -> In s (all_slots p).
Proof.
  unfold px_chain, all_slots. intros H.
  destruct (nth_in_or_default (N.to_nat n) (px_chains p) []) as [Hi|Hd].
  - apply in_concat. exists (concat (nth (N.to_nat n) (px_chains p) [])).
    split; [apply in_map; exact Hi|exact H].
  - rewrite Hd in H. destruct H.
Qed.

Lemma PInv_bidx_lt p h : PInv p -> px_bidx p h < nlen (px_chains p).
Proof. intros (Hn & Hs & _). rewrite Hn. apply bucket_index_lt. Qed.

(* the chain at position n, in context; writing c there replaces the middle *)
Lemma PInv_focus p n c : PInv p -> n < nlen (px_chains p) ->
  exists k1 k2, px_chains p = k1 ++ px_chain p n :: k2 /\ nlen k1 = n /\
    lupd (N.to_nat n) c (px_chains p) = k1 ++ c :: k2 /\
    chain_wf (px_chain p n) /\
    Forall (fun s => px_bidx p (sl_h s) = n) (concat (px_chain p n)).
Proof.
  intros (_ & _ & Hwf & Hpl & _) H. unfold px_chain.
  destruct (lupd_nth_split (N.to_nat n) c [] (px_chains p)) as (k1 & k2 & E & L & Eu).
  { rewrite nlen_length in H. lia. }
  assert (Lk : nlen k1 = n) by (rewrite nlen_length; lia).
  exists k1, k2. split; [exact E|]. split; [exact Lk|]. split; [exact Eu|].
  rewrite E in Hwf, Hpl. rewrite Forall_app, Forall_cons_iff in Hwf. split; [tauto|].
  apply placed_app in Hpl. destruct Hpl as [_ [Hpl _]]. rewrite N.add_0_l, Lk in Hpl. exact Hpl.
Qed.

(* a slot lives in the chain its hash selects *)
Lemma PInv_home p s : PInv p -> In s (all_slots p) ->
  In s (concat (px_chain p (px_bidx p (sl_h s)))).
Proof.
  intros HI H. apply in_cslots in H. destruct H as (i & c & Hi & Hc).
  unfold px_bidx. rewrite (PInv_placed _ _ _ _ HI Hi Hc).
  unfold px_chain. rewrite Nat2N.id, (nth_error_nth _ _ _ Hi). exact Hc.
Qed.

Lemma px_scan_none p h f : PInv p -> find f (concat (px_chain p (px_bidx p h))) = None ->
  forall s, In s (all_slots p) -> sl_h s = h -> f s = false.
Proof. intros HI Hf s Hs <-. apply (find_none _ _ Hf). apply PInv_home; assumption. Qed.

(* Every index operation but split is a px_set: chain n is replaced by c.  The slots of the other
   chains (a before, b behind) stay; the invariant survives if c is well formed, its slots hash to
   n, and the counter is right. *)
Lemma px_set_spec p n c nk : PInv p -> n < nlen (px_chains p) ->
  exists a b,
    all_slots p = a ++ concat (px_chain p n) ++ b /\
    all_slots (px_set p n c nk) = a ++ concat c ++ b /\
    chain_wf (px_chain p n) /\
    Forall (fun s => px_bidx p (sl_h s) = n) (concat (px_chain p n)) /\
    (chain_wf c -> Forall (fun s => px_bidx p (sl_h s) = n) (concat c) ->
     nk = nlen (a ++ concat c ++ b) -> PInv (px_set p n c nk)).
Proof.
  intros HI Hn. destruct (PInv_focus p n c HI Hn) as (k1 & k2 & Ec & Lk & Eu & Hwf & Hpl).
  exists (cslots k1), (cslots k2).
  assert (E1 : all_slots p = cslots k1 ++ concat (px_chain p n) ++ cslots k2).
  { rewrite all_slotsE, Ec. apply cslots_mid. }
  assert (E2 : all_slots (px_set p n c nk) = cslots k1 ++ concat c ++ cslots k2).
  { rewrite all_slotsE. cbn [px_set px_chains]. rewrite Eu. apply cslots_mid. }
  split; [exact E1|]. split; [exact E2|]. split; [exact Hwf|]. split; [exact Hpl|].
  intros Wc Pc ->. destruct HI as (H1 & H2 & H3 & H4 & _).
  unfold PInv. rewrite E2. cbn [px_set px_level px_split px_nkeys px_chains]. rewrite Eu.
  rewrite Ec in H1, H3, H4. unfold px_bidx in Pc.
  split; [|split; [exact H2|split; [|split; [|reflexivity]]]].
  - rewrite <- H1, !nlen_app, !nlen_cons. reflexivity.
  - revert H3. rewrite !Forall_app, !Forall_cons_iff. tauto.
  - revert H4. rewrite !placed_app. cbn [placed]. rewrite N.add_0_l, Lk. tauto.
Qed.

Lemma px_subst_spec p h f g c' o nk :
  PInv p ->
  chain_subst f g (px_chain p (px_bidx p h)) = Some (c', o) ->
  (forall s, f s = true -> Forall (fun s' => sl_h s' = h) (g s)) -> (length (g o) <= 1)%nat ->
  exists l1 l2,
    all_slots p = l1 ++ o :: l2 /\
    all_slots (px_set p (px_bidx p h) c' nk) = l1 ++ g o ++ l2 /\
    f o = true /\ find f (concat (px_chain p (px_bidx p h))) = Some o /\
    (nk = px_nkeys p + nlen (g o) - 1 -> PInv (px_set p (px_bidx p h) c' nk)).
Proof.
  intros HI E Hg Hl.
  destruct (px_set_spec p _ c' nk HI (PInv_bidx_lt p h HI)) as (a & b & E1 & E2 & Hwf & Hpl & HP).
  destruct (chain_subst_some _ _ _ _ _ E) as (l1 & l2 & Hc & Hc' & Hf & Hn).
  rewrite Hc in E1, Hpl. rewrite Hc' in E2, HP.
  exists (a ++ l1), (l2 ++ b). rewrite E1, E2, <- !app_assoc.
  split; [reflexivity|]. split; [reflexivity|]. split; [exact Hf|].
  split; [exact (chain_subst_find _ _ _ _ _ E)|]. intros Hnk. apply HP.
  - exact (chain_subst_wf _ _ _ _ _ Hl E (proj2 Hwf)).
  - revert Hpl. rewrite !Forall_app, Forall_cons_iff. intros (P1 & _ & P2).
    split; [exact P1|split; [|exact P2]].
    eapply Forall_impl; [|exact (Hg o Hf)]. intros s' ->. reflexivity.
  - destruct HI as (_ & _ & _ & _ & Hk). rewrite Hnk, Hk, E1, !nlen_app, nlen_cons. clear. lia.
Qed.

Lemma hit_true h m s : hit h m s = true <-> sl_h s = h /\ m s = true.
Proof. unfold hit. rewrite andb_true_iff, N.eqb_eq. tauto. Qed.

Lemma hit_false_same h m s : hit h m s = false -> sl_h s = h -> m s = false.
Proof. unfold hit. intros H <-. rewrite N.eqb_refl in H. exact H. Qed.

Lemma rp_hit_true h seg off s : rp_hit h seg off s = true <-> sl_h s = h /\ sl_seg s = seg /\ sl_off s = off.
Proof. unfold rp_hit. rewrite !andb_true_iff, !N.eqb_eq. tauto. Qed.

Theorem PInv_empty : PInv px_empty.
Proof.
  unfold PInv, px_empty, all_slots. cbn [px_level px_split px_nkeys px_chains map concat app nlen placed].
  split; [reflexivity|]. split; [reflexivity|]. split.
  - constructor; [|constructor]. split; [discriminate|]. constructor; [|constructor].
    cbn [length]. lia.
  - split; [|reflexivity]. split; [constructor|exact I].
Qed.

Lemma px_getE p h m : px_get p h m = find (hit h m) (concat (px_chain p (px_bidx p h))).
Proof. unfold px_get. apply chain_find_concat. Qed.

Theorem px_get_some p h m s : px_get p h m = Some s ->
  In s (all_slots p) /\ sl_h s = h /\ m s = true.
Proof.
  intros H. rewrite px_getE in H. apply find_some in H. destruct H as [Hi Hh].
  split; [exact (px_chain_in_all _ _ _ Hi)|]. apply hit_true. exact Hh.
Qed.

Theorem px_get_none p h m : PInv p -> px_get p h m = None ->
  forall s, In s (all_slots p) -> sl_h s = h -> m s = false.
Proof.
  intros HI H s Hs Hh. rewrite px_getE in H.
  apply (hit_false_same h); [|exact Hh]. exact (px_scan_none p h _ HI H s Hs Hh).
Qed.

Theorem px_del_spec p h m p' old : PInv p -> px_del p h m = (p', old) ->
  PInv p' /\
  match old with
  | Some o => sl_h o = h /\ m o = true /\ Permutation (all_slots p) (o :: all_slots p')
  | None => p' = p /\ forall s, In s (all_slots p) -> sl_h s = h -> m s = false
  end.
Proof.
  intros HI. unfold px_del.
  destruct (chain_subst (hit h m) (fun _ => []) (px_chain p (px_bidx p h))) as [[c' o]|] eqn:E;
    intros H; injection H as <- <-.
  - destruct (px_subst_spec p h _ _ c' o (px_nkeys p - 1) HI E) as (l1 & l2 & E1 & E2 & Hf & _ & HP).
    { constructor. } { cbn [length]. lia. }
    cbn [app] in E2, HP. split.
    + apply HP. cbn [nlen]. rewrite N.add_0_r. reflexivity.
    + apply hit_true in Hf. destruct Hf as [Hh Hm]. split; [exact Hh|]. split; [exact Hm|].
      rewrite E1, E2. symmetry. apply Permutation_middle.
  - split; [exact HI|]. split; [reflexivity|]. apply chain_subst_none in E.
    intros s Hs Hh. apply (hit_false_same h); [|exact Hh]. exact (px_scan_none p h _ HI E s Hs Hh).
Qed.

Theorem px_del_old_is_get p h m : snd (px_del p h m) = px_get p h m.
Proof.
  rewrite px_getE, <- (chain_subst_old _ (fun _ => [])). unfold px_del.
  destruct (chain_subst (hit h m) (fun _ => []) (px_chain p (px_bidx p h))) as [[c' o]|]; reflexivity.
Qed.

Theorem px_repoint_some p h seg off nseg noff p' : PInv p ->
  px_repoint p h seg off nseg noff = Some p' ->
  PInv p' /\ exists o l1 l2, sl_h o = h /\ sl_seg o = seg /\ sl_off o = off /\
    Permutation (all_slots p) (l1 ++ o :: l2) /\
    Permutation (all_slots p')
      (l1 ++ {| sl_h := sl_h o; sl_seg := nseg; sl_ks := sl_ks o; sl_vs := sl_vs o; sl_off := noff |} :: l2).
Proof.
  intros HI. unfold px_repoint.
  destruct (chain_subst (rp_hit h seg off) (fun s => [rp_new nseg noff s]) (px_chain p (px_bidx p h)))
    as [[c' o]|] eqn:E; [|discriminate].
  intros H. injection H as <-.
  destruct (px_subst_spec p h _ _ c' o (px_nkeys p) HI E) as (l1 & l2 & E1 & E2 & Hf & _ & HP).
  { intros s Hs. apply rp_hit_true in Hs. constructor; [exact (proj1 Hs)|constructor]. }
  { cbn [length]. lia. }
  cbn [app] in E2, HP. split.
  - apply HP. symmetry. apply N.add_sub.
  - apply rp_hit_true in Hf. destruct Hf as (H1 & H2 & H3).
    exists o, l1, l2. repeat (split; [assumption|]). rewrite E1, E2. split; reflexivity.
Qed.

Theorem px_repoint_none p h seg off nseg noff : PInv p ->
  px_repoint p h seg off nseg noff = None ->
  forall s, In s (all_slots p) -> ~ (sl_h s = h /\ sl_seg s = seg /\ sl_off s = off).
Proof.
  intros HI. unfold px_repoint.
  destruct (chain_subst (rp_hit h seg off) (fun s => [rp_new nseg noff s]) (px_chain p (px_bidx p h)))
    as [[c' o]|] eqn:E; [discriminate|].
  intros _ s Hs Hc. apply chain_subst_none in E.
  pose proof (px_scan_none p h _ HI E s Hs (proj1 Hc)) as Hf.
  apply rp_hit_true in Hc. congruence.
Qed.

Theorem px_iter_all p :
  concat (map (px_bucket p) (map N.of_nat (seq 0 (length (px_chains p))))) = all_slots p.
Proof.
  unfold all_slots. f_equal. rewrite map_map.
  rewrite <- (map_nth_seq (px_chains p) []) at 2. rewrite map_map.
  apply map_ext. intros i. unfold px_bucket. rewrite Nat2N.id. reflexivity.
Qed.

Lemma px_insert_spec p sl : PInv p ->
  let b := px_bidx p (sl_h sl) in
  let p1 := px_set p b (insert_free sl (px_chain p b)) (px_nkeys p + 1) in
  PInv p1 /\ Permutation (all_slots p1) (sl :: all_slots p).
Proof.
  intros HI b p1. subst p1 b.
  destruct (px_set_spec p _ (insert_free sl (px_chain p (px_bidx p (sl_h sl)))) (px_nkeys p + 1) HI
              (PInv_bidx_lt p (sl_h sl) HI)) as (a & b & E1 & E2 & Hwf & Hpl & HP).
  assert (HPm : Permutation (a ++ concat (insert_free sl (px_chain p (px_bidx p (sl_h sl)))) ++ b)
                            (sl :: all_slots p)).
  { rewrite E1, insert_free_perm. symmetry. apply Permutation_middle. }
  rewrite E2. split; [|exact HPm]. apply HP.
  - apply insert_free_wf. exact (proj2 Hwf).
  - eapply Permutation_Forall; [symmetry; apply insert_free_perm|].
    constructor; [reflexivity|exact Hpl].
  - rewrite (nlen_perm _ _ HPm), nlen_cons, (proj2 (proj2 (proj2 (proj2 HI)))). apply N.add_comm.
Qed.

Lemma px_put_core_spec p sl m p1 old : PInv p -> px_put_core p sl m = (p1, old) ->
  PInv p1 /\ old = px_get p (sl_h sl) m /\
  px_level p1 = px_level p /\ px_split p1 = px_split p /\
  match old with
  | Some o => In o (all_slots p) /\ sl_h o = sl_h sl /\ m o = true /\ px_nkeys p1 = px_nkeys p /\
              exists l1 l2, all_slots p = l1 ++ o :: l2 /\ all_slots p1 = l1 ++ sl :: l2
  | None => (forall s, In s (all_slots p) -> sl_h s = sl_h sl -> m s = false) /\
            px_nkeys p1 = px_nkeys p + 1 /\
            Permutation (all_slots p1) (sl :: all_slots p)
  end.
Proof.
  intros HI. unfold px_put_core, chain_put. rewrite px_getE.
  destruct (chain_subst (hit (sl_h sl) m) (fun _ => [sl]) (px_chain p (px_bidx p (sl_h sl))))
    as [[c' o]|] eqn:E; cbn [fst snd]; intros H; injection H as <- <-.
  - destruct (px_subst_spec p (sl_h sl) _ _ c' o (px_nkeys p) HI E)
      as (l1 & l2 & E1 & E2 & Hf & Hfind & HP).
    { constructor; [reflexivity|constructor]. } { cbn [length]. lia. }
    cbn [app] in E2, HP. split.
    { apply HP. symmetry. apply N.add_sub. }
    split; [symmetry; exact Hfind|]. split; [reflexivity|]. split; [reflexivity|].
    apply hit_true in Hf. destruct Hf as [Hh Hm].
    split; [rewrite E1; apply in_elt|]. split; [exact Hh|]. split; [exact Hm|].
    split; [reflexivity|]. exists l1, l2. split; assumption.
  - destruct (px_insert_spec p sl HI) as [HI1 HP1]. cbn zeta in HI1, HP1.
    apply chain_subst_none in E.
    split; [exact HI1|]. split; [symmetry; exact E|]. split; [reflexivity|]. split; [reflexivity|].
    split; [|split; [reflexivity|exact HP1]].
    intros s Hs Hh. apply (hit_false_same (sl_h sl)); [|exact Hh].
    exact (px_scan_none p (sl_h sl) _ HI E s Hs Hh).
Qed.

(* does the slot stay in the split bucket?  (bucketIndex with the NEW level/split pointer) *)
Definition stays (p : pindex) (s : slot) : bool :=
  bucket_index (fst (advance (px_level p) (px_split p))) (snd (advance (px_level p) (px_split p)))
               (sl_h s) =? px_split p.

Lemma px_dosplit_level p : px_level (px_dosplit p) = fst (advance (px_level p) (px_split p)).
Proof. reflexivity. Qed.
Lemma px_dosplit_split p : px_split (px_dosplit p) = snd (advance (px_level p) (px_split p)).
Proof. reflexivity. Qed.
Lemma px_dosplit_nkeys p : px_nkeys (px_dosplit p) = px_nkeys p.
Proof. reflexivity. Qed.

Lemma split_fold_concat lv sp ub l st :
  concat (fst (fold_left (split_step lv sp ub) l st)) =
    concat (fst st) ++ filter (fun s => bucket_index lv sp (sl_h s) =? ub) l /\
  concat (snd (fold_left (split_step lv sp ub) l st)) =
    concat (snd st) ++ filter (fun s => negb (bucket_index lv sp (sl_h s) =? ub)) l.
Proof.
  revert st. induction l as [|s l IH]; intros st; cbn [fold_left filter].
  - rewrite !app_nil_r. split; reflexivity.
  - destruct (IH (split_step lv sp ub st s)) as [I1 I2]. rewrite I1, I2. unfold split_step.
    destruct (bucket_index lv sp (sl_h s) =? ub); cbn [fst snd negb];
      rewrite sw_insert_concat, <- app_assoc; split; reflexivity.
Qed.

Lemma split_fold_ind (P : chain -> Prop) lv sp ub l st :
  (forall s c, P c -> P (sw_insert s c)) -> P (fst st) -> P (snd st) ->
  P (fst (fold_left (split_step lv sp ub) l st)) /\ P (snd (fold_left (split_step lv sp ub) l st)).
Proof.
  intros HP. revert st. induction l as [|s l IH]; intros st H1 H2; cbn [fold_left]; [auto|].
  apply IH; unfold split_step; destruct (bucket_index lv sp (sl_h s) =? ub); cbn [fst snd];
    try assumption; apply HP; assumption.
Qed.

Lemma sw_insert_wf s c : chain_wf c -> chain_wf (sw_insert s c).
Proof. intros [_ H]. split; [apply sw_insert_nonnil|apply sw_insert_bounded; exact H]. Qed.

(* the chains built by a slot writer are the input cut into groups of 31: every bucket but the
   last is full and the last one is non-empty -- or the chain is the single empty bucket *)
Fixpoint dense1 (c : chain) : Prop :=
  match c with
  | [] => False
  | b :: c' => match c' with
               | [] => (1 <= length b <= cap)%nat
               | _ :: _ => length b = cap /\ dense1 c'
               end
  end.
Definition dense (c : chain) : Prop := c = [[]] \/ dense1 c.

Lemma sw_insert_dense1 s c : dense1 c -> dense1 (sw_insert s c).
Proof.
  induction c as [|b c IH]; [intros []|].
  cbn [sw_insert dense1]. destruct c as [|b1 c].
  - intros H. destruct (Nat.ltb_spec (length b) cap) as [L|L]; cbn [dense1].
    + rewrite app_length. cbn [length]. lia.
    + split; [lia|]. cbn [length]. pose proof cap_pos. lia.
  - intros [H1 H2]. specialize (IH H2).
    destruct (sw_insert s (b1 :: c)) as [|b2 c2] eqn:E.
    + exfalso. exact (sw_insert_nonnil _ _ E).
    + cbn [dense1]. split; [exact H1|exact IH].
Qed.

Lemma sw_insert_dense s c : dense c -> dense (sw_insert s c).
Proof.
  intros [->|H]; right; [|apply sw_insert_dense1; exact H].
  cbn [sw_insert length]. pose proof cap_pos as Hc.
  destruct (Nat.ltb_spec 0 cap) as [L|L]; [|lia]. cbn [dense1 app length]. lia.
Qed.

Lemma dense_init : dense [[]].
Proof. left. reflexivity. Qed.

Lemma chain_wf_init : chain_wf [[]].
Proof. split; [discriminate|]. constructor; [cbn [length]; lia|constructor]. Qed.

Lemma PInv_split_lt p : PInv p -> px_split p < nlen (px_chains p).
Proof. intros (Hn & Hs & _). lia. Qed.

Lemma px_dosplit_shape p : PInv p ->
  exists k1 k2 cu cn,
    px_chains p = k1 ++ px_chain p (px_split p) :: k2 /\ nlen k1 = px_split p /\
    Forall (fun s => px_bidx p (sl_h s) = px_split p) (concat (px_chain p (px_split p))) /\
    px_chains (px_dosplit p) = k1 ++ cu :: k2 ++ [cn] /\
    concat cu = filter (stays p) (concat (px_chain p (px_split p))) /\
    concat cn = filter (fun s => negb (stays p s)) (concat (px_chain p (px_split p))) /\
    chain_wf cu /\ chain_wf cn /\ dense cu /\ dense cn /\
    px_chain (px_dosplit p) (px_split p) = cu /\
    px_chain (px_dosplit p) (nlen (px_chains p)) = cn.
Proof.
  intros HI. unfold px_chain at 5 6. unfold px_dosplit. cbn [px_chains].
  set (lv := fst (advance (px_level p) (px_split p))).
  set (sp := snd (advance (px_level p) (px_split p))).
  set (st := fold_left (split_step lv sp (px_split p)) (concat (px_chain p (px_split p))) ([[]], [[]])).
  destruct (PInv_focus p (px_split p) (fst st) HI (PInv_split_lt p HI))
    as (k1 & k2 & Ec & Lk & -> & _ & Pc).
  exists k1, k2, (fst st), (snd st).
  split; [exact Ec|]. split; [exact Lk|]. split; [exact Pc|].
  rewrite <- app_assoc. split; [reflexivity|].
  destruct (split_fold_concat lv sp (px_split p) (concat (px_chain p (px_split p))) ([[]], [[]]))
    as [C1 C2].
  destruct (split_fold_ind chain_wf lv sp (px_split p) (concat (px_chain p (px_split p))) ([[]], [[]])
              sw_insert_wf chain_wf_init chain_wf_init) as [W1 W2].
  destruct (split_fold_ind dense lv sp (px_split p) (concat (px_chain p (px_split p))) ([[]], [[]])
              sw_insert_dense dense_init dense_init) as [D1 D2].
  split; [exact C1|]. split; [exact C2|]. split; [exact W1|]. split; [exact W2|].
  split; [exact D1|]. split; [exact D2|]. split.
  - rewrite <- Lk, nlen_length, Nat2N.id. apply nth_app_exact.
  - cbn [app]. rewrite app_comm_cons, app_assoc.
    replace (N.to_nat (nlen (px_chains p))) with (length (k1 ++ fst st :: k2)).
    + apply nth_app_exact.
    + rewrite Ec, nlen_length, Nat2N.id, !app_length. reflexivity.
Qed.

Lemma advance_facts level split : split < 2 ^ level ->
  snd (advance level split) < 2 ^ fst (advance level split) /\
  2 ^ fst (advance level split) + snd (advance level split) = 2 ^ level + split + 1 /\
  forall h,
    (bucket_index level split h <> split ->
     bucket_index (fst (advance level split)) (snd (advance level split)) h = bucket_index level split h) /\
    (bucket_index level split h = split ->
     bucket_index (fst (advance level split)) (snd (advance level split)) h = split \/
     bucket_index (fst (advance level split)) (snd (advance level split)) h = 2 ^ level + split).
Proof.
  intros H. pose proof (fun h => bucket_index_after_split level split h H) as B.
  destruct (advance level split) as [l' s']. cbv beta iota zeta in B. cbn [fst snd].
  split; [exact (proj1 (proj2 (proj2 (B 0))))|]. split; [exact (proj2 (proj2 (proj2 (B 0))))|].
  intros h. split; [exact (proj1 (B h))|exact (proj1 (proj2 (B h)))].
Qed.

Theorem px_split_spec p : PInv p ->
  PInv (px_dosplit p) /\ Permutation (all_slots (px_dosplit p)) (all_slots p) /\
  px_nkeys (px_dosplit p) = px_nkeys p.
Proof.
  intros HI.
  destruct (px_dosplit_shape p HI)
    as (k1 & k2 & cu & cn & Ec & Lk & Pc & Ed & Hcu & Hcn & Wu & Wn & _).
  assert (HP : Permutation (all_slots (px_dosplit p)) (all_slots p)).
  { rewrite !all_slotsE, Ed, Ec, !cslots_mid.
    change (cslots []) with (@nil slot). rewrite app_nil_r, Hcu, Hcn.
    apply Permutation_app_head.
    rewrite (Permutation_app_comm (cslots k2)), app_assoc, filter_partition_perm. reflexivity. }
  split; [|split; [exact HP|reflexivity]].
  destruct HI as (Hn & Hs & Hwf & Hpl & Hk).
  destruct (advance_facts _ _ Hs) as (A1 & A2 & A3).
  unfold PInv.
  rewrite px_dosplit_level, px_dosplit_split, px_dosplit_nkeys, (nlen_perm _ _ HP), Ed, app_comm_cons,
    app_assoc.
  rewrite Ec in Hn, Hwf, Hpl.
  assert (Hl : nlen (k1 ++ cu :: k2) = 2 ^ px_level p + px_split p).
  { rewrite <- Hn, !nlen_app, !nlen_cons. reflexivity. }
  split; [|split; [exact A1|split; [|split; [|exact Hk]]]].
  - rewrite A2, <- Hl, nlen_app. reflexivity.
  - revert Hwf. rewrite !Forall_app, !Forall_cons_iff, Forall_nil_iff. tauto.
  - (* the chains before and behind the split one keep their slots, and these keep their bucket
       index; the slots of the split chain are where their new bucket index says *)
    revert Hpl. rewrite !placed_app, Hl. cbn [placed]. rewrite !N.add_0_l, Lk. intros (Pk1 & _ & Pk2).
    split; [split; [|split]|split; [|exact I]].
    + apply (placed_weaken _ _ _ _ (px_split p) _ _ (fun h => proj1 (A3 h))); [|exact Pk1].
      right. rewrite N.add_0_l, Lk. reflexivity.
    + rewrite Hcu. apply Forall_forall. intros s Hs'. apply filter_In in Hs'. apply N.eqb_eq.
      exact (proj2 Hs').
    + apply (placed_weaken _ _ _ _ (px_split p) _ _ (fun h => proj1 (A3 h))); [|exact Pk2].
      left. apply N.lt_succ_diag_r.
    + rewrite Hcn. apply Forall_forall. intros s Hs'. apply filter_In in Hs'.
      destruct Hs' as [Hin Hst]. rewrite Forall_forall in Pc.
      destruct (proj2 (A3 (sl_h s)) (Pc _ Hin)) as [Q|Q]; [|exact Q].
      unfold stays in Hst. rewrite Q, N.eqb_refl in Hst. discriminate Hst.
Qed.

Theorem px_put_spec grow p sl m p' old : PInv p -> px_put grow p sl m = (p', old) ->
  PInv p' /\
  match old with
  | Some o => In o (all_slots p) /\ sl_h o = sl_h sl /\ m o = true /\
              exists l1 l2, Permutation (all_slots p) (l1 ++ o :: l2) /\
                            Permutation (all_slots p') (l1 ++ sl :: l2)
  | None => (forall s, In s (all_slots p) -> sl_h s = sl_h sl -> m s = false) /\
            Permutation (all_slots p') (sl :: all_slots p)
  end.
Proof.
  intros HI. unfold px_put, px_put_with. destruct (px_put_core p sl m) as [p1 o1] eqn:E.
  cbn [fst snd]. destruct (px_put_core_spec _ _ _ _ _ HI E) as (HI1 & _ & _ & _ & HS).
  destruct o1 as [o|]; intros H; injection H as <- <-.
  - split; [exact HI1|]. destruct HS as (A & B & C & _ & l1 & l2 & E1 & E2).
    split; [exact A|]. split; [exact B|]. split; [exact C|].
    exists l1, l2. rewrite E1, E2. split; reflexivity.
  - destruct HS as (A & _ & B). destruct (grow (px_nkeys p1) (nlen (px_chains p1))).
    + destruct (px_split_spec p1 HI1) as (S1 & S2 & _). split; [exact S1|]. split; [exact A|].
      rewrite S2. exact B.
    + split; [exact HI1|]. split; [exact A|exact B].
Qed.

(* the slot returned (and overwritten) by put is exactly the one get finds, i.e.
   the first hit in scan order; numKeys is incremented exactly when there was none *)
Theorem px_put_old_is_get grow p sl m : snd (px_put grow p sl m) = px_get p (sl_h sl) m.
Proof.
  rewrite px_getE, <- (chain_subst_old _ (fun _ => [sl])).
  unfold px_put, px_put_with, px_put_core, chain_put.
  destruct (chain_subst (hit (sl_h sl) m) (fun _ => [sl]) (px_chain p (px_bidx p (sl_h sl))))
    as [[c' o]|]; reflexivity.
Qed.

Theorem px_put_count grow p sl m : PInv p ->
  px_nkeys (fst (px_put grow p sl m)) =
    match px_get p (sl_h sl) m with Some _ => px_nkeys p | None => px_nkeys p + 1 end.
Proof.
  intros HI. unfold px_put, px_put_with. destruct (px_put_core p sl m) as [p1 o1] eqn:E.
  cbn [fst snd]. destruct (px_put_core_spec _ _ _ _ _ HI E) as (_ & <- & _ & _ & HS).
  destruct o1 as [o|]; cbn [fst].
  - tauto.
  - destruct (grow (px_nkeys p1) (nlen (px_chains p1))); [rewrite px_dosplit_nkeys|]; tauto.
Qed.

Lemma px_bucketE p n : px_bucket p n = concat (px_chain p n).
Proof. reflexivity. Qed.

Lemma px_set_other p n c nk b : b <> n -> px_chain (px_set p n c nk) b = px_chain p b.
Proof.
  intros H. unfold px_chain, px_set. cbn [px_chains]. apply nth_lupd_other.
  intros Hc. apply H. apply N2Nat.inj. symmetry. exact Hc.
Qed.

Lemma px_set_frame p n c nk :
  px_level (px_set p n c nk) = px_level p /\ px_split (px_set p n c nk) = px_split p /\
  nlen (px_chains (px_set p n c nk)) = nlen (px_chains p).
Proof. cbn [px_set px_level px_split px_chains]. rewrite !nlen_length, lupd_length. auto. Qed.

(* put (before the split) and delete rewrite one chain, the one the hash selects, or nothing *)
Lemma px_put_core_shape p sl m :
  exists c nk, fst (px_put_core p sl m) = px_set p (px_bidx p (sl_h sl)) c nk.
Proof.
  unfold px_put_core.
  destruct (snd (chain_put (hit (sl_h sl) m) sl (px_chain p (px_bidx p (sl_h sl))))); eexists _, _; reflexivity.
Qed.

Lemma px_del_shape p h m :
  fst (px_del p h m) = p \/ exists c nk, fst (px_del p h m) = px_set p (px_bidx p h) c nk.
Proof.
  unfold px_del.
  destruct (chain_subst (hit h m) (fun _ => []) (px_chain p (px_bidx p h))) as [[c' o]|];
    [right; eexists _, _|left]; reflexivity.
Qed.

(* index.put = px_put_core, then (if a slot was added and the load factor says so) index.split *)
Lemma px_put_factor grow p sl m :
  px_put grow p sl m =
    let r := px_put_core p sl m in
    match snd r with
    | Some o => (fst r, Some o)
    | None => (if grow (px_nkeys (fst r)) (nlen (px_chains (fst r))) then px_dosplit (fst r) else fst r,
               None)
    end.
Proof. reflexivity. Qed.

Theorem px_put_other_chains p sl m b : b <> px_bidx p (sl_h sl) ->
  px_chain (fst (px_put_core p sl m)) b = px_chain p b /\
  px_bucket (fst (px_put_core p sl m)) b = px_bucket p b.
Proof.
  intros H. destruct (px_put_core_shape p sl m) as (c & nk & ->).
  rewrite !px_bucketE, px_set_other by exact H. split; reflexivity.
Qed.

Lemma px_put_core_frame p sl m :
  px_level (fst (px_put_core p sl m)) = px_level p /\
  px_split (fst (px_put_core p sl m)) = px_split p /\
  nlen (px_chains (fst (px_put_core p sl m))) = nlen (px_chains p).
Proof. destruct (px_put_core_shape p sl m) as (c & nk & ->). apply px_set_frame. Qed.

Theorem px_del_other_chains p h m b : b <> px_bidx p h ->
  px_chain (fst (px_del p h m)) b = px_chain p b /\
  px_bucket (fst (px_del p h m)) b = px_bucket p b.
Proof.
  intros H. destruct (px_del_shape p h m) as [->|(c & nk & ->)]; [split; reflexivity|].
  rewrite !px_bucketE, px_set_other by exact H. split; reflexivity.
Qed.

Lemma px_del_frame p h m :
  px_level (fst (px_del p h m)) = px_level p /\
  px_split (fst (px_del p h m)) = px_split p /\
  nlen (px_chains (fst (px_del p h m))) = nlen (px_chains p).
Proof.
  destruct (px_del_shape p h m) as [->|(c & nk & ->)]; [repeat split|apply px_set_frame].
Qed.

Theorem px_repoint_other_chains p h seg off nseg noff p' b :
  px_repoint p h seg off nseg noff = Some p' -> b <> px_bidx p h ->
  px_chain p' b = px_chain p b.
Proof.
  unfold px_repoint.
  destruct (chain_subst (rp_hit h seg off) (fun s => [rp_new nseg noff s]) (px_chain p (px_bidx p h)))
    as [[c' o]|]; [|discriminate].
  intros E H. injection E as <-. apply px_set_other. exact H.
Qed.

Theorem px_split_moves_forward p :
  forall b, N.of_nat b < nlen (px_chains p) -> N.of_nat b <> px_split p ->
  px_bucket (px_dosplit p) (N.of_nat b) = px_bucket p (N.of_nat b).
Proof.
  intros b Hb Hne. unfold px_bucket, px_dosplit. cbn [px_chains]. rewrite Nat2N.id.
  rewrite app_nth1 by (rewrite lupd_length; rewrite nlen_length in Hb; lia).
  rewrite nth_lupd_other; [reflexivity|].
  intros Hc. apply Hne. rewrite <- Hc, N2Nat.id. reflexivity.
Qed.

(* the old split chain is partitioned, order preserved, between its old index and the new LAST chain *)
Theorem px_split_dest p : PInv p ->
  px_bucket (px_dosplit p) (px_split p) = filter (stays p) (px_bucket p (px_split p)) /\
  px_bucket (px_dosplit p) (nlen (px_chains p)) =
    filter (fun s => negb (stays p s)) (px_bucket p (px_split p)) /\
  nlen (px_chains (px_dosplit p)) = nlen (px_chains p) + 1.
Proof.
  intros HI.
  destruct (px_dosplit_shape p HI)
    as (k1 & k2 & cu & cn & Ec & Lk & _ & Ed & Hcu & Hcn & _ & _ & _ & _ & Qu & Qn).
  rewrite !px_bucketE, Qu, Qn. split; [exact Hcu|]. split; [exact Hcn|].
  rewrite Ed, Ec, !nlen_app, !nlen_cons, nlen_app. cbn [nlen]. lia.
Qed.

(* ... and both new chains are cut into groups of 31 from their start (slotWriter) *)
Theorem px_split_dense p : PInv p ->
  dense (px_chain (px_dosplit p) (px_split p)) /\
  dense (px_chain (px_dosplit p) (nlen (px_chains p))).
Proof.
  intros HI.
  destruct (px_dosplit_shape p HI)
    as (k1 & k2 & cu & cn & _ & _ & _ & _ & _ & _ & _ & _ & Du & Dn & Qu & Qn).
  rewrite Qu, Qn. split; assumption.
Qed.

(* a split never moves a slot to a lower-numbered chain: every slot stays in its chain or moves
   to the new last chain (index = old numBuckets) *)
Theorem px_split_slot_forward p n s : PInv p -> In s (px_bucket p n) ->
  In s (px_bucket (px_dosplit p) n) \/
  (n = px_split p /\ In s (px_bucket (px_dosplit p) (nlen (px_chains p)))).
Proof.
  intros HI Hs. destruct (N.eq_dec n (px_split p)) as [->|Hne].
  - destruct (px_split_dest p HI) as (D1 & D2 & _). rewrite D1, D2.
    destruct (stays p s) eqn:Hst.
    + left. apply filter_In. auto.
    + right. split; [reflexivity|]. apply filter_In. rewrite Hst. auto.
  - left. destruct (N.lt_ge_cases n (nlen (px_chains p))) as [Hlt|Hge].
    + rewrite <- (N2Nat.id n) in *. rewrite px_split_moves_forward; assumption.
    + exfalso. unfold px_bucket in Hs. rewrite nth_overflow in Hs; [destruct Hs|].
      rewrite nlen_length in Hge. lia.
Qed.

Import PxEx.

Lemma put_list_PInv grow (l : list nat) p : PInv p ->
  PInv (fold_left (fun p i => fst (px_put grow p (mk (N.of_nat i)) (is (N.of_nat i)))) l p).
Proof.
  revert p. induction l as [|i l IH]; intros p HI; cbn [fold_left]; [exact HI|].
  apply IH. destruct (px_put grow p (mk (N.of_nat i)) (is (N.of_nat i))) as [p' o] eqn:E.
  exact (proj1 (px_put_spec _ _ _ _ _ _ HI E)).
Qed.

(* 32 slots with equal hash: head bucket full + 1 slot in an overflow bucket; then delete key 3:
   the head bucket has a hole and key 32 lives in the overflow bucket *)
Definition ex_hole : pindex := fst (px_del (put_keys grow0 px_empty 32) 7 (is 3)).

Lemma ex_hole_PInv : PInv ex_hole.
Proof.
  unfold ex_hole. destruct (px_del (put_keys grow0 px_empty 32) 7 (is 3)) as [p' o] eqn:E.
  refine (proj1 (px_del_spec _ _ _ _ _ _ E)). apply put_list_PInv. exact PInv_empty.
Qed.

Theorem pinned_put_refuted :
  exists p sl m, PInv p /\ (exists o, In o (all_slots p) /\ sl_h o = sl_h sl /\ m o = true) /\
                 snd (px_put_pinned grow0 p sl m) = None.
Proof.
  exists ex_hole, (mk' 32), (is 32). split; [exact ex_hole_PInv|]. split.
  - exists (mk 32).
    assert (G : px_get ex_hole 7 (is 32) = Some (mk 32)) by (vm_compute; reflexivity).
    destruct (px_get_some _ _ _ _ G) as (A & _ & C).
    split; [exact A|]. split; [reflexivity|exact C].
  - vm_compute. reflexivity.
Qed.

(* the current put overwrites the slot in the overflow bucket *)
Example fixed_put_overwrites : snd (px_put grow0 ex_hole (mk' 32) (is 32)) = Some (mk 32).
Proof. vm_compute. reflexivity. Qed.

Print Assumptions PInv_empty.
Print Assumptions px_get_some.
Print Assumptions px_get_none.
Print Assumptions px_put_spec.
Print Assumptions px_del_spec.
Print Assumptions px_split_spec.
Print Assumptions px_repoint_some.
Print Assumptions px_repoint_none.
Print Assumptions px_iter_all.
Print Assumptions px_split_moves_forward.
Print Assumptions px_split_slot_forward.
Print Assumptions pinned_put_refuted.
