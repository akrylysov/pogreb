(* DBRun.v -- the run theorem of DBSim.v extended with Compact:
   for every hash function, split policy, thresholds and sync mode, any run of Put, Delete, Get,
   GetAppend, Has, Count, Items, Sync and COMPACT on the database with the real bucket-chain index
   produces the outputs of a plain map (Items up to order; the three counters of a CompactionResult
   are not compared with the map, which has no segments -- but they ARE equal to the counters the
   flat-index database returns), and the final states are again related, with [Inv] and [MetaOK]
   on the flat side.  No axioms (Print Assumptions at the end). *)
From Coq Require Import ZArith Lia ZifyN ZifyNat ZifyBool Permutation.
From Pogreb Require Import Base BaseLemmas Crc Bytes Record RecordProofs Flat Index Spec DB DBInv
  DBLemmas DBProofsOps DBMeta DBProofsCompact DBSim.
Ltac Zify.zify_post_hook ::= Z.div_mod_to_equations.

Local Notation stp := (@DB.st pindex).
Local Notation stf := (@DB.st flat).


Inductive op' := OpBase (o : op) | OpCompact.

Definition step' {I} (ops : idx_ops I) (P : params) (s : @DB.st I) (o : op') : @DB.st I * out :=
  match o with
  | OpBase b => step ops P s b
  | OpCompact => db_compact ops P s
  end.
Definition step_chain' (P : params) : stp -> op' -> stp * out := step' chain_ops P.
Definition step_flat' (P : params) : stf -> op' -> stf * out := step' flat_ops P.

(* the specification: Compact does not change the map; its result is a placeholder *)
Definition step_spec' (m : smap) (o : op') : smap * out :=
  match o with
  | OpBase b => step_spec m b
  | OpCompact => (m, OCompact 0 0 0)
  end.

Fixpoint run' {S} (stepf : S -> op' -> S * out) (s : S) (l : list op') : list out :=
  match l with
  | [] => []
  | o :: l' => let '(s', r) := stepf s o in r :: run' stepf s' l'
  end.
Definition final' {S} (stepf : S -> op' -> S * out) (s : S) (l : list op') : S :=
  fold_left (fun s o => fst (stepf s o)) l s.

Definition op_valid' (o : op') : Prop := match o with OpBase b => op_valid b | OpCompact => True end.

(* against the plain map: Items up to order, the numbers of a CompactionResult are ignored.
   (Against the flat-index database the stronger [DBSim.out_equiv] holds: equal CompactionResults.) *)
Definition out_equiv' (a b : out) : Prop :=
  match a, b with
  | OItems l1, OItems l2 => Permutation l1 l2
  | OCompact _ _ _, OCompact _ _ _ => True
  | _, _ => a = b
  end.

Lemma out_equiv_weaken a b : out_equiv a b -> out_equiv' a b.
Proof. destruct a, b; cbn [out_equiv out_equiv']; intros H; try exact H; exact I. Qed.

Lemma out_equiv'_trans a b c : out_equiv' a b -> out_equiv' b c -> out_equiv' a c.
Proof.
  intros H1 H2. destruct a, b; cbn [out_equiv'] in H1; try discriminate H1; try exact H2; try (rewrite H1; exact H2);
    destruct c; cbn [out_equiv'] in *; try discriminate H2; [etransitivity; eassumption|exact I].
Qed.

(* the side conditions on the FLAT run: the 32-bit offset condition before every operation, and along
   every compaction *)
Inductive rooms' (P : params) : stf -> list op' -> Prop :=
| rooms'_nil s : rooms' P s []
| rooms'_cons s o l :
    (exists m, s_mem s = Some m /\ room m) ->
    (o = OpCompact -> compact_room P s) ->
    rooms' P (fst (step_flat' P s o)) l -> rooms' P s (o :: l).


Definition meq (a b : smap) : Prop := forall k, sget a k = sget b k.

Lemma meq_refl a : meq a a. Proof. intros k. reflexivity. Qed.
Lemma meq_trans a b c : meq a b -> meq b c -> meq a c.
Proof. intros H1 H2 k. rewrite H1. apply H2. Qed.

Lemma meq_perm a b : NoDup (map fst a) -> NoDup (map fst b) -> meq a b -> Permutation a b.
Proof.
  intros Ha Hb H. apply NoDup_Permutation.
  - apply (NoDup_map_inv fst). exact Ha.
  - apply (NoDup_map_inv fst). exact Hb.
  - intros [k v]. rewrite <- (sget_In a k v Ha), <- (sget_In b k v Hb), (H k). tauto.
Qed.

Lemma meq_sput a b k v : meq a b -> meq (sput a k v) (sput b k v).
Proof. intros H k'. rewrite !sget_sput, (H k'). reflexivity. Qed.
Lemma meq_sdel a b k : meq a b -> meq (sdel a k) (sdel b k).
Proof. intros H k'. rewrite !sget_sdel, (H k'). reflexivity. Qed.

(* the specification step respects [meq] *)
Lemma step_spec_meq a b o :
  NoDup (map fst a) -> NoDup (map fst b) -> meq a b ->
  meq (fst (step_spec a o)) (fst (step_spec b o)) /\
  NoDup (map fst (fst (step_spec b o))) /\
  out_equiv (snd (step_spec a o)) (snd (step_spec b o)).
Proof.
  intros Ha Hb H. destruct o as [k v|k|k|k buf|k| | |]; cbn [step_spec fst snd out_equiv].
  - split; [apply meq_sput; exact H|]. split; [apply NoDup_sput; exact Hb|reflexivity].
  - split; [apply meq_sdel; exact H|]. split; [apply NoDup_sdel; exact Hb|reflexivity].
  - split; [exact H|]. split; [exact Hb|]. rewrite (H k). reflexivity.
  - split; [exact H|]. split; [exact Hb|]. rewrite (H k). reflexivity.
  - split; [exact H|]. split; [exact Hb|]. unfold shas. rewrite (H k). reflexivity.
  - split; [exact H|]. split; [exact Hb|]. unfold scount.
    rewrite (nlen_perm _ _ (meq_perm a b Ha Hb H)). reflexivity.
  - split; [exact H|]. split; [exact Hb|]. apply meq_perm; assumption.
  - split; [exact H|]. split; [exact Hb|reflexivity].
Qed.


Lemma MetaOK_same (s s' : stf) : s_mem s' = s_mem s -> s_disk s' = s_disk s -> MetaOK s -> MetaOK s'.
Proof. intros Em Ed. apply (keeps3_same s s' Em Ed). Qed.

(* outside of a compaction the cursor is empty; the cursor invariant is then trivial *)
Definition c0 : cursor := {| c_todo := []; c_src := None; c_segs := 0; c_recs := 0; c_bytes := 0 |}.

Lemma CInv_c0 (s : stf) m : s_mem s = Some m -> CInv s c0.
Proof.
  intros Em. exists m. split; [exact Em|]. split; [intros x []|]. split; [constructor|].
  split; [exact I|]. intros x [].
Qed.

Lemma flat_put_MetaOK P (s : stf) k v :
  Inv P s -> (exists m, s_mem s = Some m /\ room m) ->
  Forall byte k -> Forall byte v -> nlen k <= max_key_len -> nlen v <= max_val_len ->
  MetaOK s -> MetaOK (fst (db_put flat_ops P k v s)).
Proof.
  intros HI Hm Hbk Hbv Hk Hv HM. destruct Hm as (m & Em & Hroom).
  apply (put_preserves_MetaOK P s c0 k v HI (ex_intro _ m (conj Em Hroom)) Hbk Hbv Hk Hv (CInv_c0 s m Em) HM).
Qed.

(* Delete with ANY key: a key that is not in the index leaves memory and disk as they are *)
Lemma flat_delete_MetaOK P (s : stf) k :
  Inv P s -> (exists m, s_mem s = Some m /\ room m) ->
  MetaOK s -> MetaOK (fst (db_delete flat_ops P k s)).
Proof.
  intros HI (m & Em & Hroom) HM.
  destruct (Inv_open P s m Em HI) as (HL & Hidx & _). assert (Hd : DiskOK (s_disk s)) by apply HL.
  destruct (fl_del (m_idx m) (p_hash P (m_seed m) k) (matchf (s_disk s) k)) as [i1 [o|]] eqn:Edel.
  - pose proof (del_found_bytes P _ _ _ k i1 o Hd Hidx Edel) as Hbk.
    apply (delete_preserves_MetaOK P s c0 k HI (ex_intro _ m (conj Em Hroom)) Hbk (CInv_c0 s m Em) HM).
  - destruct (del_absent P _ _ _ k i1 Hd Hidx Edel) as [-> _].
    destruct (finish_spec P s m) as (s' & Ef & Ems' & Eds' & _).
    unfold db_delete. rewrite Em. cbn [ix_del flat_ops]. rewrite Edel, Ef. cbn [fst].
    apply (MetaOK_same s s'); [congruence|exact Eds'|exact HM].
Qed.


(* the invariants of DBProofsCompact give the side condition of DBSim.sim_compact_run *)
Lemma cinv_of_CInv P fuel : forall (s : stf) c,
  Inv P s -> CInv s c -> run_room P fuel s c -> cinv P fuel s c.
Proof.
  induction fuel as [|f IH]; intros s c HI HC Hr; [constructor|].
  cbn [run_room] in Hr. destruct Hr as [Hm Hrest]. constructor; [exact HI|].
  intros s' c' E. pose proof (compact_step_ok P s c HI HC Hm) as Hstep.
  rewrite E in Hstep, Hrest. destruct Hstep as (HI' & HC' & _). apply IH; assumption.
Qed.

Theorem chain_compact_ok P (sp : stp) (sf : stf) :
  st_rel sp sf -> Inv P sf -> MetaOK sf -> s_mem sf <> None -> compact_room P sf ->
  let '(sp', o) := db_compact chain_ops P sp in
  let '(sf', of) := db_compact flat_ops P sf in
  o = of /\ (exists a b n, o = OCompact a b n) /\ st_rel sp' sf' /\ Inv P sf' /\ MetaOK sf' /\
  s_mem sf' <> None /\ meq (abs (s_disk sf')) (abs (s_disk sf)).
Proof.
  intros Hs HI HM Hm Hroom.
  assert (Hsim : so_rel idx_rel (db_compact chain_ops P sp) (db_compact flat_ops P sf)).
  { apply sim_db_compact; [exact Hs|]. intros s1 c Ep. apply cuniq_of_Inv.
    destruct (compact_pick_ok P sf HI HM Hm) as (s1' & c' & Ep' & HI1 & HC1 & _).
    rewrite Ep in Ep'. inversion Ep'; subst s1' c'.
    unfold compact_room in Hroom. rewrite Ep in Hroom. apply cinv_of_CInv; assumption. }
  pose proof (db_compact_ok P sf HI HM Hm Hroom) as Hf.
  destruct (db_compact chain_ops P sp) as [sp' o]. destruct (db_compact flat_ops P sf) as [sf' of].
  destruct Hsim as [Ho Hs']. cbn [fst snd] in Ho, Hs'. subst of.
  destruct Hf as (A1 & A2 & A3 & A4 & A5 & _). repeat split; assumption.
Qed.


(* a base operation on the chain index against the same operation on the flat index *)
Lemma step_sim P (sp : stp) (sf : stf) o :
  st_rel sp sf -> Inv P sf -> op_valid o -> (exists m, s_mem sf = Some m /\ room m) ->
  out_equiv (snd (step_chain P sp o)) (snd (step_flat P sf o)).
Proof.
  intros Hs HI Hv Hroom. unfold step_chain, step_flat.
  destruct o as [k v|k|k|k buf|k| | |]; cbn [step fst snd].
  - destruct Hv as (Hbk & Hbv & Hk & Hvl).
    destruct (sim_put_so P sp sf k v Hs HI Hroom Hbk Hbv Hk Hvl) as [-> _]. apply out_equiv_refl.
  - destruct (sim_delete_so P sp sf k Hs HI) as [-> _]. apply out_equiv_refl.
  - rewrite (sim_get P sp sf k Hs HI). apply out_equiv_refl.
  - rewrite (sim_get_append P sp sf k buf Hs HI). apply out_equiv_refl.
  - rewrite (sim_has P sp sf k Hs HI). apply out_equiv_refl.
  - rewrite (sim_count sp sf Hs). apply out_equiv_refl.
  - apply (sim_items P); assumption.
  - destruct (sync_rel idx_rel chain_ops flat_ops idx_rel_empty sp sf Hs) as [-> _]. apply out_equiv_refl.
Qed.

Lemma base_MetaOK P (sf : stf) o :
  Inv P sf -> op_valid o -> (exists m, s_mem sf = Some m /\ room m) -> MetaOK sf ->
  MetaOK (fst (step_flat P sf o)).
Proof.
  intros HI Hv Hroom HM. unfold step_flat. destruct o as [k v|k|k|k buf|k| | |]; cbn [step fst]; try exact HM.
  - destruct Hv as (Hbk & Hbv & Hk & Hvl). apply flat_put_MetaOK; assumption.
  - apply flat_delete_MetaOK; assumption.
  - assert (Hopen : s_mem sf <> None) by (destruct Hroom as (m & -> & _); discriminate).
    pose proof (sync_ok P sf HI Hopen) as H. destruct (db_sync flat_ops sf) as [sf' of]. cbn [fst].
    destruct H as (_ & _ & Ed & Em). apply (MetaOK_same sf sf'); assumption.
Qed.

Lemma step_refines' P (sp : stp) (sf : stf) (ms : smap) o :
  params_ok P -> st_rel sp sf -> Inv P sf -> MetaOK sf ->
  meq (abs (s_disk sf)) ms -> NoDup (map fst ms) -> op_valid' o ->
  (exists m, s_mem sf = Some m /\ room m) -> (o = OpCompact -> compact_room P sf) ->
  st_rel (fst (step_chain' P sp o)) (fst (step_flat' P sf o)) /\
  Inv P (fst (step_flat' P sf o)) /\ MetaOK (fst (step_flat' P sf o)) /\
  meq (abs (s_disk (fst (step_flat' P sf o)))) (fst (step_spec' ms o)) /\
  NoDup (map fst (fst (step_spec' ms o))) /\
  out_equiv' (snd (step_chain' P sp o)) (snd (step_spec' ms o)) /\
  out_equiv (snd (step_chain' P sp o)) (snd (step_flat' P sf o)).
Proof.
  intros HP Hs HI HM Hq Hnd Hv Hroom Hcr.
  assert (Hopen : s_mem sf <> None) by (destruct Hroom as (m & -> & _); discriminate).
  unfold step_chain', step_flat'. destruct o as [b|]; cbn [step' step_spec' op_valid'] in *.
  - destruct (step_refines P sp sf b HP Hs HI Hv Hroom) as (A & B & C & D).
    destruct (step_spec_meq (abs (s_disk sf)) ms b (abs_NoDup _) Hnd Hq) as (E & F & G).
    split; [exact A|]. split; [exact B|]. split; [apply base_MetaOK; assumption|].
    split; [unfold step_flat in C; rewrite C; exact E|]. split; [exact F|].
    split; [|apply step_sim; assumption].
    eapply out_equiv'_trans; apply out_equiv_weaken; eassumption.
  - pose proof (chain_compact_ok P sp sf Hs HI HM Hopen (Hcr eq_refl)) as H.
    destruct (db_compact chain_ops P sp) as [sp' o]. destruct (db_compact flat_ops P sf) as [sf' of].
    destruct H as (-> & (a & b & n & ->) & A & B & C & _ & D). cbn [fst snd].
    split; [exact A|]. split; [exact B|]. split; [exact C|].
    split; [eapply meq_trans; eassumption|]. split; [exact Hnd|]. split; [exact I|reflexivity].
Qed.


Lemma run_refines' P (l : list op') : params_ok P -> forall (sp : stp) (sf : stf) (ms : smap),
  st_rel sp sf -> Inv P sf -> MetaOK sf -> meq (abs (s_disk sf)) ms -> NoDup (map fst ms) ->
  Forall op_valid' l -> rooms' P sf l ->
  Forall2 out_equiv' (run' (step_chain' P) sp l) (run' step_spec' ms l) /\
  Forall2 out_equiv (run' (step_chain' P) sp l) (run' (step_flat' P) sf l) /\
  st_rel (final' (step_chain' P) sp l) (final' (step_flat' P) sf l) /\
  Inv P (final' (step_flat' P) sf l) /\ MetaOK (final' (step_flat' P) sf l) /\
  meq (abs (s_disk (final' (step_flat' P) sf l))) (final' step_spec' ms l).
Proof.
  intros HP. unfold final'. induction l as [|o l IH]; intros sp sf ms Hs HI HM Hq Hnd Hv Hr.
  - cbn [run' fold_left]. repeat split; try assumption; constructor.
  - inversion Hv as [|? ? Hvo Hvl]; subst. inversion Hr as [|? ? ? Hro Hrc Hrl]; subst.
    destruct (step_refines' P sp sf ms o HP Hs HI HM Hq Hnd Hvo Hro Hrc) as (A & B & C & D & E & F & G).
    cbn [run' fold_left].
    destruct (IH _ _ _ A B C D E Hvl Hrl) as (R1 & R2 & R3 & R4 & R5 & R6).
    destruct (step_chain' P sp o) as [sp' rp]. destruct (step_flat' P sf o) as [sf' rf].
    destruct (step_spec' ms o) as [ms' rs]. cbn [fst snd] in *.
    split; [constructor; assumption|]. split; [constructor; assumption|]. repeat split; assumption.
Qed.

(* C01 with Compact, for the real index *)
Theorem C01_chain_refines_map_with_compact P (sp : stp) (sf : stf) (l : list op') :
  params_ok P -> st_rel sp sf -> Inv P sf -> MetaOK sf -> Forall op_valid' l -> rooms' P sf l ->
  (* the outputs are those of the plain map (Items up to order, CompactionResult numbers ignored) *)
  Forall2 out_equiv' (run' (step_chain' P) sp l) (run' step_spec' (abs (s_disk sf)) l) /\
  (* ... and those of the flat-index database (Items up to order, CompactionResults EQUAL) *)
  Forall2 out_equiv (run' (step_chain' P) sp l) (run' (step_flat' P) sf l) /\
  (* the final states are again related; invariants of the flat one; its contents *)
  let sp' := final' (step_chain' P) sp l in
  let sf' := final' (step_flat' P) sf l in
  st_rel sp' sf' /\ Inv P sf' /\ MetaOK sf' /\
  meq (abs (s_disk sf')) (final' step_spec' (abs (s_disk sf)) l).
Proof.
  intros HP Hs HI HM Hv Hr. cbv zeta.
  exact (run_refines' P l HP sp sf (abs (s_disk sf)) Hs HI HM (meq_refl _) (abs_NoDup _) Hv Hr).
Qed.


Lemma flat_init_MetaOK seed : MetaOK (flat_init seed).
Proof.
  unfold MetaOK, flat_init. cbn [s_mem s_disk m_segs].
  intros g f [<-|[]] Ef. cbn [g_id] in Ef. vm_compute in Ef. injection Ef as <-. reflexivity.
Qed.

Corollary C01_chain_from_empty_with_compact P seed (l : list op') :
  params_ok P -> Forall op_valid' l -> rooms' P (flat_init seed) l ->
  let sp0 := fst (db_open chain_ops P seed st0) in
  Forall2 out_equiv' (run' (step_chain' P) sp0 l) (run' step_spec' [] l) /\
  Forall2 out_equiv (run' (step_chain' P) sp0 l) (run' (step_flat' P) (flat_init seed) l) /\
  let sp' := final' (step_chain' P) sp0 l in
  let sf' := final' (step_flat' P) (flat_init seed) l in
  st_rel sp' sf' /\ Inv P sf' /\ MetaOK sf' /\ meq (abs (s_disk sf')) (final' step_spec' [] l).
Proof.
  intros HP Hv Hr. pose proof (init_rel P seed) as H. rewrite flat_open_fresh in H.
  destruct (db_open chain_ops P seed st0) as [sp o]. destruct H as (_ & _ & Hs & HI & _ & Ea).
  cbn [fst]. cbv zeta. rewrite <- Ea.
  apply C01_chain_refines_map_with_compact; try assumption. apply flat_init_MetaOK.
Qed.


Fixpoint run_room_b (P : params) (fuel : nat) (s : stf) (c : cursor) : bool :=
  match fuel with
  | O => true
  | S f => match s_mem s with Some m => room_b m | None => false end &&
           match compact_step flat_ops P s c with
           | CMore s' c' => run_room_b P f s' c'
           | _ => true
           end
  end.

Lemma run_room_b_ok P fuel : forall s c, run_room_b P fuel s c = true -> run_room P fuel s c.
Proof.
  induction fuel as [|f IH]; intros s c H; [exact I|]. cbn [run_room_b] in H. cbn [run_room].
  apply andb_true_iff in H. destruct H as [A B]. split.
  - destruct (s_mem s) as [m|]; [|discriminate]. exists m. split; [reflexivity|apply room_b_ok; exact A].
  - destruct (compact_step flat_ops P s c) as [|s' c'|w]; [exact I|apply IH; exact B|exact I].
Qed.

Definition compact_room_b (P : params) (s : stf) : bool :=
  match compact_pick flat_ops P s with
  | Some (s1, c) => run_room_b P (S (2 * length (c_todo c) + 2 * total_recs (s_disk s1) + 2)) s1 c
  | None => true
  end.

Lemma compact_room_b_ok P s : compact_room_b P s = true -> compact_room P s.
Proof.
  unfold compact_room_b, compact_room. destruct (compact_pick flat_ops P s) as [[s1 c]|]; [|intros _; exact I].
  apply run_room_b_ok.
Qed.

Definition op_valid'_b (o : op') : bool := match o with OpBase b => op_valid_b b | OpCompact => true end.

Lemma ops_valid'_b_ok l : forallb op_valid'_b l = true -> Forall op_valid' l.
Proof.
  intros H. apply Forall_forall. intros o Ho. pose proof (proj1 (forallb_forall _ _) H o Ho) as Hb.
  destruct o as [b|]; [apply op_valid_b_ok; exact Hb|exact I].
Qed.

Fixpoint rooms'_b (P : params) (s : stf) (l : list op') : bool :=
  match l with
  | [] => true
  | o :: l' => match s_mem s with Some m => room_b m | None => false end &&
               match o with OpCompact => compact_room_b P s | _ => true end &&
               rooms'_b P (fst (step_flat' P s o)) l'
  end.

Lemma rooms'_b_ok P l : forall s, rooms'_b P s l = true -> rooms' P s l.
Proof.
  induction l as [|o l IH]; intros s H; [constructor|]. cbn [rooms'_b] in H.
  apply andb_true_iff in H. destruct H as [H C]. apply andb_true_iff in H. destruct H as [A B].
  constructor; [| |apply IH; exact C].
  - destruct (s_mem s) as [m|]; [|discriminate]. exists m. split; [reflexivity|apply room_b_ok; exact A].
  - intros ->. apply compact_room_b_ok. exact B.
Qed.

Module RunEx.
(* one hash for every key, no split, segments of at most 600 bytes (about 6 records each), every
   segment is always worth compacting *)
Definition exP : params :=
  {| p_maxseg := 600; p_minseg := 0; p_frag := fun _ _ => true; p_sync := true;
     p_grow := fun _ _ => false; p_hash := fun _ _ => 7 |}.

Definition key_of (i : nat) : key := [N.of_nat i].
Definition val_of (i : nat) : val := [N.of_nat i; N.of_nat i].
Definition put (i : nat) : op' := OpBase (OpPut (key_of i) (val_of i)).

Definition ex_ops : list op' :=
  map put (seq 1 40) ++
  [OpBase (OpDelete (key_of 3)); OpBase (OpPut (key_of 5) (val_of 50)); OpCompact;
   OpBase (OpGet (key_of 3)); OpBase (OpGet (key_of 5)); OpBase (OpGet (key_of 32)); OpBase OpCount;
   put 41; OpBase (OpDelete (key_of 40)); OpCompact; OpBase OpSync;
   OpBase (OpGet (key_of 41)); OpBase (OpHas (key_of 40)); OpBase OpCount; OpCompact].

Definition sp0 : stp := fst (db_open chain_ops exP 1 st0).

Lemma exP_ok : params_ok exP.
Proof. vm_compute. reflexivity. Qed.

(* the theorem applies: its hypotheses hold for this run *)
Lemma ex_valid : Forall op_valid' ex_ops.
Proof. apply ops_valid'_b_ok. vm_compute. reflexivity. Qed.

Lemma ex_rooms : rooms' exP (flat_init 1) ex_ops.
Proof. apply rooms'_b_ok. vm_compute. reflexivity. Qed.

Example ex_run :
  Forall2 out_equiv' (run' (step_chain' exP) sp0 ex_ops) (run' step_spec' [] ex_ops) /\
  Forall2 out_equiv (run' (step_chain' exP) sp0 ex_ops) (run' (step_flat' exP) (flat_init 1) ex_ops) /\
  st_rel (final' (step_chain' exP) sp0 ex_ops) (final' (step_flat' exP) (flat_init 1) ex_ops) /\
  Inv exP (final' (step_flat' exP) (flat_init 1) ex_ops) /\
  MetaOK (final' (step_flat' exP) (flat_init 1) ex_ops).
Proof.
  destruct (C01_chain_from_empty_with_compact exP 1 ex_ops exP_ok ex_valid ex_rooms) as (A & B & C & D & E & _).
  exact (conj A (conj B (conj C (conj D E)))).
Qed.

(* what the run returns: the compactions do real work (segments removed, records reclaimed), and the
   chain index still has its overflow bucket *)
Example ex_outputs :
  skipn 40 (run' (step_chain' exP) sp0 ex_ops) =
    [OOk; OOk; OCompact 7 3 37; OVal None; OVal (Some (val_of 50)); OVal (Some (val_of 32)); ONum 39;
     OOk; OOk; OCompact 7 2 24; OOk; OVal (Some (val_of 41)); OBool false; ONum 39; OCompact 7 0 0].
Proof. vm_compute. reflexivity. Qed.

Example ex_final_shape :
  SimEx.chain_shape (final' (step_chain' exP) sp0 ex_ops) = [[31; 8]]%nat /\
  length (d_segs (s_disk (final' (step_chain' exP) sp0 ex_ops))) = 7%nat.
Proof. split; vm_compute; reflexivity. Qed.
End RunEx.

Print Assumptions cinv_of_CInv.
Print Assumptions chain_compact_ok.
Print Assumptions flat_put_MetaOK.
Print Assumptions flat_delete_MetaOK.
Print Assumptions step_sim.
Print Assumptions step_refines'.
Print Assumptions run_refines'.
Print Assumptions C01_chain_refines_map_with_compact.
Print Assumptions flat_init_MetaOK.
Print Assumptions C01_chain_from_empty_with_compact.
Print Assumptions rooms'_b_ok.
Print Assumptions RunEx.ex_run.
Print Assumptions RunEx.ex_outputs.
Print Assumptions RunEx.ex_final_shape.
