(* RecordProofs.v -- theorems about the record codec and the validating reader of Record.v. *)
From Coq Require Import ZArith Lia ZifyN ZifyNat ZifyBool.
From Pogreb Require Import Base BaseLemmas Crc Bytes Record.
Ltac Zify.zify_post_hook ::= Z.div_mod_to_equations.

Definition rec_ok (r : rec) : Prop :=
  Forall byte (rk r) /\ Forall byte (rv r) /\ nlen (rk r) < 65536 /\ nlen (rv r) < delbit.

Lemma delbit_val : delbit = 2147483648. Proof. reflexivity. Qed.
Lemma delbit_pow : delbit = 2 ^ 31. Proof. reflexivity. Qed.
Lemma rec_overhead_val : rec_overhead = 10. Proof. reflexivity. Qed.
Lemma pow2_32 : 2 ^ 32 = 4294967296. Proof. reflexivity. Qed.
Lemma pow256_2 : 256 ^ N.of_nat 2 = 65536. Proof. reflexivity. Qed.
Lemma pow256_4 : 256 ^ N.of_nat 4 = 4294967296. Proof. reflexivity. Qed.

Lemma le_length n x : length (le n x) = n.
Proof.
  revert x. induction n as [|n IH]; intros x; [reflexivity|].
  cbn [le length]. rewrite IH. reflexivity.
Qed.

Lemma nlen_le n x : nlen (le n x) = N.of_nat n.
Proof. rewrite nlen_length, le_length. reflexivity. Qed.

Lemma le_bytes n x : Forall byte (le n x).
Proof.
  revert x. induction n as [|n IH]; intros x; cbn [le]; constructor; [|apply IH].
  unfold byte. apply N.mod_lt. discriminate.
Qed.

Lemma pow256_succ n : 256 ^ N.of_nat (S n) = 256 * 256 ^ N.of_nat n.
Proof. rewrite Nat2N.inj_succ, N.pow_succ_r'. reflexivity. Qed.

Lemma unle_le n x : x < 256 ^ N.of_nat n -> unle (le n x) = x.
Proof.
  revert x. induction n as [|n IH]; intros x H.
  - apply N.lt_1_r in H. symmetry. exact H.
  - rewrite pow256_succ in H. cbn [le unle].
    rewrite IH by (apply N.div_lt_upper_bound; [discriminate|exact H]).
    rewrite N.add_comm. symmetry. apply N.div_mod'.
Qed.

Lemma unle_inj a b :
  Forall byte a -> Forall byte b -> length a = length b -> unle a = unle b -> a = b.
Proof.
  revert b. induction a as [|x a IH]; intros b Ha Hb Hl E.
  - destruct b; [reflexivity|discriminate].
  - destruct b as [|y b]; [discriminate|].
    inversion Ha as [|? ? Hx Ha']; subst. inversion Hb as [|? ? Hy Hb']; subst.
    cbn [unle] in E. cbn [length] in Hl. unfold byte in Hx, Hy.
    assert (Hxy : x = y) by lia. subst y.
    f_equal. apply IH; [assumption|assumption|lia|lia].
Qed.

Lemma unle_lt bs : Forall byte bs -> unle bs < 256 ^ nlen bs.
Proof.
  induction bs as [|b bs IH]; intros H.
  - cbn [unle nlen]. change (256 ^ 0) with 1. lia.
  - inversion H as [|? ? Hb H']; subst. specialize (IH H').
    cbn [unle nlen]. rewrite N.pow_succ_r'. unfold byte in Hb.
    set (p := 256 ^ nlen bs) in *. lia.
Qed.

Lemma unle_le2 x : x < 65536 -> unle (le 2 x) = x.
Proof. intros H. apply unle_le. rewrite pow256_2. exact H. Qed.

Lemma unle_le4 x : x < 4294967296 -> unle (le 4 x) = x.
Proof. intros H. apply unle_le. rewrite pow256_4. exact H. Qed.

Lemma crc32_lt32 bs : Forall byte bs -> crc32 bs < 2 ^ 32.
Proof.
  intros H. unfold crc32. apply lxor_lt32_both; [|exact mask32_lt32].
  apply crc_state_lt32; [exact mask32_lt32|exact H].
Qed.

Lemma crc32_lt bs : Forall byte bs -> crc32 bs < 4294967296.
Proof. intros H. rewrite <- pow2_32. apply crc32_lt32. exact H. Qed.

Lemma land_small_pow2 x n : x < 2 ^ n -> N.land x (2 ^ n) = 0.
Proof.
  intros H. apply N.bits_inj_0. intros m. rewrite N.land_spec, N.pow2_bits_eqb.
  destruct (N.eqb_spec n m) as [->|Hne]; [|apply andb_false_r].
  rewrite andb_true_r.
  destruct (N.eq_dec x 0) as [->|Hz]; [apply N.bits_0|].
  apply N.bits_above_log2. apply N.log2_lt_pow2; [lia|exact H].
Qed.

Lemma lor_small_pow2 x n : x < 2 ^ n -> N.lor x (2 ^ n) = x + 2 ^ n.
Proof.
  intros H. pose proof (land_small_pow2 x n H) as Hl.
  rewrite <- (N.lxor_lor _ _ Hl). symmetry. apply N.add_nocarry_lxor. exact Hl.
Qed.

Lemma lor_delbit x : x < delbit -> N.lor x delbit = x + delbit.
Proof. rewrite delbit_pow. apply lor_small_pow2. Qed.

Lemma vfield_spec r :
  nlen (rv r) < delbit ->
  vfield r mod delbit = nlen (rv r) /\ (delbit <=? vfield r) = rdel r /\ vfield r < 4294967296.
Proof.
  intros H. unfold vfield.
  assert (Hu : u32 (nlen (rv r)) = nlen (rv r)).
  { apply u32_small. rewrite delbit_val in H. lia. }
  rewrite Hu. destruct (rdel r).
  - rewrite (lor_delbit _ H). rewrite delbit_val in *. lia.
  - rewrite N.lor_0_r. rewrite delbit_val in *. lia.
Qed.

Lemma nlen_enc_body r : nlen (enc_body r) = 6 + nlen (rk r) + nlen (rv r).
Proof.
  unfold enc_body. rewrite !nlen_app, !nlen_le.
  change (N.of_nat 2) with 2. change (N.of_nat 4) with 4. lia.
Qed.

Lemma encode_rec_length r : nlen (encode_rec r) = rsize r.
Proof.
  unfold encode_rec, rsize. rewrite nlen_app, nlen_enc_body, nlen_le, rec_overhead_val.
  change (N.of_nat 4) with 4. lia.
Qed.

Lemma enc_body_bytes r : rec_ok r -> Forall byte (enc_body r).
Proof.
  intros (Hk & Hv & _ & _). unfold enc_body.
  apply Forall_app; split; [apply le_bytes|].
  apply Forall_app; split; [apply le_bytes|].
  apply Forall_app; split; assumption.
Qed.

Lemma encode_rec_bytes r : rec_ok r -> Forall byte (encode_rec r).
Proof.
  intros H. unfold encode_rec. apply Forall_app; split; [apply enc_body_bytes; exact H|apply le_bytes].
Qed.

(* decode_next with its lets unfolded and the header fields named *)
Definition hks (bs : bytes) : N := unle (ntake 2 bs).
Definition hw (bs : bytes) : N := unle (ntake 4 (ndrop 2 bs)).
Definition hsize (bs : bytes) : N := rec_overhead + hks bs + hw bs mod delbit.

Definition decode_body (bs : bytes) : dres :=
  if nlen bs <? 6 then DShort else
  if nlen bs <? hsize bs then DShort else
  if negb (unle (ntake 4 (ndrop (hsize bs - 4) bs)) =? crc32 (ntake (hsize bs - 4) bs)) then DCorrupt else
  DOk {| rk := ntake (hks bs) (ndrop 6 bs);
         rv := ntake (hw bs mod delbit) (ndrop (6 + hks bs) bs);
         rdel := delbit <=? hw bs |}
      (hsize bs) (ndrop (hsize bs) bs).

Lemma decode_next_eq bs :
  decode_next bs = match bs with [] => DDone | _ :: _ => decode_body bs end.
Proof. destruct bs; reflexivity. Qed.

Lemma decode_next_nil : decode_next [] = DDone.
Proof. reflexivity. Qed.

Lemma decode_next_nonnil bs : 0 < nlen bs -> decode_next bs = decode_body bs.
Proof.
  intros H. destruct bs as [|x bs]; [cbn [nlen] in H; lia|reflexivity].
Qed.

Lemma decode_body_fits bs :
  6 <= nlen bs -> hsize bs <= nlen bs ->
  decode_body bs =
    if negb (unle (ntake 4 (ndrop (hsize bs - 4) bs)) =? crc32 (ntake (hsize bs - 4) bs)) then DCorrupt else
    DOk {| rk := ntake (hks bs) (ndrop 6 bs);
           rv := ntake (hw bs mod delbit) (ndrop (6 + hks bs) bs);
           rdel := delbit <=? hw bs |}
        (hsize bs) (ndrop (hsize bs) bs).
Proof.
  intros H6 Hs. unfold decode_body.
  rewrite (proj2 (N.ltb_ge (nlen bs) 6) H6), (proj2 (N.ltb_ge (nlen bs) (hsize bs)) Hs).
  reflexivity.
Qed.

Lemma decode_alloc_eq bs :
  decode_alloc bs =
    match bs with
    | [] => 0
    | _ :: _ => if nlen bs <? 6 then 0 else if nlen bs <? hsize bs then 0 else hsize bs
    end.
Proof. destruct bs; reflexivity. Qed.

(* A framed input: 2-byte key size, 4-byte value field, key and value, 4-byte checksum.
   Kept folded wherever lia runs: its last component contains a mod. *)
Definition framed (hk hv kv sum : bytes) : Prop :=
  nlen hk = 2 /\ nlen hv = 4 /\ nlen sum = 4 /\ nlen kv = unle hk + unle hv mod delbit.

Lemma framed_resize hk hv kv sum kv' sum' :
  framed hk hv kv sum -> nlen kv' = nlen kv -> nlen sum' = nlen sum -> framed hk hv kv' sum'.
Proof. intros (Hk & Hv & Hs & Hkv) Ek Es. unfold framed. rewrite Ek, Es. repeat split; assumption. Qed.

(* Where the reader finds the fields, for any split ks + vs of the key-value part. *)
Lemma frame_fields (hk hv kv sum rest : bytes) ks vs :
  nlen hk = 2 -> nlen hv = 4 -> nlen sum = 4 -> nlen kv = ks + vs ->
  forall bs, bs = hk ++ hv ++ kv ++ sum ++ rest ->
  (6 <= nlen bs /\ rec_overhead + ks + vs <= nlen bs) /\
  (ntake 2 bs = hk /\ ntake 4 (ndrop 2 bs) = hv) /\
  (ntake (rec_overhead + ks + vs - 4) bs = hk ++ hv ++ kv /\
   ntake 4 (ndrop (rec_overhead + ks + vs - 4) bs) = sum /\
   ndrop (rec_overhead + ks + vs) bs = rest) /\
  ntake ks (ndrop 6 bs) = ntake ks kv /\ ntake vs (ndrop (6 + ks) bs) = ndrop ks kv.
Proof.
  intros Hk Hv Hs Hkv bs Ebs. rewrite rec_overhead_val.
  assert (L2 : nlen (hk ++ hv) = 6) by (rewrite nlen_app; lia).
  assert (L3 : nlen (hk ++ hv ++ kv) = 10 + ks + vs - 4) by (rewrite !nlen_app; lia).
  assert (L4 : nlen (hk ++ hv ++ kv ++ sum) = 10 + ks + vs) by (rewrite !nlen_app; lia).
  assert (E2 : bs = (hk ++ hv) ++ kv ++ sum ++ rest) by (rewrite Ebs, <- !app_assoc; reflexivity).
  assert (E3 : bs = (hk ++ hv ++ kv) ++ sum ++ rest) by (rewrite Ebs, <- !app_assoc; reflexivity).
  assert (E4 : bs = (hk ++ hv ++ kv ++ sum) ++ rest) by (rewrite Ebs, <- !app_assoc; reflexivity).
  assert (D6 : ndrop 6 bs = kv ++ sum ++ rest) by (rewrite E2; apply ndrop_app_exact'; exact L2).
  repeat split.
  - rewrite E2, nlen_app, L2. lia.
  - rewrite E4, nlen_app, L4. lia.
  - rewrite Ebs. apply ntake_app_exact'. exact Hk.
  - rewrite Ebs. apply field_at; assumption.
  - rewrite E3. apply ntake_app_exact'. exact L3.
  - rewrite E3. apply field_at; assumption.
  - rewrite E4. apply ndrop_app_exact'. exact L4.
  - rewrite D6. apply ntake_app_le. lia.
  - rewrite ndrop_add, D6, ndrop_app_le by lia. apply ntake_app_exact'. rewrite nlen_ndrop. lia.
Qed.

Lemma decode_next_frame hk hv kv sum rest :
  framed hk hv kv sum ->
  decode_next (hk ++ hv ++ kv ++ sum ++ rest) =
    if negb (unle sum =? crc32 (hk ++ hv ++ kv)) then DCorrupt
    else DOk {| rk := ntake (unle hk) kv; rv := ndrop (unle hk) kv; rdel := delbit <=? unle hv |}
             (rec_overhead + nlen kv) rest.
Proof.
  intros (Hk & Hv & Hs & Hkv). remember (hk ++ hv ++ kv ++ sum ++ rest) as bs eqn:Ebs.
  destruct (frame_fields hk hv kv sum rest _ _ Hk Hv Hs Hkv bs Ebs)
    as ((H6 & Hfit) & (T2 & T4) & (Tb & Ts & Dr) & Tk & Tv).
  assert (Hks : hks bs = unle hk) by (unfold hks; rewrite T2; reflexivity).
  assert (Hw : hw bs = unle hv) by (unfold hw; rewrite T4; reflexivity).
  assert (Hsz : hsize bs = rec_overhead + unle hk + unle hv mod delbit).
  { unfold hsize. rewrite Hks, Hw. reflexivity. }
  rewrite decode_next_nonnil by (apply N.lt_le_trans with 6; [reflexivity|exact H6]).
  rewrite decode_body_fits by (rewrite ?Hsz; assumption).
  rewrite Hsz, Hks, Hw, Ts, Tb, Tk, Tv, Dr, <- N.add_assoc, <- Hkv. reflexivity.
Qed.

(* The encoder's output is a frame; its fields stay abstract for the callers. *)
Lemma encode_rec_frame r :
  rec_ok r ->
  exists hk hv kv sum,
    encode_rec r = hk ++ hv ++ kv ++ sum /\ kv = rk r ++ rv r /\ framed hk hv kv sum /\
    unle hk = nlen (rk r) /\ (delbit <=? unle hv) = rdel r /\ unle sum = crc32 (hk ++ hv ++ kv) /\
    Forall byte (hk ++ hv ++ kv) /\ Forall byte sum.
Proof.
  intros Hok. pose proof Hok as (_ & _ & Hkl & Hvl).
  destruct (vfield_spec r Hvl) as (Vm & Vd & Vl).
  assert (Uk : unle (le 2 (u16 (nlen (rk r)))) = nlen (rk r)).
  { rewrite u16_small by exact Hkl. apply unle_le2. exact Hkl. }
  assert (Uv : unle (le 4 (vfield r)) = vfield r) by (apply unle_le4; exact Vl).
  exists (le 2 (u16 (nlen (rk r)))), (le 4 (vfield r)), (rk r ++ rv r), (le 4 (crc32 (enc_body r))).
  split; [unfold encode_rec, enc_body at 1; rewrite <- !app_assoc; reflexivity|].
  split; [reflexivity|].
  split; [repeat split; try apply nlen_le; rewrite Uk, Uv, Vm; apply nlen_app|].
  split; [exact Uk|]. split; [rewrite Uv; exact Vd|].
  split; [apply unle_le4, crc32_lt, enc_body_bytes; exact Hok|].
  split; [exact (enc_body_bytes r Hok)|apply le_bytes].
Qed.

Lemma decode_encode r rest :
  rec_ok r -> decode_next (encode_rec r ++ rest) = DOk r (rsize r) rest.
Proof.
  intros Hok.
  destruct (encode_rec_frame r Hok) as (hk & hv & kv & sum & E & Ekv & F & Uk & Ud & Us & _).
  rewrite E, <- !app_assoc, (decode_next_frame _ _ _ _ _ F), Us, N.eqb_refl. cbn [negb].
  rewrite Uk, Ud, Ekv, ntake_app_exact, ndrop_app_exact, nlen_app.
  unfold rsize. rewrite N.add_assoc. destruct r; reflexivity.
Qed.

Lemma hsize_ge bs : 10 <= hsize bs.
Proof. unfold hsize. rewrite rec_overhead_val, <- N.add_assoc. apply N.le_add_r. Qed.

(* Any input of at least n >= 10 bytes, cut as a frame of size n. *)
Lemma cut_frame (bs : bytes) n :
  10 <= n -> n <= nlen bs ->
  exists hk hv kv sum rest,
    bs = hk ++ hv ++ kv ++ sum ++ rest /\ nlen hk = 2 /\ nlen hv = 4 /\ nlen sum = 4 /\
    nlen kv = n - 10 /\ hk = ntake 2 bs /\ hv = ntake 4 (ndrop 2 bs).
Proof.
  intros Hge Hn.
  exists (ntake 2 bs), (ntake 4 (ndrop 2 bs)), (ntake (n - 10) (ndrop 6 bs)),
         (ntake 4 (ndrop (n - 4) bs)), (ndrop n bs).
  assert (E2 : ndrop 2 bs = ntake 4 (ndrop 2 bs) ++ ndrop 6 bs).
  { change 6 with (2 + 4). rewrite ndrop_add. symmetry. apply ntake_ndrop_id. }
  assert (E3 : ndrop 6 bs = ntake (n - 10) (ndrop 6 bs) ++ ndrop (n - 4) bs).
  { replace (n - 4) with (6 + (n - 10)) by lia.
    rewrite (ndrop_add 6). symmetry. apply ntake_ndrop_id. }
  assert (E4 : ndrop (n - 4) bs = ntake 4 (ndrop (n - 4) bs) ++ ndrop n bs).
  { replace n with (n - 4 + 4) at 3 by lia. rewrite ndrop_add. symmetry. apply ntake_ndrop_id. }
  split; [rewrite <- E4, <- E3, <- E2; symmetry; apply ntake_ndrop_id|].
  rewrite !nlen_ntake, !nlen_ndrop. repeat split; lia.
Qed.

Lemma frame_split bs :
  6 <= nlen bs -> hsize bs <= nlen bs ->
  exists hk hv kv sum rest, bs = hk ++ hv ++ kv ++ sum ++ rest /\ framed hk hv kv sum.
Proof.
  intros _ Hs.
  destruct (cut_frame bs (hsize bs) (hsize_ge bs) Hs)
    as (hk & hv & kv & sum & rest & E & Lk & Lv & Ls & Lkv & -> & ->).
  exists (ntake 2 bs), (ntake 4 (ndrop 2 bs)), kv, sum, rest.
  split; [exact E|]. repeat split; try assumption.
  rewrite Lkv. unfold hsize. rewrite rec_overhead_val, <- N.add_assoc, N.add_comm. apply N.add_sub.
Qed.

Lemma decode_next_ok_fits bs r len rest :
  decode_next bs = DOk r len rest -> 6 <= nlen bs /\ hsize bs <= nlen bs /\ len = hsize bs.
Proof.
  intros H. rewrite decode_next_eq in H. destruct bs as [|x bs0]; [discriminate|].
  unfold decode_body in H.
  destruct (nlen (x :: bs0) <? 6) eqn:E6; [discriminate|].
  destruct (nlen (x :: bs0) <? hsize (x :: bs0)) eqn:Es; [discriminate|].
  apply N.ltb_ge in E6. apply N.ltb_ge in Es.
  destruct (negb _); [discriminate|].
  injection H as _ Hl _. auto.
Qed.

Lemma nlen_split_at {A} (l : list A) a b :
  nlen l = a + b -> nlen (ntake a l) = a /\ nlen (ndrop a l) = b.
Proof. intros H. rewrite nlen_ntake, nlen_ndrop. lia. Qed.

Lemma decode_next_ok_frame bs r len rest :
  decode_next bs = DOk r len rest ->
  exists hk hv sum,
    bs = hk ++ hv ++ (rk r ++ rv r) ++ sum ++ rest /\
    nlen hk = 2 /\ nlen hv = 4 /\ nlen sum = 4 /\
    unle hk = nlen (rk r) /\ unle hv mod delbit = nlen (rv r) /\
    rdel r = (delbit <=? unle hv) /\
    unle sum = crc32 (hk ++ hv ++ rk r ++ rv r) /\
    len = rec_overhead + nlen (rk r) + nlen (rv r).
Proof.
  intros H. destruct (decode_next_ok_fits _ _ _ _ H) as (H6 & Hs & _).
  destruct (frame_split bs H6 Hs) as (hk & hv & kv & sum & rest' & Ebs & F).
  subst bs. rewrite (decode_next_frame _ _ _ _ _ F) in H. destruct F as (Lk & Lv & Ls & Lkv).
  destruct (unle sum =? crc32 (hk ++ hv ++ kv)) eqn:Ec; cbn [negb] in H; [|discriminate].
  apply N.eqb_eq in Ec. injection H as Hr Hl Hrest. subst r len rest'. cbn [rk rv rdel].
  destruct (nlen_split_at kv _ _ Lkv) as (La & Lb).
  exists hk, hv, sum. rewrite ntake_ndrop_id, La, Lb.
  repeat split; try assumption; try reflexivity.
  rewrite <- N.add_assoc, <- Lkv. reflexivity.
Qed.

Lemma decode_next_ok_inv bs r len rest :
  decode_next bs = DOk r len rest -> 10 <= len /\ nlen bs = len + nlen rest /\ rest = ndrop len bs.
Proof.
  intros H.
  destruct (decode_next_ok_frame _ _ _ _ H) as (hk & hv & sum & Ebs & Lk & Lv & Ls & _ & _ & _ & _ & Hl).
  rewrite rec_overhead_val in Hl.
  split; [lia|]. split.
  - rewrite Ebs, !nlen_app. lia.
  - replace bs with ((hk ++ hv ++ (rk r ++ rv r) ++ sum) ++ rest)
      by (rewrite Ebs, <- !app_assoc; reflexivity).
    symmetry. apply ndrop_app_exact'. rewrite !nlen_app. lia.
Qed.

(* The accepted record is a self-contained frame at the front of the input. *)
Lemma decode_next_ok_chunk bs r len rest :
  decode_next bs = DOk r len rest ->
  exists c, bs = c ++ rest /\ nlen c = len /\ decode_next c = DOk r (nlen c) [].
Proof.
  intros H.
  destruct (decode_next_ok_frame _ _ _ _ H)
    as (hk & hv & sum & Ebs & Lk & Lv & Ls & Uk & Uv & Hd & Hc & Hl).
  assert (F : framed hk hv (rk r ++ rv r) sum).
  { repeat split; try assumption. rewrite Uk, Uv. apply nlen_app. }
  clear Uv. exists (hk ++ hv ++ (rk r ++ rv r) ++ sum).
  assert (Lc : nlen (hk ++ hv ++ (rk r ++ rv r) ++ sum) = len).
  { rewrite Hl, rec_overhead_val, !nlen_app. lia. }
  split; [rewrite Ebs, <- !app_assoc; reflexivity|]. split; [exact Lc|].
  rewrite Lc, <- (app_nil_r sum), (decode_next_frame _ _ _ _ _ F), Hc, N.eqb_refl. cbn [negb].
  rewrite Uk, ntake_app_exact, ndrop_app_exact, <- Hd, nlen_app, N.add_assoc, <- Hl.
  destruct r; reflexivity.
Qed.

Lemma decode_next_ok_shorter bs r len rest :
  decode_next bs = DOk r len rest -> (length rest < length bs)%nat.
Proof.
  intros H. destruct (decode_next_ok_inv _ _ _ _ H) as (H10 & Hl & _).
  rewrite !nlen_length in Hl. lia.
Qed.

Lemma parse_fuel_indep f1 : forall f2 bs,
  (length bs < f1)%nat -> (length bs < f2)%nat -> parse_fuel f1 bs = parse_fuel f2 bs.
Proof.
  induction f1 as [|f1 IH]; intros f2 bs H1 H2; [lia|].
  destruct f2 as [|f2]; [lia|].
  cbn [parse_fuel]. destruct (decode_next bs) as [| | |r len rest] eqn:E; try reflexivity.
  pose proof (decode_next_ok_shorter _ _ _ _ E) as Hs.
  rewrite (IH f2 rest) by lia. reflexivity.
Qed.

Lemma parse_fuel_enough fuel bs : (length bs < fuel)%nat -> parse_fuel fuel bs = parse_tail bs.
Proof. intros H. unfold parse_tail. apply parse_fuel_indep; lia. Qed.

Lemma parse_tail_step bs :
  parse_tail bs =
    match decode_next bs with
    | DDone => ([], 0, SEnd)
    | DShort => ([], 0, SShort)
    | DCorrupt => ([], 0, SCorrupt)
    | DOk r len rest => let '(rs, n, why) := parse_tail rest in (r :: rs, len + n, why)
    end.
Proof.
  unfold parse_tail at 1. cbn [parse_fuel].
  destruct (decode_next bs) as [| | |r len rest] eqn:E; try reflexivity.
  rewrite parse_fuel_enough by (apply (decode_next_ok_shorter _ _ _ _ E)). reflexivity.
Qed.

(* Induction over the records the reader accepts; the fuel does not show. *)
Lemma parse_tail_ind (P : bytes -> list rec * N * stop -> Prop) :
  (forall bs why, why <> SFuel -> P bs ([], 0, why)) ->
  (forall bs r len rest rs n why,
     decode_next bs = DOk r len rest -> P rest (rs, n, why) -> P bs (r :: rs, len + n, why)) ->
  forall bs, P bs (parse_tail bs).
Proof.
  intros Hstop Hok bs. remember (length bs) as m eqn:Em. revert bs Em.
  induction m as [m IH] using lt_wf_ind. intros bs ->. rewrite parse_tail_step.
  destruct (decode_next bs) as [| | |r len rest] eqn:E; try (apply Hstop; discriminate).
  specialize (IH _ (decode_next_ok_shorter _ _ _ _ E) rest eq_refl).
  destruct (parse_tail rest) as [[rs n] why]. exact (Hok _ _ _ _ _ _ _ E IH).
Qed.

Theorem parse_no_fuel bs : snd (parse_tail bs) <> SFuel.
Proof.
  apply (parse_tail_ind (fun _ res => snd res <> SFuel)).
  - intros _ why H. exact H.
  - intros bs' r len rest rs n why _ H. exact H.
Qed.

Lemma empty_tail : parse_tail [] = ([], 0, SEnd).
Proof. reflexivity. Qed.

(* Valid records are all accepted. *)
Theorem parse_valid_prefix rs tail :
  Forall rec_ok rs ->
  parse_tail (concat (map encode_rec rs) ++ tail) =
    let '(rs', n', why) := parse_tail tail in
    (rs ++ rs', nlen (concat (map encode_rec rs)) + n', why).
Proof.
  induction rs as [|r rs IH]; intros H.
  - cbn [map concat app nlen]. destruct (parse_tail tail) as [[rs' n'] why]. reflexivity.
  - inversion H as [|? ? Hr Hrs]; subst.
    cbn [map concat]. rewrite <- app_assoc.
    rewrite parse_tail_step, decode_encode by exact Hr.
    rewrite (IH Hrs). destruct (parse_tail tail) as [[rs' n'] why].
    rewrite nlen_app, encode_rec_length, N.add_assoc. reflexivity.
Qed.

Corollary parse_valid rs :
  Forall rec_ok rs ->
  parse_tail (concat (map encode_rec rs)) = (rs, nlen (concat (map encode_rec rs)), SEnd).
Proof.
  intros H. pose proof (parse_valid_prefix rs [] H) as P.
  rewrite app_nil_r, empty_tail in P. rewrite P, app_nil_r, N.add_0_r. reflexivity.
Qed.

(* The reader consumes only what is there, and invents nothing. *)
Theorem parse_len_le bs : let '(rs, n, why) := parse_tail bs in n <= nlen bs.
Proof.
  apply (parse_tail_ind (fun bs res => let '(rs, n, why) := res in n <= nlen bs)).
  - intros bs' _ _. apply N.le_0_l.
  - intros bs' r len rest rs n why E IH.
    destruct (decode_next_ok_inv _ _ _ _ E) as (_ & -> & _). apply N.add_le_mono_l. exact IH.
Qed.

Theorem parse_accepts_only_crc_valid bs rs n why :
  parse_tail bs = (rs, n, why) ->
  exists chunks, ntake n bs = concat chunks /\ length chunks = length rs /\
    Forall2 (fun c r => decode_next c = DOk r (nlen c) []) chunks rs.
Proof.
  intros H.
  set (P := fun (bs : bytes) (res : list rec * N * stop) => let '(rs, n, _) := res in
    exists chunks, ntake n bs = concat chunks /\ length chunks = length rs /\
      Forall2 (fun c r => decode_next c = DOk r (nlen c) []) chunks rs).
  change (P bs (rs, n, why)). rewrite <- H. apply (parse_tail_ind P); unfold P.
  - intros bs' _ _. exists []. split; [apply ntake_0|]. split; [reflexivity|constructor].
  - intros bs' r len rest rs' n' _ E (chunks & Hc & Hl & HF).
    destruct (decode_next_ok_chunk _ _ _ _ E) as (c & -> & <- & Dc).
    exists (c :: chunks). split; [rewrite ntake_app_add, Hc; reflexivity|].
    split; [cbn [length]; rewrite Hl; reflexivity|constructor; assumption].
Qed.

(* An incomplete record at the end of the file is reported as short. *)
Lemma hsize_prefix a b : ntake 6 a = ntake 6 b -> hsize a = hsize b.
Proof.
  intros H.
  assert (Hk : forall l : bytes, ntake 2 l = ntake 2 (ntake 6 l)).
  { intros l. rewrite ntake_ntake. reflexivity. }
  assert (Hv : forall l : bytes, ntake 4 (ndrop 2 l) = ndrop 2 (ntake 6 l)).
  { intros l. rewrite (ntake_ndrop 2 4 l). reflexivity. }
  unfold hsize, hks, hw. rewrite (Hk a), (Hk b), (Hv a), (Hv b), H. reflexivity.
Qed.

Lemma hsize_encode r rest : rec_ok r -> hsize (encode_rec r ++ rest) = rsize r.
Proof.
  intros H. pose proof (decode_encode r rest H) as D.
  destruct (decode_next_ok_fits _ _ _ _ D) as (_ & _ & Hl). symmetry. exact Hl.
Qed.

Theorem strict_prefix_rejected r c :
  rec_ok r -> 0 < c -> c < rsize r -> parse_tail (ntake c (encode_rec r)) = ([], 0, SShort).
Proof.
  intros Hok H0 Hc. set (bs := ntake c (encode_rec r)).
  assert (Hl : nlen bs = c) by (unfold bs; rewrite nlen_ntake, encode_rec_length; lia).
  assert (D : decode_next bs = DShort).
  { rewrite decode_next_nonnil by lia. unfold decode_body.
    destruct (nlen bs <? 6) eqn:E6; [reflexivity|]. apply N.ltb_ge in E6.
    assert (Hs : hsize bs = rsize r).
    { rewrite <- (hsize_encode r [] Hok). apply hsize_prefix. rewrite app_nil_r.
      unfold bs. rewrite ntake_ntake. f_equal. lia. }
    rewrite Hs, (proj2 (N.ltb_lt (nlen bs) (rsize r))) by lia. reflexivity. }
  rewrite parse_tail_step, D. reflexivity.
Qed.

(* A changed byte in the key, value or checksum is detected. *)
Lemma reassoc_body {A} (h1 h2 p : list A) c e s t :
  (((h1 ++ h2) ++ p) ++ c :: (e ++ s)) ++ t = h1 ++ h2 ++ (p ++ c :: e) ++ s ++ t.
Proof. rewrite <- !app_assoc. cbn [app]. rewrite <- !app_assoc. reflexivity. Qed.

Lemma reassoc_sum {A} (h1 h2 k e : list A) c p t :
  (((h1 ++ h2) ++ k ++ e) ++ c :: p) ++ t = h1 ++ h2 ++ k ++ (e ++ c :: p) ++ t.
Proof. rewrite <- !app_assoc. reflexivity. Qed.

Theorem one_byte_change_rejected r pre b c post rest :
  rec_ok r -> encode_rec r = pre ++ b :: post -> 6 <= nlen pre -> byte c -> c <> b ->
  decode_next ((pre ++ c :: post) ++ rest) = DCorrupt.
Proof.
  intros Hok E Hpre Hc Hne.
  destruct (encode_rec_frame r Hok) as (hk & hv & kv & sum & Eenc & _ & F & _ & _ & Us & Bb & Bs).
  pose proof F as (Lk & Lv & Ls & _).
  rewrite Eenc, app_assoc in E. clear Eenc.
  destruct (app_eq_split _ _ _ _ E) as (pre' & Epre & Etl); [rewrite nlen_app; lia|].
  subst pre. clear E.
  destruct (N.lt_ge_cases (nlen pre') (nlen kv)) as [Hlt|Hge].
  - (* the changed byte is in the key or value *)
    assert (E' : (pre' ++ [b]) ++ post = kv ++ sum).
    { rewrite <- app_assoc. symmetry. exact Etl. }
    destruct (app_eq_split _ _ _ _ E') as (e & Ekv & Epost);
      [rewrite nlen_app; cbn [nlen]; lia|].
    subst post kv. rewrite reassoc_body.
    rewrite decode_next_frame
      by (apply (framed_resize _ _ _ _ _ _ F); [rewrite !nlen_app, !nlen_cons, nlen_nil; lia|reflexivity]).
    destruct (N.eqb_spec (unle sum) (crc32 (hk ++ hv ++ pre' ++ c :: e))) as [Heq|Hneq];
      [|reflexivity].
    exfalso. rewrite Us, <- !app_assoc, !app_assoc in Heq. cbn [app] in Heq.
    rewrite <- !app_assoc, !(app_assoc hk), !(app_assoc (hk ++ hv)) in Bb.
    apply Forall_app in Bb. destruct Bb as (Bp & Bbe).
    inversion Bbe as [|? ? Hb Be]; subst.
    apply (crc32_one_byte_change ((hk ++ hv) ++ pre') b c e); try assumption; [congruence|].
    rewrite <- (app_assoc _ [b] e) in Heq. exact Heq.
  - (* the changed byte is in the checksum *)
    destruct (app_eq_split _ _ _ _ Etl) as (e & Epre & Esum); [exact Hge|].
    subst pre'. rewrite reassoc_sum.
    assert (Ls' : nlen (e ++ c :: post) = nlen sum).
    { rewrite Esum, !nlen_app, !nlen_cons. reflexivity. }
    rewrite decode_next_frame by (apply (framed_resize _ _ _ _ _ _ F); [reflexivity|exact Ls']).
    destruct (N.eqb_spec (unle (e ++ c :: post)) (crc32 (hk ++ hv ++ kv))) as [Heq|Hneq];
      [|reflexivity].
    exfalso. rewrite <- Us in Heq.
    assert (Bs' : Forall byte (e ++ c :: post)).
    { rewrite Esum in Bs. apply Forall_app in Bs. destruct Bs as (Be & Bbp).
      inversion Bbp; subst. apply Forall_app; split; [exact Be|]. constructor; assumption. }
    apply unle_inj in Heq; [| exact Bs' | exact Bs | apply nlen_eq_length; exact Ls' ].
    rewrite Esum in Heq. apply app_inv_head in Heq. congruence.
Qed.

Corollary parse_one_byte_change_rejected rs1 r pre b c post rest :
  Forall rec_ok rs1 ->
  rec_ok r -> encode_rec r = pre ++ b :: post -> 6 <= nlen pre -> byte c -> c <> b ->
  parse_tail (concat (map encode_rec rs1) ++ (pre ++ c :: post) ++ rest) =
    (rs1, nlen (concat (map encode_rec rs1)), SCorrupt).
Proof.
  intros Hrs Hok E Hpre Hc Hne.
  rewrite (parse_valid_prefix rs1 _ Hrs).
  rewrite (parse_tail_step ((pre ++ c :: post) ++ rest)).
  rewrite (one_byte_change_rejected r pre b c post rest Hok E Hpre Hc Hne).
  rewrite app_nil_r, N.add_0_r. reflexivity.
Qed.

(* Cost (C19): the reader never allocates more than the bytes present. *)
Theorem decode_alloc_le bs : decode_alloc bs <= nlen bs.
Proof.
  rewrite decode_alloc_eq. destruct bs as [|x bs0]; [cbn [nlen]; lia|].
  destruct (nlen (x :: bs0) <? 6) eqn:E6; [lia|].
  destruct (nlen (x :: bs0) <? hsize (x :: bs0)) eqn:Es; [lia|].
  apply N.ltb_ge in Es. exact Es.
Qed.

Lemma decode_alloc_ok bs r len rest : decode_next bs = DOk r len rest -> decode_alloc bs = len.
Proof.
  intros H. destruct (decode_next_ok_fits _ _ _ _ H) as (H6 & Hs & Hl).
  rewrite decode_alloc_eq. destruct bs as [|x bs0]; [cbn [nlen] in H6; lia|].
  rewrite (proj2 (N.ltb_ge _ _) H6), (proj2 (N.ltb_ge _ _) Hs). symmetry. exact Hl.
Qed.

Theorem parse_alloc_le fuel : forall bs, parse_alloc fuel bs <= nlen bs.
Proof.
  induction fuel as [|f IH]; intros bs; cbn [parse_alloc]; [lia|].
  destruct (decode_next bs) as [| | |r len rest] eqn:E;
    try (pose proof (decode_alloc_le bs); lia).
  rewrite (decode_alloc_ok _ _ _ _ E).
  destruct (decode_next_ok_inv _ _ _ _ E) as (_ & Hl & _).
  specialize (IH rest). lia.
Qed.

Lemma parse_alloc_indep f1 : forall f2 bs,
  (length bs < f1)%nat -> (length bs < f2)%nat -> parse_alloc f1 bs = parse_alloc f2 bs.
Proof.
  induction f1 as [|f1 IH]; intros f2 bs H1 H2; [lia|].
  destruct f2 as [|f2]; [lia|].
  cbn [parse_alloc]. destruct (decode_next bs) as [| | |r len rest] eqn:E; try reflexivity.
  pose proof (decode_next_ok_shorter _ _ _ _ E) as Hs.
  rewrite (IH f2 rest) by lia. reflexivity.
Qed.

Theorem parse_alloc_enough fuel bs :
  (length bs < fuel)%nat -> parse_alloc fuel bs = parse_alloc (S (length bs)) bs.
Proof. intros H. apply parse_alloc_indep; lia. Qed.

Lemma nlen_signature : nlen signature = 8.
Proof. reflexivity. Qed.

Lemma nlen_header_bytes : nlen header_bytes = 512.
Proof. vm_compute. reflexivity. Qed.

Lemma header_ok_header rest : header_ok (header_bytes ++ rest) = true.
Proof.
  unfold header_ok, header_bytes. rewrite <- app_assoc.
  rewrite (ntake_app_exact' 8 signature _ nlen_signature).
  apply key_eqb_refl.
Qed.

Lemma parse_file_framed hb body :
  nlen hb = header_size -> header_ok (hb ++ body) = true ->
  parse_file (hb ++ body) = Some (parse_tail body).
Proof.
  intros L H. unfold parse_file. rewrite H, (ndrop_app_exact' _ _ _ L), nlen_app, L.
  unfold header_size. rewrite (proj2 (N.eqb_neq _ 0)), (proj2 (N.ltb_ge _ 512)) by lia. reflexivity.
Qed.

Theorem parse_file_valid rs tail :
  Forall rec_ok rs ->
  parse_file (header_bytes ++ concat (map encode_rec rs) ++ tail) =
    Some (let '(rs', n', why) := parse_tail tail in
          (rs ++ rs', nlen (concat (map encode_rec rs)) + n', why)).
Proof.
  intros H. rewrite parse_file_framed, (parse_valid_prefix rs tail H);
    [reflexivity|exact nlen_header_bytes|apply header_ok_header].
Qed.

Print Assumptions decode_encode.
Print Assumptions parse_valid_prefix.
Print Assumptions one_byte_change_rejected.
Print Assumptions parse_alloc_le.
Print Assumptions strict_prefix_rejected.
