(* C07: concurrent HISTORIES (call and return events) and their LINEARIZABILITY (Herlihy & Wing 1990),
   for executions made of atomic actions; instantiated for pogreb.
   Given: every operation's critical section is ONE atomic action on the shared state (ShapeCheck / Conc /
   the RWMutex assumption, see props/C07.v), and any SEQUENCE of atomic actions behaves like the plain
   map (DBSim.C01_chain_refines_map, DBRun.C01_chain_refines_map_with_compact, DBProofsCompact.creach_ok).
   Here: threads, call / action / return events, histories, the definition of linearizability, and the
   theorem that links the two, for any state machine with a simulation towards a specification that
   guarded actions and background actions preserve: the operations whose action has happened, in the
   order of their actions, are a linearization.
   Threads are numbers; an operation is a Call event, one atomic action (EAct) and a Ret event; EBg is a
   background action that belongs to no call.  Operation ids (thread, number of returns of the thread
   so far) are not part of the events: [hist] computes them, and exec_hist_wf shows that they identify
   operations.  Operations without a return MAY be in a linearization, with any result.
   Instances: whole operations, Compact included, on the chain-index database (C07_linearizable; its
   side conditions are stated on the flat shadow run, as in DBRun, not as guards); compaction in
   micro-steps as background actions restricted by a relation, not as a thread: they have no call, no
   return and no result, and the compactor runs for ever (C07_linearizable_microsteps).
   Sensitivity: [sexec] splits every action into two instants.  With Get's index lookup and log read
   separated, a whole Compact in between makes the read fail (OBroken 3; in Go a read of a removed
   segment) and the history has no linearization, even when the failed read counts as "not found"
   ([lenient]).  The simpler variant "Get reads the state at its Call" IS linearizable (the Call lies
   between call and return), hence the split.
   Not covered: Backup and iterator calls (Items is the atomic scan of DBSim; the bucket-by-bucket
   iterator of C11 is deliberately not atomic and not an operation here), Close and Open as operations
   of a history, operations that fail the side conditions (rejected Puts), fairness / progress (pending
   operations are allowed for ever), crash events inside a history.  That an operation's critical
   section IS one atomic action of the Go code is props/C07.v (C07_accesses_guarded,
   C07_no_conflicting_accesses) plus the trusted RWMutex. *)
From Coq Require Import List Arith Lia NArith Permutation.
From Pogreb Require Import Base BaseLemmas Record Flat Index Spec DB DBInv DBLemmas DBProofsOps DBMeta
  DBProofsCompact DBSim DBRun.

(* [a] occurs at a position of [l] that precedes a position of [b] *)
Definition before {X} (l : list X) (a b : X) : Prop :=
  exists i j, (i < j)%nat /\ nth_error l i = Some a /\ nth_error l j = Some b.

Lemma before_in_l {X} (l : list X) a b : before l a b -> In a l.
Proof. intros (i & j & _ & Hi & _). exact (nth_error_In l i Hi). Qed.

Lemma before_in_r {X} (l : list X) a b : before l a b -> In b l.
Proof. intros (i & j & _ & _ & Hj). exact (nth_error_In l j Hj). Qed.

Lemma before_app_l {X} (l l' : list X) a b : before l a b -> before (l ++ l') a b.
Proof.
  intros (i & j & Hij & Hi & Hj). exists i, j. split; [exact Hij|].
  split; (rewrite nth_error_app1; [assumption|apply nth_error_Some; congruence]).
Qed.

Lemma before_app {X} (l1 l2 : list X) a b : In a l1 -> In b l2 -> before (l1 ++ l2) a b.
Proof.
  intros Ha Hb. apply In_nth_error in Ha. destruct Ha as [i Hi].
  apply In_nth_error in Hb. destruct Hb as [j Hj].
  assert (Hlt : (i < length l1)%nat) by (apply nth_error_Some; congruence).
  exists i, (length l1 + j)%nat. split; [lia|]. split.
  - rewrite nth_error_app1; assumption.
  - rewrite nth_error_app2 by lia. rewrite Nat.add_comm, Nat.add_sub. exact Hj.
Qed.

Lemma before_snoc_in {X} (l : list X) a b : In a l -> before (l ++ [b]) a b.
Proof. intros H. apply before_app; [exact H|left; reflexivity]. Qed.

Lemma before_snoc_inv {X} (l : list X) z a b :
  before (l ++ [z]) a b -> before l a b \/ (In a l /\ b = z).
Proof.
  intros (i & j & Hij & Hi & Hj).
  assert (Hjlt : (j < length (l ++ [z]))%nat) by (apply nth_error_Some; congruence).
  rewrite app_length in Hjlt. cbn [length] in Hjlt.
  destruct (Nat.lt_ge_cases j (length l)) as [Hlt|Hge].
  - left. exists i, j. split; [exact Hij|].
    rewrite nth_error_app1 in Hi by lia. rewrite nth_error_app1 in Hj by lia. split; assumption.
  - right. assert (E : j = length l) by lia. subst j.
    rewrite nth_error_app1 in Hi by lia. rewrite nth_error_app2 in Hj by lia.
    rewrite Nat.sub_diag in Hj. cbn [nth_error] in Hj.
    split; [exact (nth_error_In _ _ Hi)|congruence].
Qed.

Lemma before_asym {X} (l : list X) a b : NoDup l -> before l a b -> before l b a -> False.
Proof.
  intros Hnd (i & j & Hij & Hi & Hj) (i' & j' & Hij' & Hi' & Hj').
  pose proof (proj1 (NoDup_nth_error l) Hnd) as Hinj.
  assert (E1 : i = j') by (apply Hinj; [apply nth_error_Some; congruence|congruence]).
  assert (E2 : j = i') by (apply Hinj; [apply nth_error_Some; congruence|congruence]).
  lia.
Qed.

Lemma in_snoc_inv {X} (l : list X) x y : In x (l ++ [y]) -> In x l \/ y = x.
Proof. intros H. apply in_app_or in H. destruct H as [H|[H|[]]]; auto. Qed.

Lemma lz_Forall2_snoc {X Y} (R : X -> Y -> Prop) l1 l2 a b :
  Forall2 R l1 l2 -> R a b -> Forall2 R (l1 ++ [a]) (l2 ++ [b]).
Proof.
  intros H Hab. apply Forall2_app; [exact H|]. constructor; [exact Hab|constructor].
Qed.

Lemma lz_nth_error_map_inv {X Y} (f : X -> Y) l n y :
  nth_error (map f l) n = Some y -> exists x, nth_error l n = Some x /\ f x = y.
Proof.
  rewrite nth_error_map. destruct (nth_error l n) as [x|]; cbn [option_map]; [|discriminate].
  intros E. exists x. split; [reflexivity|congruence].
Qed.

Lemma before_map_split {X Y} (f : X -> Y) l a b :
  before (map f l) a b ->
  exists l1 x l2 y l3, l = (l1 ++ x :: l2) ++ y :: l3 /\ f x = a /\ f y = b.
Proof.
  intros (i & j & Hij & Hi & Hj).
  destruct (lz_nth_error_map_inv f l i a Hi) as (x & Hx & Ex).
  destruct (lz_nth_error_map_inv f l j b Hj) as (y & Hy & Ey).
  destruct (nth_error_split l i Hx) as (l1 & l' & -> & <-).
  rewrite nth_error_app2 in Hy by lia.
  replace (j - length l1)%nat with (S (j - S (length l1))) in Hy by lia. cbn [nth_error] in Hy.
  destruct (nth_error_split l' _ Hy) as (l2 & l3 & -> & _).
  exists l1, x, l2, y, l3. rewrite app_comm_cons, app_assoc. auto.
Qed.

Definition lz_is_some {X} (o : option X) : bool := match o with Some _ => true | None => false end.

(* an option-valued checker [stepf], folded over a list, is sound for a relation closed under
   adding one checked element at the end *)
Section RunOpt.
Context {C E : Type} (stepf : C -> E -> option C).

Fixpoint run_opt (c : C) (es : list E) : option C :=
  match es with
  | [] => Some c
  | e :: es' => match stepf c e with Some c' => run_opt c' es' | None => None end
  end.

Lemma run_opt_sound (R : list E -> C -> Prop) :
  (forall es c e c', R es c -> stepf c e = Some c' -> R (es ++ [e]) c') ->
  forall es' es c c', R es c -> run_opt c es' = Some c' -> R (es ++ es') c'.
Proof.
  intros Hsnoc. induction es' as [|e es' IH]; intros es c c' Hx Hr; cbn [run_opt] in Hr.
  - injection Hr as <-. rewrite app_nil_r. exact Hx.
  - destruct (stepf c e) as [c1|] eqn:E1; [|discriminate].
    rewrite (app_assoc es [e] es' : es ++ e :: es' = _).
    exact (IH _ c1 c' (Hsnoc es c e c1 Hx E1) Hr).
Qed.
End RunOpt.

(* the per-thread tables are functions on thread numbers *)
Definition upd {X} (f : nat -> X) (t : nat) (x : X) : nat -> X :=
  fun u => if Nat.eqb u t then x else f u.

Section SeqRun.
Context {X O R : Type} (f : X -> O -> X * R).

Fixpoint seq_run (x : X) (l : list O) : list R :=
  match l with
  | [] => []
  | o :: l' => snd (f x o) :: seq_run (fst (f x o)) l'
  end.
Definition seq_final (x : X) (l : list O) : X := fold_left (fun x o => fst (f x o)) l x.

Lemma seq_final_app x l1 l2 : seq_final x (l1 ++ l2) = seq_final (seq_final x l1) l2.
Proof. apply fold_left_app. Qed.

Lemma seq_run_app l1 : forall x l2, seq_run x (l1 ++ l2) = seq_run x l1 ++ seq_run (seq_final x l1) l2.
Proof.
  induction l1 as [|o l1 IH]; intros x l2; cbn [app seq_run]; [reflexivity|].
  rewrite IH. reflexivity.
Qed.

(* the result at one position of a run that is related elementwise to the list [zs1 ++ z :: zs2] *)
Lemma seq_run_mid {Z} (req : Z -> R -> Prop) l1 : forall x zs1 z zs2 o l2,
  length zs1 = length l1 -> Forall2 req (zs1 ++ z :: zs2) (seq_run x (l1 ++ o :: l2)) ->
  req z (snd (f (seq_final x l1) o)).
Proof.
  induction l1 as [|o1 l1 IH]; intros x [|z1 zs1] z zs2 o l2 Hl H; try discriminate Hl;
    cbn [app seq_run] in H; inversion H; subst; [assumption|].
  apply (IH _ zs1 z zs2 o l2); [exact (eq_add_S _ _ Hl)|assumption].
Qed.
End SeqRun.

Definition opid := (nat * nat)%type.   (* (t, k): the k-th operation (from 0) of thread t *)

Section Generic.
Local Open Scope nat_scope.
Variables (St Op Res : Type).
Variable step : St -> Op -> St * Res.        (* the atomic action of an operation *)
Variable guard : St -> Op -> Prop.           (* side condition of an action (True if none) *)
Variable bg : St -> St -> Prop.              (* background actions that belong to no call *)

Inductive event :=
| ECall (t : nat) (o : Op)      (* thread t calls o *)
| EAct (t : nat)                (* the atomic action of t's pending operation happens *)
| ERet (t : nat) (r : Res)      (* t's operation returns r *)
| EBg.                          (* a background action *)

Inductive tstat := TIdle | TCalled (o : Op) | TActed (o : Op) (r : Res).
Record config := mkc { c_s : St; c_t : nat -> tstat }.
Definition init (s : St) : config := mkc s (fun _ => TIdle).

Inductive estep : config -> event -> config -> Prop :=
| es_call c t o : c_t c t = TIdle ->
    estep c (ECall t o) (mkc (c_s c) (upd (c_t c) t (TCalled o)))
| es_act c t o : c_t c t = TCalled o -> guard (c_s c) o ->
    estep c (EAct t) (mkc (fst (step (c_s c) o)) (upd (c_t c) t (TActed o (snd (step (c_s c) o)))))
| es_ret c t o r : c_t c t = TActed o r ->
    estep c (ERet t r) (mkc (c_s c) (upd (c_t c) t TIdle))
| es_bg c s' : bg (c_s c) s' ->
    estep c EBg (mkc s' (c_t c)).

(* [exec s0 es c]: from the shared state s0 with every thread idle, the events es (oldest first) lead
   to c.  Threads may be left pending (called, or acted but not returned). *)
Inductive exec (s0 : St) : list event -> config -> Prop :=
| exec_nil : exec s0 [] (init s0)
| exec_snoc es c e c' : exec s0 es c -> estep c e c' -> exec s0 (es ++ [e]) c'.

(* the history of an execution: its Call and Ret events, labelled with operation ids *)
Inductive hev := HCall (i : opid) (o : Op) | HRet (i : opid) (r : Res).

Record view := mkv {
  v_n : nat -> nat;                   (* operations of the thread that have returned *)
  v_p : nat -> option Op;             (* the operation of the thread's last call *)
  v_hist : list hev;                  (* the history so far *)
  v_acts : list (opid * Op) }.        (* the operations whose action has happened, in that order *)
Definition view0 : view := mkv (fun _ => 0) (fun _ => None) [] [].
Definition vstep (v : view) (e : event) : view :=
  match e with
  | ECall t o => mkv (v_n v) (upd (v_p v) t (Some o)) (v_hist v ++ [HCall (t, v_n v t) o]) (v_acts v)
  | EAct t => match v_p v t with
              | Some o => mkv (v_n v) (v_p v) (v_hist v) (v_acts v ++ [((t, v_n v t), o)])
              | None => v
              end
  | ERet t r => mkv (upd (v_n v) t (S (v_n v t))) (upd (v_p v) t None)
                    (v_hist v ++ [HRet (t, v_n v t) r]) (v_acts v)
  | EBg => v
  end.
Definition view_of (es : list event) : view := fold_left vstep es view0.
Definition hist (es : list event) : list hev := v_hist (view_of es).
Definition act_ops (es : list event) : list (opid * Op) := v_acts (view_of es).

Lemma view_of_snoc es e : view_of (es ++ [e]) = vstep (view_of es) e.
Proof. unfold view_of. rewrite fold_left_app. reflexivity. Qed.

Definition lentry := (opid * Op * Res)%type.   (* an operation of the history with a result *)
Definition lid (x : lentry) : opid := fst (fst x).
Definition lop (x : lentry) : Op := snd (fst x).
Definition lres (x : lentry) : Res := snd x.

Definition calls_unique (h : list hev) : Prop :=
  forall i o o', In (HCall i o) h -> In (HCall i o') h -> o = o'.
Definition hist_wf (h : list hev) : Prop :=
  calls_unique h /\ (forall i r, In (HRet i r) h -> exists o, before h (HCall i o) (HRet i r)).

Section Lin.
Variables (A Res' : Type).
Variable astep : A -> Op -> A * Res'.        (* the sequential specification *)
Variable req : Res -> Res' -> Prop.          (* observed result vs. result of the specification *)

Record linearization (a0 : A) (h : list hev) (lin : list lentry) : Prop := mk_lin {
  (* a sequence of distinct operations of the history, with the arguments they were called with *)
  lin_nodup : NoDup (map lid lin);
  lin_called : forall i o r, In (i, o, r) lin -> In (HCall i o) h;
  (* every completed operation is in the sequence, paired with the result it returned *)
  lin_complete : forall i r, In (HRet i r) h -> exists o, In (i, o, r) lin;
  (* (a) the sequential run of the specification from a0 yields those results *)
  lin_legal : Forall2 req (map lres lin) (seq_run astep a0 (map lop lin));
  (* (b) real-time order: an operation that returned before another one was called precedes it *)
  lin_order : forall i r j o, before h (HRet i r) (HCall j o) -> In j (map lid lin) ->
              before (map lid lin) i j }.
Definition linearizable (a0 : A) (h : list hev) : Prop := exists lin, linearization a0 h lin.

(* only clause (a) mentions the specification *)
Lemma linearization_legal a0 h lin :
  NoDup (map lid lin) -> (forall i o r, In (i, o, r) lin -> In (HCall i o) h) ->
  (forall i r, In (HRet i r) h -> exists o, In (i, o, r) lin) ->
  (forall i r j o, before h (HRet i r) (HCall j o) -> In j (map lid lin) -> before (map lid lin) i j) ->
  Forall2 req (map lres lin) (seq_run astep a0 (map lop lin)) -> linearization a0 h lin.
Proof. intros. constructor; assumption. Qed.

Variable sim : St -> A -> Prop.
Hypothesis step_sim : forall s a o, sim s a -> guard s o ->
  sim (fst (step s o)) (fst (astep a o)) /\ req (snd (step s o)) (snd (astep a o)).
Hypothesis bg_sim : forall s s' a, sim s a -> bg s s' -> sim s' a.

Record Jinv (a0 : A) (v : view) (c : config) (lin : list lentry) : Prop := mk_J {
  J_acts : map fst lin = v_acts v;
  J_legal : Forall2 req (map lres lin) (seq_run astep a0 (map lop lin));
  J_sim : sim (c_s c) (seq_final astep a0 (map lop lin));
  J_thr : forall t, match c_t c t with
                    | TIdle => True
                    | TCalled o => v_p v t = Some o /\ In (HCall (t, v_n v t) o) (v_hist v)
                    | TActed o r => In ((t, v_n v t), o, r) lin
                    end;
  J_ids : forall t k, In (t, k) (map lid lin) ->
          k < v_n v t \/ (k = v_n v t /\ exists o r, c_t c t = TActed o r);
  J_nodup : NoDup (map lid lin);
  J_called : forall i o r, In (i, o, r) lin -> In (HCall i o) (v_hist v);
  J_complete : forall i r, In (HRet i r) (v_hist v) -> exists o, In (i, o, r) lin;
  J_order : forall i r j o, before (v_hist v) (HRet i r) (HCall j o) -> In j (map lid lin) ->
            before (map lid lin) i j }.

Lemma J_init s0 a0 : sim s0 a0 -> Jinv a0 view0 (init s0) [].
Proof.
  intros H0. constructor; cbn [view0 init v_n v_p v_hist v_acts c_s c_t map seq_run seq_final fold_left].
  - reflexivity.
  - constructor.
  - exact H0.
  - intros t. exact I.
  - intros t k [].
  - constructor.
  - intros i o r [].
  - intros i r [].
  - intros i r j o _ [].
Qed.

Lemma J_call a0 v c lin t o :
  Jinv a0 v c lin -> c_t c t = TIdle ->
  Jinv a0 (vstep v (ECall t o)) (mkc (c_s c) (upd (c_t c) t (TCalled o))) lin.
Proof.
  intros [J1 J2 J3 J4 J5 J6 J7 J8 J9] Ht.
  constructor; cbn [vstep v_n v_p v_hist v_acts c_s c_t]; try assumption.
  - intros u. unfold upd. destruct (Nat.eqb_spec u t) as [->|Hne].
    + split; [reflexivity|]. apply in_or_app. right. left. reflexivity.
    + specialize (J4 u). destruct (c_t c u) as [|o'|o' r']; [exact I| |exact J4].
      destruct J4 as [A1 A2]. split; [exact A1|apply in_or_app; left; exact A2].
  - intros u k Hin. unfold upd. destruct (J5 u k Hin) as [Hlt|[Hk (o' & r' & Hu)]]; [left; exact Hlt|].
    destruct (Nat.eqb_spec u t) as [->|Hne]; [congruence|].
    right. split; [exact Hk|]. exists o', r'. exact Hu.
  - intros i o' r Hin. apply in_or_app. left. exact (J7 i o' r Hin).
  - intros i r Hin. apply in_snoc_inv in Hin. destruct Hin as [Hin|Hin]; [exact (J8 i r Hin)|discriminate Hin].
  - intros i r j o' Hb Hin. apply before_snoc_inv in Hb. destruct Hb as [Hb|[_ Hb]]; [exact (J9 i r j o' Hb Hin)|].
    injection Hb as -> _. exfalso.
    destruct (J5 t (v_n v t) Hin) as [Hlt|[_ (o2 & r2 & Hu)]]; [lia|congruence].
Qed.

Lemma J_act a0 v c lin t o :
  Jinv a0 v c lin -> c_t c t = TCalled o -> guard (c_s c) o ->
  Jinv a0 (vstep v (EAct t))
       (mkc (fst (step (c_s c) o)) (upd (c_t c) t (TActed o (snd (step (c_s c) o)))))
       (lin ++ [((t, v_n v t), o, snd (step (c_s c) o))]).
Proof.
  intros [J1 J2 J3 J4 J5 J6 J7 J8 J9] Ht Hg.
  pose proof (J4 t) as Hpt. rewrite Ht in Hpt. destruct Hpt as [Hp Hcall].
  assert (Hfresh : ~ In (t, v_n v t) (map lid lin)).
  { intros Hin. destruct (J5 t (v_n v t) Hin) as [Hlt|[_ (o2 & r2 & Hu)]]; [lia|congruence]. }
  destruct (step_sim (c_s c) _ o J3 Hg) as [Hsim Hreq].
  unfold vstep. rewrite Hp.
  constructor; cbn [v_n v_p v_hist v_acts c_s c_t]; rewrite ?map_app; cbn [map].
  - apply f_equal2; [exact J1|reflexivity].
  - rewrite seq_run_app. cbn [seq_run]. apply lz_Forall2_snoc; [exact J2|exact Hreq].
  - rewrite seq_final_app. exact Hsim.
  - intros u. unfold upd. destruct (Nat.eqb_spec u t) as [->|Hne].
    + apply in_or_app. right. left. reflexivity.
    + specialize (J4 u). destruct (c_t c u) as [|o'|o' r']; [exact I|exact J4|].
      apply in_or_app. left. exact J4.
  - intros u k Hin. unfold upd. apply in_snoc_inv in Hin. destruct Hin as [Hin|Hin].
    + destruct (J5 u k Hin) as [Hlt|[Hk (o' & r' & Hu)]]; [left; exact Hlt|].
      destruct (Nat.eqb_spec u t) as [->|Hne]; [congruence|].
      right. split; [exact Hk|]. exists o', r'. exact Hu.
    + unfold lid in Hin. cbn [fst] in Hin. injection Hin as <- <-. right. split; [reflexivity|].
      rewrite Nat.eqb_refl. eexists _, _. reflexivity.
  - apply NoDup_snoc; [exact J6|exact Hfresh].
  - intros i o' r Hin. apply in_snoc_inv in Hin. destruct Hin as [Hin|Hin]; [exact (J7 i o' r Hin)|].
    injection Hin as <- <- _. exact Hcall.
  - intros i r Hin. destruct (J8 i r Hin) as [o' Ho']. exists o'. apply in_or_app. left. exact Ho'.
  - intros i r j o' Hb Hin. apply in_snoc_inv in Hin. destruct Hin as [Hin|Hin].
    + apply before_app_l. exact (J9 i r j o' Hb Hin).
    + unfold lid in Hin. cbn [fst] in Hin. subst j. apply before_snoc_in.
      destruct (J8 i r (before_in_l _ _ _ Hb)) as [o2 Ho2].
      exact (in_map lid _ _ Ho2).
Qed.

Lemma J_ret a0 v c lin t o r :
  Jinv a0 v c lin -> c_t c t = TActed o r ->
  Jinv a0 (vstep v (ERet t r)) (mkc (c_s c) (upd (c_t c) t TIdle)) lin.
Proof.
  intros [J1 J2 J3 J4 J5 J6 J7 J8 J9] Ht.
  pose proof (J4 t) as Hpt. rewrite Ht in Hpt.
  constructor; cbn [vstep v_n v_p v_hist v_acts c_s c_t]; try assumption.
  - intros u. unfold upd. destruct (Nat.eqb_spec u t) as [->|Hne]; [exact I|].
    specialize (J4 u). destruct (c_t c u) as [|o'|o' r']; [exact I| |exact J4].
    destruct J4 as [A1 A2]. split; [exact A1|apply in_or_app; left; exact A2].
  - intros u k Hin. unfold upd. destruct (Nat.eqb_spec u t) as [->|Hne].
    + left. destruct (J5 t k Hin) as [Hlt|[Hk _]]; lia.
    + exact (J5 u k Hin).
  - intros i o' r' Hin. apply in_or_app. left. exact (J7 i o' r' Hin).
  - intros i r' Hin. apply in_snoc_inv in Hin. destruct Hin as [Hin|Hin]; [exact (J8 i r' Hin)|].
    injection Hin as <- <-. exists o. exact Hpt.
  - intros i r' j o' Hb Hin. apply before_snoc_inv in Hb.
    destruct Hb as [Hb|[_ Hb]]; [exact (J9 i r' j o' Hb Hin)|discriminate Hb].
Qed.

Lemma J_bg a0 v c lin s' :
  Jinv a0 v c lin -> bg (c_s c) s' -> Jinv a0 (vstep v EBg) (mkc s' (c_t c)) lin.
Proof.
  intros [J1 J2 J3 J4 J5 J6 J7 J8 J9] Hb.
  constructor; cbn [vstep c_s c_t]; try assumption. exact (bg_sim _ _ _ J3 Hb).
Qed.

Lemma exec_Jinv s0 a0 : sim s0 a0 -> forall es c, exec s0 es c -> exists lin, Jinv a0 (view_of es) c lin.
Proof.
  intros H0 es c Hx. induction Hx as [|es c e c' Hx IH Hs].
  - exists []. apply J_init. exact H0.
  - destruct IH as [lin J]. rewrite view_of_snoc.
    inversion Hs as [c1 t o Ht|c1 t o Ht Hg|c1 t o r Ht|c1 s' Hb]; subst.
    + exists lin. apply J_call; assumption.
    + eexists. apply J_act; eassumption.
    + exists lin. eapply J_ret; eassumption.
    + exists lin. apply J_bg; assumption.
Qed.

(* Executions of atomic actions are linearizable: the operations whose action has happened, in the
   order of their actions, each with the result of its action.  With a simulation towards a
   specification; background actions are invisible if they preserve the simulation. *)
Theorem atomic_actions_linearizable_sim s0 a0 es c :
  sim s0 a0 -> exec s0 es c ->
  exists lin, linearization a0 (hist es) lin /\ map fst lin = act_ops es /\
              sim (c_s c) (seq_final astep a0 (map lop lin)).
Proof.
  intros H0 Hx. destruct (exec_Jinv s0 a0 H0 es c Hx) as [lin [J1 J2 J3 J4 J5 J6 J7 J8 J9]].
  exists lin. split; [|split; [exact J1|exact J3]]. constructor; assumption.
Qed.
End Lin.

Record Kinv (v : view) (c : config) : Prop := mk_K {
  K_ids : forall t k o, In (HCall (t, k) o) (v_hist v) ->
          k < v_n v t \/ (k = v_n v t /\ c_t c t <> TIdle);
  K_cur : forall t, c_t c t <> TIdle -> exists o, In (HCall (t, v_n v t) o) (v_hist v);
  K_uniq : calls_unique (v_hist v);
  K_ret : forall i r, In (HRet i r) (v_hist v) -> exists o, before (v_hist v) (HCall i o) (HRet i r) }.

Lemma exec_Kinv s0 es c : exec s0 es c -> Kinv (view_of es) c.
Proof.
  intros Hx. induction Hx as [|es c e c' Hx IH Hs].
  - constructor; cbn [view_of fold_left view0 v_hist v_n init c_t].
    + intros t k o [].
    + intros t H. congruence.
    + intros i o o' [].
    + intros i r [].
  - rewrite view_of_snoc. set (v := view_of es) in *. destruct IH as [K1 K2 K3 K4].
    inversion Hs as [c1 t o Ht|c1 t o Ht Hg|c1 t o r Ht|c1 s' Hb]; subst.
    + constructor; cbn [vstep v_n v_p v_hist v_acts c_s c_t].
      * intros u k o' Hin. unfold upd. apply in_snoc_inv in Hin. destruct Hin as [Hin|Hin].
        -- destruct (K1 u k o' Hin) as [Hlt|[Hk Hu]]; [left; exact Hlt|].
           destruct (Nat.eqb_spec u t) as [->|Hne]; [congruence|]. right. split; assumption.
        -- injection Hin as <- <- _. right. split; [reflexivity|]. rewrite Nat.eqb_refl. discriminate.
      * intros u. unfold upd. destruct (Nat.eqb_spec u t) as [->|Hne]; intros Hu.
        -- exists o. apply in_or_app. right. left. reflexivity.
        -- destruct (K2 u Hu) as [o' Ho']. exists o'. apply in_or_app. left. exact Ho'.
      * intros i o1 o2 H1 H2. apply in_snoc_inv in H1. apply in_snoc_inv in H2.
        destruct H1 as [H1|H1]; destruct H2 as [H2|H2].
        -- exact (K3 i o1 o2 H1 H2).
        -- injection H2 as <- <-. exfalso. destruct (K1 t _ o1 H1) as [Hlt|[_ Hu]]; [lia|congruence].
        -- injection H1 as <- <-. exfalso. destruct (K1 t _ o2 H2) as [Hlt|[_ Hu]]; [lia|congruence].
        -- congruence.
      * intros i r Hin. apply in_snoc_inv in Hin. destruct Hin as [Hin|Hin]; [|discriminate Hin].
        destruct (K4 i r Hin) as [o' Ho']. exists o'. apply before_app_l. exact Ho'.
    + assert (Hv : v_hist (vstep v (EAct t)) = v_hist v /\ v_n (vstep v (EAct t)) = v_n v).
      { unfold vstep. destruct (v_p v t); split; reflexivity. }
      destruct Hv as [Eh En]. constructor; rewrite ?Eh, ?En; cbn [c_s c_t]; try assumption.
      * intros u k o' Hin. unfold upd. destruct (K1 u k o' Hin) as [Hlt|[Hk Hu]]; [left; exact Hlt|].
        right. split; [exact Hk|]. destruct (Nat.eqb_spec u t) as [->|Hne]; [discriminate|exact Hu].
      * intros u. unfold upd. destruct (Nat.eqb_spec u t) as [->|Hne]; intros Hu.
        -- apply K2. congruence.
        -- exact (K2 u Hu).
    + constructor; cbn [vstep v_n v_p v_hist v_acts c_s c_t].
      * intros u k o' Hin. unfold upd. apply in_snoc_inv in Hin. destruct Hin as [Hin|Hin]; [|discriminate Hin].
        destruct (Nat.eqb_spec u t) as [->|Hne].
        -- left. destruct (K1 t k o' Hin) as [Hlt|[Hk _]]; lia.
        -- exact (K1 u k o' Hin).
      * intros u. unfold upd. destruct (Nat.eqb_spec u t) as [->|Hne]; intros Hu; [congruence|].
        destruct (K2 u Hu) as [o' Ho']. exists o'. apply in_or_app. left. exact Ho'.
      * intros i o1 o2 H1 H2. apply in_snoc_inv in H1. apply in_snoc_inv in H2.
        destruct H1 as [H1|H1]; [|discriminate H1]. destruct H2 as [H2|H2]; [|discriminate H2].
        exact (K3 i o1 o2 H1 H2).
      * intros i r' Hin. apply in_snoc_inv in Hin. destruct Hin as [Hin|Hin].
        -- destruct (K4 i r' Hin) as [o' Ho']. exists o'. apply before_app_l. exact Ho'.
        -- injection Hin as <- <-. destruct (K2 t) as [o' Ho']; [congruence|].
           exists o'. apply before_snoc_in. exact Ho'.
    + constructor; cbn [vstep c_s c_t]; assumption.
Qed.

Theorem exec_hist_wf s0 es c : exec s0 es c -> hist_wf (hist es).
Proof. intros Hx. destruct (exec_Kinv s0 es c Hx) as [_ _ K3 K4]. split; [exact K3|exact K4]. Qed.

(* an executable check that an event list is an execution *)
Variable guardb : St -> Op -> bool.
Variable bgf : St -> option St.
Variable res_eq_dec : forall a b : Res, {a = b} + {a <> b}.
Hypothesis guardb_ok : forall s o, guardb s o = true -> guard s o.
Hypothesis bgf_ok : forall s s', bgf s = Some s' -> bg s s'.

Definition estep_fn (c : config) (e : event) : option config :=
  match e with
  | ECall t o => match c_t c t with
                 | TIdle => Some (mkc (c_s c) (upd (c_t c) t (TCalled o)))
                 | _ => None
                 end
  | EAct t => match c_t c t with
              | TCalled o =>
                if guardb (c_s c) o
                then Some (mkc (fst (step (c_s c) o)) (upd (c_t c) t (TActed o (snd (step (c_s c) o)))))
                else None
              | _ => None
              end
  | ERet t r => match c_t c t with
                | TActed o r' => if res_eq_dec r r' then Some (mkc (c_s c) (upd (c_t c) t TIdle)) else None
                | _ => None
                end
  | EBg => match bgf (c_s c) with Some s' => Some (mkc s' (c_t c)) | None => None end
  end.
Fixpoint exec_fn (c : config) (es : list event) : option config :=
  match es with
  | [] => Some c
  | e :: es' => match estep_fn c e with Some c' => exec_fn c' es' | None => None end
  end.

Lemma estep_fn_sound c e c' : estep_fn c e = Some c' -> estep c e c'.
Proof.
  destruct e as [t o|t|t r|]; cbn [estep_fn].
  - destruct (c_t c t) eqn:Et; try discriminate. intros E. injection E as <-. apply es_call. exact Et.
  - destruct (c_t c t) as [|o|o r] eqn:Et; try discriminate.
    destruct (guardb (c_s c) o) eqn:Eg; [|discriminate]. intros E. injection E as <-.
    apply es_act; [exact Et|apply guardb_ok; exact Eg].
  - destruct (c_t c t) as [|o|o r'] eqn:Et; try discriminate.
    destruct (res_eq_dec r r') as [->|_]; [|discriminate]. intros E. injection E as <-.
    apply (es_ret c t o r'). exact Et.
  - destruct (bgf (c_s c)) as [s'|] eqn:Eb; [|discriminate]. intros E. injection E as <-.
    apply es_bg. apply bgf_ok. exact Eb.
Qed.

Lemma exec_fn_sound s0 es : lz_is_some (exec_fn (init s0) es) = true -> exists c, exec s0 es c.
Proof.
  destruct (exec_fn (init s0) es) as [c|] eqn:E; [|discriminate]. intros _. exists c.
  apply (run_opt_sound estep_fn (exec s0)) with (es := []) (c := init s0); [|exact (exec_nil s0)|exact E].
  intros es1 c1 e c2 Hx E1. exact (exec_snoc s0 es1 c1 e c2 Hx (estep_fn_sound c1 e c2 E1)).
Qed.
End Generic.

Arguments ECall {Op Res} t o.
Arguments EAct {Op Res} t.
Arguments ERet {Op Res} t r.
Arguments EBg {Op Res}.
Arguments HCall {Op Res} i o.
Arguments HRet {Op Res} i r.
Arguments TIdle {Op Res}.
Arguments TCalled {Op Res} o.
Arguments TActed {Op Res} o r.
Arguments mkc {St Op Res} c_s c_t.
Arguments c_s {St Op Res} c.
Arguments c_t {St Op Res} c _.
Arguments init {St Op Res} s.
Arguments estep {St Op Res} step guard bg _ _ _.
Arguments exec {St Op Res} step guard bg s0 _ _.
Arguments hist {Op Res} es.
Arguments act_ops {Op Res} es.
Arguments view_of {Op Res} es.
Arguments lid {Op Res} x.
Arguments lop {Op Res} x.
Arguments lres {Op Res} x.
Arguments calls_unique {Op Res} h.
Arguments hist_wf {Op Res} h.
Arguments linearization {Op Res A Res'} astep req a0 h lin.
Arguments linearizable {Op Res A Res'} astep req a0 h.
Arguments exec_fn {St Op Res} step guardb bgf res_eq_dec c es.

(* no side condition, no background action *)
Definition no_guard {St Op : Type} : St -> Op -> Prop := fun _ _ => True.
Definition no_bg {St : Type} : St -> St -> Prop := fun _ _ => False.

(* the witness: the operations in the order of their actions, each with the result of the sequential
   run up to it *)
Fixpoint lin_from {St Op Res} (step : St -> Op -> St * Res) (s : St) (l : list (opid * Op)) :
    list (opid * Op * Res) :=
  match l with
  | [] => []
  | x :: l' => (x, snd (step s (snd x))) :: lin_from step (fst (step s (snd x))) l'
  end.
Definition lin_of {St Op Res} (step : St -> Op -> St * Res) (s0 : St) (es : list (event Op Res)) :
    list (opid * Op * Res) := lin_from step s0 (act_ops es).

Lemma lin_from_fst {St Op Res} (step : St -> Op -> St * Res) l : forall s, map fst (lin_from step s l) = l.
Proof. induction l as [|x l IH]; intros s; cbn [lin_from map fst]; [reflexivity|]. rewrite IH. reflexivity. Qed.

Lemma lin_from_lop {St Op Res} (step : St -> Op -> St * Res) l : forall s,
  map lop (lin_from step s l) = map snd l.
Proof.
  induction l as [|x l IH]; intros s; cbn [lin_from map]; [reflexivity|]. rewrite IH. reflexivity.
Qed.

Lemma lin_from_lres {St Op Res} (step : St -> Op -> St * Res) l : forall s,
  map lres (lin_from step s l) = seq_run step s (map snd l).
Proof.
  induction l as [|x l IH]; intros s; cbn [lin_from map seq_run]; [reflexivity|]. rewrite IH. reflexivity.
Qed.

Lemma lin_from_unique {St Op Res} (step : St -> Op -> St * Res) (lin : list (opid * Op * Res)) : forall s,
  Forall2 eq (map lres lin) (seq_run step s (map lop lin)) -> lin = lin_from step s (map fst lin).
Proof.
  induction lin as [|[[i o] r] lin IH]; intros s H; cbn [map lin_from]; [reflexivity|].
  cbn [map seq_run] in H. inversion H as [|? ? ? ? Hr Ht]; subst.
  unfold lres, lop in Hr. cbn [fst snd] in Hr. cbn [fst snd]. rewrite <- Hr. f_equal.
  apply IH. exact Ht.
Qed.

(* the clause (a) of a linearization can be restated against another specification *)
Lemma linearization_change_spec {Op Res A1 R1 A2 R2}
    (astep1 : A1 -> Op -> A1 * R1) (req1 : Res -> R1 -> Prop) (a1 : A1)
    (astep2 : A2 -> Op -> A2 * R2) (req2 : Res -> R2 -> Prop) (a2 : A2) (h : list (hev Op Res)) lin :
  linearization astep1 req1 a1 h lin ->
  Forall2 req2 (map lres lin) (seq_run astep2 a2 (map lop lin)) ->
  linearization astep2 req2 a2 h lin.
Proof. intros [L1 L2 L3 _ L5] H. constructor; assumption. Qed.

Lemma lin_result_of_completed {Op Res A R'} (astep : A -> Op -> A * R') (req : Res -> R' -> Prop) a0
    (h : list (hev Op Res)) lin :
  linearization astep req a0 h lin ->
  forall i o r' r, In (i, o, r') lin -> In (HRet i r) h -> r' = r.
Proof.
  intros [L1 _ L3 _ _] i o r' r Hin Hret. destruct (L3 i r Hret) as [o2 Hin2].
  assert (E : (i, o, r') = (i, o2, r)) by (apply (NoDup_map_inj lid lin); [exact L1|exact Hin|exact Hin2|reflexivity]).
  congruence.
Qed.

(* if all its operations have returned, the results of a linearization are the returned ones *)
Lemma lin_lres_of_returns {Op Res A R'} (astep : A -> Op -> A * R') (req : Res -> R' -> Prop) a0
    (h : list (hev Op Res)) lin rs :
  linearization astep req a0 h lin ->
  Forall2 (fun x r => In (HRet (fst x) r) h) (map fst lin) rs -> map lres lin = rs.
Proof.
  intros L. pose proof (lin_result_of_completed _ _ _ _ _ L) as Hdet. clear L. revert rs.
  induction lin as [|[[i o] r'] lin IH]; intros rs H; inversion H as [|? r ? rs' Hr Ht]; subst;
    [reflexivity|].
  cbn [map lres snd]. f_equal.
  - exact (Hdet i o r' r (or_introl eq_refl) Hr).
  - apply IH; [|exact Ht]. intros j o2 r2 r3 Hin. apply (Hdet j o2). right. exact Hin.
Qed.

(* THE GENERIC THEOREM.  Every execution of the atomic-action semantics (no side condition, no
   background action) is linearizable w.r.t. its own step function with EQUAL results; the witness is
   the order of the Act events; the final shared state is the one of the sequential run. *)
Theorem atomic_actions_linearizable {St Op Res} (step : St -> Op -> St * Res) s0 es c :
  exec step no_guard no_bg s0 es c ->
  linearization step eq s0 (hist es) (lin_of step s0 es) /\
  c_s c = seq_final step s0 (map snd (act_ops es)).
Proof.
  intros Hx.
  destruct (atomic_actions_linearizable_sim St Op Res step no_guard no_bg St Res step eq eq) with
    (s0 := s0) (a0 := s0) (es := es) (c := c) as (lin & L & Ea & Es).
  - intros s a o -> _. split; reflexivity.
  - intros s s' a _ [].
  - reflexivity.
  - exact Hx.
  - assert (El : lin = lin_of step s0 es).
    { unfold lin_of. rewrite <- Ea. apply lin_from_unique. destruct L as [_ _ _ L4 _]. exact L4. }
    subst lin. split; [exact L|]. rewrite Es. unfold lin_of. rewrite lin_from_lop. reflexivity.
Qed.

Local Notation stp := (@DB.st pindex).
Local Notation stf := (@DB.st flat).

Lemma seq_run_run' {X} (f : X -> op' -> X * out) l : forall s, seq_run f s l = run' f s l.
Proof.
  induction l as [|o l IH]; intros s; cbn [seq_run run']; [reflexivity|].
  rewrite IH. destruct (f s o) as [s' r]. reflexivity.
Qed.

Lemma seq_final_final' {X} (f : X -> op' -> X * out) s l : seq_final f s l = final' f s l.
Proof. reflexivity. Qed.

(* C07.  Threads call Put, Delete, Get, GetAppend, Has, Count, Items, Sync and Compact on the database
   with the real bucket-chain index; each call takes effect in ONE atomic action between its call and
   its return.  Under the side conditions of the run theorem (on the operations in the order of their
   actions), the history is linearizable w.r.t. the PLAIN MAP [step_spec'], the observed results being
   those of the map up to [out_equiv'] (EQUAL for Put, Delete, Get, GetAppend, Has, Count, Sync; Items up
   to a permutation; the three numbers of a CompactionResult are not compared) -- and w.r.t. the
   flat-index database up to [out_equiv] (Items up to a permutation, everything else EQUAL).  The
   witness is the order of the actions. *)
Theorem C07_linearizable P (sp : stp) (sf : stf) (es : list (event op' out)) c :
  params_ok P -> st_rel sp sf -> Inv P sf -> MetaOK sf ->
  exec (step_chain' P) no_guard no_bg sp es c ->
  Forall op_valid' (map snd (act_ops es)) -> rooms' P sf (map snd (act_ops es)) ->
  linearization step_spec' out_equiv' (abs (s_disk sf)) (hist es) (lin_of (step_chain' P) sp es) /\
  linearization (step_flat' P) out_equiv sf (hist es) (lin_of (step_chain' P) sp es) /\
  hist_wf (hist es) /\
  let sf' := seq_final (step_flat' P) sf (map snd (act_ops es)) in
  st_rel (c_s c) sf' /\ Inv P sf' /\ MetaOK sf' /\
  meq (abs (s_disk sf')) (seq_final step_spec' (abs (s_disk sf)) (map snd (act_ops es))).
Proof.
  intros HP Hs HI HM Hx Hv Hr.
  destruct (atomic_actions_linearizable (step_chain' P) sp es c Hx) as [L Ec].
  pose proof (C01_chain_refines_map_with_compact P sp sf _ HP Hs HI HM Hv Hr) as H. cbv zeta in H.
  destruct H as (A1 & A2 & A3 & A4 & A5 & A6).
  split; [|split; [|split]].
  1,2: apply (linearization_change_spec _ _ _ _ _ _ _ _ L); unfold lin_of;
    rewrite lin_from_lres, lin_from_lop, !seq_run_run'; assumption.
  - exact (exec_hist_wf _ _ _ _ _ _ _ _ _ Hx).
  - cbv zeta. rewrite Ec, !seq_final_final'. exact (conj A3 (conj A4 (conj A5 A6))).
Qed.

(* from Open on an empty directory: no hypothesis on the states is left *)
Corollary C07_linearizable_from_empty P seed (es : list (event op' out)) c :
  params_ok P ->
  exec (step_chain' P) no_guard no_bg (fst (db_open chain_ops P seed st0)) es c ->
  Forall op_valid' (map snd (act_ops es)) -> rooms' P (flat_init seed) (map snd (act_ops es)) ->
  linearization step_spec' out_equiv' [] (hist es)
                (lin_of (step_chain' P) (fst (db_open chain_ops P seed st0)) es).
Proof.
  intros HP Hx Hv Hr. pose proof (init_rel P seed) as H. rewrite flat_open_fresh in H.
  destruct (db_open chain_ops P seed st0) as [sp o]. destruct H as (_ & _ & Hs & HI & _ & Ea).
  cbn [fst] in *. rewrite <- Ea.
  exact (proj1 (C07_linearizable P sp _ es c HP Hs HI (flat_init_MetaOK seed) Hx Hv Hr)).
Qed.

Definition writes_key (k : key) (o : op') : Prop :=
  match o with
  | OpBase (OpPut k' _) => k' = k
  | OpBase (OpDelete k') => k' = k
  | _ => False
  end.

Lemma writes_key_dec k o : writes_key k o \/ ~ writes_key k o.
Proof.
  destruct o as [[k' v|k'|k'|k' b|k'| | |]|]; cbn [writes_key]; try (right; exact (fun H => H)).
  - destruct (list_eq_dec N.eq_dec k' k); [left|right]; assumption.
  - destruct (list_eq_dec N.eq_dec k' k); [left|right]; assumption.
Qed.

Lemma spec_keeps_key m o k : ~ writes_key k o -> sget (fst (step_spec' m o)) k = sget m k.
Proof.
  destruct o as [[k' v|k'|k'|k' b|k'| | |]|]; cbn [writes_key step_spec' step_spec fst]; intros H;
    try reflexivity.
  - rewrite sget_sput. destruct (key_eqb k k') eqn:E; [|reflexivity].
    apply key_eqb_eq in E. exfalso. apply H. congruence.
  - rewrite sget_sdel. destruct (key_eqb k k') eqn:E; [|reflexivity].
    apply key_eqb_eq in E. exfalso. apply H. congruence.
Qed.

Lemma spec_keeps_key_list k l : forall m,
  Forall (fun o => ~ writes_key k o) l -> sget (seq_final step_spec' m l) k = sget m k.
Proof.
  induction l as [|o l IH]; intros m H; [reflexivity|]. inversion H; subst.
  change (seq_final step_spec' m (o :: l)) with (seq_final step_spec' (fst (step_spec' m o)) l).
  rewrite IH by assumption. apply spec_keeps_key. assumption.
Qed.

(* In ANY linearizable history of the map: if Put(k,v) returned before Get(k) was called, and every
   other Put/Delete on k returned before that Put was called or was called after that Get returned,
   then the result of the Get is (related by [req] to) v. *)
Theorem read_your_writes (req : out -> out -> Prop) (a0 : smap) (h : list (hev op' out)) lin
    (ip ig : opid) (k : key) (v : val) (rp r : out) :
  linearization step_spec' req a0 h lin -> calls_unique h ->
  In (HCall ip (OpBase (OpPut k v))) h ->
  before h (HRet ip rp) (HCall ig (OpBase (OpGet k))) ->
  In (HRet ig r) h ->
  (forall j o, In (HCall j o) h -> j <> ip -> writes_key k o ->
     (exists r', before h (HRet j r') (HCall ip (OpBase (OpPut k v)))) \/
     before h (HRet ig r) (HCall j o)) ->
  req r (OVal (Some v)).
Proof.
  intros [L1 L2 L3 L4 L5] HU HcP Hbef HrG Hothers.
  pose proof (before_in_r _ _ _ Hbef) as HcG.
  (* the sequence is  l1, the Put, l2, the Get, l3 *)
  destruct (L3 ig r HrG) as [oG HinG].
  assert (EoG : oG = OpBase (OpGet k)) by (apply (HU ig); [exact (L2 _ _ _ HinG)|exact HcG]). subst oG.
  pose proof (L5 ip rp ig _ Hbef (in_map lid _ _ HinG)) as Hb.
  destruct (before_map_split lid lin ip ig Hb) as (l1 & [[ip' oP] rP] & l2 & eG & l3 & El & EP & EG).
  unfold lid in EP. cbn [fst] in EP. subst ip'.
  assert (EeG : eG = (ig, OpBase (OpGet k), r)).
  { apply (NoDup_map_inj lid lin _ _ L1); [rewrite El; apply in_elt|exact HinG|exact EG]. }
  subst eG. clear EG.
  assert (EoP : oP = OpBase (OpPut k v)).
  { apply (HU ip); [|exact HcP]. apply (L2 _ _ rP). rewrite El. apply in_or_app. left. apply in_elt. }
  subst oP.
  (* the Get sees the state after the Put and l2 *)
  rewrite El, !map_app in L4. cbn [map] in L4.
  apply seq_run_mid in L4; [|rewrite !app_length; cbn [length]; rewrite !map_length; reflexivity].
  cbn [lres lop fst snd step_spec' step_spec] in L4.
  rewrite (app_assoc _ [_] _ : map lop l1 ++ _ :: map lop l2 = _), seq_final_app in L4.
  rewrite spec_keeps_key_list, seq_final_app in L4.
  { cbn [seq_final fold_left step_spec' step_spec fst] in L4.
    rewrite sget_sput, key_eqb_refl in L4. exact L4. }
  (* nothing in l2 writes k: such an operation would be ordered before the Put or after the Get *)
  apply Forall_forall. intros on Hon Hw. apply in_map_iff in Hon.
  destruct Hon as ([[jn on'] rn] & Eon & Hjn). unfold lop in Eon. cbn [fst snd] in Eon. subst on'.
  pose proof (in_map lid _ _ Hjn) as Hjl.
  assert (Hb1 : before (map lid lin) ip jn).
  { rewrite El, !map_app. cbn [map]. apply before_app_l.
    rewrite (app_assoc _ [_] _ : map lid l1 ++ _ :: map lid l2 = _).
    apply before_app; [apply in_or_app; right; left; reflexivity|exact Hjl]. }
  assert (Hb2 : before (map lid lin) jn ig).
  { rewrite El, !map_app. cbn [map].
    apply before_app; [apply in_or_app; right; right; exact Hjl|left; reflexivity]. }
  assert (Hne : jn <> ip) by (intros ->; exact (before_asym _ _ _ L1 Hb1 Hb1)).
  assert (Hin : In (jn, on, rn) lin)
    by (rewrite El; apply in_or_app; left; apply in_or_app; right; right; exact Hjn).
  destruct (Hothers jn on (L2 _ _ _ Hin) Hne Hw) as [[r' Hb']|Hb'].
  - exact (before_asym _ _ _ L1 Hb1 (L5 _ _ _ _ Hb' (before_in_l _ _ _ Hb1))).
  - exact (before_asym _ _ _ L1 Hb2 (L5 _ _ _ _ Hb' (before_in_l _ _ _ Hb2))).
Qed.

(* the same for the executions of C07: the Get returns exactly v *)
Corollary C07_read_your_writes P (sp : stp) (sf : stf) (es : list (event op' out)) c ip ig k v rp r :
  params_ok P -> st_rel sp sf -> Inv P sf -> MetaOK sf ->
  exec (step_chain' P) no_guard no_bg sp es c ->
  Forall op_valid' (map snd (act_ops es)) -> rooms' P sf (map snd (act_ops es)) ->
  In (HCall ip (OpBase (OpPut k v))) (hist es) ->
  before (hist es) (HRet ip rp) (HCall ig (OpBase (OpGet k))) ->
  In (HRet ig r) (hist es) ->
  (forall j o, In (HCall j o) (hist es) -> j <> ip -> writes_key k o ->
     (exists r', before (hist es) (HRet j r') (HCall ip (OpBase (OpPut k v)))) \/
     before (hist es) (HRet ig r) (HCall j o)) ->
  r = OVal (Some v).
Proof.
  intros HP Hs HI HM Hx Hv Hr H1 H2 H3 H4.
  destruct (C07_linearizable P sp sf es c HP Hs HI HM Hx Hv Hr) as (L & _ & [HU _] & _).
  pose proof (read_your_writes out_equiv' _ _ _ ip ig k v rp r L HU H1 H2 H3 H4) as H.
  destruct r; cbn [out_equiv'] in H; try discriminate H; exact H.
Qed.

(* compaction split into its micro-steps, as background actions, on the flat-index database (the model
   in which [DBProofsCompact.creach] is stated) *)

Lemma out_equiv_trans a b c : out_equiv a b -> out_equiv b c -> out_equiv a c.
Proof.
  destruct a, b; cbn [out_equiv]; intros H1; try discriminate H1;
    destruct c; cbn [out_equiv]; intros H2; try discriminate H2; try congruence.
  etransitivity; eassumption.
Qed.

Section Micro.
Variable P : params.

(* shared state: the database and the cursor of the compaction in progress (if any) *)
Definition mstate := (stf * cursor)%type.
Definition mstep (x : mstate) (o : op) : mstate * out :=
  ((fst (step_flat P (fst x) o), snd x), snd (step_flat P (fst x) o)).
(* side conditions of an action: the 32-bit offset condition, valid Put arguments, byte-string keys
   for Delete (as in [creach]) *)
Definition mguard (x : mstate) (o : op) : Prop :=
  (exists m, s_mem (fst x) = Some m /\ room m) /\ op_valid o /\
  match o with OpDelete k => Forall byte k | _ => True end.
(* background actions: one critical section of the compaction in progress; or, when none is in
   progress, the pick of a new set of segments *)
Definition mbg (x y : mstate) : Prop :=
  ((exists m, s_mem (fst x) = Some m /\ room m) /\
   compact_step flat_ops P (fst x) (snd x) = CMore (fst y) (snd y)) \/
  (compact_step flat_ops P (fst x) (snd x) = CDone /\ compact_pick flat_ops P (fst x) = Some y).
Definition msim (x : mstate) (a : smap) : Prop :=
  Inv P (fst x) /\ CInv (fst x) (snd x) /\ MetaOK (fst x) /\
  meq (abs (s_disk (fst x))) a /\ NoDup (map fst a).

Lemma flat_step_ok (s : stf) (c : cursor) o :
  params_ok P -> Inv P s -> CInv s c -> MetaOK s -> mguard (s, c) o ->
  Inv P (fst (step_flat P s o)) /\ CInv (fst (step_flat P s o)) c /\ MetaOK (fst (step_flat P s o)) /\
  meq (abs (s_disk (fst (step_flat P s o)))) (fst (step_spec (abs (s_disk s)) o)) /\
  out_equiv (snd (step_flat P s o)) (snd (step_spec (abs (s_disk s)) o)).
Proof.
  intros HP HI HC HM (Hroom & Hv & Hk). cbn [fst] in Hroom.
  assert (Hopen : s_mem s <> None) by (destruct Hroom as (m & -> & _); discriminate).
  (* Put, Delete and Sync are writer actions; the reads leave the state alone *)
  assert (Hw : forall l r, wact P s c l r c ->
    Inv P (fst r) /\ CInv (fst r) c /\ MetaOK (fst r) /\
    meq (abs (s_disk (fst r))) (fold_left apply_wop l (abs (s_disk s))) /\ out_equiv (snd r) OOk).
  { intros l r Ha. destruct (wact_ok P s c l r c HP HI HC Ha) as (-> & I2 & C2 & _ & A2 & M2 & _).
    exact (conj I2 (conj C2 (conj (M2 HM) (conj A2 eq_refl)))). }
  assert (Hstay : forall r r', out_equiv r r' ->
    Inv P s /\ CInv s c /\ MetaOK s /\ meq (abs (s_disk s)) (abs (s_disk s)) /\ out_equiv r r')
    by (intros r r' Hr; exact (conj HI (conj HC (conj HM (conj (meq_refl _) Hr))))).
  unfold step_flat. destruct o as [k v|k|k|k buf|k| | |]; cbn [step step_spec fst snd].
  - destruct Hv as (Hbk & Hbv & Hkl & Hvl). exact (Hw _ _ (wa_put P s c k v Hroom Hbk Hbv Hkl Hvl)).
  - exact (Hw _ _ (wa_del P s c k Hroom Hk)).
  - rewrite (get_ok P s k HI Hopen). apply Hstay. reflexivity.
  - rewrite (get_append_ok P s k buf HI Hopen). apply Hstay. reflexivity.
  - rewrite (has_ok P s k HI Hopen). apply Hstay. reflexivity.
  - rewrite (count_ok P s HI Hopen). apply Hstay. reflexivity.
  - destruct (items_ok P s HI Hopen) as (l & -> & Hl). apply Hstay. exact Hl.
  - exact (Hw _ _ (wa_sync P s c)).
Qed.

Lemma mstep_sim : params_ok P -> forall x a o, msim x a -> mguard x o ->
  msim (fst (mstep x o)) (fst (step_spec a o)) /\ out_equiv (snd (mstep x o)) (snd (step_spec a o)).
Proof.
  intros HP [s c] a o (HI & HC & HM & Hq & Hnd) Hg. cbn [fst snd] in HI, HC, HM, Hq.
  destruct (flat_step_ok s c o HP HI HC HM Hg) as (I2 & C2 & M2 & Q2 & O2).
  destruct (step_spec_meq (abs (s_disk s)) a o (abs_NoDup _) Hnd Hq) as (E & F & G).
  unfold mstep, msim. cbn [fst snd]. split.
  - split; [exact I2|]. split; [exact C2|]. split; [exact M2|]. split; [|exact F].
    eapply meq_trans; eassumption.
  - eapply out_equiv_trans; eassumption.
Qed.

Lemma mbg_sim : forall x y a, msim x a -> mbg x y -> msim y a.
Proof.
  intros [s c] [s' c'] a (HI & HC & HM & Hq & Hnd) Hb. cbn [fst snd] in *.
  assert (H : reached P s [] s' c').
  { destruct Hb as [[Hroom Hstep]|[_ Hpick]].
    - exact (reached_step P s c s' c' HI HC Hroom Hstep).
    - exact (reached_pick P s c s' c' HI HC HM Hpick). }
  destruct H as (I2 & C2 & _ & A2 & M2 & _).
  refine (conj I2 (conj C2 (conj (M2 HM) (conj _ Hnd)))). intros k. rewrite A2. apply Hq.
Qed.

(* C07 with the compaction interleaved: threads call Put, Delete, Get, GetAppend, Has, Count, Items,
   Sync; between any two of their actions the compactor may run critical sections (one record each,
   segment removals, picks).  The history is linearizable w.r.t. the plain map up to [out_equiv]
   (Items up to a permutation, everything else equal): the micro-steps are invisible. *)
Theorem C07_linearizable_microsteps (s : stf) (c : cursor) (es : list (event op out)) cf :
  params_ok P -> Inv P s -> CInv s c -> MetaOK s ->
  exec mstep mguard mbg (s, c) es cf ->
  exists lin,
    linearization step_spec out_equiv (abs (s_disk s)) (hist es) lin /\ map fst lin = act_ops es /\
    hist_wf (hist es) /\
    let s' := fst (c_s cf) in
    Inv P s' /\ CInv s' (snd (c_s cf)) /\ MetaOK s' /\
    meq (abs (s_disk s')) (seq_final step_spec (abs (s_disk s)) (map snd (act_ops es))).
Proof.
  intros HP HI HC HM Hx.
  destruct (atomic_actions_linearizable_sim _ _ _ mstep mguard mbg _ _ step_spec out_equiv msim
              (mstep_sim HP) mbg_sim (s, c) (abs (s_disk s)) es cf) as (lin & L & Ea & Hsim).
  - unfold msim. cbn [fst snd]. split; [exact HI|]. split; [exact HC|]. split; [exact HM|].
    split; [apply meq_refl|apply abs_NoDup].
  - exact Hx.
  - exists lin. split; [exact L|]. split; [exact Ea|].
    split; [exact (exec_hist_wf _ _ _ _ _ _ _ _ _ Hx)|].
    destruct Hsim as (I2 & C2 & M2 & Q2 & _). cbv zeta.
    split; [exact I2|]. split; [exact C2|]. split; [exact M2|].
    replace (map snd (act_ops es)) with (map lop lin); [exact Q2|].
    rewrite <- Ea, map_map. reflexivity.
Qed.

(* executable versions of the side condition and of the background action *)
Definition mguardb (x : mstate) (o : op) : bool :=
  match s_mem (fst x) with Some m => room_b m | None => false end && op_valid_b o &&
  match o with OpDelete k => forallb (fun b => b <? 256) k | _ => true end.
Definition mbgf (x : mstate) : option mstate :=
  match compact_step flat_ops P (fst x) (snd x) with
  | CMore s' c' => match s_mem (fst x) with
                   | Some m => if room_b m then Some (s', c') else None
                   | None => None
                   end
  | CDone => compact_pick flat_ops P (fst x)
  | CFail _ => None
  end.

Lemma mguardb_ok x o : mguardb x o = true -> mguard x o.
Proof.
  unfold mguardb, mguard. rewrite !andb_true_iff. intros [[A B] C]. split; [|split].
  - destruct (s_mem (fst x)) as [m|]; [|discriminate]. exists m. split; [reflexivity|apply room_b_ok; exact A].
  - apply op_valid_b_ok. exact B.
  - destruct o; try exact I. apply forallb_byte. exact C.
Qed.

Lemma mbgf_ok x y : mbgf x = Some y -> mbg x y.
Proof.
  unfold mbgf, mbg. destruct (compact_step flat_ops P (fst x) (snd x)) as [|s' c'|w] eqn:E.
  - intros H. right. split; [reflexivity|exact H].
  - destruct (s_mem (fst x)) as [m|] eqn:Em; [|discriminate].
    destruct (room_b m) eqn:Er; [|discriminate]. intros H. injection H as <-. left. cbn [fst snd].
    split; [|reflexivity]. exists m. split; [reflexivity|apply room_b_ok; exact Er].
  - discriminate.
Qed.
End Micro.

(* a NON-atomic variant: the action of an operation split into two instants *)

Section Split.
Variables (St Op Res Lk : Type).
Variable look : St -> Op -> Lk.                 (* first instant: what the operation reads *)
Variable fin : St -> Op -> Lk -> St * Res.      (* second instant: the rest, on the state of THAT instant *)

Inductive sevent :=
| SCall (t : nat) (o : Op) | SLook (t : nat) | SAct (t : nat) | SRet (t : nat) (r : Res).
Inductive sstat := SIdle | SCalled (o : Op) | SLooked (o : Op) (x : Lk) | SActed (o : Op) (r : Res).
Record sconfig := mksc { sc_s : St; sc_t : nat -> sstat }.

Inductive sstep : sconfig -> sevent -> sconfig -> Prop :=
| ss_call c t o : sc_t c t = SIdle ->
    sstep c (SCall t o) (mksc (sc_s c) (upd (sc_t c) t (SCalled o)))
| ss_look c t o : sc_t c t = SCalled o ->
    sstep c (SLook t) (mksc (sc_s c) (upd (sc_t c) t (SLooked o (look (sc_s c) o))))
| ss_act c t o x : sc_t c t = SLooked o x ->
    sstep c (SAct t) (mksc (fst (fin (sc_s c) o x)) (upd (sc_t c) t (SActed o (snd (fin (sc_s c) o x)))))
| ss_ret c t o r : sc_t c t = SActed o r ->
    sstep c (SRet t r) (mksc (sc_s c) (upd (sc_t c) t SIdle)).

Inductive sexec (s0 : St) : list sevent -> sconfig -> Prop :=
| sexec_nil : sexec s0 [] (mksc s0 (fun _ => SIdle))
| sexec_snoc es c e c' : sexec s0 es c -> sstep c e c' -> sexec s0 (es ++ [e]) c'.

(* the history: the Call and Ret events, as before (the two instants are internal) *)
Definition erase1 (e : sevent) : list (event Op Res) :=
  match e with
  | SCall t o => [ECall t o]
  | SLook _ => []
  | SAct t => [EAct t]
  | SRet t r => [ERet t r]
  end.
Definition shist (es : list sevent) : list (hev Op Res) := hist (flat_map erase1 es).

Variable res_eq_dec : forall a b : Res, {a = b} + {a <> b}.
Definition sstep_fn (c : sconfig) (e : sevent) : option sconfig :=
  match e with
  | SCall t o => match sc_t c t with
                 | SIdle => Some (mksc (sc_s c) (upd (sc_t c) t (SCalled o)))
                 | _ => None
                 end
  | SLook t => match sc_t c t with
               | SCalled o => Some (mksc (sc_s c) (upd (sc_t c) t (SLooked o (look (sc_s c) o))))
               | _ => None
               end
  | SAct t => match sc_t c t with
              | SLooked o x => Some (mksc (fst (fin (sc_s c) o x))
                                          (upd (sc_t c) t (SActed o (snd (fin (sc_s c) o x)))))
              | _ => None
              end
  | SRet t r => match sc_t c t with
                | SActed o r' => if res_eq_dec r r' then Some (mksc (sc_s c) (upd (sc_t c) t SIdle)) else None
                | _ => None
                end
  end.
Fixpoint sexec_fn (c : sconfig) (es : list sevent) : option sconfig :=
  match es with
  | [] => Some c
  | e :: es' => match sstep_fn c e with Some c' => sexec_fn c' es' | None => None end
  end.

Lemma sstep_fn_sound c e c' : sstep_fn c e = Some c' -> sstep c e c'.
Proof.
  destruct e as [t o|t|t|t r]; cbn [sstep_fn].
  - destruct (sc_t c t) eqn:Et; try discriminate. intros E. injection E as <-. apply ss_call. exact Et.
  - destruct (sc_t c t) as [|o|o x|o r] eqn:Et; try discriminate. intros E. injection E as <-.
    apply ss_look. exact Et.
  - destruct (sc_t c t) as [|o|o x|o r] eqn:Et; try discriminate. intros E. injection E as <-.
    apply ss_act. exact Et.
  - destruct (sc_t c t) as [|o|o x|o r'] eqn:Et; try discriminate.
    destruct (res_eq_dec r r') as [->|_]; [|discriminate]. intros E. injection E as <-.
    apply (ss_ret c t o r'). exact Et.
Qed.

Lemma sexec_fn_sound s0 es :
  lz_is_some (sexec_fn (mksc s0 (fun _ => SIdle)) es) = true -> exists c, sexec s0 es c.
Proof.
  destruct (sexec_fn (mksc s0 (fun _ => SIdle)) es) as [c|] eqn:E; [|discriminate]. intros _. exists c.
  apply (run_opt_sound sstep_fn (sexec s0)) with (es := []) (c := mksc s0 (fun _ => SIdle));
    [|exact (sexec_nil s0)|exact E].
  intros es1 c1 e c2 Hx E1. exact (sexec_snoc s0 es1 c1 e c2 Hx (sstep_fn_sound c1 e c2 E1)).
Qed.
End Split.

Arguments SCall {Op Res} t o.
Arguments SLook {Op Res} t.
Arguments SAct {Op Res} t.
Arguments SRet {Op Res} t r.
Arguments sexec {St Op Res Lk} look fin s0 _ _.
Arguments shist {Op Res} es.
Arguments sexec_fn {St Op Res Lk} look fin res_eq_dec c es.
Arguments mksc {St Op Res Lk} sc_s sc_t.
Arguments SIdle {Op Res Lk}.

(* Get on the chain-index database, split as in the code WITHOUT the lock: the index lookup (which
   yields a slot: segment, offset, sizes) at one instant, the read of the log at that slot at a later
   instant.  Every other operation is left atomic. *)
Definition pg_look (P : params) (s : stp) (o : op') : option slot :=
  match o with
  | OpBase (OpGet k) =>
    match s_mem s with
    | Some m => ix_get chain_ops (m_idx m) (p_hash P (m_seed m) k) (matchf (s_disk s) k)
    | None => None
    end
  | _ => None
  end.
Definition pg_fin (P : params) (s : stp) (o : op') (x : option slot) : stp * out :=
  match o with
  | OpBase (OpGet k) =>
    (s, match s_mem s with
        | None => OErr EClosed
        | Some _ => match x with
                    | None => OVal None
                    | Some sl => match read_kv (s_disk s) sl with
                                 | Some (_, v) => OVal (Some v)
                                 | None => OBroken 3
                                 end
                    end
        end)
  | _ => step_chain' P s o
  end.

(* with both instants at the same state this IS the atomic action *)
Lemma pg_split_same_instant P s o : pg_fin P s o (pg_look P s o) = step_chain' P s o.
Proof.
  destruct o as [[k v|k|k|k b|k| | |]|]; try reflexivity.
  unfold pg_fin, pg_look, step_chain'. cbn [step' step]. unfold db_get.
  destruct (s_mem s) as [m|]; reflexivity.
Qed.

Definition out_eq_dec : forall a b : out, {a = b} + {a <> b}.
Proof. repeat decide equality. Defined.

Lemma linearization_req_mono {Op Res A R'} (astep : A -> Op -> A * R') (req1 req2 : Res -> R' -> Prop)
    a0 (h : list (hev Op Res)) lin :
  (forall a b, req1 a b -> req2 a b) ->
  linearization astep req1 a0 h lin -> linearization astep req2 a0 h lin.
Proof.
  intros Hm [L1 L2 L3 L4 L5]. constructor; try assumption.
  clear L1 L2 L3 L5. induction L4 as [|x y l1 l2 Hxy _ IH]; constructor; [exact (Hm _ _ Hxy)|exact IH].
Qed.

(* concrete executions: the hypotheses of the theorems can be met *)

Module LinEx.
Import RunEx.
Local Open Scope nat_scope.

(* the database after eight Puts (two segments), on both indexes *)
Definition pre_ops : list op' := map put (seq 1 8).
Definition sp1 : stp := final' (step_chain' exP) sp0 pre_ops.
Definition sf1 : stf := final' (step_flat' exP) (flat_init 1) pre_ops.

Lemma ex_rel : st_rel sp1 sf1 /\ Inv exP sf1 /\ MetaOK sf1.
Proof.
  destruct (C01_chain_from_empty_with_compact exP 1 pre_ops exP_ok) as (_ & _ & A & B & C & _).
  - apply ops_valid'_b_ok. vm_compute. reflexivity.
  - apply rooms'_b_ok. vm_compute. reflexivity.
  - exact (conj A (conj B C)).
Qed.

Example ex_contents : abs (s_disk sf1) = map (fun i => (key_of i, val_of i)) [8; 7; 6; 5; 4; 3; 2; 1].
Proof. vm_compute. reflexivity. Qed.

Definition k5 := key_of 5.
Definition v5 := val_of 5.
Definition v50 := val_of 50.

(* three client threads on the SAME key and a compactor; operations overlap; at the end thread 0 is
   pending without action and thread 2 is pending with its action done *)
Definition ex_es : list (event op' out) :=
  [ ECall 0 (OpBase (OpPut k5 v50));
    ECall 1 (OpBase (OpGet k5));
    ECall 2 (OpBase (OpDelete k5));
    EAct 1;                             (* the Get acts before the Put *)
    EAct 0;
    ERet 1 (OVal (Some v5));
    ECall 1 (OpBase (OpGet k5));
    EAct 1;                             (* the second Get acts between the Put and the Delete *)
    EAct 2;
    ERet 0 OOk;
    ERet 1 (OVal (Some v50));
    ECall 3 OpCompact;
    ECall 1 (OpBase (OpHas k5));
    EAct 3;
    EAct 1;
    ERet 2 OOk;                         (* the Delete was called third and returns only now *)
    ERet 1 (OBool false);
    ERet 3 (OCompact 2 3 37);
    ECall 0 (OpBase (OpGet k5));
    ECall 2 (OpBase OpCount);
    EAct 2 ].

Example ex_is_execution : exists c, exec (step_chain' exP) no_guard no_bg sp1 ex_es c.
Proof.
  apply (exec_fn_sound _ _ _ (step_chain' exP) no_guard no_bg (fun _ _ => true) (fun _ => None) out_eq_dec).
  - intros s o _. exact I.
  - intros s s' H. discriminate H.
  - vm_compute. reflexivity.
Qed.

Example ex_history : hist ex_es =
  [ HCall (0, 0) (OpBase (OpPut k5 v50)); HCall (1, 0) (OpBase (OpGet k5));
    HCall (2, 0) (OpBase (OpDelete k5)); HRet (1, 0) (OVal (Some v5));
    HCall (1, 1) (OpBase (OpGet k5)); HRet (0, 0) OOk; HRet (1, 1) (OVal (Some v50));
    HCall (3, 0) OpCompact; HCall (1, 2) (OpBase (OpHas k5)); HRet (2, 0) OOk;
    HRet (1, 2) (OBool false); HRet (3, 0) (OCompact 2 3 37);
    HCall (0, 1) (OpBase (OpGet k5)); HCall (2, 1) (OpBase OpCount) ].
Proof. vm_compute. reflexivity. Qed.

(* the linearization: the order of the actions *)
Definition ex_lin : list (opid * op' * out) :=
  [ ((1, 0), OpBase (OpGet k5), OVal (Some v5));
    ((0, 0), OpBase (OpPut k5 v50), OOk);
    ((1, 1), OpBase (OpGet k5), OVal (Some v50));
    ((2, 0), OpBase (OpDelete k5), OOk);
    ((3, 0), OpCompact, OCompact 2 3 37);
    ((1, 2), OpBase (OpHas k5), OBool false);
    ((2, 1), OpBase OpCount, ONum 7) ].

Example ex_witness : lin_of (step_chain' exP) sp1 ex_es = ex_lin.
Proof. vm_compute. reflexivity. Qed.

Example ex_side_conditions :
  Forall op_valid' (map snd (act_ops ex_es)) /\ rooms' exP sf1 (map snd (act_ops ex_es)).
Proof.
  split.
  - apply ops_valid'_b_ok. vm_compute. reflexivity.
  - apply rooms'_b_ok. vm_compute. reflexivity.
Qed.

(* C07_linearizable applies *)
Example ex_linearization :
  linearization step_spec' out_equiv' (abs (s_disk sf1)) (hist ex_es) ex_lin /\ hist_wf (hist ex_es).
Proof.
  destruct ex_is_execution as [c Hx]. destruct ex_rel as (Hs & HI & HM).
  destruct ex_side_conditions as [Hv Hr].
  destruct (C07_linearizable exP sp1 sf1 ex_es c exP_ok Hs HI HM Hx Hv Hr) as (L & _ & W & _).
  rewrite ex_witness in L. exact (conj L W).
Qed.

(* what the plain map answers along the linearization: the same, except for the numbers of the
   CompactionResult *)
Example ex_map_results :
  seq_run step_spec' (abs (s_disk sf1)) (map lop ex_lin) =
  [OVal (Some v5); OOk; OVal (Some v50); OOk; OCompact 0 0 0; OBool false; ONum 7].
Proof. vm_compute. reflexivity. Qed.

(* the real-time order is not the order of the calls: the Delete (2,0) was called before the second Get
   (1,1) and is linearized after it; both orders are allowed because the two overlap.  But the first
   Get (1,0) returned before the second was called, and must precede it: *)
Example ex_real_time :
  before (hist ex_es) (HRet (1, 0) (OVal (Some v5))) (HCall (1, 1) (OpBase (OpGet k5))) /\
  before (map lid ex_lin) (1, 0) (1, 1).
Proof.
  rewrite ex_history. split.
  - exists 3, 4. split; [lia|split; reflexivity].
  - exists 0, 2. split; [lia|split; reflexivity].
Qed.

(* the compaction interleaved in micro-steps (flat-index database) *)
Definition mi_es : list (event op out) :=
  [ EBg;                                  (* the compactor picks both segments *)
    ECall 0 (OpPut k5 v50);
    EBg; EBg;                             (* first segment: start, one record *)
    ECall 1 (OpGet k5);
    EAct 0;                               (* the Put lands in the middle of the compaction *)
    EBg; EBg;
    EAct 1;
    ERet 0 OOk;
    EBg; EBg; EBg; EBg; EBg; EBg;
    ECall 2 (OpDelete (key_of 2));
    ERet 1 (OVal (Some v50));
    EAct 2;
    EBg; EBg; EBg; EBg; EBg; EBg;
    ECall 1 (OpGet (key_of 2));
    EAct 1;
    ERet 1 (OVal None);
    ERet 2 OOk;
    ECall 0 OpCount; EAct 0; ERet 0 (ONum 7) ].

Example mi_is_execution : exists c, exec (mstep exP) mguard (mbg exP) (sf1, c0) mi_es c.
Proof.
  apply (exec_fn_sound _ _ _ (mstep exP) mguard (mbg exP) mguardb (mbgf exP) out_eq_dec).
  - exact mguardb_ok.
  - exact (mbgf_ok exP).
  - vm_compute. reflexivity.
Qed.

(* the 21 background actions are real: the first compaction runs to its end (both old segments are
   removed, their live records rewritten) and a second one is under way *)
Example mi_compaction_ran :
  option_map (fun c => (length (d_segs (s_disk (fst (c_s c)))), c_src (snd (c_s c))))
             (exec_fn (mstep exP) mguardb (mbgf exP) out_eq_dec (init (sf1, c0)) mi_es) =
  Some (3, Some (2%N, 3%N, 538%N)) /\
  map f_id (d_segs (s_disk sf1)) = [0%N; 1%N].
Proof. split; vm_compute; reflexivity. Qed.

Example mi_linearizable :
  exists lin, linearization step_spec out_equiv (abs (s_disk sf1)) (hist mi_es) lin /\
              map fst lin = act_ops mi_es /\
              map lres lin = [OOk; OVal (Some v50); OOk; OVal None; ONum 7].
Proof.
  destruct mi_is_execution as [c Hx]. destruct ex_rel as (_ & HI & HM).
  assert (HC : CInv sf1 c0).
  { destruct (s_mem sf1) as [m|] eqn:Em; [exact (CInv_c0 sf1 m Em)|vm_compute in Em; discriminate Em]. }
  destruct (C07_linearizable_microsteps exP sf1 c0 mi_es c exP_ok HI HC HM Hx) as (lin & L & Ea & _).
  exists lin. split; [exact L|]. split; [exact Ea|].
  (* every operation of [lin] has returned, so it is paired with the result it returned *)
  assert (Eh : hist mi_es =
    [ HCall (0, 0) (OpPut k5 v50); HCall (1, 0) (OpGet k5); HRet (0, 0) OOk;
      HCall (2, 0) (OpDelete (key_of 2)); HRet (1, 0) (OVal (Some v50));
      HCall (1, 1) (OpGet (key_of 2)); HRet (1, 1) (OVal None); HRet (2, 0) OOk;
      HCall (0, 1) OpCount; HRet (0, 1) (ONum 7) ]) by (vm_compute; reflexivity).
  assert (Eo : act_ops mi_es =
    [ ((0, 0), OpPut k5 v50); ((1, 0), OpGet k5); ((2, 0), OpDelete (key_of 2));
      ((1, 1), OpGet (key_of 2)); ((0, 1), OpCount) ]) by (vm_compute; reflexivity).
  apply (lin_lres_of_returns _ _ _ _ _ _ L). rewrite Ea, Eo, Eh.
  (* the positions of the five returns in the history *)
  constructor; [do 2 right; left; reflexivity|]. constructor; [do 4 right; left; reflexivity|].
  constructor; [do 7 right; left; reflexivity|]. constructor; [do 6 right; left; reflexivity|].
  constructor; [do 9 right; left; reflexivity|]. constructor.
Qed.
End LinEx.

(* even if the failed log read were reported as "not found" *)
Definition lenient (a b : out) : Prop := out_equiv' a b \/ (a = OBroken 3 /\ b = OVal None).

Module NonAtomic.
Import RunEx.
Local Open Scope nat_scope.

Definition k1 := key_of 1.
Definition v1 := val_of 1.

(* on a fresh database: thread 0 puts k1 and returns; thread 1 calls Get(k1) and looks the slot up
   (segment 0); thread 2 runs a whole Compact (the record moves to a new segment, segment 0 is
   removed); then thread 1 reads the log at the stale slot *)
Definition na_es : list (sevent op' out) :=
  [ SCall 0 (OpBase (OpPut k1 v1)); SLook 0; SAct 0; SRet 0 OOk;
    SCall 1 (OpBase (OpGet k1)); SLook 1;
    SCall 2 OpCompact; SLook 2; SAct 2; SRet 2 (OCompact 1 0 0);
    SAct 1; SRet 1 (OBroken 3) ].

Definition na_hist : list (hev op' out) :=
  [ HCall (0, 0) (OpBase (OpPut k1 v1)); HRet (0, 0) OOk;
    HCall (1, 0) (OpBase (OpGet k1));
    HCall (2, 0) OpCompact; HRet (2, 0) (OCompact 1 0 0);
    HRet (1, 0) (OBroken 3) ].

Lemma na_is_execution : exists c, sexec (pg_look exP) (pg_fin exP) sp0 na_es c.
Proof. apply (sexec_fn_sound _ _ _ _ _ _ out_eq_dec). vm_compute. reflexivity. Qed.

Lemma na_history : shist na_es = na_hist.
Proof. vm_compute. reflexivity. Qed.

Lemma na_calls_unique : calls_unique na_hist.
Proof.
  intros i o o' H1 H2. unfold na_hist in H1, H2. cbn [In] in H1, H2.
  destruct H1 as [E1|[E1|[E1|[E1|[E1|[E1|[]]]]]]]; try discriminate E1;
    destruct H2 as [E2|[E2|[E2|[E2|[E2|[E2|[]]]]]]]; try discriminate E2; congruence.
Qed.

(* no sequence of the three operations explains the history: the Put returned before the Get was
   called and nothing else writes k1, so the map answers Some v1 to the Get -- in every order *)
Theorem na_not_linearizable : forall lin, ~ linearization step_spec' lenient [] na_hist lin.
Proof.
  intros lin L.
  assert (H : lenient (OBroken 3) (OVal (Some v1))).
  { apply (read_your_writes lenient [] na_hist lin (0, 0) (1, 0) k1 v1 OOk (OBroken 3) L na_calls_unique).
    - left. reflexivity.
    - exists 1, 2. split; [lia|split; reflexivity].
    - do 5 right. left. reflexivity.
    - intros j o Hin Hne Hw. unfold na_hist in Hin. cbn [In] in Hin.
      destruct Hin as [E|[E|[E|[E|[E|[E|[]]]]]]]; try discriminate E; injection E as <- <-.
      + exfalso. apply Hne. reflexivity.
      + destruct Hw.
      + destruct Hw. }
  destruct H as [H|[_ H]]; [cbn [out_equiv'] in H; discriminate H|discriminate H].
Qed.

(* the same calls with ATOMIC actions in the same order: the Get returns the value *)
Example na_atomic_contrast : exists c,
  exec (step_chain' exP) no_guard no_bg sp0
    [ ECall 0 (OpBase (OpPut k1 v1)); EAct 0; ERet 0 OOk;
      ECall 1 (OpBase (OpGet k1));
      ECall 2 OpCompact; EAct 2; ERet 2 (OCompact 1 0 0);
      EAct 1; ERet 1 (OVal (Some v1)) ] c.
Proof.
  apply (exec_fn_sound _ _ _ (step_chain' exP) no_guard no_bg (fun _ _ => true) (fun _ => None) out_eq_dec).
  - intros s o _. exact I.
  - intros s s' H. discriminate H.
  - vm_compute. reflexivity.
Qed.
End NonAtomic.

(* THE SENSITIVITY WITNESS.  With the Get's action split in two (index lookup at one instant, log
   read at a later one) the fresh chain-index database (contents: the empty map) has an execution
   whose history is not linearizable w.r.t. the plain map -- neither up to [out_equiv'], nor when the
   failed read is identified with "not found". *)
Theorem non_atomic_not_linearizable :
  exists (es : list (sevent op' out)) c,
    sexec (pg_look RunEx.exP) (pg_fin RunEx.exP) RunEx.sp0 es c /\
    st_rel RunEx.sp0 (flat_init 1) /\ abs (s_disk (flat_init 1)) = [] /\
    shist es = NonAtomic.na_hist /\
    ~ linearizable step_spec' out_equiv' [] (shist es) /\
    ~ linearizable step_spec' lenient [] (shist es).
Proof.
  destruct NonAtomic.na_is_execution as [c Hx]. exists NonAtomic.na_es, c.
  split; [exact Hx|]. split.
  { pose proof (init_rel RunEx.exP 1) as H. rewrite flat_open_fresh in H. unfold RunEx.sp0.
    destruct (db_open chain_ops RunEx.exP 1 st0) as [sp o]. cbn [fst]. tauto. }
  split; [reflexivity|]. split; [exact NonAtomic.na_history|].
  rewrite NonAtomic.na_history. split.
  - intros [lin L]. apply (NonAtomic.na_not_linearizable lin).
    apply (linearization_req_mono _ out_equiv' lenient); [|exact L]. intros a b H. left. exact H.
  - intros [lin L]. exact (NonAtomic.na_not_linearizable lin L).
Qed.

Print Assumptions atomic_actions_linearizable_sim.
Print Assumptions atomic_actions_linearizable.
Print Assumptions exec_hist_wf.
Print Assumptions exec_fn_sound.
Print Assumptions lin_result_of_completed.
Print Assumptions C07_linearizable.
Print Assumptions C07_linearizable_from_empty.
Print Assumptions read_your_writes.
Print Assumptions C07_read_your_writes.
Print Assumptions C07_linearizable_microsteps.
Print Assumptions pg_split_same_instant.
Print Assumptions LinEx.ex_is_execution.
Print Assumptions LinEx.ex_linearization.
Print Assumptions LinEx.ex_witness.
Print Assumptions LinEx.ex_real_time.
Print Assumptions LinEx.mi_is_execution.
Print Assumptions LinEx.mi_compaction_ran.
Print Assumptions LinEx.mi_linearizable.
Print Assumptions NonAtomic.na_not_linearizable.
Print Assumptions NonAtomic.na_atomic_contrast.
Print Assumptions non_atomic_not_linearizable.
