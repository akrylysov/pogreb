(* C01 -- Map semantics for every operation sequence, key set and hash layout.
   Part 1: every single operation on every reachable state (Inv) of the flat-index instantiation
   answers from / updates the abstract contents [abs] exactly as a plain map; the linear-hashing
   bucket chains behave like a multiset of slots with lookup by (hash, match) for ARBITRARY hash
   values and an ARBITRARY split policy (Index.v).
   Part 2 (DBSim.v, DBRun.v): runs over all operation sequences, and the refinement chain index ->
   flat index.  Then the translated Go arithmetic and the physical index. *)
From Pogreb Require Import Base Record Flat Index Spec DB DBInv DBMeta DBLemmas DBProofsOps DBSim DBRun.
From Coq Require Import Permutation.

Theorem C01_put : forall (P : params) (s : st) (k v : list N),
  params_ok P -> Inv P s -> (exists m : mem, s_mem s = Some m /\ room m) ->
  Forall byte k -> Forall byte v -> nlen k <= max_key_len -> nlen v <= max_val_len ->
  let '(s', o) := db_put flat_ops P k v s in
  o = OOk /\ Inv P s' /\ s_mem s' <> None /\
  (forall k' : key, sget (abs (s_disk s')) k' = (if key_eqb k' k then Some v else sget (abs (s_disk s)) k')).
Proof. exact put_ok. Qed.
Print Assumptions C01_put.

Theorem C01_delete : forall (P : params) (s : st) (k : list N),
  params_ok P -> Inv P s -> (exists m : mem, s_mem s = Some m /\ room m) -> Forall byte k ->
  let '(s', o) := db_delete flat_ops P k s in
  o = OOk /\ Inv P s' /\ s_mem s' <> None /\
  (forall k' : key, sget (abs (s_disk s')) k' = (if key_eqb k' k then None else sget (abs (s_disk s)) k')) /\
  (sget (abs (s_disk s)) k = None -> s_disk s' = s_disk s).
Proof. exact delete_ok. Qed.
Print Assumptions C01_delete.

Theorem C01_get : forall (P : params) (s : st) (k : key),
  Inv P s -> s_mem s <> None -> db_get flat_ops P k s = OVal (sget (abs (s_disk s)) k).
Proof. exact get_ok. Qed.
Print Assumptions C01_get.

Theorem C01_get_append : forall (P : params) (s : st) (k : key) (buf : bytes),
  Inv P s -> s_mem s <> None ->
  db_get_append flat_ops P k buf s = OVal (option_map (fun v : list N => buf ++ v) (sget (abs (s_disk s)) k)).
Proof. exact get_append_ok. Qed.
Print Assumptions C01_get_append.

Theorem C01_has : forall (P : params) (s : st) (k : key),
  Inv P s -> s_mem s <> None -> db_has flat_ops P k s = OBool (shas (abs (s_disk s)) k).
Proof. exact has_ok. Qed.
Print Assumptions C01_has.

Theorem C01_count : forall (P : params) (s : st),
  Inv P s -> s_mem s <> None -> db_count flat_ops s = ONum (scount (abs (s_disk s))).
Proof. exact count_ok. Qed.
Print Assumptions C01_count.

(* a full scan of the quiescent database: each live key exactly once with its current value *)
Theorem C01_items : forall (P : params) (s : st),
  Inv P s -> s_mem s <> None ->
  exists l : list (key * val), db_items flat_ops s = OItems l /\ Permutation l (abs (s_disk s)).
Proof. exact items_ok. Qed.
Print Assumptions C01_items.

Theorem C01_sync : forall (P : params) (s : st),
  Inv P s -> s_mem s <> None ->
  let '(s', o) := db_sync flat_ops s in o = OOk /\ Inv P s' /\ s_disk s' = s_disk s /\ s_mem s' = s_mem s.
Proof. exact sync_ok. Qed.
Print Assumptions C01_sync.

(* ---- the bucket chains, for arbitrary hashes and an arbitrary split policy ---- *)
Theorem C01_chain_get_sound : forall (p : pindex) (h : N) (m : slot -> bool) (s : slot),
  PInv p -> px_get p h m = Some s -> In s (all_slots p) /\ sl_h s = h /\ m s = true.
Proof. intros p h m s _. apply px_get_some. Qed.
Print Assumptions C01_chain_get_sound.

(* lookup is complete along the chain whatever holes earlier deletes have opened *)
Theorem C01_chain_get_complete : forall (p : pindex) (h : N) (m : slot -> bool),
  PInv p -> px_get p h m = None -> forall s : slot, In s (all_slots p) -> sl_h s = h -> m s = false.
Proof. exact px_get_none. Qed.
Print Assumptions C01_chain_get_complete.

(* put overwrites the existing slot of the key wherever it lives in the chain, else adds one slot;
   this includes the split the put may trigger *)
Theorem C01_chain_put : forall (grow : N -> N -> bool) (p : pindex) (sl : slot) (m : slot -> bool)
    (p' : pindex) (old : option slot),
  PInv p -> px_put grow p sl m = (p', old) ->
  PInv p' /\
  match old with
  | Some o => In o (all_slots p) /\ sl_h o = sl_h sl /\ m o = true /\
      (exists l1 l2 : list slot, Permutation (all_slots p) (l1 ++ o :: l2) /\ Permutation (all_slots p') (l1 ++ sl :: l2))
  | None => (forall s : slot, In s (all_slots p) -> sl_h s = sl_h sl -> m s = false) /\
      Permutation (all_slots p') (sl :: all_slots p)
  end.
Proof. exact px_put_spec. Qed.
Print Assumptions C01_chain_put.

Theorem C01_chain_delete : forall (p : pindex) (h : N) (m : slot -> bool) (p' : pindex) (old : option slot),
  PInv p -> px_del p h m = (p', old) ->
  PInv p' /\
  match old with
  | Some o => sl_h o = h /\ m o = true /\ Permutation (all_slots p) (o :: all_slots p')
  | None => p' = p /\ (forall s : slot, In s (all_slots p) -> sl_h s = h -> m s = false)
  end.
Proof. exact px_del_spec. Qed.
Print Assumptions C01_chain_delete.

(* index growth at any moment: a split keeps every slot, in the chain its hash now addresses *)
Theorem C01_chain_split : forall p : pindex,
  PInv p -> PInv (px_dosplit p) /\ Permutation (all_slots (px_dosplit p)) (all_slots p) /\
  px_nkeys (px_dosplit p) = px_nkeys p.
Proof. exact px_split_spec. Qed.
Print Assumptions C01_chain_split.

Theorem C01_chain_scan_all : forall p : pindex,
  concat (map (px_bucket p) (map N.of_nat (seq 0 (length (px_chains p))))) = all_slots p.
Proof. exact px_iter_all. Qed.
Print Assumptions C01_chain_scan_all.

(* sensitivity: the pinned findInsertionBucket inserted a duplicate instead of overwriting (defect D1) *)
Theorem C01_pinned_refuted : exists p sl m, PInv p /\
  (exists o, In o (all_slots p) /\ sl_h o = sl_h sl /\ m o = true) /\ snd (px_put_pinned grow0 p sl m) = None.
Proof. exact pinned_put_refuted. Qed.
Print Assumptions C01_pinned_refuted.

(* ---- Part 2: all operation sequences, on the REAL bucket-chain index ----
   For every parameter set P (hash function, split policy, segment size, compaction thresholds, sync
   mode all arbitrary), every chain-index state related to an invariant flat state, and every finite
   list of Put / Delete / Get / GetAppend / Has / Count / Items / Sync whose Puts are within the size
   limits: the outputs equal those of a plain map started from the abstract contents (Items up to
   permutation), provided no segment comes within one maximal record of 4 GiB along the run. *)
Theorem C01_every_operation_sequence : forall (P : params) (sp sf : st) (l : list op),
  params_ok P -> st_rel sp sf -> Inv P sf -> Forall op_valid l -> rooms P sf l ->
  Forall2 out_equiv (run (step_chain P) sp l) (run step_spec (abs (s_disk sf)) l).
Proof. exact C01_chain_refines_map. Qed.
Print Assumptions C01_every_operation_sequence.

(* from a freshly created database, against the empty map *)
Theorem C01_from_a_new_database : forall (P : params) (seed : N) (l : list op),
  params_ok P -> Forall op_valid l -> rooms P (flat_init seed) l ->
  Forall2 out_equiv (run (step_chain P) (fst (db_open chain_ops P seed st0)) l) (run step_spec nil l).
Proof. exact C01_chain_from_empty. Qed.
Print Assumptions C01_from_a_new_database.

(* non-vacuity: the hypotheses are met by a state with an overflow chain and a hole (40 colliding keys, one deleted) *)
Definition C01_nonvacuous := SimEx.ex_rel.

(* ... and with Compact anywhere in the operation list: outputs equivalent to the plain map's (Items up
   to permutation, CompactionResults ignored towards the map but EQUAL between the chain and the flat
   run), final states related again with Inv and MetaOK *)
Theorem C01_every_operation_sequence_with_compact : forall (P : params) (sp sf : st) (l : list op'),
  params_ok P -> st_rel sp sf -> Inv P sf -> MetaOK sf -> Forall op_valid' l -> rooms' P sf l ->
  Forall2 out_equiv' (run' (step_chain' P) sp l) (run' step_spec' (abs (s_disk sf)) l) /\
  Forall2 out_equiv (run' (step_chain' P) sp l) (run' (step_flat' P) sf l) /\
  (let sp' := final' (step_chain' P) sp l in
   let sf' := final' (step_flat' P) sf l in
   st_rel sp' sf' /\ Inv P sf' /\ MetaOK sf' /\
   meq (abs (s_disk sf')) (final' step_spec' (abs (s_disk sf)) l)).
Proof. exact C01_chain_refines_map_with_compact. Qed.
Print Assumptions C01_every_operation_sequence_with_compact.
Definition C01_nonvacuous_with_compact := RunEx.ex_run.

(* ---- the Go arithmetic this property rests on, AS TRANSLATED FROM THE CURRENT SOURCES by tools/gotrans
   (gen/Funcs.v, operators in GoSem.v), equals the model's, for all values of the Go types ---- *)
From Coq Require Import ZArith NArith Bool.
From Pogreb Require Import Base Record Index GoSem FuncsIndexCheck FuncsLogCheck.
From Pogreb.gen Require Funcs Consts.
Import Funcs.
Open Scope Z_scope.

Theorem C01_go_bucketIndex :
  forall level split h : N, (level < 32)%N -> (split < 2 ^ 32)%N -> (h < 2 ^ 32)%N ->
  go_bucketIndex (Z.of_N level) (Z.of_N split) (Z.of_N h) = Z.of_N (bucket_index level split h).
Proof. exact bucketIndex_ok. Qed.
Print Assumptions C01_go_bucketIndex.

Theorem C01_go_split_advance :
  forall level split : N, (level < 32)%N -> (split < 2 ^ level)%N ->
  go_split_advance (Z.of_N level) (Z.of_N split) = (Z.of_N (fst (advance level split)), Z.of_N (snd (advance level split))).
Proof. exact split_advance_ok. Qed.
Print Assumptions C01_go_split_advance.

Theorem C01_go_bucketOffset :
  forall i : N, (i < 2 ^ 32)%N -> go_bucketOffset (Z.of_N i) = Z.of_N (512 + 512 * i).
Proof. exact bucketOffset_ok. Qed.
Print Assumptions C01_go_bucketOffset.

Theorem C01_go_need_swap :
  forall (full : bool) (size dlen maxseg : N), (size < 2 ^ 62)%N -> (dlen < 2 ^ 62)%N -> (maxseg < 2 ^ 32)%N ->
  go_need_swap full (Z.of_N size) (Z.of_N dlen) (Z.of_N maxseg) = full || (maxseg <? size + dlen)%N.
Proof. exact need_swap_ok. Qed.
Print Assumptions C01_go_need_swap.

Theorem C01_go_trackdel :
  forall dkeys dbytes ks vs : N, (dkeys < 2 ^ 32)%N -> (dbytes < 2 ^ 32)%N -> (ks < 2 ^ 16)%N -> (vs < 2 ^ 32)%N ->
  go_trackdel (Z.of_N dkeys) (Z.of_N dbytes) (Z.of_N ks) (Z.of_N vs)
  = (Z.of_N (u32 (dkeys + 1)), Z.of_N (u32 (dbytes + u32 (rec_overhead + u32 (ks + vs))))).
Proof. exact trackdel_ok. Qed.
Print Assumptions C01_go_trackdel.

Theorem C01_go_del_bytes :
  forall dbytes rlen : N, (dbytes < 2 ^ 32)%N -> (rlen < 2 ^ 32)%N ->
  go_del_bytes (Z.of_N dbytes) (Z.of_N rlen) = Z.of_N (u32 (dbytes + u32 rlen)).
Proof. exact del_bytes_ok. Qed.
Print Assumptions C01_go_del_bytes.

(* ---- the database on the PHYSICAL index (Phys.v: main.pix / overflow.pix as arrays of 512-byte
   buckets addressed by file offset, createOverflowBucket, the free list): every run of Put / Delete /
   Get / GetAppend / Has / Count / Items / Sync / Compact returns the outputs of the chain-index
   database, hence of the plain map, and the physical invariant PhysInv (every pointer valid, no
   overflow bucket shared by two chains or both in a chain and on the free list, none leaked: the
   reachable overflow buckets and the free list partition overflow.pix) holds in every reached
   state (it is part of the relation PR).  The harness compares the BYTES of main.pix and
   overflow.pix and the free list of the implementation with this model at every dump. *)
From Pogreb Require Import DBSimExact Phys PhysProofs PhysDB.
Theorem C01_physical_index_refines_map :
  forall P (s1 : @DB.st phys) (sp : @DB.st pindex) (sf : @DB.st flat) (l : list op'),
  params_ok P -> gst_rel PR s1 sp -> st_rel sp sf -> Inv P sf -> MetaOK sf ->
  Forall op_valid' l -> rooms' P sf l ->
  Forall2 out_equiv' (run' (step' phys_ops P) s1 l) (run' step_spec' (abs (s_disk sf)) l) /\
  run' (step' phys_ops P) s1 l = run' (step_chain' P) sp l /\
  gst_rel PR (final' (step' phys_ops P) s1 l) (final' (step_chain' P) sp l).
Proof. exact C01_phys_refines_map. Qed.
Print Assumptions C01_physical_index_refines_map.

Theorem C01_physical_invariant_in_words : forall p, PhysInv p ->
  exists offs, reachable p = Some offs /\
    NoDup (offs ++ ph_free p) /\
    (forall o, In o (offs ++ ph_free p) <-> exists j, o = bucket_off j /\ (j < nlen (ph_over p))%N) /\
    nlen (ph_over p) = (nlen offs + nlen (ph_free p))%N.
Proof. exact PhysInv_overflow. Qed.
Print Assumptions C01_physical_invariant_in_words.

(* sensitivity: a createOverflowBucket that does not pop the free list makes two chains share a
   bucket and loses a key; a split that forgets freeOverflowBucket leaks *)
Definition C01_shared_bucket_refuted := PhysRun.create_overflow_nopop_refuted.
Definition C01_leak_refuted := PhysRun.split_no_free_refuted.
