(* DBProofsOps.v -- the operation theorems of the database model instantiated with the flat reference
   index: Put, Delete, Get, GetAppend, Has, Count, Items, Sync.
   [params_ok P] is a hypothesis of put_ok / delete_ok but is not used by the proofs (the side
   condition [room] already bounds every offset).  put_ok_ex / delete_ok_ex state the same in
   "exists s', db_put ... = (s', OOk) /\ ..." form and add what the crash proofs need: the shape of
   the trace (pre ++ [EAppend ..; EIndex ..] ++ post, with [wr_pre_shape pre id seq] and post = [] or
   one ESync), the disk as a fold of the events, and [olog] before / after the append. *)
From Coq Require Import ZArith Lia ZifyN ZifyNat ZifyBool Permutation.
From Pogreb Require Import Base BaseLemmas Crc Bytes Record RecordProofs Flat Spec DB DBInv DBLemmas.
Ltac Zify.zify_post_hook ::= Z.div_mod_to_equations.

Local Notation disk := (@DB.disk flat).
Local Notation st := (@DB.st flat).
Local Notation mem := (@DB.mem flat).
Local Notation fsev := (@DB.fsev flat).

(* what a read needs of the invariant *)
Lemma Inv_open' P (s : st) : Inv P s -> s_mem s <> None ->
  exists m, s_mem s = Some m /\ DiskOK (s_disk s) /\ idx_agrees P (m_seed m) (m_idx m) (s_disk s).
Proof.
  intros HI Hm. destruct (s_mem s) as [m|] eqn:Em; [|congruence].
  destruct (Inv_open P s m Em HI) as (HL & Hidx & _). exists m. split; [reflexivity|]. split; [apply HL|exact Hidx].
Qed.

Theorem get_ok P (s : st) k :
  Inv P s -> s_mem s <> None -> db_get flat_ops P k s = OVal (sget (abs (s_disk s)) k).
Proof.
  intros HI Hm. destruct (Inv_open' P s HI Hm) as (m & Em & Hd & Hidx).
  unfold db_get. rewrite Em. cbn [ix_get flat_ops].
  rewrite (idx_get_find P (m_seed m) (m_idx m) (s_disk s) k Hd (proj1 Hidx)).
  pose proof (idx_lookup P _ _ _ k Hd Hidx) as Hlk.
  destruct (find (khit (slot_key (s_disk s)) k) (m_idx m)) as [sl|].
  - destruct Hlk as (_ & v & Er & Eg). rewrite Er, Eg. reflexivity.
  - rewrite Hlk. reflexivity.
Qed.

Theorem get_append_ok P (s : st) k buf :
  Inv P s -> s_mem s <> None ->
  db_get_append flat_ops P k buf s = OVal (option_map (fun v => buf ++ v) (sget (abs (s_disk s)) k)).
Proof.
  intros HI Hm. unfold db_get_append. rewrite (get_ok P s k HI Hm).
  destruct (sget (abs (s_disk s)) k); reflexivity.
Qed.

Theorem has_ok P (s : st) k :
  Inv P s -> s_mem s <> None -> db_has flat_ops P k s = OBool (shas (abs (s_disk s)) k).
Proof.
  intros HI Hm. destruct (Inv_open' P s HI Hm) as (m & Em & Hd & Hidx).
  unfold db_has. rewrite Em. cbn [ix_get flat_ops].
  rewrite (idx_get_find P (m_seed m) (m_idx m) (s_disk s) k Hd (proj1 Hidx)).
  pose proof (idx_lookup P _ _ _ k Hd Hidx) as Hlk. rewrite shas_sget.
  destruct (find (khit (slot_key (s_disk s)) k) (m_idx m)) as [sl|].
  - destruct Hlk as (_ & v & _ & Eg). rewrite Eg. reflexivity.
  - rewrite Hlk. reflexivity.
Qed.

(* the keys of the index are the keys of the contents *)
Lemma idx_keys P seed idx (d : disk) k :
  DiskOK d -> idx_agrees P seed idx d -> (In k (map (slot_key d) idx) <-> In k (map fst (abs d))).
Proof.
  intros Hd Hidx. pose proof (idx_lookup P seed idx d k Hd Hidx) as Hlk.
  pose proof Hidx as (_ & Hnd & _). split; intros HIn.
  - apply in_map_iff in HIn. destruct HIn as (sl & <- & Hsl).
    rewrite (find_khit_In _ _ sl Hnd Hsl) in Hlk. destruct Hlk as (_ & v & _ & Eg).
    apply (sget_In _ _ _ (abs_NoDup d)) in Eg. apply (in_map fst) in Eg. exact Eg.
  - destruct (find (khit (slot_key d) k) idx) as [sl|] eqn:E.
    + apply find_khit_Some in E. destruct E as [Hsl <-]. apply in_map. exact Hsl.
    + exfalso. apply sget_None in Hlk. exact (Hlk HIn).
Qed.

Theorem count_ok P (s : st) :
  Inv P s -> s_mem s <> None -> db_count flat_ops s = ONum (scount (abs (s_disk s))).
Proof.
  intros HI Hm. destruct (Inv_open' P s HI Hm) as (m & Em & Hd & Hidx).
  unfold db_count. rewrite Em. cbn [ix_count flat_ops]. unfold scount. f_equal.
  assert (Hp : Permutation (map (slot_key (s_disk s)) (m_idx m)) (map fst (abs (s_disk s)))).
  { apply NoDup_Permutation; [apply Hidx|apply abs_NoDup|]. intros k. apply (idx_keys P _ _ _ k Hd Hidx). }
  apply Permutation_length in Hp. rewrite !map_length in Hp. rewrite !nlen_length, Hp. reflexivity.
Qed.

Lemma read_slots_spec P seed idx (d : disk) :
  Forall (slot_ok P d seed) idx ->
  exists a, read_slots d idx = Some a /\ map fst a = map (slot_key d) idx /\
            (forall kv, In kv a <-> exists sl, In sl idx /\ read_kv d sl = Some kv).
Proof.
  induction idx as [|sl idx IH]; intros Hok.
  - exists []. split; [reflexivity|]. split; [reflexivity|]. intros kv. split; [intros []|intros (? & [] & _)].
  - inversion Hok as [|? ? Hsl Hok']; subst. destruct (IH Hok') as (a & Ea & Em & Ha).
    destruct (slot_ok_read P d seed sl Hsl) as (r & _ & _ & _ & _ & _ & Er & Ek).
    exists ((rk r, rv r) :: a). cbn [read_slots]. rewrite Er, Ea. split; [reflexivity|].
    split; [cbn [map fst]; congruence|]. intros kv. cbn [In]. rewrite Ha. split.
    + intros [<-|(sl' & Hsl' & E)]; [exists sl; split; [left; reflexivity|exact Er]|exists sl'; split; [right; exact Hsl'|exact E]].
    + intros (sl' & [<-|Hsl'] & E); [left; congruence|right; exists sl'; split; assumption].
Qed.

Theorem items_ok P (s : st) :
  Inv P s -> s_mem s <> None -> exists l, db_items flat_ops s = OItems l /\ Permutation l (abs (s_disk s)).
Proof.
  intros HI Hm. destruct (Inv_open' P s HI Hm) as (m & Em & Hd & Hidx).
  pose proof Hidx as (Hok & Hnd & _).
  destruct (read_slots_spec P _ _ _ Hok) as (a & Ea & Emap & Ha).
  exists (a ++ []). split.
  - unfold db_items. rewrite Em. cbn [ix_nbuckets flat_ops]. change (N.to_nat 1) with 1%nat. cbn [nseq].
    unfold fetch_bucket. rewrite Em. cbn [ix_bucket flat_ops]. change (0 =? 0) with true. cbn iota.
    rewrite Ea. reflexivity.
  - rewrite app_nil_r. apply NoDup_Permutation.
    + apply (NoDup_map_inv fst). rewrite Emap. exact Hnd.
    + apply (NoDup_map_inv fst). apply abs_NoDup.
    + intros [k v]. pose proof (idx_lookup P _ _ _ k Hd Hidx) as Hlk. rewrite Ha. split.
      * intros (sl & Hsl & Er).
        assert (Ek : slot_key (s_disk s) sl = k) by (unfold slot_key; rewrite Er; reflexivity).
        rewrite <- Ek, (find_khit_In _ _ sl Hnd Hsl), Ek in Hlk. destruct Hlk as (_ & v' & Er' & Eg).
        apply (sget_In _ _ _ (abs_NoDup _)). congruence.
      * intros HIn. apply (sget_In _ _ _ (abs_NoDup _)) in HIn.
        destruct (find (khit (slot_key (s_disk s)) k) (m_idx m)) as [sl|]; [|congruence].
        destruct Hlk as (Hsl & v' & Er' & Eg). exists sl. split; [exact Hsl|congruence].
Qed.

Lemma do_sync_spec (s : st) (m : mem) :
  s_mem (do_sync flat_ops s m) = s_mem s /\ s_disk (do_sync flat_ops s m) = s_disk s /\
  (s_trace (do_sync flat_ops s m) = s_trace s \/
   exists id seq, s_trace (do_sync flat_ops s m) = s_trace s ++ [ESync (FSeg id seq)]).
Proof.
  unfold do_sync. destruct (cur_seg m) as [g|].
  - split; [reflexivity|]. split; [reflexivity|]. right. eexists _, _. reflexivity.
  - split; [reflexivity|]. split; [reflexivity|]. left. reflexivity.
Qed.

Theorem sync_ok P (s : st) :
  Inv P s -> s_mem s <> None ->
  let '(s', o) := db_sync flat_ops s in o = OOk /\ Inv P s' /\ s_disk s' = s_disk s /\ s_mem s' = s_mem s.
Proof.
  intros HI Hm. unfold db_sync. destruct (s_mem s) as [m|] eqn:Em; [|congruence].
  destruct (do_sync_spec s m) as (E1 & E2 & _).
  split; [reflexivity|]. split; [|split; [exact E2|congruence]].
  apply (Inv_same P s); [congruence|exact E2|exact HI].
Qed.

Lemma finish_spec P (s : st) (m : mem) :
  exists s', finish flat_ops P s m = (s', OOk) /\ s_mem s' = Some m /\ s_disk s' = s_disk s /\
    (s_trace s' = s_trace s \/ exists id seq, s_trace s' = s_trace s ++ [ESync (FSeg id seq)]).
Proof.
  unfold finish. eexists. split; [reflexivity|]. split; [reflexivity|].
  cbn [s_disk s_trace with_mem]. destruct (p_sync P).
  - destruct (do_sync_spec s m) as (_ & E2 & E3). split; assumption.
  - split; [reflexivity|left; reflexivity].
Qed.

(* what Put and Delete do after writeRecord: write the index, finish *)
Lemma write_finish P (s s1 : st) (m2 : mem) r id seq off pre i2 :
  InvLog m2 (s_disk s1) -> idx_agrees P (m_seed m2) i2 (s_disk s1) ->
  d_lock (s_disk s) = true -> d_overflow (s_disk s) = true -> same_rest (s_disk s) (s_disk s1) ->
  olog (s_disk s1) = olog (s_disk s) ++ [(id, off, r)] ->
  s_trace s1 = s_trace s ++ pre ++ [EAppend id seq off r] ->
  s_disk s1 = fold_left (apply_ev flat_ops) (pre ++ [EAppend id seq off r]) (s_disk s) ->
  exists s', finish flat_ops P (emit flat_ops (EIndex i2) s1) (set_idx m2 i2) = (s', OOk) /\
    Inv P s' /\ s_mem s' <> None /\ abs (s_disk s') = apply_rec (abs (s_disk s)) (id, off, r) /\
    exists post,
      s_trace s' = s_trace s ++ pre ++ [EAppend id seq off r; EIndex i2] ++ post /\
      (post = [] \/ exists i q, post = [ESync (FSeg i q)]) /\
      olog (s_disk s') = olog (s_disk s) ++ [(id, off, r)] /\
      s_disk s' = fold_left (apply_ev flat_ops) (pre ++ [EAppend id seq off r; EIndex i2]) (s_disk s).
Proof.
  intros HL Hidx Hlock Hovf (_ & _ & Ro & _ & _ & Rl & _) Eo Et Ed.
  destruct (finish_spec P (emit flat_ops (EIndex i2) s1) (set_idx m2 i2)) as (s' & Ef & Ems' & Eds' & Ets').
  exists s'. split; [exact Ef|]. rewrite s_disk_emit in Eds'.
  assert (Hsl : same_log (s_disk s1) (s_disk s')) by (rewrite Eds'; apply same_log_segs; reflexivity).
  split; [|split; [congruence|split]].
  - apply (Inv_intro P s' (set_idx m2 i2) Ems').
    + apply (InvLog_same_log _ _ _ Hsl). apply set_idx_InvLog. exact HL.
    + apply (idx_agrees_same_log _ _ _ _ _ Hsl Hidx).
    + rewrite Eds'. cbn [apply_ev d_lock set_index]. congruence.
    + rewrite Eds'. reflexivity.
    + rewrite Eds'. cbn [apply_ev d_overflow set_index]. congruence.
  - rewrite (same_log_abs _ _ Hsl). apply (abs_snoc _ _ _ Eo).
  - assert (Et1 : s_trace (emit flat_ops (EIndex i2) s1) = s_trace s ++ pre ++ [EAppend id seq off r; EIndex i2]).
    { rewrite s_trace_emit, Et, <- !app_assoc. reflexivity. }
    assert (Ed' : s_disk s' = fold_left (apply_ev flat_ops) (pre ++ [EAppend id seq off r; EIndex i2]) (s_disk s)).
    { rewrite Eds', Ed, !fold_left_app. reflexivity. }
    pose proof (eq_trans (same_log_olog _ _ Hsl) Eo) as Eo'.
    destruct Ets' as [Ets'|(i & q & Ets')].
    + exists []. rewrite app_nil_r. split; [congruence|]. split; [left; reflexivity|]. split; assumption.
    + exists [ESync (FSeg i q)]. split; [rewrite Ets', Et1, <- !app_assoc; reflexivity|].
      split; [right; eauto|]. split; assumption.
Qed.

(* the index after a put *)
Lemma put_index P seed idx (d d1 : disk) id off k v grow i2 old :
  DiskOK d -> DiskOK d1 -> idx_agrees P seed idx d ->
  olog d1 = olog d ++ [(id, off, mkput k v)] ->
  nlen k <= max_key_len -> nlen v <= max_val_len ->
  fl_put grow idx {| sl_h := p_hash P seed k; sl_seg := id; sl_ks := u16 (nlen k);
                     sl_vs := u32 (nlen v); sl_off := off |} (matchf d1 k) = (i2, old) ->
  idx_agrees P seed i2 d1.
Proof.
  intros Hd Hd1 Hidx Eo Hk Hv Eput.
  pose proof (olog_new d d1 _ _ _ Hd1 Eo) as Hnew.
  apply (idxl_agrees_keep P d d1 _ _ _ (olog_keep d d1 _ Hd Hd1 Eo)) in Hidx.
  set (sl := {| sl_h := p_hash P seed k; sl_seg := id; sl_ks := u16 (nlen k);
                sl_vs := u32 (nlen v); sl_off := off |}) in *.
  assert (Hsl : slot_ok P d1 seed sl).
  { apply slot_ok_rec_of. exists (mkput k v). cbn [sl sl_seg sl_off sl_ks sl_vs sl_h mkput rk rv rdel].
    consts. rewrite u16_small, u32_small by lia. repeat split; auto. }
  assert (Hkf : slot_key d1 sl = k).
  { destruct (slot_ok_read P d1 seed sl Hsl) as (r & Er & _ & _ & _ & _ & _ & Ek).
    rewrite Ek. cbn [sl sl_seg sl_off] in Er. rewrite Hnew in Er. inversion Er. reflexivity. }
  rewrite idx_agrees_eq, Eo. replace i2 with (fst (fl_put grow idx sl (matchf d1 k))) by (rewrite Eput; reflexivity).
  apply idxl_put_step; try reflexivity; try assumption.
  intros x Hx. apply hit_key; [exact Hd1|]. exact (proj1 (Forall_forall _ _) (proj1 Hidx) x Hx).
Qed.

(* Put, with everything the crash proofs need about the events *)
Theorem put_ok_ex P (s : st) k v :
  params_ok P -> Inv P s -> (exists m, s_mem s = Some m /\ room m) ->
  Forall byte k -> Forall byte v -> nlen k <= max_key_len -> nlen v <= max_val_len ->
  exists s', db_put flat_ops P k v s = (s', OOk) /\ Inv P s' /\ s_mem s' <> None /\
    (forall k', sget (abs (s_disk s')) k' = if key_eqb k' k then Some v else sget (abs (s_disk s)) k') /\
    exists id seq off pre i2 post,
      s_trace s' = s_trace s ++ pre ++ [EAppend id seq off (mkput k v); EIndex i2] ++ post /\
      wr_pre_shape pre id seq /\ (post = [] \/ exists i q, post = [ESync (FSeg i q)]) /\
      olog (fold_left (apply_ev flat_ops) pre (s_disk s)) = olog (s_disk s) /\
      olog (s_disk s') = olog (s_disk s) ++ [(id, off, mkput k v)] /\
      s_disk s' = fold_left (apply_ev flat_ops) (pre ++ [EAppend id seq off (mkput k v); EIndex i2]) (s_disk s).
Proof.
  intros HP HI (m & Em & Hroom) Hbk Hbv Hk Hv.
  destruct (Inv_open P s m Em HI) as (HL & Hidx & Hlock & Hindex & Hovf).
  assert (Hd : DiskOK (s_disk s)) by apply HL.
  assert (Hr : rec_fits (mkput k v)) by (apply rec_fits_mkput; assumption).
  destruct (write_record_spec P (mkput k v) s m HP HL Hroom Hr)
    as (s1 & m1 & id & off & Ew & HL1 & Eo & Hoff & _ & _ & _ & _ & Ei & Esd & Em1 & Hrest & seq & pre & Et & Ed & Eop & _ & Hshape).
  assert (Hd1 : DiskOK (s_disk s1)) by apply HL1.
  unfold db_put. rewrite Em.
  rewrite (proj2 (N.ltb_ge _ _) Hk), (proj2 (N.ltb_ge _ _) Hv), Ew.
  cbn [ix_put flat_ops].
  destruct (fl_put (p_grow P) (m_idx m1) _ (matchf (s_disk s1) k)) as [i2 old] eqn:Eput.
  rewrite Ei in Eput.
  pose proof (put_index P (m_seed m) (m_idx m) (s_disk s) (s_disk s1) id off k v _ i2 old Hd Hd1 Hidx Eo Hk Hv Eput) as Hidx2.
  set (m2 := match old with Some o => track_del o m1 | None => m1 end).
  assert (Hsim : mem_sim m1 m2) by (unfold m2; destruct old; [apply mem_sim_track_del|apply mem_sim_refl]).
  assert (Eseed2 : m_seed m2 = m_seed m) by (unfold m2; destruct old; exact Esd).
  rewrite <- Eseed2 in Hidx2.
  destruct (write_finish P s s1 m2 _ id seq off pre i2 (mem_sim_InvLog _ _ _ Hsim HL1) Hidx2 Hlock Hovf Hrest Eo Et Ed)
    as (s' & Ef & HI' & Hm' & Eabs & post & Et' & Hpost & Eo' & Ed').
  rewrite Ef. exists s'. split; [reflexivity|]. split; [exact HI'|]. split; [exact Hm'|]. split.
  - intros k'. rewrite Eabs, sget_apply_rec. reflexivity.
  - exists id, seq, off, pre, i2, post. auto 7.
Qed.

Theorem put_ok P (s : st) k v :
  params_ok P -> Inv P s -> (exists m, s_mem s = Some m /\ room m) ->
  Forall byte k -> Forall byte v -> nlen k <= max_key_len -> nlen v <= max_val_len ->
  let '(s', o) := db_put flat_ops P k v s in
  o = OOk /\ Inv P s' /\ s_mem s' <> None /\
  (forall k', sget (abs (s_disk s')) k' = if key_eqb k' k then Some v else sget (abs (s_disk s)) k').
Proof.
  intros HP HI Hm Hbk Hbv Hk Hv.
  destruct (put_ok_ex P s k v HP HI Hm Hbk Hbv Hk Hv) as (s' & E & H1 & H2 & H3 & _).
  rewrite E. auto.
Qed.

(* state, files and trace untouched *)
Theorem put_rejected P (s : st) k v :
  s_mem s <> None -> (max_key_len < nlen k \/ max_val_len < nlen v) ->
  exists e, db_put flat_ops P k v s = (s, OErr e).
Proof.
  intros Hm H. unfold db_put. destruct (s_mem s) as [m|]; [|congruence].
  destruct (N.ltb_spec max_key_len (nlen k)) as [Hk|Hk]; [eexists; reflexivity|].
  destruct (N.ltb_spec max_val_len (nlen v)) as [Hv|Hv]; [eexists; reflexivity|].
  exfalso. lia.
Qed.

Lemma fl_del_hit P seed idx (d : disk) k :
  DiskOK d -> Forall (slot_ok P d seed) idx ->
  fl_del idx (p_hash P seed k) (matchf d k) =
  match fl_remove (khit (slot_key d) k) idx with Some (l', o) => (l', Some o) | None => (idx, None) end.
Proof.
  intros Hd Hok. unfold fl_del. rewrite (fl_remove_ext_in _ (khit (slot_key d) k) idx); [reflexivity|].
  intros x Hx. fa Hok x Hx. apply hit_key; assumption.
Qed.

Lemma del_absent P seed idx (d : disk) k i1 :
  DiskOK d -> idx_agrees P seed idx d ->
  fl_del idx (p_hash P seed k) (matchf d k) = (i1, None) -> i1 = idx /\ sget (abs d) k = None.
Proof.
  intros Hd Hidx E. rewrite (fl_del_hit P seed idx d k Hd (proj1 Hidx)) in E.
  destruct (fl_remove (khit (slot_key d) k) idx) as [[l' o]|] eqn:Er; [discriminate|].
  inversion E; subst i1. split; [reflexivity|].
  pose proof (idx_lookup P seed idx d k Hd Hidx) as Hlk.
  rewrite (proj2 (find_khit_None (slot_key d) k idx)) in Hlk; [exact Hlk|].
  apply khit_none_notin. exact (fl_remove_None _ _ Er).
Qed.

Lemma del_found P seed idx (d : disk) k i1 o :
  DiskOK d -> idx_agrees P seed idx d ->
  fl_del idx (p_hash P seed k) (matchf d k) = (i1, Some o) ->
  nlen k <= max_key_len /\ sget (abs d) k <> None.
Proof.
  intros Hd Hidx E. pose proof Hidx as (Hok & Hnd & _). rewrite (fl_del_hit P seed idx d k Hd Hok) in E.
  destruct (fl_remove (khit (slot_key d) k) idx) as [[l' o']|] eqn:Er; [|discriminate].
  inversion E; subst i1 o'. destruct (fl_remove_Some _ _ _ _ _ Hnd Er) as (A1 & A2 & _).
  fa Hok o A1. destruct (slot_ok_read P d seed o Hfa) as (r & Er' & _ & _ & _ & _ & _ & Ek).
  split.
  - pose proof (rec_of_rec_fits d _ _ r Hd Er') as (_ & _ & Hlen & _). congruence.
  - intros Hn. apply sget_None in Hn. apply Hn. apply (idx_keys P seed idx d k Hd Hidx).
    rewrite <- A2. apply in_map. exact A1.
Qed.

(* the index after a delete *)
Lemma del_index P seed idx (d d1 : disk) id off k i1 o :
  DiskOK d -> DiskOK d1 -> idx_agrees P seed idx d ->
  olog d1 = olog d ++ [(id, off, mkdel k)] ->
  fl_del idx (p_hash P seed k) (matchf d k) = (i1, Some o) ->
  idx_agrees P seed i1 d1.
Proof.
  intros Hd Hd1 Hidx Eo E. pose proof (olog_keep d d1 _ Hd Hd1 Eo) as Hkeep.
  rewrite idx_agrees_eq, Eo.
  replace i1 with (fst (fl_del idx (p_hash P seed k) (matchf d k))) by (rewrite E; reflexivity).
  apply idxl_del_step; [exact (idxl_agrees_keep P d d1 _ _ _ Hkeep Hidx)|reflexivity|].
  (* the lookup ran on the old disk; its slots read the same on the new one *)
  intros x Hx. pose proof (proj1 (Forall_forall _ _) (proj1 Hidx) x Hx) as Hsx.
  rewrite (hit_key P d seed k x Hd Hsx). unfold khit.
  rewrite (proj2 (proj2 (slot_keep P d d1 seed x Hkeep Hsx))). reflexivity.
Qed.

Theorem delete_ok_ex P (s : st) k :
  params_ok P -> Inv P s -> (exists m, s_mem s = Some m /\ room m) -> Forall byte k ->
  exists s', db_delete flat_ops P k s = (s', OOk) /\ Inv P s' /\ s_mem s' <> None /\
    (forall k', sget (abs (s_disk s')) k' = if key_eqb k' k then None else sget (abs (s_disk s)) k') /\
    (sget (abs (s_disk s)) k = None -> s_disk s' = s_disk s) /\
    ((* absent key: at most a Sync *)
     (sget (abs (s_disk s)) k = None /\ s_disk s' = s_disk s /\
      (s_trace s' = s_trace s \/ exists i q, s_trace s' = s_trace s ++ [ESync (FSeg i q)])) \/
     (* present key: the events of the write *)
     (sget (abs (s_disk s)) k <> None /\ nlen k <= max_key_len /\
      exists id seq off pre i1 post,
        s_trace s' = s_trace s ++ pre ++ [EAppend id seq off (mkdel k); EIndex i1] ++ post /\
        wr_pre_shape pre id seq /\ (post = [] \/ exists i q, post = [ESync (FSeg i q)]) /\
        olog (fold_left (apply_ev flat_ops) pre (s_disk s)) = olog (s_disk s) /\
        olog (s_disk s') = olog (s_disk s) ++ [(id, off, mkdel k)] /\
        s_disk s' = fold_left (apply_ev flat_ops) (pre ++ [EAppend id seq off (mkdel k); EIndex i1]) (s_disk s))).
Proof.
  intros HP HI (m & Em & Hroom) Hbk.
  destruct (Inv_open P s m Em HI) as (HL & Hidx & Hlock & Hindex & Hovf).
  assert (Hd : DiskOK (s_disk s)) by apply HL.
  unfold db_delete. rewrite Em. cbn [ix_del flat_ops].
  destruct (fl_del (m_idx m) (p_hash P (m_seed m) k) (matchf (s_disk s) k)) as [i1 old] eqn:Edel.
  destruct old as [o|].
  - (* the key is present *)
    destruct (del_found P _ _ _ k i1 o Hd Hidx Edel) as [Hk Hpres].
    assert (Hr : rec_fits (mkdel k)) by (apply rec_fits_mkdel; assumption).
    pose proof (track_del_InvLog o m _ HL) as HL0. pose proof (track_del_room o m Hroom) as Hroom0.
    destruct (write_record_spec P (mkdel k) s (track_del o m) HP HL0 Hroom0 Hr)
      as (s1 & m1 & id & off & Ew & HL1 & Eo & Hoff & _ & _ & _ & _ & Ei & Esd & Em1 & Hrest & seq & pre & Et & Ed & Eop & _ & Hshape).
    assert (Hd1 : DiskOK (s_disk s1)) by apply HL1.
    rewrite Ew.
    pose proof (del_index P _ _ (s_disk s) (s_disk s1) id off k i1 o Hd Hd1 Hidx Eo Edel) as Hidx2.
    set (m2 := add_delbytes id (u32 (rsize (mkdel k))) m1).
    destruct (write_finish P s s1 m2 _ id seq off pre i1 (add_delbytes_InvLog _ _ _ _ HL1)
                (eq_ind_r (fun sd => idx_agrees P sd i1 (s_disk s1)) Hidx2 Esd) Hlock Hovf Hrest Eo Et Ed)
      as (s' & Ef & HI' & Hm' & Eabs & post & Et' & Hpost & Eo' & Ed').
    rewrite Ef. exists s'. split; [reflexivity|]. split; [exact HI'|]. split; [exact Hm'|]. split.
    + intros k'. rewrite Eabs, sget_apply_rec. reflexivity.
    + split; [intros Hn; exfalso; exact (Hpres Hn)|right].
      split; [exact Hpres|]. split; [exact Hk|]. exists id, seq, off, pre, i1, post. auto 7.
  - (* the key is absent: nothing is written *)
    destruct (del_absent P _ _ _ k i1 Hd Hidx Edel) as [-> Habs].
    destruct (finish_spec P s m) as (s' & Ef & Ems' & Eds' & Ets').
    rewrite Ef. exists s'. split; [reflexivity|].
    split; [apply (Inv_same P s); [congruence|exact Eds'|exact HI]|].
    split; [congruence|]. split; [|split; [intros _; exact Eds'|left; auto]].
    intros k'. rewrite Eds'. destruct (key_eqb k' k) eqn:E; [|reflexivity].
    apply key_eqb_eq in E. subst k'. exact Habs.
Qed.

Theorem delete_ok P (s : st) k :
  params_ok P -> Inv P s -> (exists m, s_mem s = Some m /\ room m) -> Forall byte k ->
  let '(s', o) := db_delete flat_ops P k s in
  o = OOk /\ Inv P s' /\ s_mem s' <> None /\
  (forall k', sget (abs (s_disk s')) k' = if key_eqb k' k then None else sget (abs (s_disk s)) k') /\
  (sget (abs (s_disk s)) k = None -> s_disk s' = s_disk s).
Proof.
  intros HP HI Hm Hbk.
  destruct (delete_ok_ex P s k HP HI Hm Hbk) as (s' & E & H1 & H2 & H3 & H4 & _).
  rewrite E. auto.
Qed.

Print Assumptions put_ok.
Print Assumptions put_rejected.
Print Assumptions delete_ok.
Print Assumptions get_ok.
Print Assumptions get_append_ok.
Print Assumptions has_ok.
Print Assumptions count_ok.
Print Assumptions items_ok.
Print Assumptions sync_ok.
Print Assumptions put_ok_ex.
Print Assumptions delete_ok_ex.
Print Assumptions write_record_spec.
