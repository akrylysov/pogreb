(* PhysConc.v -- concurrency for the database on the physical index ([phys_ops], Phys.v):
     (1) any interleaving of compaction picks / compaction micro-steps with Put / Delete / Sync / reads
         preserves contents and invariants (DBProofsCompact.creach_ok, transferred and extended with
         the reads, the results and the pick): phys_creach_ok;
     (2) linearizability of concurrent histories (Linz.v: C07), for whole operations and with the
         compaction split into micro-steps that run as background actions.
   Three states are related in every statement:
        s1 : st phys   --- gst_rel PR ---   sp : st pindex   --- st_rel ---   sf : st flat
   Nothing is assumed of the phys state beyond [gst_rel PR s1 sp], nothing of the chain state beyond
   [st_rel sp sf]; Inv, CInv, MetaOK are hypotheses on the FLAT state, as in the chain theorems ([tri]).
   One action on the three layers comes from PhysCrash.op3 / compact_step3 / compact_pick3.

   - [creach] has the list of writer operations as its label and no results; [gcreach] is labelled with
     every action and its result (needed to say "same outputs").  gcreach_flat_creach links the two.
   - A pick is enabled in [gcreach] whenever compact_pick succeeds, also during a compaction (whose
     cursor is then abandoned): more general than pogreb's compaction mutex; [pmbg] has the mutex.
   - Linz.C07_linearizable_microsteps is stated for the FLAT-index database (not the chain one); the
     phys version goes phys -> chain -> flat -> map inside [pmsim].  [pmguard] is [op_guard] on the
     PHYSICAL state (weaker than Linz.mguard: reads and Sync are unguarded).
   - C07_linearizable_phys concludes [phys_open_ok] under [s_mem sf' <> None] (Inv alone does not say
     that the handle is open; with a non-empty list of actions rooms' does). *)
From Coq Require Import List Arith Lia NArith Permutation.
From Pogreb Require Import Base BaseLemmas Record Flat Index Spec DB DBInv DBLemmas DBProofsOps DBMeta
  DBProofsCompact DBSim DBRun DBSimExact Bucket Phys PhysProofs PhysDB DBSimSessions PhysCrash Linz.
Import ListNotations.

Local Notation st1 := (@DB.st phys).
Local Notation stp := (@DB.st pindex).
Local Notation stf := (@DB.st flat).

(* [DBInv.room] mentions the sizes of the open segments only; it does not depend on the index *)
Definition groom {I} (s : @DB.st I) : Prop :=
  exists m, s_mem s = Some m /\ forall g, In g (m_segs m) -> g_size g + rec_max < 4294967296.

Definition groom_b {I} (s : @DB.st I) : bool :=
  match s_mem s with
  | Some m => forallb (fun g => g_size g + rec_max <? 4294967296) (m_segs m)
  | None => false
  end.

Lemma groom_b_ok {I} (s : @DB.st I) : groom_b s = true -> groom s.
Proof.
  unfold groom_b, groom. destruct (s_mem s) as [m|]; [|discriminate]. intros H.
  exists m. split; [reflexivity|]. intros g Hg.
  rewrite forallb_forall in H. apply N.ltb_lt. exact (H g Hg).
Qed.

Lemma groom_flat (sf : stf) : groom sf <-> (exists m, s_mem sf = Some m /\ room m).
Proof. unfold groom, room. tauto. Qed.

Lemma groom_rel {I1 I2} (R : I1 -> I2 -> Prop) (s1 : @DB.st I1) (s2 : @DB.st I2) :
  gst_rel R s1 s2 -> (groom s1 <-> groom s2).
Proof.
  intros Hs. unfold groom.
  destruct (st_rel_mem_cases R _ _ Hs) as [[E1 E2]|(m1 & m2 & E1 & E2 & Hm)]; rewrite E1, E2.
  - split; intros (m & E & _); discriminate E.
  - pose proof (mem_rel_segs R _ _ Hm) as Es. split; intros (m & E & H); injection E as <-.
    + exists m2. split; [reflexivity|]. rewrite <- Es. exact H.
    + exists m1. split; [reflexivity|]. rewrite Es. exact H.
Qed.

Lemma groom_open {I} (s : @DB.st I) : groom s -> s_mem s <> None.
Proof. intros (m & E & _). congruence. Qed.

(* what the compactor and the callers do to the shared state, one critical section each *)
Inductive cact := APick | AStep | AOp (o : op).

(* the specification: the plain map; the compactor's actions do nothing and return nothing *)
Definition aspec (m : smap) (a : cact) : smap * out :=
  match a with AOp o => step_spec m o | _ => (m, OOk) end.

(* side condition of a caller's action (as in [DBProofsCompact.creach]): Put needs the 32-bit
   condition and valid arguments, Delete the 32-bit condition and a byte-string key; the reads and
   Sync need nothing *)
Definition op_guard {I} (s : @DB.st I) (o : op) : Prop :=
  match o with
  | OpPut k v => groom s /\ op_valid (OpPut k v)
  | OpDelete k => groom s /\ Forall byte k
  | _ => True
  end.

Definition op_guard_b {I} (s : @DB.st I) (o : op) : bool :=
  match o with
  | OpPut k v => groom_b s && op_valid_b (OpPut k v)
  | OpDelete k => groom_b s && forallb (fun b => b <? 256) k
  | _ => true
  end.

Lemma op_guard_b_ok {I} (s : @DB.st I) o : op_guard_b s o = true -> op_guard s o.
Proof.
  destruct o as [k v|k|k|k buf|k| | |]; cbn [op_guard_b op_guard]; try (intros _; exact Logic.I);
    rewrite andb_true_iff; intros [A B]; (split; [apply groom_b_ok; exact A|]).
  - apply op_valid_b_ok. exact B.
  - apply forallb_byte. exact B.
Qed.

Lemma op_guard_rel {I1 I2} (R : I1 -> I2 -> Prop) (s1 : @DB.st I1) (s2 : @DB.st I2) o :
  gst_rel R s1 s2 -> (op_guard s1 o <-> op_guard s2 o).
Proof.
  intros Hs. pose proof (groom_rel R s1 s2 Hs) as H.
  destruct o as [k v|k|k|k buf|k| | |]; cbn [op_guard]; tauto.
Qed.

Section GReach.
Context {I : Type}.
Variable ops : idx_ops I.
Variable P : params.
Local Notation st := (@DB.st I).

(* [gcreach s c tr s' c']: from the database s with compaction cursor c, the actions [map fst tr]
   (in this order: picks, compaction micro-steps, Put / Delete / Get / GetAppend / Has / Count / Items /
   Sync, interleaved in ANY way) lead to (s', c') and return [map snd tr].
   A micro-step is enabled when [compact_step] answers CMore (and the 32-bit condition holds); a pick
   whenever [compact_pick] succeeds -- also while a compaction is in progress, whose cursor is then
   abandoned (more general than what pogreb does: there the compaction mutex delays the next pick
   until the cursor is exhausted; the linearizability section below has exactly that restriction). *)
Inductive gcreach : st -> cursor -> list (cact * out) -> st -> cursor -> Prop :=
| gcr_refl s c : gcreach s c [] s c
| gcr_pick s c tr s1 c1 s2 c2 :
    gcreach s c tr s1 c1 -> compact_pick ops P s1 = Some (s2, c2) ->
    gcreach s c (tr ++ [(APick, OOk)]) s2 c2
| gcr_step s c tr s1 c1 s2 c2 :
    gcreach s c tr s1 c1 -> groom s1 -> compact_step ops P s1 c1 = CMore s2 c2 ->
    gcreach s c (tr ++ [(AStep, OOk)]) s2 c2
| gcr_op s c tr s1 c1 o :
    gcreach s c tr s1 c1 -> op_guard s1 o ->
    gcreach s c (tr ++ [(AOp o, snd (step ops P s1 o))]) (fst (step ops P s1 o)) c1.

(* a run is empty, or a run followed by one enabled action *)
Lemma gcreach_nil_inv s c s' c' : gcreach s c [] s' c' -> s' = s /\ c' = c.
Proof.
  intros H. remember (@nil (cact * out)) as l eqn:E.
  destruct H as [s c|s c tr ? ? ? ? _ _|s c tr ? ? ? ? _ _ _|s c tr ? ? ? _ _]; [split; reflexivity|..];
    destruct tr; discriminate E.
Qed.

Lemma gcreach_snoc_inv s c tr x s' c' : gcreach s c (tr ++ [x]) s' c' ->
  exists s1 c1, gcreach s c tr s1 c1 /\
    match fst x with
    | APick => snd x = OOk /\ compact_pick ops P s1 = Some (s', c')
    | AStep => snd x = OOk /\ groom s1 /\ compact_step ops P s1 c1 = CMore s' c'
    | AOp o => snd x = snd (step ops P s1 o) /\ op_guard s1 o /\ s' = fst (step ops P s1 o) /\ c' = c1
    end.
Proof.
  intros H. remember (tr ++ [x]) as l eqn:E.
  destruct H as [s c|s c tr0 s1 c1 s2 c2 H Ep|s c tr0 s1 c1 s2 c2 H Hg Es|s c tr0 s1 c1 o H Hg];
    [destruct tr; discriminate E|..]; apply app_inj_tail in E; destruct E as [<- <-]; exists s1, c1;
    (split; [exact H|]); cbn [fst snd].
  - exact (conj eq_refl Ep).
  - exact (conj eq_refl (conj Hg Es)).
  - exact (conj eq_refl (conj Hg (conj eq_refl eq_refl))).
Qed.

(* the relation is deterministic: the list of actions determines the results and the final state *)
Lemma gcreach_det s c tr1 s1 c1 : gcreach s c tr1 s1 c1 -> forall tr2 s2 c2,
  gcreach s c tr2 s2 c2 -> map fst tr1 = map fst tr2 -> tr1 = tr2 /\ s1 = s2 /\ c1 = c2.
Proof.
  revert s1 c1. induction tr1 as [|x tr1 IH] using rev_ind; intros s1 c1 H1 tr2 s2 c2 H2 E.
  - destruct tr2; [|discriminate E].
    destruct (gcreach_nil_inv _ _ _ _ H1) as [-> ->]. destruct (gcreach_nil_inv _ _ _ _ H2) as [-> ->]. auto.
  - destruct tr2 as [|y tr2 _] using rev_ind; [rewrite map_app in E; destruct (map fst tr1); discriminate E|].
    rewrite !map_app in E. apply app_inj_tail in E. destruct E as [E Ex].
    destruct (gcreach_snoc_inv _ _ _ _ _ _ H1) as (sa & ca & Ha & Xa).
    destruct (gcreach_snoc_inv _ _ _ _ _ _ H2) as (sb & cb & Hb & Xb).
    destruct (IH _ _ Ha _ _ _ Hb E) as (-> & -> & ->).
    destruct x as [a r], y as [a' r']. cbn [fst snd] in Ex, Xa, Xb. subst a'. destruct a as [| |o].
    + destruct Xa as [-> Ea], Xb as [-> Eb]. rewrite Ea in Eb. injection Eb as <- <-. auto.
    + destruct Xa as (-> & _ & Ea), Xb as (-> & _ & Eb). rewrite Ea in Eb. injection Eb as <- <-. auto.
    + destruct Xa as (-> & _ & -> & ->), Xb as (-> & _ & -> & ->). auto.
Qed.

(* the executable version: run a list of actions; None if one of them is not enabled *)
Definition gcact (x : st * cursor) (a : cact) : option (st * cursor * out) :=
  match a with
  | APick => match compact_pick ops P (fst x) with
             | Some y => Some (y, OOk)
             | None => None
             end
  | AStep => if groom_b (fst x) then
               match compact_step ops P (fst x) (snd x) with
               | CMore s' c' => Some (s', c', OOk)
               | _ => None
               end
             else None
  | AOp o => if op_guard_b (fst x) o
             then Some (fst (step ops P (fst x) o), snd x, snd (step ops P (fst x) o)) else None
  end.

Fixpoint gcrun (x : st * cursor) (l : list cact) (acc : list (cact * out)) :
    option (st * cursor * list (cact * out)) :=
  match l with
  | [] => Some (x, acc)
  | a :: l' => match gcact x a with
               | Some (y, r) => gcrun y l' (acc ++ [(a, r)])
               | None => None
               end
  end.

Lemma gcrun_sound l : forall s0 c0 s c acc s' c' tr,
  gcreach s0 c0 acc s c -> gcrun (s, c) l acc = Some (s', c', tr) ->
  gcreach s0 c0 tr s' c' /\ map fst tr = map fst acc ++ l.
Proof.
  induction l as [|a l IH]; intros s0 c0 s c acc s' c' tr Hr E; cbn [gcrun] in E.
  - injection E as <- <- <-. split; [exact Hr|]. rewrite app_nil_r. reflexivity.
  - destruct (gcact (s, c) a) as [[[s2 c2] r]|] eqn:Ea; [|discriminate E].
    assert (Hr' : gcreach s0 c0 (acc ++ [(a, r)]) s2 c2).
    { destruct a as [| |o]; cbn [gcact fst snd] in Ea.
      - destruct (compact_pick ops P s) as [[s3 c3]|] eqn:Ep; [|discriminate Ea].
        injection Ea as <- <- <-. exact (gcr_pick _ _ _ _ _ _ _ Hr Ep).
      - destruct (groom_b s) eqn:Eg; [|discriminate Ea].
        destruct (compact_step ops P s c) as [|s3 c3|w] eqn:Es; try discriminate Ea.
        injection Ea as <- <- <-. exact (gcr_step _ _ _ _ _ _ _ Hr (groom_b_ok _ Eg) Es).
      - destruct (op_guard_b s o) eqn:Eg; [|discriminate Ea].
        injection Ea as <- <- <-. exact (gcr_op _ _ _ _ _ _ Hr (op_guard_b_ok _ _ Eg)). }
    destruct (IH s0 c0 s2 c2 _ s' c' tr Hr' E) as [A B]. split; [exact A|].
    rewrite B, map_app, <- app_assoc. reflexivity.
Qed.
End GReach.

(* on the flat index, without picks, this is [DBProofsCompact.creach] (whose label is the list of
   writer operations) *)
Definition wops_of (x : cact * out) : list wop :=
  match fst x with
  | AOp (OpPut k v) => [WPut k v]
  | AOp (OpDelete k) => [WDel k]
  | _ => []
  end.

Lemma gcreach_flat_creach P (s : stf) c tr s' c' :
  gcreach flat_ops P s c tr s' c' -> ~ In APick (map fst tr) ->
  creach P s c (flat_map wops_of tr) s' c'.
Proof.
  intros Hr. induction Hr as [s c|s c tr s1 c1 s2 c2 Hr IH Ep|s c tr s1 c1 s2 c2 Hr IH Hg Es|s c tr s1 c1 o Hr IH Hg];
    intros Hn; rewrite ?map_app, ?flat_map_app in *; cbn [map flat_map fst wops_of app] in *.
  - constructor.
  - exfalso. apply Hn. apply in_or_app. right. left. reflexivity.
  - rewrite app_nil_r. apply (cr_step P s c _ s1 c1 s2 c2); [|exact (proj1 (groom_flat s1) Hg)|exact Es].
    apply IH. intros H. apply Hn. apply in_or_app. left. exact H.
  - assert (IH' : creach P s c (flat_map wops_of tr) s1 c1).
    { apply IH. intros H. apply Hn. apply in_or_app. left. exact H. }
    destruct o as [k v|k|k|k buf|k| | |]; cbn [step fst snd app] in *; rewrite ?app_nil_r; try exact IH'.
    + destruct Hg as (Hg & Hbk & Hbv & Hk & Hv).
      apply cr_put; [exact IH'|exact (proj1 (groom_flat s1) Hg)|assumption..].
    + destruct Hg as (Hg & Hbk). apply cr_del; [exact IH'|exact (proj1 (groom_flat s1) Hg)|exact Hbk].
    + apply cr_sync. exact IH'.
Qed.

(* what is known of a reachable triple of states; every hypothesis except the two relations is about
   the FLAT state *)
Record tri (P : params) (s1 : st1) (sp : stp) (sf : stf) (c : cursor) : Prop := mk_tri {
  t_1p : gst_rel PR s1 sp;
  t_pf : st_rel sp sf;
  t_inv : Inv P sf;
  t_cinv : CInv sf c;
  t_meta : MetaOK sf }.

Lemma tri_open P s1 sp sf c : tri P s1 sp sf c -> s_mem sf <> None.
Proof. intros [_ _ _ (m & E & _) _]. congruence. Qed.

Lemma tri_phys_ok P s1 sp sf c : tri P s1 sp sf c -> phys_open_ok s1.
Proof. intros T. exact (PR_open_ok s1 sp sf (t_1p _ _ _ _ _ T) (t_pf _ _ _ _ _ T) (tri_open _ _ _ _ _ T)). Qed.

(* a caller's action on the flat database: as Linz.flat_step_ok, with the finer side condition of [creach]
   and the two file facts of [creach_ok] *)
Lemma flat_op_ok P (s : stf) (c : cursor) o :
  params_ok P -> Inv P s -> CInv s c -> op_guard s o ->
  let s' := fst (step flat_ops P s o) in
  Inv P s' /\ CInv s' c /\ (MetaOK s -> MetaOK s') /\
  meq (abs (s_disk s')) (fst (step_spec (abs (s_disk s)) o)) /\
  out_equiv (snd (step flat_ops P s o)) (snd (step_spec (abs (s_disk s)) o)) /\
  (files_exact s -> files_exact s') /\ d_bac (s_disk s') = d_bac (s_disk s).
Proof.
  intros HP HI HC Hg. cbv zeta.
  assert (Hopen : s_mem s <> None) by (destruct HC as (m & -> & _); discriminate).
  (* a read leaves the state as it is: only its result is to be compared *)
  assert (Hread : forall r r', out_equiv r r' ->
            Inv P s /\ CInv s c /\ (MetaOK s -> MetaOK s) /\ meq (abs (s_disk s)) (abs (s_disk s)) /\
            out_equiv r r' /\ (files_exact s -> files_exact s) /\ d_bac (s_disk s) = d_bac (s_disk s))
    by (intros r r' H; exact (conj HI (conj HC (conj (fun H => H) (conj (meq_refl _) (conj H (conj (fun H => H) eq_refl))))))).
  (* a write is one of the actions of [DBProofsCompact.wact] *)
  assert (Hwrite : forall l r, wact P s c l r c ->
            Inv P (fst r) /\ CInv (fst r) c /\ (MetaOK s -> MetaOK (fst r)) /\
            meq (abs (s_disk (fst r))) (fold_left apply_wop l (abs (s_disk s))) /\ out_equiv (snd r) OOk /\
            (files_exact s -> files_exact (fst r)) /\ d_bac (s_disk (fst r)) = d_bac (s_disk s)).
  { intros l r Hw. destruct (wact_ok P s c l r c HP HI HC Hw) as (-> & I2 & C2 & _ & A2 & M2 & F2 & B2).
    exact (conj I2 (conj C2 (conj M2 (conj A2 (conj eq_refl (conj F2 B2)))))). }
  destruct o as [k v|k|k|k buf|k| | |]; cbn [step step_spec fst snd op_guard] in *.
  - destruct Hg as (Hroom & Hbk & Hbv & Hkl & Hvl).
    exact (Hwrite _ _ (wa_put P s c k v (proj1 (groom_flat s) Hroom) Hbk Hbv Hkl Hvl)).
  - destruct Hg as (Hroom & Hk). exact (Hwrite _ _ (wa_del P s c k (proj1 (groom_flat s) Hroom) Hk)).
  - apply Hread. rewrite (get_ok P s k HI Hopen). reflexivity.
  - apply Hread. rewrite (get_append_ok P s k buf HI Hopen). reflexivity.
  - apply Hread. rewrite (has_ok P s k HI Hopen). reflexivity.
  - apply Hread. rewrite (count_ok P s HI Hopen). reflexivity.
  - apply Hread. destruct (items_ok P s HI Hopen) as (l & -> & Hl). exact Hl.
  - exact (Hwrite _ _ (wa_sync P s c)).
Qed.

Lemma tri_op P (s1 : st1) (sp : stp) (sf : stf) c o :
  params_ok P -> tri P s1 sp sf c -> op_guard s1 o ->
  op_guard sp o /\ op_guard sf o /\
  snd (step phys_ops P s1 o) = snd (step chain_ops P sp o) /\
  out_equiv (snd (step chain_ops P sp o)) (snd (step flat_ops P sf o)) /\
  tri P (fst (step phys_ops P s1 o)) (fst (step chain_ops P sp o)) (fst (step flat_ops P sf o)) c /\
  meq (abs (s_disk (fst (step flat_ops P sf o)))) (fst (step_spec (abs (s_disk sf)) o)) /\
  out_equiv (snd (step flat_ops P sf o)) (snd (step_spec (abs (s_disk sf)) o)) /\
  (files_exact sf -> files_exact (fst (step flat_ops P sf o))) /\
  d_bac (s_disk (fst (step flat_ops P sf o))) = d_bac (s_disk sf).
Proof.
  intros HP [H1 Hs HI HC HM] Hg.
  pose proof (proj1 (op_guard_rel PR s1 sp o H1) Hg) as Hgp.
  pose proof (proj1 (op_guard_rel idx_rel sp sf o Hs) Hgp) as Hgf.
  assert (Hsd : put_side sf o).
  { destruct o; try exact Logic.I. destruct Hgf as (Hroom & Hbk & Hbv & _).
    exact (conj (proj1 (groom_flat sf) Hroom) (conj Hbk Hbv)). }
  destruct (op3 P o s1 sp sf H1 Hs HI Hsd) as ([Eo H1'] & Hs' & Oe).
  destruct (flat_op_ok P sf c o HP HI HC Hgf) as (I2 & C2 & M2 & A2 & O2 & F2 & B2).
  split; [exact Hgp|]. split; [exact Hgf|]. split; [exact Eo|].
  split; [destruct o; try (rewrite Oe; apply out_equiv_refl); exact Oe|].
  split; [constructor; [exact H1'|exact Hs'|exact I2|exact C2|exact (M2 HM)]|].
  split; [exact A2|]. split; [exact O2|]. split; [exact F2|exact B2].
Qed.

(* the 32-bit condition on the phys state is the one the flat lemmas ask for *)
Lemma tri_room P (s1 : st1) (sp : stp) (sf : stf) c :
  tri P s1 sp sf c -> groom s1 -> groom sp /\ groom sf /\ exists m, s_mem sf = Some m /\ room m.
Proof.
  intros T Hg. pose proof (proj1 (groom_rel PR s1 sp (t_1p _ _ _ _ _ T)) Hg) as Hgp.
  pose proof (proj1 (groom_rel idx_rel sp sf (t_pf _ _ _ _ _ T)) Hgp) as Hgf.
  exact (conj Hgp (conj Hgf (proj1 (groom_flat sf) Hgf))).
Qed.

Lemma tri_step P (s1 : st1) (sp : stp) (sf : stf) c s1' c' :
  tri P s1 sp sf c -> groom s1 -> compact_step phys_ops P s1 c = CMore s1' c' ->
  exists sp' sf',
    compact_step chain_ops P sp c = CMore sp' c' /\ compact_step flat_ops P sf c = CMore sf' c' /\
    groom sp /\ groom sf /\ tri P s1' sp' sf' c' /\
    meq (abs (s_disk sf')) (abs (s_disk sf)) /\
    (files_exact sf -> files_exact sf') /\ d_bac (s_disk sf') = d_bac (s_disk sf).
Proof.
  intros T Hg E. destruct (tri_room P s1 sp sf c T Hg) as (Hgp & Hgf & Hroom). destruct T as [H1 Hs HI HC HM].
  pose proof (compact_step3 P s1 sp sf c H1 Hs HI Hroom) as X. rewrite E in X.
  inversion X as [|? sp' sf' ? H1' Hs' E1 Ep Ef|]; subst.
  destruct (reached_step P sf c sf' c' HI HC Hroom (eq_sym Ef)) as (I2 & C2 & _ & A2 & M2 & F2 & B2).
  exists sp', sf'. split; [reflexivity|]. split; [reflexivity|]. split; [exact Hgp|]. split; [exact Hgf|].
  split; [constructor; [exact H1'|exact Hs'|exact I2|exact C2|exact (M2 HM)]|].
  split; [exact A2|]. split; [exact F2|exact B2].
Qed.

Lemma tri_pick P (s1 : st1) (sp : stp) (sf : stf) c s1' c' :
  tri P s1 sp sf c -> compact_pick phys_ops P s1 = Some (s1', c') ->
  exists sp' sf',
    compact_pick chain_ops P sp = Some (sp', c') /\ compact_pick flat_ops P sf = Some (sf', c') /\
    tri P s1' sp' sf' c' /\ s_disk sf' = s_disk sf /\ c_src c' = None.
Proof.
  intros T E. pose proof (tri_open _ _ _ _ _ T) as Hopen. destruct T as [H1 Hs HI HC HM].
  pose proof (compact_pick3 P s1 sp sf H1 Hs) as X. rewrite E in X.
  inversion X as [|? sp' sf' ? H1' Hs' E1 Ep Ef]; subst.
  destruct (compact_pick_ok P sf HI HM Hopen) as (sf2 & cf & Ef2 & I2 & C2 & Ed & M2 & Esrc & _).
  rewrite Ef2 in Ef. injection Ef as <- <-.
  exists sp', sf'. split; [reflexivity|]. split; [reflexivity|].
  split; [constructor; assumption|]. split; [exact Ed|exact Esrc].
Qed.

(* the physical compaction never fails and stops exactly when the cursor is exhausted *)
Lemma tri_step_progress P (s1 : st1) (sp : stp) (sf : stf) c :
  tri P s1 sp sf c -> groom s1 ->
  match compact_step phys_ops P s1 c with
  | CDone => c_src c = None /\ c_todo c = [] /\
             compact_step chain_ops P sp c = CDone /\ compact_step flat_ops P sf c = CDone
  | CMore _ _ => True
  | CFail _ => False
  end.
Proof.
  intros T Hg. destruct (tri_room P s1 sp sf c T Hg) as (_ & _ & Hroom). destruct T as [H1 Hs HI HC HM].
  pose proof (compact_step_ok_ex P sf c HI HC Hroom) as X3. revert X3.
  destruct (compact_step3 P s1 sp sf c H1 Hs HI Hroom) as [|s1' sp' sf' c' _ _|w]; intros X3.
  - destruct X3 as [A B]. auto.
  - exact Logic.I.
  - exact X3.
Qed.

Lemma seq_final_snoc {X O R} (f : X -> O -> X * R) x l a :
  seq_final f x (l ++ [a]) = fst (f (seq_final f x l) a).
Proof. rewrite seq_final_app. reflexivity. Qed.

Lemma seq_run_snoc {X O R} (f : X -> O -> X * R) x l a :
  seq_run f x (l ++ [a]) = seq_run f x l ++ [snd (f (seq_final f x l) a)].
Proof. rewrite seq_run_app. reflexivity. Qed.

Definition phys_creach (P : params) : st1 -> cursor -> list (cact * out) -> st1 -> cursor -> Prop :=
  gcreach phys_ops P.

Lemma phys_creach_tri P (s1 : st1) (sp : stp) (sf : stf) c tr s1' c' :
  params_ok P -> tri P s1 sp sf c -> phys_creach P s1 c tr s1' c' ->
  exists sp' sf' trf,
    gcreach chain_ops P sp c tr sp' c' /\
    gcreach flat_ops P sf c trf sf' c' /\ map fst trf = map fst tr /\
    Forall2 out_equiv (map snd tr) (map snd trf) /\
    tri P s1' sp' sf' c' /\
    Forall2 out_equiv (map snd tr) (seq_run aspec (abs (s_disk sf)) (map fst tr)) /\
    meq (abs (s_disk sf')) (seq_final aspec (abs (s_disk sf)) (map fst tr)) /\
    NoDup (map fst (seq_final aspec (abs (s_disk sf)) (map fst tr))) /\
    (files_exact sf -> files_exact sf') /\ d_bac (s_disk sf') = d_bac (s_disk sf).
Proof.
  intros HP T Hr. unfold phys_creach in Hr.
  induction Hr as [s c|s c tr s1 c1 s2 c2 Hr IH Ep|s c tr s1 c1 s2 c2 Hr IH Hg Es|s c tr s1 c1 o Hr IH Hg].
  - exists sp, sf, []. split; [constructor|]. split; [constructor|]. split; [reflexivity|].
    split; [constructor|]. split; [exact T|]. split; [constructor|]. split; [apply meq_refl|].
    split; [apply abs_NoDup|]. split; [exact (fun H => H)|reflexivity].
  - destruct (IH T) as (sp1 & sf1 & trf & Rp & Rf & Em & Of & T1 & Os & Q1 & N1 & F1 & B1).
    destruct (tri_pick P s1 sp1 sf1 c1 s2 c2 T1 Ep) as (sp2 & sf2 & Epp & Epf & T2 & Ed & _).
    exists sp2, sf2, (trf ++ [(APick, OOk)]).
    rewrite !map_app. cbn [map fst snd]. rewrite seq_run_snoc, seq_final_snoc. cbn [aspec fst snd].
    split; [exact (gcr_pick chain_ops P _ _ _ _ _ _ _ Rp Epp)|].
    split; [exact (gcr_pick flat_ops P _ _ _ _ _ _ _ Rf Epf)|].
    split; [rewrite Em; reflexivity|].
    split; [apply lz_Forall2_snoc; [exact Of|reflexivity]|].
    split; [exact T2|].
    split; [apply lz_Forall2_snoc; [exact Os|reflexivity]|].
    split; [rewrite Ed; exact Q1|]. split; [exact N1|].
    split; [|rewrite Ed; exact B1].
    intros H. specialize (F1 H). unfold files_exact in *. rewrite Ed. exact F1.
  - destruct (IH T) as (sp1 & sf1 & trf & Rp & Rf & Em & Of & T1 & Os & Q1 & N1 & F1 & B1).
    destruct (tri_step P s1 sp1 sf1 c1 s2 c2 T1 Hg Es) as (sp2 & sf2 & Esp & Esf & Hgp & Hgf & T2 & A2 & F2 & B2).
    exists sp2, sf2, (trf ++ [(AStep, OOk)]).
    rewrite !map_app. cbn [map fst snd]. rewrite seq_run_snoc, seq_final_snoc. cbn [aspec fst snd].
    split; [exact (gcr_step chain_ops P _ _ _ _ _ _ _ Rp Hgp Esp)|].
    split; [exact (gcr_step flat_ops P _ _ _ _ _ _ _ Rf Hgf Esf)|].
    split; [rewrite Em; reflexivity|].
    split; [apply lz_Forall2_snoc; [exact Of|reflexivity]|].
    split; [exact T2|].
    split; [apply lz_Forall2_snoc; [exact Os|reflexivity]|].
    split; [eapply meq_trans; eassumption|]. split; [exact N1|].
    split; [auto|congruence].
  - destruct (IH T) as (sp1 & sf1 & trf & Rp & Rf & Em & Of & T1 & Os & Q1 & N1 & F1 & B1).
    destruct (tri_op P s1 sp1 sf1 c1 o HP T1 Hg) as (Hgp & Hgf & Eo & Oe & T2 & A2 & O2 & F2 & B2).
    destruct (step_spec_meq (abs (s_disk sf1)) _ o (abs_NoDup _) N1 Q1) as (Q2 & N2 & O3).
    exists (fst (step chain_ops P sp1 o)), (fst (step flat_ops P sf1 o)),
           (trf ++ [(AOp o, snd (step flat_ops P sf1 o))]).
    rewrite !map_app. cbn [map fst snd]. rewrite seq_run_snoc, seq_final_snoc. cbn [aspec fst snd].
    split; [rewrite Eo; exact (gcr_op chain_ops P _ _ _ _ _ _ Rp Hgp)|].
    split; [exact (gcr_op flat_ops P _ _ _ _ _ _ Rf Hgf)|].
    split; [rewrite Em; reflexivity|].
    split; [apply lz_Forall2_snoc; [exact Of|rewrite Eo; exact Oe]|].
    split; [exact T2|].
    split.
    { apply lz_Forall2_snoc; [exact Os|]. rewrite Eo.
      eapply out_equiv_trans; [exact Oe|]. eapply out_equiv_trans; [exact O2|exact O3]. }
    split; [eapply meq_trans; eassumption|]. split; [exact N2|].
    split; [auto|congruence].
Qed.

(* THE INTERLEAVING THEOREM for the physical index.  From states related
        s1 : st phys  --gst_rel PR-->  sp : st pindex  --st_rel-->  sf : st flat
   with Inv, CInv (for the cursor c of the compaction in progress; [DBRun.c0] if there is none) and
   MetaOK of the flat state: for EVERY interleaving of picks, compaction micro-steps and Put / Delete /
   Get / GetAppend / Has / Count / Items / Sync on the physical-index database
     - the same actions are enabled, in the same order, on the chain-index database and return EQUAL
       results (the trace tr is the same), and on the flat-index database, where they return the same
       results up to the order of an Items listing;
     - the three final states are related again; Inv, CInv, MetaOK hold of the flat one;
     - the physical invariant holds (in-memory index and every index stored on disk: no shared, leaked
       or dangling overflow bucket, free list exact, no cycle) -- in the final state, hence, the
       relation being closed under prefixes, in every state the interleaving goes through;
     - the results are those of the plain map (Items up to order; picks and micro-steps return nothing),
       and the contents of the final state are those of the plain map after the callers' operations:
       picks and micro-steps do not change the map;
     - no file is leaked (files_exact), the recovery backups are untouched. *)
Theorem phys_creach_ok P (s1 : st1) (sp : stp) (sf : stf) c tr s1' c' :
  params_ok P -> gst_rel PR s1 sp -> st_rel sp sf -> Inv P sf -> CInv sf c -> MetaOK sf ->
  phys_creach P s1 c tr s1' c' ->
  exists sp' sf' trf,
    gcreach chain_ops P sp c tr sp' c' /\
    gcreach flat_ops P sf c trf sf' c' /\ map fst trf = map fst tr /\
    Forall2 out_equiv (map snd tr) (map snd trf) /\
    gst_rel PR s1' sp' /\ st_rel sp' sf' /\
    Inv P sf' /\ CInv sf' c' /\ MetaOK sf' /\ s_mem sf' <> None /\
    phys_open_ok s1' /\
    Forall2 out_equiv (map snd tr) (seq_run aspec (abs (s_disk sf)) (map fst tr)) /\
    meq (abs (s_disk sf')) (seq_final aspec (abs (s_disk sf)) (map fst tr)) /\
    (files_exact sf -> files_exact sf') /\ d_bac (s_disk sf') = d_bac (s_disk sf).
Proof.
  intros HP H1 Hs HI HC HM Hr.
  destruct (phys_creach_tri P s1 sp sf c tr s1' c' HP (mk_tri P s1 sp sf c H1 Hs HI HC HM) Hr)
    as (sp' & sf' & trf & Rp & Rf & Em & Of & T & Os & Q & _ & F & B).
  exists sp', sf', trf. pose proof (tri_open _ _ _ _ _ T) as Hopen. pose proof (tri_phys_ok _ _ _ _ _ T) as Hpo.
  destruct T as [A1 A2 A3 A4 A5].
  repeat (split; [assumption|]). assumption.
Qed.

(* every state the interleaving goes through: the relation is closed under prefixes *)
Lemma gcreach_prefix {I} (ops : idx_ops I) P s c tr s' c' :
  gcreach ops P s c tr s' c' -> forall tr1 tr2, tr = tr1 ++ tr2 ->
  exists s1 c1, gcreach ops P s c tr1 s1 c1.
Proof.
  intros Hr tr1 tr2 E. subst tr. revert s' c' Hr. induction tr2 as [|x tr2 IH] using rev_ind; intros s' c' Hr.
  - rewrite app_nil_r in Hr. exists s', c'. exact Hr.
  - rewrite app_assoc in Hr. destruct (gcreach_snoc_inv ops P _ _ _ _ _ _ Hr) as (s1 & c1 & H & _). exact (IH _ _ H).
Qed.

(* the physical invariant in EVERY state of the interleaving *)
Corollary phys_creach_inv_everywhere P (s1 : st1) (sp : stp) (sf : stf) c tr s1' c' :
  params_ok P -> gst_rel PR s1 sp -> st_rel sp sf -> Inv P sf -> CInv sf c -> MetaOK sf ->
  phys_creach P s1 c tr s1' c' ->
  forall tr1 tr2, tr = tr1 ++ tr2 ->
  exists s1m cm, phys_creach P s1 c tr1 s1m cm /\ phys_open_ok s1m.
Proof.
  intros HP H1 Hs HI HC HM Hr tr1 tr2 E.
  destruct (gcreach_prefix phys_ops P _ _ _ _ _ Hr tr1 tr2 E) as (s1m & cm & Hm).
  exists s1m, cm. split; [exact Hm|].
  destruct (phys_creach_ok P s1 sp sf c tr1 s1m cm HP H1 Hs HI HC HM Hm)
    as (_ & _ & _ & _ & _ & _ & _ & _ & _ & _ & _ & _ & _ & Hpo & _).
  exact Hpo.
Qed.

Lemma Forall2_eq_refl {A} (l : list A) : Forall2 eq l l.
Proof. induction l; constructor; [reflexivity|assumption]. Qed.

(* Threads call Put, Delete, Get, GetAppend, Has, Count, Items, Sync and Compact on the database with
   the PHYSICAL index; each call takes effect in ONE atomic action between its call and its return;
   operations may be pending.  Under the side conditions of C01_phys_refines_map (on the operations in
   the order of their actions, stated on the flat shadow run as in Linz.C07_linearizable) the history is
   linearizable w.r.t. the plain map up to [out_equiv'], w.r.t. the chain-index database with EQUAL
   results, w.r.t. the flat-index database up to [out_equiv]; the witness is the order of the actions;
   the final states are related, and the physical invariant holds in the final state. *)
Theorem C07_linearizable_phys P (s1 : st1) (sp : stp) (sf : stf) (es : list (event op' out)) c :
  params_ok P -> gst_rel PR s1 sp -> st_rel sp sf -> Inv P sf -> MetaOK sf ->
  exec (step' phys_ops P) no_guard no_bg s1 es c ->
  Forall op_valid' (map snd (act_ops es)) -> rooms' P sf (map snd (act_ops es)) ->
  linearization step_spec' out_equiv' (abs (s_disk sf)) (hist es) (lin_of (step' phys_ops P) s1 es) /\
  linearization (step_chain' P) eq sp (hist es) (lin_of (step' phys_ops P) s1 es) /\
  linearization (step_flat' P) out_equiv sf (hist es) (lin_of (step' phys_ops P) s1 es) /\
  hist_wf (hist es) /\
  let sp' := seq_final (step_chain' P) sp (map snd (act_ops es)) in
  let sf' := seq_final (step_flat' P) sf (map snd (act_ops es)) in
  gst_rel PR (c_s c) sp' /\ st_rel sp' sf' /\ Inv P sf' /\ MetaOK sf' /\
  meq (abs (s_disk sf')) (seq_final step_spec' (abs (s_disk sf)) (map snd (act_ops es))) /\
  (s_mem sf' <> None -> phys_open_ok (c_s c)).
Proof.
  intros HP H1 Hs HI HM Hx Hv Hr.
  destruct (atomic_actions_linearizable (step' phys_ops P) s1 es c Hx) as [L Ec].
  pose proof (C01_exact_refines_map phys_ops PR P s1 sp sf _ phys_exact_sim HP H1 Hs HI HM Hv Hr) as H.
  cbv zeta in H. destruct H as (A1 & A2 & A3 & A4 & A5 & A6 & A7 & A8).
  split; [|split; [|split; [|split]]].
  - apply (linearization_change_spec _ _ _ _ _ _ _ _ L). unfold lin_of.
    rewrite lin_from_lres, lin_from_lop, !seq_run_run'. exact A1.
  - apply (linearization_change_spec _ _ _ _ _ _ _ _ L). unfold lin_of.
    rewrite lin_from_lres, lin_from_lop, !seq_run_run', A3. apply Forall2_eq_refl.
  - apply (linearization_change_spec _ _ _ _ _ _ _ _ L). unfold lin_of.
    rewrite lin_from_lres, lin_from_lop, !seq_run_run'. exact A2.
  - exact (exec_hist_wf _ _ _ _ _ _ _ _ _ Hx).
  - cbv zeta. rewrite Ec, !seq_final_final'.
    split; [exact A4|]. split; [exact A5|]. split; [exact A6|]. split; [exact A7|]. split; [exact A8|].
    intros Hopen. exact (PR_open_ok _ _ _ A4 A5 Hopen).
Qed.

(* from Open on an empty directory: no hypothesis on the states is left *)
Corollary C07_linearizable_phys_from_empty P seed (es : list (event op' out)) c :
  params_ok P ->
  exec (step' phys_ops P) no_guard no_bg (fst (db_open phys_ops P seed st0)) es c ->
  Forall op_valid' (map snd (act_ops es)) -> rooms' P (flat_init seed) (map snd (act_ops es)) ->
  linearization step_spec' out_equiv' [] (hist es)
                (lin_of (step' phys_ops P) (fst (db_open phys_ops P seed st0)) es).
Proof.
  intros HP Hx Hv Hr.
  pose proof (xsim_open phys_ops chain_ops PR phys_exact_sim P seed st0 st0 (st0_rel PR) ff_ok_disk0) as [_ H1].
  pose proof (init_rel P seed) as H. rewrite flat_open_fresh in H.
  destruct (db_open chain_ops P seed st0) as [sp o]. destruct H as (_ & _ & Hs & HI & _ & Ea).
  cbn [fst] in *. rewrite <- Ea.
  exact (proj1 (C07_linearizable_phys P _ sp _ es c HP H1 Hs HI (flat_init_MetaOK seed) Hx Hv Hr)).
Qed.

(* read your writes, for the executions of the physical-index database: the Get returns exactly v *)
Corollary C07_read_your_writes_phys P (s1 : st1) (sp : stp) (sf : stf) (es : list (event op' out)) c
    ip ig k v rp r :
  params_ok P -> gst_rel PR s1 sp -> st_rel sp sf -> Inv P sf -> MetaOK sf ->
  exec (step' phys_ops P) no_guard no_bg s1 es c ->
  Forall op_valid' (map snd (act_ops es)) -> rooms' P sf (map snd (act_ops es)) ->
  In (HCall ip (OpBase (OpPut k v))) (hist es) ->
  before (hist es) (HRet ip rp) (HCall ig (OpBase (OpGet k))) ->
  In (HRet ig r) (hist es) ->
  (forall j o, In (HCall j o) (hist es) -> j <> ip -> writes_key k o ->
     (exists r', before (hist es) (HRet j r') (HCall ip (OpBase (OpPut k v)))) \/
     before (hist es) (HRet ig r) (HCall j o)) ->
  r = OVal (Some v).
Proof.
  intros HP H1 Hs HI HM Hx Hv Hr G1 G2 G3 G4.
  destruct (C07_linearizable_phys P s1 sp sf es c HP H1 Hs HI HM Hx Hv Hr) as (L & _ & _ & [HU _] & _).
  pose proof (read_your_writes out_equiv' _ _ _ ip ig k v rp r L HU G1 G2 G3 G4) as H.
  destruct r; cbn [out_equiv'] in H; try discriminate H; exact H.
Qed.

Section PMicro.
Variable P : params.

(* shared state: the physical-index database and the cursor of the compaction in progress *)
Definition pmstate := (st1 * cursor)%type.
Definition pmstep (x : pmstate) (o : op) : pmstate * out :=
  ((fst (step phys_ops P (fst x) o), snd x), snd (step phys_ops P (fst x) o)).
(* side condition of an action, on the PHYSICAL state: Put: 32-bit condition and valid arguments;
   Delete: 32-bit condition, byte-string key; reads and Sync: none (weaker than Linz.mguard) *)
Definition pmguard (x : pmstate) (o : op) : Prop := op_guard (fst x) o.
(* background actions: one critical section of the running compaction; when none runs, a pick *)
Definition pmbg (x y : pmstate) : Prop :=
  (groom (fst x) /\ compact_step phys_ops P (fst x) (snd x) = CMore (fst y) (snd y)) \/
  (compact_step phys_ops P (fst x) (snd x) = CDone /\ compact_pick phys_ops P (fst x) = Some y).

(* the simulation towards the plain map goes through the two other layers *)
Definition pmsim (x : pmstate) (a : smap) : Prop :=
  exists sp sf, tri P (fst x) sp sf (snd x) /\ meq (abs (s_disk sf)) a /\ NoDup (map fst a).

Lemma pmstep_sim : params_ok P -> forall x a o, pmsim x a -> pmguard x o ->
  pmsim (fst (pmstep x o)) (fst (step_spec a o)) /\ out_equiv (snd (pmstep x o)) (snd (step_spec a o)).
Proof.
  intros HP [s1 c] a o (sp & sf & T & Hq & Hnd) Hg. unfold pmguard in Hg. cbn [fst snd] in *.
  destruct (tri_op P s1 sp sf c o HP T Hg) as (_ & _ & Eo & Oe & T2 & A2 & O2 & _).
  destruct (step_spec_meq (abs (s_disk sf)) a o (abs_NoDup _) Hnd Hq) as (Q2 & N2 & O3).
  unfold pmstep, pmsim. cbn [fst snd]. split.
  - exists (fst (step chain_ops P sp o)), (fst (step flat_ops P sf o)).
    split; [exact T2|]. split; [eapply meq_trans; eassumption|exact N2].
  - rewrite Eo. eapply out_equiv_trans; [exact Oe|]. eapply out_equiv_trans; [exact O2|exact O3].
Qed.

Lemma pmbg_sim : forall x y a, pmsim x a -> pmbg x y -> pmsim y a.
Proof.
  intros [s1 c] [s1' c'] a (sp & sf & T & Hq & Hnd) Hb. cbn [fst snd] in *.
  destruct Hb as [[Hg Hstep]|[_ Hpick]]; cbn [fst snd] in *.
  - destruct (tri_step P s1 sp sf c s1' c' T Hg Hstep) as (sp' & sf' & _ & _ & _ & _ & T2 & A2 & _).
    exists sp', sf'. split; [exact T2|]. split; [eapply meq_trans; eassumption|exact Hnd].
  - destruct (tri_pick P s1 sp sf c s1' c' T Hpick) as (sp' & sf' & _ & _ & T2 & Ed & _).
    exists sp', sf'. split; [exact T2|]. split; [rewrite Ed; exact Hq|exact Hnd].
Qed.

(* the shared-state actions of an execution form an interleaving in the sense of [phys_creach] *)
Lemma exec_phys_creach s1 c es cf :
  exec pmstep pmguard pmbg (s1, c) es cf ->
  exists tr, phys_creach P s1 c tr (fst (c_s cf)) (snd (c_s cf)).
Proof.
  intros Hx. induction Hx as [|es c1 e c2 Hx IH Hs].
  - exists []. cbn [init c_s fst snd]. constructor.
  - destruct IH as [tr Hr].
    inversion Hs as [c0 t o Ht|c0 t o Ht Hg|c0 t o r Ht|c0 y Hb]; subst; cbn [c_s].
    + exists tr. exact Hr.
    + eexists. unfold pmstep. cbn [fst snd]. exact (gcr_op phys_ops P _ _ _ _ _ _ Hr Hg).
    + exists tr. exact Hr.
    + destruct Hb as [[Hg Hstep]|[_ Hpick]].
      * eexists. exact (gcr_step phys_ops P _ _ _ _ _ _ _ Hr Hg Hstep).
      * eexists. destruct y as [s2 c2']. exact (gcr_pick phys_ops P _ _ _ _ _ _ _ Hr Hpick).
Qed.

(* C07 with the compaction interleaved, on the PHYSICAL index: threads call Put, Delete, Get,
   GetAppend, Has, Count, Items, Sync (any number of threads, operations may be pending, each takes
   effect at one atomic action between its call and its return); between any two of their actions the
   compactor may run critical sections (one record each, segment removals, picks).  Every history is
   linearizable w.r.t. the plain map up to [out_equiv] (Items up to a permutation, everything else
   EQUAL): the micro-steps are invisible.  The final states of the three layers are related, the flat
   invariants and the physical invariant hold. *)
Theorem C07_linearizable_microsteps_phys (s1 : st1) (sp : stp) (sf : stf) (c : cursor)
    (es : list (event op out)) cf :
  params_ok P -> gst_rel PR s1 sp -> st_rel sp sf -> Inv P sf -> CInv sf c -> MetaOK sf ->
  exec pmstep pmguard pmbg (s1, c) es cf ->
  exists lin,
    linearization step_spec out_equiv (abs (s_disk sf)) (hist es) lin /\ map fst lin = act_ops es /\
    hist_wf (hist es) /\
    exists sp' sf',
      gst_rel PR (fst (c_s cf)) sp' /\ st_rel sp' sf' /\
      Inv P sf' /\ CInv sf' (snd (c_s cf)) /\ MetaOK sf' /\ phys_open_ok (fst (c_s cf)) /\
      meq (abs (s_disk sf')) (seq_final step_spec (abs (s_disk sf)) (map snd (act_ops es))).
Proof.
  intros HP H1 Hs HI HC HM Hx.
  destruct (atomic_actions_linearizable_sim _ _ _ pmstep pmguard pmbg _ _ step_spec out_equiv pmsim
              (pmstep_sim HP) pmbg_sim (s1, c) (abs (s_disk sf)) es cf) as (lin & L & Ea & Hsim).
  - exists sp, sf. cbn [fst snd]. split; [constructor; assumption|]. split; [apply meq_refl|apply abs_NoDup].
  - exact Hx.
  - exists lin. split; [exact L|]. split; [exact Ea|].
    split; [exact (exec_hist_wf _ _ _ _ _ _ _ _ _ Hx)|].
    destruct Hsim as (sp' & sf' & T & Q2 & _). exists sp', sf'.
    pose proof (tri_phys_ok _ _ _ _ _ T) as Hpo. destruct T as [B1 B2 B3 B4 B5].
    split; [exact B1|]. split; [exact B2|]. split; [exact B3|]. split; [exact B4|]. split; [exact B5|].
    split; [exact Hpo|].
    replace (map snd (act_ops es)) with (map Linz.lop lin); [exact Q2|].
    rewrite <- Ea, map_map. reflexivity.
Qed.

(* executable versions of the side condition and of the background action *)
Definition pmguardb (x : pmstate) (o : op) : bool := op_guard_b (fst x) o.
Definition pmbgf (x : pmstate) : option pmstate :=
  match compact_step phys_ops P (fst x) (snd x) with
  | CMore s' c' => if groom_b (fst x) then Some (s', c') else None
  | CDone => compact_pick phys_ops P (fst x)
  | CFail _ => None
  end.

Lemma pmguardb_ok x o : pmguardb x o = true -> pmguard x o.
Proof. apply op_guard_b_ok. Qed.

Lemma pmbgf_ok x y : pmbgf x = Some y -> pmbg x y.
Proof.
  unfold pmbgf, pmbg. destruct (compact_step phys_ops P (fst x) (snd x)) as [|s' c'|w] eqn:E.
  - intros H. right. split; [reflexivity|exact H].
  - destruct (groom_b (fst x)) eqn:Er; [|discriminate]. intros H. injection H as <-. left. cbn [fst snd].
    split; [apply groom_b_ok; exact Er|reflexivity].
  - discriminate.
Qed.
End PMicro.

(* Non-vacuity: a concrete physical-index database with an overflow bucket *)

(* a session that opens the empty directory and then only runs operations is the plain run after Open *)
Lemma lfinal_open_base {I} (ops : idx_ops I) P seed l :
  lfinal ops P st0 (LOpen seed :: map LBase l) = final' (step' ops P) (fst (db_open ops P seed st0)) l.
Proof.
  unfold lfinal, final'. cbn [fold_left lstep]. generalize (fst (db_open ops P seed st0)).
  induction l as [|o l IH]; intros s; [reflexivity|exact (IH _)].
Qed.

Module PhysConcEx.
Import RunEx.
Local Open Scope nat_scope.

(* Open and 35 Puts whose keys all hash to the same bucket, segments of at most 600 bytes: six
   segments (ids 0..5); 31 slots in the main bucket, 4 in an overflow bucket at offset 512 of
   overflow.pix *)
Definition pre_ops : list op' := map put (seq 1 35).
Definition s1_0 : st1 := fst (db_open phys_ops exP 1 st0).
Definition s1X : st1 := final' (step' phys_ops exP) s1_0 pre_ops.
Definition spX : stp := final' (step_chain' exP) sp0 pre_ops.
Definition sfX : stf := final' (step_flat' exP) (flat_init 1) pre_ops.

Definition shape (s : st1) : option (N * N * list N * list N * list N) :=
  match s_mem s with
  | Some m => Some (ph_nkeys (m_idx m), ph_nbuckets (m_idx m), map pb_next (ph_main (m_idx m)),
                    map (fun b => nlen (pb_live b)) (ph_over (m_idx m)), ph_free (m_idx m))
  | None => None
  end.

(* the three states are those of PhysCrashEx / SessEx (the same run), which are kept evaluated there *)
Lemma s1X_eq : s1X = PhysCrashEx.s1X.
Proof. rewrite <- PhysCrashEx.s1X_eq. symmetry. exact (lfinal_open_base phys_ops exP 1 pre_ops). Qed.
Lemma spX_eq : spX = SessEx.spX.
Proof. rewrite <- SessEx.spX_eq. symmetry. exact (lfinal_open_base chain_ops exP 1 pre_ops). Qed.
Lemma sfX_eq : sfX = SessEx.sfX.
Proof.
  rewrite <- SessEx.sfX_eq. symmetry. etransitivity; [exact (lfinal_open_base flat_ops exP 1 pre_ops)|].
  rewrite flat_open_fresh. cbn [fst]. unfold sfX, step_flat'. reflexivity.
Qed.

Example s1X_shape :
  shape s1X = Some (35%N, 1%N, [512%N], [4%N], []) /\ map f_id (d_segs (s_disk s1X)) = [0; 1; 2; 3; 4; 5]%N.
Proof. rewrite s1X_eq. split; vm_compute; reflexivity. Qed.

(* the hypotheses of the theorems hold *)
Lemma X_rel : gst_rel PR s1X spX /\ st_rel spX sfX /\ Inv exP sfX /\ MetaOK sfX /\ CInv sfX c0.
Proof.
  rewrite s1X_eq, spX_eq, sfX_eq. destruct PhysCrashEx.X_rel1 as (H1 & Hs & HJ).
  destruct HJ as [HI HM _ _|? ? _ _ _ _ E _|E _ _ _|E _]; [|discriminate E..].
  split; [exact H1|]. split; [exact Hs|]. split; [exact HI|]. split; [exact HM|].
  eapply CInv_c0. reflexivity.
Qed.

Example sfX_contents : abs (s_disk sfX) = map (fun i => (key_of i, val_of i)) (rev (seq 1 35)).
Proof. rewrite sfX_eq. vm_compute. reflexivity. Qed.

Definition k5 := key_of 5.
Definition v50 := val_of 50.
Definition k2 := key_of 2.

(* the interleaving: the compactor picks all six segments; four micro-steps (start of segment 0, its
   first three records); IN THE WINDOW a Put on key 5 (its old record, not yet visited, becomes
   garbage), a Get, a Delete of key 2 (whose record has just been moved); the 43 remaining micro-steps
   (to the end of the compaction); Count, two Gets, Items *)
Definition ex_acts : list cact :=
  [APick] ++ repeat AStep 4 ++ [AOp (OpPut k5 v50); AOp (OpGet k5); AOp (OpDelete k2)] ++
  repeat AStep 43 ++ [AOp OpCount; AOp (OpGet k5); AOp (OpGet k2); AOp OpItems].

Definition ex_outs : list out :=
  repeat OOk 5 ++ [OOk; OVal (Some v50); OOk] ++ repeat OOk 43 ++
  [ONum 34; OVal (Some v50); OVal None;
   OItems (map (fun i => (key_of i, if Nat.eqb i 5 then v50 else val_of i)) (1 :: seq 3 33))].

(* (notations, not definitions: the terms must stay syntactically the same in what follows) *)
Local Notation ex_res := (gcrun phys_ops exP (s1X, c0) ex_acts []).
Local Notation ex_resp := (gcrun chain_ops exP (spX, c0) ex_acts []).
Local Notation ex_resf := (gcrun flat_ops exP (sfX, c0) ex_acts []).

(* the phys run, evaluated once *)
Definition ex_res_v := Eval vm_compute in gcrun phys_ops exP (PhysCrashEx.s1X, c0) ex_acts [].
Lemma ex_res_eq : ex_res = ex_res_v.
Proof. rewrite s1X_eq. vm_compute. reflexivity. Qed.

(* evaluated on phys_ops, chain_ops and flat_ops: every action is enabled, the outputs are EQUAL *)
Example ex_outputs :
  option_map (fun r => map snd (snd r)) ex_res = Some ex_outs /\
  option_map (fun r => map snd (snd r)) ex_resp = Some ex_outs /\
  option_map (fun r => map snd (snd r)) ex_resf = Some ex_outs.
Proof. rewrite ex_res_eq, spX_eq, sfX_eq. split; [|split]; vm_compute; reflexivity. Qed.

(* the compaction did real work and ran to its end: six segments processed and removed, one record
   reclaimed; 34 keys, the overflow bucket still in use *)
Example ex_final_state :
  option_map (fun r => (shape (fst (fst r)), snd (fst r), map f_id (d_segs (s_disk (fst (fst r))))))
             ex_res =
  Some (Some (34%N, 1%N, [512%N], [4%N], []),
        {| c_todo := []; c_src := None; c_segs := 6; c_recs := 1; c_bytes := 13 |},
        [6; 7; 0; 1; 2; 3]%N) /\
  option_map (fun r => match compact_step phys_ops exP (fst (fst r)) (snd (fst r)) with
                       | CDone => true | _ => false end) ex_res = Some true.
Proof. rewrite ex_res_eq. split; vm_compute; reflexivity. Qed.

(* what the plain map says: the same results, except that its Items listing (the last result) is in
   another order -- this is where [out_equiv] is not equality *)
Example ex_spec :
  removelast (seq_run aspec (abs (s_disk sfX)) ex_acts) = removelast ex_outs /\
  last (seq_run aspec (abs (s_disk sfX)) ex_acts) OOk <> last ex_outs OOk /\
  seq_final aspec (abs (s_disk sfX)) ex_acts = sdel (sput (abs (s_disk sfX)) k5 v50) k2.
Proof.
  rewrite sfX_contents.
  split; [vm_compute; reflexivity|]. split; [vm_compute; discriminate|vm_compute; reflexivity].
Qed.

(* phys_creach_ok applies to this run *)
Example ex_creach :
  exists s1' c' tr,
    phys_creach exP s1X c0 tr s1' c' /\ map fst tr = ex_acts /\ map snd tr = ex_outs /\
    phys_open_ok s1' /\
    exists sp' sf' trf,
      gcreach chain_ops exP spX c0 tr sp' c' /\
      gcreach flat_ops exP sfX c0 trf sf' c' /\ map fst trf = ex_acts /\ map snd trf = ex_outs /\
      gst_rel PR s1' sp' /\ st_rel sp' sf' /\ Inv exP sf' /\ CInv sf' c' /\ MetaOK sf' /\
      meq (abs (s_disk sf')) (sdel (sput (abs (s_disk sfX)) k5 v50) k2).
Proof.
  (* both runs exist by [ex_outputs]; they are not evaluated again *)
  destruct ex_outputs as (O1 & _ & O3).
  destruct ex_res as [[[s1' c'] tr]|] eqn:E; [|discriminate O1].
  destruct ex_resf as [[[sf2 cf2] trf2]|] eqn:Ef; [|discriminate O3].
  cbn [option_map snd] in O1, O3. injection O1 as O1. injection O3 as O3.
  destruct (gcrun_sound phys_ops exP ex_acts s1X c0 s1X c0 [] s1' c' tr (gcr_refl phys_ops exP s1X c0) E) as [Hr Ea].
  destruct (gcrun_sound flat_ops exP ex_acts sfX c0 sfX c0 [] sf2 cf2 trf2 (gcr_refl flat_ops exP sfX c0) Ef) as [Hrf Eaf].
  cbn [fst snd map app] in Hr, Ea, Hrf, Eaf.
  destruct X_rel as (H1 & Hs & HI & HM & HC).
  destruct (phys_creach_ok exP s1X spX sfX c0 tr s1' c' exP_ok H1 Hs HI HC HM Hr)
    as (sp' & sf' & trf & Rp & Rf & Em & Of & A1 & A2 & A3 & A4 & A5 & _ & Hpo & _ & Q & _).
  exists s1', c', tr. split; [exact Hr|]. split; [exact Ea|]. split; [exact O1|]. split; [exact Hpo|].
  (* the flat run of the theorem IS the computed one: [gcreach] is deterministic *)
  assert (Eacts : map fst trf = map fst trf2) by (rewrite Em, Ea, Eaf; reflexivity).
  destruct (gcreach_det flat_ops exP _ _ _ _ _ Rf _ _ _ Hrf Eacts) as (-> & _ & _).
  exists sp', sf', trf2. split; [exact Rp|]. split; [exact Rf|]. split; [exact Eaf|]. split; [exact O3|].
  repeat (split; [assumption|]).
  rewrite Ea in Q. rewrite (proj2 (proj2 ex_spec)) in Q. exact Q.
Qed.

(* a concurrent history of whole operations (C07_linearizable_phys) *)
Definition v5 := val_of 5.

(* three clients on keys 5 and 2 and a compactor; operations overlap; at the end thread 2 is pending
   with its action done, thread 0 has returned *)
Definition wh_es : list (event op' out) :=
  [ ECall 0 (OpBase (OpPut k5 v50)); ECall 1 (OpBase (OpGet k5)); ECall 2 (OpBase (OpDelete k2));
    EAct 1;                               (* the Get acts before the Put *)
    EAct 0; ERet 1 (OVal (Some v5)); ECall 3 OpCompact; ECall 1 (OpBase (OpGet k5));
    EAct 3;                               (* the whole compaction, on the physical index *)
    EAct 1; EAct 2; ERet 3 (OCompact 6 1 13); ERet 1 (OVal (Some v50)); ERet 0 OOk;
    ECall 0 (OpBase OpCount); EAct 0; ERet 0 (ONum 34) ].

Example wh_is_execution : exists c, exec (step' phys_ops exP) no_guard no_bg s1X wh_es c.
Proof.
  apply (exec_fn_sound _ _ _ (step' phys_ops exP) no_guard no_bg (fun _ _ => true) (fun _ => None) out_eq_dec).
  - intros s o _. exact I.
  - intros s s' H. discriminate H.
  - rewrite s1X_eq. vm_compute. reflexivity.
Qed.

Definition wh_lin : list (opid * op' * out) :=
  [ ((1, 0), OpBase (OpGet k5), OVal (Some v5));
    ((0, 0), OpBase (OpPut k5 v50), OOk);
    ((3, 0), OpCompact, OCompact 6 1 13);
    ((1, 1), OpBase (OpGet k5), OVal (Some v50));
    ((2, 0), OpBase (OpDelete k2), OOk);
    ((0, 1), OpBase OpCount, ONum 34) ].

Example wh_witness : lin_of (step' phys_ops exP) s1X wh_es = wh_lin.
Proof. rewrite s1X_eq. vm_compute. reflexivity. Qed.

Example wh_side_conditions :
  Forall op_valid' (map snd (act_ops wh_es)) /\ rooms' exP sfX (map snd (act_ops wh_es)).
Proof.
  split.
  - apply ops_valid'_b_ok. vm_compute. reflexivity.
  - rewrite sfX_eq. apply rooms'_b_ok. vm_compute. reflexivity.
Qed.

Example wh_linearizable :
  linearization step_spec' out_equiv' (abs (s_disk sfX)) (hist wh_es) wh_lin /\ hist_wf (hist wh_es).
Proof.
  destruct wh_is_execution as [c Hx]. destruct X_rel as (H1 & Hs & HI & HM & _).
  destruct wh_side_conditions as [Hv Hr].
  destruct (C07_linearizable_phys exP s1X spX sfX wh_es c exP_ok H1 Hs HI HM Hx Hv Hr) as (L & _ & _ & W & _).
  rewrite wh_witness in L. exact (conj L W).
Qed.

(* the compaction in micro-steps between the actions of three clients (C07_linearizable_microsteps_phys) *)
Definition mi_es : list (event op out) :=
  [ EBg;                                  (* the compactor picks the six segments *)
    ECall 0 (OpPut k5 v50);
    EBg; EBg; EBg; EBg;                   (* segment 0: start, three records *)
    ECall 1 (OpGet k5);
    EAct 0;                               (* the Put lands in the middle of the compaction *)
    EBg;
    EAct 1;
    ERet 0 OOk;
    ECall 2 (OpDelete k2);
    ERet 1 (OVal (Some v50));
    EAct 2 ] ++
  repeat EBg 42 ++                        (* to the end of the compaction *)
  [ EBg;                                  (* the next pick *)
    ECall 1 (OpGet k2); EAct 1; ERet 1 (OVal None); ERet 2 OOk;
    ECall 0 OpCount; EAct 0; ERet 0 (ONum 34) ].

(* the 48 background actions are real: the first compaction ran to its end on the physical index, a
   second pick happened; the overflow bucket is still in use *)
Example mi_compaction_ran :
  option_map (fun c => (c_todo (snd (c_s c)), shape (fst (c_s c))))
             (exec_fn (pmstep exP) pmguardb (pmbgf exP) out_eq_dec (init (s1X, c0)) mi_es) =
  Some ([(6, 7); (7, 8); (0, 9); (1, 10); (2, 11); (3, 12)]%N, Some (34%N, 1%N, [512%N], [4%N], [])).
Proof. rewrite s1X_eq. vm_compute. reflexivity. Qed.

Lemma is_some_of_map {A B} (f : A -> B) x y : option_map f x = Some y -> lz_is_some x = true.
Proof. destruct x; [reflexivity|discriminate]. Qed.

Example mi_is_execution : exists c, exec (pmstep exP) pmguard (pmbg exP) (s1X, c0) mi_es c.
Proof.
  apply (exec_fn_sound _ _ _ (pmstep exP) pmguard (pmbg exP) pmguardb (pmbgf exP) out_eq_dec).
  - exact pmguardb_ok.
  - exact (pmbgf_ok exP).
  - exact (is_some_of_map _ _ _ mi_compaction_ran).
Qed.

Example mi_linearizable :
  exists lin, linearization step_spec out_equiv (abs (s_disk sfX)) (hist mi_es) lin /\
              map fst lin = act_ops mi_es /\ hist_wf (hist mi_es) /\
              act_ops mi_es = [ ((0, 0), OpPut k5 v50); ((1, 0), OpGet k5); ((2, 0), OpDelete k2);
                                ((1, 1), OpGet k2); ((0, 1), OpCount) ].
Proof.
  destruct mi_is_execution as [c Hx]. destruct X_rel as (H1 & Hs & HI & HM & HC).
  destruct (C07_linearizable_microsteps_phys exP s1X spX sfX c0 mi_es c exP_ok H1 Hs HI HC HM Hx)
    as (lin & L & Ea & W & _).
  exists lin. split; [exact L|]. split; [exact Ea|]. split; [exact W|]. vm_compute. reflexivity.
Qed.
End PhysConcEx.

Print Assumptions groom_rel.
Print Assumptions gcreach_det.
Print Assumptions gcrun_sound.
Print Assumptions gcreach_flat_creach.
Print Assumptions tri_op.
Print Assumptions tri_step.
Print Assumptions tri_pick.
Print Assumptions tri_step_progress.
Print Assumptions phys_creach_ok.
Print Assumptions phys_creach_inv_everywhere.
Print Assumptions C07_linearizable_phys.
Print Assumptions C07_linearizable_phys_from_empty.
Print Assumptions C07_read_your_writes_phys.
Print Assumptions exec_phys_creach.
Print Assumptions C07_linearizable_microsteps_phys.
Print Assumptions pmbgf_ok.
Print Assumptions PhysConcEx.X_rel.
Print Assumptions PhysConcEx.s1X_shape.
Print Assumptions PhysConcEx.ex_outputs.
Print Assumptions PhysConcEx.ex_final_state.
Print Assumptions PhysConcEx.ex_spec.
Print Assumptions PhysConcEx.ex_creach.
Print Assumptions PhysConcEx.wh_linearizable.
Print Assumptions PhysConcEx.mi_is_execution.
Print Assumptions PhysConcEx.mi_compaction_ran.
Print Assumptions PhysConcEx.mi_linearizable.
