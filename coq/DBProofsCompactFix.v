(* DBProofsCompactFix.v -- property C15, second sentence ("under a steady overwrite/delete workload with
   periodic compaction and restarts the directory size, file count, open descriptors and memory mappings
   stay bounded by the live data instead of growing with history"): the STRUCTURAL facts behind it, for
   the database model instantiated with the flat reference index.  Compact here is [db_compact]: run to
   completion, nobody else touching the database.  No axioms (Print Assumptions at the end).
   Imports DBRun (only Module FixEx needs it: Inv/MetaOK of concrete runs), so it compiles after DBRun.v.

   The run invariant [FInv] is relative to the memory m0 at pick time: every segment is a [keepd]-descendant
   of a segment of m0 (still in the cursor if that one passed the two tests [elig] of pickForCompaction)
   or was created after the pick without dead bytes.  From it: (1) what can still pass the tests after a
   completed Compact, and when pick = [] afterwards; (2) pick = [] means every big segment is dense;
   (3) the file counts.  Module FixEx applies the theorems to concrete runs (Inv and MetaOK of the states
   come from DBRun's run theorem, so the hypotheses are satisfiable).

   REFUTED
     compact_fixpoint_refuted   "a completed Compact (no writer, result not an error, p_frag 0 _ = false)
                         leaves pick = []" is FALSE.  maxSegmentSize 590, compactionMinSegmentSize 540,
                         fragmentation threshold 1%:  Put a (20-byte value), Put j, Put b (20-byte value),
                         Put j, Put j, Compact.  Before: 00000-1 (586 bytes, 12 dead, Full) is picked;
                         the open 00001-2 (536 bytes, 12 dead) is too small.  Compact promotes a into
                         00001-2 (567 bytes: now eligible) and b into a new segment.  pick = [00001-2].
     second_compact_rewrites_untouched_segment   "the second Compact touches at most the segments the
                         first one wrote" is FALSE as well: if the grown open segment holds a delete
                         record, pickForCompaction adds every older segment, dense ones included.

   NOT COVERED
     writers interleaved with the compaction (they create new garbage anyway); restarts (recovery
     recomputes the counters; a clean restart keeps them); the number of segments below p_minseg; the
     relation between the DeletedBytes counter and the bytes that are really dead (uint32 wrap-around,
     recovery); descriptors and mappings as such (the model has one segment struct per open file: the
     count of in-memory segments is the proxy); the chain and physical index instantiations. *)
From Coq Require Import ZArith Lia ZifyN ZifyNat ZifyBool Permutation Sorted List.
From Pogreb Require Import Base BaseLemmas Crc Bytes Record RecordProofs Flat Index Spec DB DBInv DBLemmas
  DBProofsOps DBMeta DBProofsRecovery DBProofsCompact DBSim DBRun.
Import ListNotations.
Local Open Scope N_scope.

Local Notation disk := (@DB.disk flat).
Local Notation st := (@DB.st flat).
Local Notation mem := (@DB.mem flat).
Local Notation fsev := (@DB.fsev flat).


(* the two tests of pickForCompaction that look at the segment alone *)
Definition elig (P : params) (g : mseg) : bool :=
  negb (u32 (g_size g) <? p_minseg P) && p_frag P (sm_delbytes (g_meta g)) (g_size g).

Lemma pick_rev_step P g older acc :
  pick_rev P (g :: older) acc =
  if elig P g then (if 0 <? sm_delrec (g_meta g) then rev older ++ g :: acc else pick_rev P older (g :: acc))
  else pick_rev P older acc.
Proof.
  cbn [pick_rev]. unfold elig.
  destruct (u32 (g_size g) <? p_minseg P); cbn [negb andb]; [reflexivity|].
  destruct (p_frag P (sm_delbytes (g_meta g)) (g_size g)); cbn [negb]; reflexivity.
Qed.

Lemma pick_rev_noelig P rs : forall acc,
  (forall g, In g rs -> elig P g = false) -> pick_rev P rs acc = acc.
Proof.
  induction rs as [|g older IH]; intros acc H; [reflexivity|].
  rewrite pick_rev_step, (H g (or_introl eq_refl)). apply IH. intros x Hx. apply H. right. exact Hx.
Qed.

Lemma pick_rev_acc P rs : forall acc x, In x acc -> In x (pick_rev P rs acc).
Proof.
  induction rs as [|g older IH]; intros acc x Hx; [exact Hx|].
  rewrite pick_rev_step. destruct (elig P g); [|apply IH; exact Hx].
  destruct (0 <? sm_delrec (g_meta g)).
  - apply in_or_app. right. right. exact Hx.
  - apply IH. right. exact Hx.
Qed.

Lemma pick_rev_elig_In P rs : forall acc g, In g rs -> elig P g = true -> In g (pick_rev P rs acc).
Proof.
  induction rs as [|g0 older IH]; intros acc g Hg He; [destruct Hg|].
  rewrite pick_rev_step. destruct Hg as [->|Hg].
  - rewrite He. destruct (0 <? sm_delrec (g_meta g)).
    + apply in_or_app. right. left. reflexivity.
    + apply pick_rev_acc. left. reflexivity.
  - destruct (elig P g0); [|apply IH; assumption].
    destruct (0 <? sm_delrec (g_meta g0)).
    + apply in_or_app. left. apply in_rev in Hg. exact Hg.
    + apply IH; assumption.
Qed.

(* whatever is picked is eligible itself, or an eligible segment holding delete records forces it *)
Lemma pick_rev_why P rs : forall acc x, In x (pick_rev P rs acc) ->
  In x acc \/ (In x rs /\ (elig P x = true \/
     exists y, In y rs /\ elig P y = true /\ 0 < sm_delrec (g_meta y))).
Proof.
  induction rs as [|g older IH]; intros acc x Hx; [left; exact Hx|].
  rewrite pick_rev_step in Hx. destruct (elig P g) eqn:Eg.
  - destruct (N.ltb_spec 0 (sm_delrec (g_meta g))) as [Hd|Hd].
    + apply in_app_or in Hx. destruct Hx as [Hx|[<-|Hx]]; [|right|left; exact Hx].
      * right. apply in_rev in Hx. split; [right; exact Hx|]. right. exists g.
        split; [left; reflexivity|]. split; assumption.
      * split; [left; reflexivity|left; exact Eg].
    + destruct (IH _ _ Hx) as [[<-|Hacc]|[Hin Hwhy]]; [right|left; exact Hacc|right].
      * split; [left; reflexivity|left; exact Eg].
      * split; [right; exact Hin|]. destruct Hwhy as [He|(y & Hy & Hey & Hdy)]; [left; exact He|].
        right. exists y. split; [right; exact Hy|]. split; assumption.
  - destruct (IH _ _ Hx) as [Hacc|[Hin Hwhy]]; [left; exact Hacc|right].
    split; [right; exact Hin|]. destruct Hwhy as [He|(y & Hy & Hey & Hdy)]; [left; exact He|].
    right. exists y. split; [right; exact Hy|]. split; assumption.
Qed.

Lemma In_rev_by_seq (l : list mseg) g : In g (rev (by_seq l)) <-> In g l.
Proof. rewrite <- in_rev. apply (isort_In (fun a b => g_seq a <? g_seq b)). Qed.

Theorem pick_elig_In P (m : mem) g : In g (m_segs m) -> elig P g = true -> In g (pick P m).
Proof. intros Hg He. unfold pick. apply pick_rev_elig_In; [apply In_rev_by_seq; exact Hg|exact He]. Qed.

Theorem pick_why P (m : mem) x : In x (pick P m) ->
  In x (m_segs m) /\ (elig P x = true \/
    exists y, In y (m_segs m) /\ elig P y = true /\ 0 < sm_delrec (g_meta y)).
Proof.
  unfold pick. intros Hx. destruct (pick_rev_why P _ _ _ Hx) as [[]|[Hin Hwhy]].
  split; [apply In_rev_by_seq; exact Hin|]. destruct Hwhy as [He|(y & Hy & Hey & Hdy)]; [left; exact He|].
  right. exists y. split; [apply In_rev_by_seq; exact Hy|]. split; assumption.
Qed.

(* pickForCompaction returns nothing exactly when no segment passes the two tests *)
Theorem pick_nil_iff P (m : mem) : pick P m = [] <-> forall g, In g (m_segs m) -> elig P g = false.
Proof.
  split.
  - intros E g Hg. destruct (elig P g) eqn:He; [|reflexivity].
    pose proof (pick_elig_In P m g Hg He) as HIn. rewrite E in HIn. destruct HIn.
  - intros H. unfold pick. apply pick_rev_noelig. intros g Hg. apply H. apply In_rev_by_seq. exact Hg.
Qed.


(* the same segment later: DeletedBytes is the same, the size may have grown, but only if the segment
   was not full *)
Definition keepd (g g' : mseg) : Prop :=
  g_id g' = g_id g /\ g_seq g' = g_seq g /\
  sm_delbytes (g_meta g') = sm_delbytes (g_meta g) /\
  g_size g <= g_size g' /\
  (sm_full (g_meta g) = true -> sm_full (g_meta g') = true /\ g_size g' = g_size g).

Lemma mkeep2_keepd g g' : mkeep2 g g' -> keepd g g'.
Proof.
  intros (K1 & K2 & K3 & K4 & _ & K6). unfold keepd.
  split; [exact K1|]. split; [exact K2|]. split; [exact K6|]. split; [lia|]. intros Hf. split; [auto|exact K3].
Qed.

Lemma keepd_refl g : keepd g g.
Proof. apply mkeep2_keepd, mkeep2_refl. Qed.

Lemma keepd_trans a b c : keepd a b -> keepd b c -> keepd a c.
Proof.
  intros (A1 & A2 & A3 & A4 & A5) (B1 & B2 & B3 & B4 & B5). unfold keepd.
  split; [congruence|]. split; [congruence|]. split; [congruence|]. split; [lia|].
  intros Hf. destruct (A5 Hf) as [Hfb Esz]. destruct (B5 Hfb) as [Hfc Esz']. split; [exact Hfc|congruence].
Qed.

Lemma count_rec_full r sm : sm_full (count_rec r sm) = sm_full sm.
Proof. exact (DBLemmas.count_rec_full r sm). Qed.

(* writeRecord never changes DeletedBytes and never writes to a Full segment; sizes only grow; a new
   segment starts with DeletedBytes = 0 and a new sequence id (promotion does not call trackDel) *)
Lemma wframe_keepd (m m' : mem) (d d' : disk) id r :
  ids_increasing (m_segs m') -> wframe m m' d d' id r ->
  forall g', In g' (m_segs m') ->
    (exists g, In g (m_segs m) /\ keepd g g') \/ (sm_delbytes (g_meta g') = 0 /\ m_maxseq m < g_seq g').
Proof.
  intros Hinc (_ & M2 & M3 & _ & (gt & Hgt & Egt & M4) & _) g' Hg'.
  destruct (N.eq_dec (g_id g') id) as [E|Hne].
  - assert (g' = gt) by (apply (ids_increasing_unique _ g' gt Hinc Hg' Hgt); congruence). subst gt.
    destruct M4 as [(g & Hg & G1 & G2 & G3 & G4 & _)|(_ & Hs & Hz & _)]; [left|right; auto].
    exists g. split; [exact Hg|]. unfold keepd. split; [congruence|]. split; [exact G2|]. split; [exact G4|].
    split; [exact G3|]. intros Hf. exfalso. exact (M3 g Hg Hf G1).
  - left. destruct (M2 g' Hg' Hne) as (g & Hg & Hk). exists g. split; [exact Hg|apply mkeep2_keepd; exact Hk].
Qed.


(* a segment created after the pick: no dead bytes, newer than everything that existed at pick time *)
Definition fresh_since (m0 : mem) (g' : mseg) : Prop :=
  sm_delbytes (g_meta g') = 0 /\ m_maxseq m0 < g_seq g'.

(* every segment is either (a) a segment of [m0] -- and if it passed the tests of the pick it is still
   to be compacted -- or (b) fresh *)
Definition FInv (P : params) (m0 m : mem) (c : cursor) : Prop :=
  m_maxseq m0 <= m_maxseq m /\
  forall g', In g' (m_segs m) ->
    (exists g, In g (m_segs m0) /\ keepd g g' /\ (elig P g = true -> In (g_id g', g_seq g') (crem c))) \/
    fresh_since m0 g'.

(* one step, relative to the state before it *)
Definition sframe (m m' : mem) (c c' : cursor) : Prop :=
  m_maxseq m <= m_maxseq m' /\
  forall g', In g' (m_segs m') ->
    (exists g, In g (m_segs m) /\ keepd g g' /\
       (In (g_id g, g_seq g) (crem c) -> In (g_id g, g_seq g) (crem c'))) \/
    fresh_since m g'.

Lemma FInv_step P (m0 m m' : mem) (c c' : cursor) : FInv P m0 m c -> sframe m m' c c' -> FInv P m0 m' c'.
Proof.
  intros [Hle0 H0] [Hle1 H1]. split; [lia|]. intros g' Hg'.
  destruct (H1 g' Hg') as [(g1 & Hg1 & Hk1 & Hc1)|[Hz Hs]].
  - destruct (H0 g1 Hg1) as [(g0 & Hg0 & Hk0 & Hc0)|[Hz0 Hs0]].
    + left. exists g0. split; [exact Hg0|]. split; [eapply keepd_trans; eassumption|].
      intros He. destruct Hk1 as (K1 & K2 & _). rewrite K1, K2. apply Hc1, Hc0, He.
    + right. destruct Hk1 as (K1 & K2 & K3 & _). unfold fresh_since. rewrite K2, K3. split; [exact Hz0|exact Hs0].
  - right. unfold fresh_since. split; [exact Hz|lia].
Qed.

Lemma sframe_same (m m' : mem) (c c' : cursor) :
  m_segs m' = m_segs m -> m_maxseq m' = m_maxseq m -> crem c' = crem c -> sframe m m' c c'.
Proof.
  intros Es Em Ec. split; [lia|]. intros g' Hg'. left. exists g'. rewrite Es in Hg'.
  split; [exact Hg'|]. split; [apply keepd_refl|]. rewrite Ec. auto.
Qed.

(* every micro-step of Compact *)
Theorem fx_step P (s : st) (c : cursor) (m : mem) s' c' :
  Inv P s -> s_mem s = Some m -> room m ->
  compact_step flat_ops P s c = CMore s' c' ->
  exists m', s_mem s' = Some m' /\ sframe m m' c c'.
Proof.
  intros HI Em Hroom E. pose proof (Inv_InvLog P s m Em HI) as HL.
  destruct (compact_step_inv flat_ops P s c m s' c' Em E)
    as [id seq todo Esrc Etodo|id seq off f r Esrc _ _ _
       |id seq off f r i1 s1 m1 nid noff i2 Esrc Ef Hrec _ _ Ew _|id seq off f Esrc _ _ _ _].
  - eexists. split; [reflexivity|]. split; [cbn [m_maxseq set_msegs]; lia|].
    cbn [m_segs set_msegs]. intros g' Hg'. apply In_upd_mseg in Hg'. destruct Hg' as (x & Hx & ->).
    left. exists x. split; [exact Hx|]. split.
    + destruct (g_id x =? id); [|apply keepd_refl]. apply mkeep2_keepd, mkeep2_full_g.
    + unfold crem. cbn [c_src c_todo]. rewrite Esrc, Etodo. auto.
  - exists m. split; [exact Em|].
    apply sframe_same; [reflexivity|reflexivity|]. unfold crem. cbn [c_src c_todo]. rewrite Esrc. reflexivity.
  - assert (Hfits : rec_fits r)
      by (apply (rec_of_rec_fits (s_disk s) id off); [apply HL|unfold rec_of; rewrite Ef; exact Hrec]).
    destruct (write_record_full P r s m HL Hroom Hfits)
      as (s1' & m1' & nid' & noff' & Ew' & HL1 & _ & _ & _ & _ & _ & _ & _ & HW).
    rewrite Ew in Ew'. inversion Ew'; subst s1' m1' nid' noff'.
    eexists. split; [reflexivity|]. split; [apply HW|].
    cbn [m_segs set_idx]. intros g' Hg'.
    destruct (wframe_keepd m m1 _ _ nid r (proj1 (proj2 (proj2 HL1))) HW g' Hg') as [(g & Hg & Hk)|Hnew];
      [left|right; exact Hnew].
    exists g. split; [exact Hg|]. split; [exact Hk|].
    unfold crem. cbn [c_src c_todo]. rewrite Esrc. auto.
  - destruct (cp_remove_segment_eq id seq s m) as [_ Em'].
    destruct (cp_mem_removed_segs m id seq) as (Es & Emax & _).
    eexists. split; [exact Em'|]. split; [lia|]. rewrite Es.
    intros g' Hg'. apply filter_In in Hg'. destruct Hg' as [Hg' Hne]. left. exists g'.
    split; [exact Hg'|]. split; [apply keepd_refl|].
    unfold crem. cbn [c_src c_todo]. rewrite Esrc. intros [X|X]; [|exact X].
    inversion X as [[X1 X2]]. rewrite X1, N.eqb_refl in Hne. discriminate Hne.
Qed.

(* pick + seal *)
Theorem fx_pick P (s : st) (m : mem) s1 c :
  Inv P s -> s_mem s = Some m -> compact_pick flat_ops P s = Some (s1, c) ->
  exists m1, s_mem s1 = Some m1 /\ FInv P m m1 c.
Proof.
  intros HI Em E. unfold compact_pick in E. rewrite Em in E.
  destruct (cp_seal_all (pick P m) s m (proj1 (proj2 (proj2 (Inv_InvLog P s m Em HI))))) as (s0 & m1 & Ef & Hsim & _).
  rewrite Ef in E. inversion E; subst s1 c. clear E. pose proof Hsim as (_ & _ & _ & Emax & _).
  exists m1. split; [reflexivity|]. split; [lia|]. intros g' Hg'. left.
  destruct (msim2_In_inv _ _ _ g' Hsim Hg') as (g & Hg & K). exists g. split; [exact Hg|].
  split; [apply mkeep2_keepd; exact K|].
  intros He. unfold crem. cbn [c_src c_todo]. destruct K as (K1 & K2 & _). rewrite K1, K2.
  apply (in_map (fun g => (g_id g, g_seq g))). apply pick_elig_In; assumption.
Qed.

(* the result of a completed compaction, relative to the state [m0] before it: every segment is a segment
   of [m0] that did not pass the tests (same DeletedBytes; same size if it was full), or fresh *)
Definition compacted (P : params) (m0 m' : mem) : Prop :=
  m_maxseq m0 <= m_maxseq m' /\
  forall g', In g' (m_segs m') ->
    (exists g, In g (m_segs m0) /\ keepd g g' /\ elig P g = false) \/ fresh_since m0 g'.

Theorem fx_run P (m0 : mem) fuel : forall (s : st) (c : cursor) (m : mem),
  Inv P s -> CInv s c -> (cmeasure (s_disk s) c < fuel)%nat -> run_room P fuel s c ->
  s_mem s = Some m -> FInv P m0 m c ->
  exists m', s_mem (fst (compact_run flat_ops P fuel s c)) = Some m' /\ compacted P m0 m'.
Proof.
  induction fuel as [|f IH]; intros s c m HI HC Hlt Hroom Em HF; [lia|].
  cbn [run_room] in Hroom. destruct Hroom as [Hm Hrest]. cbn [compact_run].
  pose proof (compact_step_ok_ex P s c HI HC Hm) as Hstep.
  destruct Hm as (m_ & Em_ & Hrm). assert (m_ = m) by congruence. subst m_. clear Em_.
  destruct (compact_step flat_ops P s c) as [|s1 c1|w] eqn:Es; [| |destruct Hstep].
  - cbn [fst]. exists m. split; [exact Em|]. destruct Hstep as [Esrc Etodo]. destruct HF as [Hle H].
    split; [exact Hle|]. intros g' Hg'. destruct (H g' Hg') as [(g & Hg & Hk & Hc)|Hnew]; [left|right; exact Hnew].
    exists g. split; [exact Hg|]. split; [exact Hk|]. destruct (elig P g); [|reflexivity].
    exfalso. specialize (Hc eq_refl). unfold crem in Hc. rewrite Esrc, Etodo in Hc. destruct Hc.
  - destruct Hstep as (HI1 & HC1 & _ & _ & Hmeas & _).
    destruct (fx_step P s c m s1 c1 HI Em Hrm Es) as (m1 & Em1 & Hsf).
    assert (Hlt1 : (cmeasure (s_disk s1) c1 < f)%nat) by lia.
    apply (IH s1 c1 m1 HI1 HC1 Hlt1 Hrest Em1). eapply FInv_step; eassumption.
Qed.

(* MAIN FRAME THEOREM: Compact run to completion with nobody else touching the database *)
Theorem compact_frame P (s : st) (m0 : mem) :
  Inv P s -> MetaOK s -> s_mem s = Some m0 -> compact_room P s ->
  exists m', s_mem (fst (db_compact flat_ops P s)) = Some m' /\ compacted P m0 m'.
Proof.
  intros HI HM Em Hroom. unfold compact_room in Hroom. unfold db_compact.
  assert (Hm : s_mem s <> None) by congruence.
  destruct (compact_pick_ok P s HI HM Hm) as (s1 & c & Ep & HI1 & HC1 & _ & _ & Esrc & _).
  rewrite Ep in Hroom |- *.
  destruct (fx_pick P s m0 s1 c HI Em Ep) as (m1 & Em1 & HF).
  apply (fx_run P m0 _ s1 c m1 HI1 HC1 (cp_fuel P s1 c HI1 HC1 Esrc) Hroom Em1 HF).
Qed.


(* "a segment without dead bytes is never fragmented enough" (compactionMinFragmentation > 0; sizes
   below the header size do not occur) *)
Definition frag0 (P : params) : Prop := forall size, header_size <= size -> p_frag P 0 size = false.

Lemma frag0_of_all P : (forall size, p_frag P 0 size = false) -> frag0 P.
Proof. intros H size _. apply H. Qed.

Lemma Inv_size P (s : st) (m : mem) g :
  Inv P s -> s_mem s = Some m -> In g (m_segs m) -> header_size <= g_size g /\ g_size g < 4294967296.
Proof.
  intros HI Em Hg. destruct (Inv_open P s m Em HI) as ((Hd & [Ha1 _] & _) & _).
  destruct (Ha1 g Hg) as (f & Hf & _ & _ & Hh & Ht & Hl).
  destruct Hd as (Hok & _). rewrite Forall_forall in Hok. destruct (Hok f Hf) as (_ & _ & _ & _ & Hlt).
  unfold flen in Hl. rewrite Hh, Ht in Hl. cbn [nlen length N.of_nat] in Hl. lia.
Qed.

Lemma elig_ext P g g' :
  g_size g' = g_size g -> sm_delbytes (g_meta g') = sm_delbytes (g_meta g) -> elig P g' = elig P g.
Proof. intros E1 E2. unfold elig. rewrite E1, E2. reflexivity. Qed.

Lemma elig_nodead P g : frag0 P -> header_size <= g_size g -> sm_delbytes (g_meta g) = 0 -> elig P g = false.
Proof. intros H0 Hs Hz. unfold elig. rewrite Hz, (H0 _ Hs). apply andb_false_r. Qed.

(* a segment that still accepts writes is unique (it is the newest one) *)
Lemma open_unique (m : mem) (d : disk) a b :
  InvLog m d -> In a (m_segs m) -> In b (m_segs m) ->
  sm_full (g_meta a) = false -> sm_full (g_meta b) = false -> a = b.
Proof.
  intros HL Ha Hb Fa Fb. pose proof HL as (_ & _ & _ & [_ Hs2] & _).
  pose proof (Hs2 a b Ha Hb Fa). pose proof (Hs2 b a Hb Ha Fb).
  apply (cp_seq_inj m d a b HL Ha Hb). lia.
Qed.

Lemma db_compact_facts P (s : st) :
  Inv P s -> MetaOK s -> s_mem s <> None -> compact_room P s ->
  (exists a b n, snd (db_compact flat_ops P s) = OCompact a b n) /\
  Inv P (fst (db_compact flat_ops P s)) /\ MetaOK (fst (db_compact flat_ops P s)) /\
  (files_exact s -> files_exact (fst (db_compact flat_ops P s))).
Proof.
  intros HI HM Hm Hroom. pose proof (db_compact_ok P s HI HM Hm Hroom) as H.
  destruct (db_compact flat_ops P s) as [s' o]. cbn [fst snd].
  destruct H as (A1 & A2 & _ & _ & A5 & A6 & _). auto.
Qed.

(* 1. THE TRUE STATEMENT.  After a completed compaction a segment can pass the two tests of
   pickForCompaction only if it is the segment that was open (not full) and not eligible at pick time,
   carries dead bytes from before, and GREW by promoted records during this compaction. *)
Theorem compact_eligible_only_grown_open P (s : st) (m0 m' : mem) :
  Inv P s -> MetaOK s -> s_mem s = Some m0 -> compact_room P s -> frag0 P ->
  s_mem (fst (db_compact flat_ops P s)) = Some m' ->
  forall g', In g' (m_segs m') -> elig P g' = true ->
    exists g, In g (m_segs m0) /\ keepd g g' /\ elig P g = false /\
              sm_full (g_meta g) = false /\ g_size g < g_size g' /\ 0 < sm_delbytes (g_meta g).
Proof.
  intros HI HM Em Hroom H0 Em' g' Hg' He.
  assert (Hm : s_mem s <> None) by congruence.
  destruct (db_compact_facts P s HI HM Hm Hroom) as (_ & HI' & _).
  destruct (compact_frame P s m0 HI HM Em Hroom) as (m'' & Em'' & _ & Hc).
  assert (m'' = m') by congruence. subst m''. clear Em''.
  destruct (Inv_size P _ m' g' HI' Em' Hg') as [Hhdr _].
  destruct (Hc g' Hg') as [(g & Hg & Hk & Hne)|[Hz _]].
  - exists g. split; [exact Hg|]. split; [exact Hk|]. split; [exact Hne|].
    destruct Hk as (K1 & K2 & K3 & K4 & K5).
    assert (Hsz : g_size g' <> g_size g).
    { intros E. rewrite (elig_ext P g g' E K3) in He. congruence. }
    split; [|split; [lia|]].
    + destruct (sm_full (g_meta g)); [|reflexivity]. exfalso. apply Hsz. apply (K5 eq_refl).
    + destruct (N.eq_dec (sm_delbytes (g_meta g)) 0) as [Ez|Hnz]; [|lia]. exfalso.
      rewrite (elig_nodead P g' H0 Hhdr) in He by congruence. discriminate.
  - exfalso. rewrite (elig_nodead P g' H0 Hhdr Hz) in He. discriminate.
Qed.

(* ... and there is at most one such segment *)
Theorem compact_eligible_unique P (s : st) (m0 m' : mem) :
  Inv P s -> MetaOK s -> s_mem s = Some m0 -> compact_room P s -> frag0 P ->
  s_mem (fst (db_compact flat_ops P s)) = Some m' ->
  forall a b, In a (m_segs m') -> In b (m_segs m') -> elig P a = true -> elig P b = true -> a = b.
Proof.
  intros HI HM Em Hroom H0 Em' a b Ha Hb Ea Eb.
  destruct (compact_eligible_only_grown_open P s m0 m' HI HM Em Hroom H0 Em' a Ha Ea) as (ga & Hga & Ka & _ & Fa & _).
  destruct (compact_eligible_only_grown_open P s m0 m' HI HM Em Hroom H0 Em' b Hb Eb) as (gb & Hgb & Kb & _ & Fb & _).
  destruct (Inv_open P s m0 Em HI) as (HL & _).
  assert (ga = gb) by (apply (open_unique m0 (s_disk s) ga gb HL Hga Hgb Fa Fb)). subst gb.
  assert (Hm : s_mem s <> None) by congruence.
  destruct (db_compact_facts P s HI HM Hm Hroom) as (_ & HI' & _).
  destruct (Inv_open P _ m' Em' HI') as (HL' & _).
  apply (ids_increasing_unique (m_segs m') a b); [apply HL'|exact Ha|exact Hb|].
  destruct Ka as (Ka & _). destruct Kb as (Kb & _). congruence.
Qed.

(* 1a. Fixpoint, first sufficient condition: the segment open at pick time is picked or has no dead
   bytes (for instance: it was created by a restart or a previous compaction and saw no overwrite) *)
Theorem compact_fixpoint_open_clean P (s : st) (m0 m' : mem) :
  Inv P s -> MetaOK s -> s_mem s = Some m0 -> compact_room P s -> frag0 P ->
  (forall g, In g (m_segs m0) -> sm_full (g_meta g) = false ->
     elig P g = true \/ sm_delbytes (g_meta g) = 0) ->
  s_mem (fst (db_compact flat_ops P s)) = Some m' ->
  pick P m' = [].
Proof.
  intros HI HM Em Hroom H0 Hopen Em'. apply pick_nil_iff. intros g' Hg'.
  destruct (elig P g') eqn:He; [exfalso|reflexivity].
  destruct (compact_eligible_only_grown_open P s m0 m' HI HM Em Hroom H0 Em' g' Hg' He)
    as (g & Hg & _ & Hne & Hf & _ & Hd).
  destruct (Hopen g Hg Hf) as [X|X]; [congruence|lia].
Qed.

(* 1b. Fixpoint, second sufficient condition: no segment is ever too small for compaction and the
   fragmentation test is antitone in the size (true of deletedBytes/size >= theta) *)
Theorem compact_fixpoint_no_minsize P (s : st) (m0 m' : mem) :
  Inv P s -> MetaOK s -> s_mem s = Some m0 -> compact_room P s -> frag0 P ->
  p_minseg P <= header_size ->
  (forall d sz sz', sz <= sz' -> p_frag P d sz' = true -> p_frag P d sz = true) ->
  s_mem (fst (db_compact flat_ops P s)) = Some m' ->
  pick P m' = [].
Proof.
  intros HI HM Em Hroom H0 Hmin Hanti Em'. apply pick_nil_iff. intros g' Hg'.
  destruct (elig P g') eqn:He; [exfalso|reflexivity].
  destruct (compact_eligible_only_grown_open P s m0 m' HI HM Em Hroom H0 Em' g' Hg' He)
    as (g & Hg & (_ & _ & K3 & _) & Hne & _ & Hlt & _).
  destruct (Inv_size P s m0 g HI Em Hg) as [Hh H32].
  unfold elig in He, Hne. apply andb_true_iff in He. destruct He as [_ He].
  rewrite K3 in He. rewrite (Hanti _ (g_size g) (g_size g') (N.lt_le_incl _ _ Hlt) He) in Hne.
  rewrite (u32_small _ H32) in Hne. destruct (N.ltb_spec (g_size g) (p_minseg P)); [lia|discriminate Hne].
Qed.

(* a Compact that picks nothing changes nothing in memory *)
Lemma db_compact_nil P (s : st) (m : mem) :
  s_mem s = Some m -> pick P m = [] -> s_mem (fst (db_compact flat_ops P s)) = Some m.
Proof.
  intros Em Ep. unfold db_compact, compact_pick. rewrite Em, Ep. cbn [fold_left map c_todo length].
  cbn [compact_run]. unfold compact_step. cbn [s_mem with_mem c_src c_todo fst]. reflexivity.
Qed.

(* 1c. TWO compactions in a row always reach the fixpoint: the only segment that the first one can
   leave eligible is sealed and compacted by the second one, whose promoted records go to fresh
   segments. *)
Theorem compact_twice_fixpoint P (s : st) (m0 m2 : mem) :
  Inv P s -> MetaOK s -> s_mem s = Some m0 -> compact_room P s -> frag0 P ->
  compact_room P (fst (db_compact flat_ops P s)) ->
  s_mem (fst (db_compact flat_ops P (fst (db_compact flat_ops P s)))) = Some m2 ->
  pick P m2 = [].
Proof.
  intros HI HM Em Hroom H0 Hroom1 Em2.
  assert (Hm : s_mem s <> None) by congruence.
  destruct (db_compact_facts P s HI HM Hm Hroom) as (_ & HI1 & HM1 & _).
  destruct (compact_frame P s m0 HI HM Em Hroom) as (m1 & Em1 & _ & Hc1).
  set (s1 := fst (db_compact flat_ops P s)) in *.
  apply pick_nil_iff. intros g2 Hg2. destruct (elig P g2) eqn:He2; [exfalso|reflexivity].
  destruct (compact_eligible_only_grown_open P s1 m1 m2 HI1 HM1 Em1 Hroom1 H0 Em2 g2 Hg2 He2)
    as (g1 & Hg1 & Kg & Hne1 & Hf1 & Hlt & Hd1).
  destruct (pick P m1) as [|x l] eqn:Ep.
  - (* the second compaction had nothing to do *)
    pose proof (db_compact_nil P s1 m1 Em1 Ep) as E. assert (m2 = m1) by congruence. subst m2.
    pose proof (pick_elig_In P m1 g2 Hg2 He2) as HIn. rewrite Ep in HIn. destruct HIn.
  - assert (Hy : exists y, In y (m_segs m1) /\ elig P y = true).
    { destruct (pick_why P m1 x) as [Hx [Hex|(y & Hy & Hey & _)]]; [rewrite Ep; left; reflexivity| |].
      - exists x. split; assumption.
      - exists y. split; assumption. }
    destruct Hy as (y & Hy & Hey).
    destruct (compact_eligible_only_grown_open P s m0 m1 HI HM Em Hroom H0 Em1 y Hy Hey)
      as (y0 & Hy0 & Ky & _ & Fy0 & _).
    destruct (Hc1 g1 Hg1) as [(g0 & Hg0 & Kg0 & _)|[Hz _]]; [|lia].
    assert (Fg0 : sm_full (g_meta g0) = false).
    { destruct (sm_full (g_meta g0)) eqn:F; [|reflexivity].
      destruct Kg0 as (_ & _ & _ & _ & K5). destruct (K5 F) as [F1 _]. congruence. }
    destruct (Inv_open P s m0 Em HI) as (HL & _).
    assert (g0 = y0) by (apply (open_unique m0 (s_disk s) g0 y0 HL Hg0 Hy0 Fg0 Fy0)). subst y0.
    destruct (Inv_open P s1 m1 Em1 HI1) as (HL1 & _).
    assert (g1 = y).
    { apply (ids_increasing_unique (m_segs m1) g1 y); [apply HL1|exact Hg1|exact Hy|].
      destruct Kg0 as (A & _). destruct Ky as (B & _). congruence. }
    subst y. congruence.
Qed.


(* example instance of the fragmentation test: deletedBytes / size >= num / den *)
Definition frag_ratio (num den : N) (delbytes size : N) : bool := num * size <=? den * delbytes.

Lemma frag_ratio_frag0 P num den : 0 < num -> p_frag P = frag_ratio num den -> frag0 P.
Proof.
  intros Hn E size Hs. rewrite E. unfold frag_ratio. apply N.leb_gt. unfold header_size in Hs. nia.
Qed.

Lemma frag_ratio_antitone num den d sz sz' :
  sz <= sz' -> frag_ratio num den d sz' = true -> frag_ratio num den d sz = true.
Proof. unfold frag_ratio. intros Hle H. apply N.leb_le in H. apply N.leb_le. nia. Qed.

(* a segment that fails the tests is small or dense *)
Theorem not_eligible_dense P g :
  elig P g = false -> p_minseg P <= u32 (g_size g) ->
  p_frag P (sm_delbytes (g_meta g)) (g_size g) = false.
Proof.
  unfold elig. intros H Hsz. destruct (N.ltb_spec (u32 (g_size g)) (p_minseg P)) as [X|_]; [lia|].
  cbn [negb andb] in H. exact H.
Qed.

Theorem sealed_segments_dense P (m : mem) :
  pick P m = [] ->
  forall g, In g (m_segs m) -> p_minseg P <= u32 (g_size g) ->
    p_frag P (sm_delbytes (g_meta g)) (g_size g) = false.
Proof. intros Ep g Hg. apply not_eligible_dense. apply (proj1 (pick_nil_iff P m) Ep g Hg). Qed.

Theorem sealed_segments_dense_ratio P (m : mem) num den :
  p_frag P = frag_ratio num den -> pick P m = [] ->
  forall g, In g (m_segs m) -> p_minseg P <= u32 (g_size g) ->
    den * sm_delbytes (g_meta g) < num * g_size g.
Proof.
  intros EP Ep g Hg Hsz. pose proof (sealed_segments_dense P m Ep g Hg Hsz) as H.
  rewrite EP in H. unfold frag_ratio in H. apply N.leb_gt in H. exact H.
Qed.

(* summed over all segments that are large enough to be considered *)
Definition big (P : params) (g : mseg) : bool := negb (u32 (g_size g) <? p_minseg P).
Definition sum_of (f : mseg -> N) (l : list mseg) : N := fold_right (fun g n => f g + n) 0 l.

Lemma dense_sum P num den (l : list mseg) :
  p_frag P = frag_ratio num den -> (forall g, In g l -> elig P g = false) ->
  den * sum_of (fun g => sm_delbytes (g_meta g)) (filter (big P) l) <= num * sum_of g_size (filter (big P) l).
Proof.
  intros EP. induction l as [|g l IH]; intros H; [cbn; lia|].
  assert (IH' := IH (fun x Hx => H x (or_intror Hx))). cbn [filter].
  destruct (big P g) eqn:Eb; [|exact IH'].
  cbn [sum_of fold_right]. fold (sum_of (fun g => sm_delbytes (g_meta g)) (filter (big P) l)).
  fold (sum_of g_size (filter (big P) l)).
  pose proof (H g (or_introl eq_refl)) as He. unfold elig in He. unfold big in Eb. rewrite Eb in He.
  cbn [andb] in He. rewrite EP in He. unfold frag_ratio in He. apply N.leb_gt in He.
  rewrite !N.mul_add_distr_l. lia.
Qed.

Theorem dense_total P (m : mem) num den :
  p_frag P = frag_ratio num den -> pick P m = [] ->
  den * sum_of (fun g => sm_delbytes (g_meta g)) (filter (big P) (m_segs m))
  <= num * sum_of g_size (filter (big P) (m_segs m)).
Proof. intros EP Ep. apply (dense_sum P num den _ EP). apply pick_nil_iff. exact Ep. Qed.


Lemma seg_count P (s : st) (m : mem) :
  Inv P s -> s_mem s = Some m -> length (d_segs (s_disk s)) = length (m_segs m).
Proof.
  intros HI Em. destruct (Inv_open P s m Em HI) as (((_ & Hnd & _) & [Ha1 Ha2] & Hinc & _) & _).
  pose proof (ids_increasing_NoDup _ Hinc) as Hng.
  assert (H1 : incl (map f_id (d_segs (s_disk s))) (map g_id (m_segs m))).
  { intros i Hi. apply in_map_iff in Hi. destruct Hi as (f & <- & Hf).
    destruct (Ha2 f Hf) as (g & Hg & E & _). rewrite <- E. apply in_map. exact Hg. }
  assert (H2 : incl (map g_id (m_segs m)) (map f_id (d_segs (s_disk s)))).
  { intros i Hi. apply in_map_iff in Hi. destruct Hi as (g & <- & Hg).
    destruct (Ha1 g Hg) as (f & Hf & E & _). rewrite <- E. apply in_map. exact Hf. }
  pose proof (NoDup_incl_length Hnd H1) as L1. pose proof (NoDup_incl_length Hng H2) as L2.
  rewrite !map_length in L1, L2. lia.
Qed.

Lemma seg_names_count (d : disk) :
  length (filter is_segfile (seg_names d)) = length (d_segs d) /\
  (length (seg_names d) <= 2 * length (d_segs d))%nat.
Proof.
  unfold seg_names. induction (d_segs d) as [|f l [IH1 IH2]]; [split; reflexivity|].
  cbn [map concat]. rewrite filter_app, !app_length. cbn [filter is_segfile length].
  destruct (gob_present (f_meta f)); cbn [filter is_segfile length app]; split; lia.
Qed.

(* a directory without leftovers: one .psg per segment, at most one side file per segment (written by
   Close, read by Open, removed with the segment), and the five fixed files *)
Lemma dir_count (s : st) :
  files_exact s ->
  length (filter is_segfile (dir (s_disk s))) = length (d_segs (s_disk s)) /\
  (length (dir (s_disk s)) <= 2 * length (d_segs (s_disk s)) + 5)%nat.
Proof.
  intros [Ho Hb]. destruct (seg_names_count (s_disk s)) as [C1 C2].
  destruct (dir_fixed_spec (s_disk s)) as (_ & L1 & L2).
  rewrite (dir_files_exact _ Ho Hb), filter_app, !app_length, L2, C1. cbn [length]. split; lia.
Qed.

Theorem files_match_segments P (s : st) (m : mem) :
  Inv P s -> files_exact s -> s_mem s = Some m ->
  length (filter is_segfile (dir (s_disk s))) = length (m_segs m) /\
  (length (dir (s_disk s)) <= 2 * length (m_segs m) + 5)%nat.
Proof.
  intros HI HF Em. destruct (dir_count s HF) as [C1 C2]. rewrite (seg_count P s m HI Em) in C1, C2. auto.
Qed.

(* the files of a segment that passed the tests at pick time are gone *)
Lemma compacted_file_gone P (s s' : st) (m0 m' : mem) g n :
  Inv P s -> s_mem s = Some m0 -> Inv P s' -> files_exact s' -> s_mem s' = Some m' ->
  compacted P m0 m' -> In g (m_segs m0) -> elig P g = true ->
  n = FSeg (g_id g) (g_seq g) \/ n = FSegMeta (g_id g) (g_seq g) -> ~ In n (dir (s_disk s')).
Proof.
  intros HI Em HI' HF' Em' [_ Hc] Hg He Hn HIn.
  destruct (dir_exact P s' m' n HI' HF' Em' HIn) as [(g' & Hg' & Hn')|Hfix].
  - assert (E : g_id g' = g_id g /\ g_seq g' = g_seq g).
    { destruct Hn as [->| ->], Hn' as [X|X]; inversion X; auto. }
    destruct E as [Eid Eseq]. destruct (Inv_open P s m0 Em HI) as ((_ & _ & Hinc & [Hs1 _] & _) & _).
    destruct (Hc g' Hg') as [(g2 & Hg2 & (K1 & _) & Hne)|[_ Hs]].
    + assert (g2 = g) by (apply (ids_increasing_unique _ g2 g Hinc Hg2 Hg); congruence). subst g2. congruence.
    + pose proof (Hs1 g Hg). lia.
  - unfold fixed_name in Hfix. destruct Hn as [->| ->]; intuition discriminate.
Qed.

(* 3. C15, structural part, after ONE completed compaction: no file leaks, one .psg per in-memory
   segment, at most 2n+5 files, the segments that passed the tests are gone with their files, and a
   remaining segment passes the tests only if it is the (unique) segment that was open at pick time *)
Theorem C15_files_bounded_after_compact P (s : st) (m0 : mem) :
  Inv P s -> MetaOK s -> files_exact s -> s_mem s = Some m0 -> compact_room P s -> frag0 P ->
  exists m', s_mem (fst (db_compact flat_ops P s)) = Some m' /\
    files_exact (fst (db_compact flat_ops P s)) /\
    length (filter is_segfile (dir (s_disk (fst (db_compact flat_ops P s))))) = length (m_segs m') /\
    (length (dir (s_disk (fst (db_compact flat_ops P s)))) <= 2 * length (m_segs m') + 5)%nat /\
    (forall n, In n (dir (s_disk (fst (db_compact flat_ops P s)))) ->
       (exists g, In g (m_segs m') /\ (n = FSeg (g_id g) (g_seq g) \/ n = FSegMeta (g_id g) (g_seq g))) \/
       fixed_name n) /\
    (forall g, In g (m_segs m0) -> elig P g = true ->
       ~ In (FSeg (g_id g) (g_seq g)) (dir (s_disk (fst (db_compact flat_ops P s)))) /\
       ~ In (FSegMeta (g_id g) (g_seq g)) (dir (s_disk (fst (db_compact flat_ops P s))))) /\
    (forall g', In g' (m_segs m') ->
       elig P g' = false \/
       exists g, In g (m_segs m0) /\ keepd g g' /\ sm_full (g_meta g) = false /\ elig P g = false /\
                 g_size g < g_size g').
Proof.
  intros HI HM HF Em Hroom H0. assert (Hm : s_mem s <> None) by congruence.
  destruct (db_compact_facts P s HI HM Hm Hroom) as (_ & HI' & _ & HF'). specialize (HF' HF).
  destruct (compact_frame P s m0 HI HM Em Hroom) as (m' & Em' & Hc).
  set (s' := fst (db_compact flat_ops P s)) in *.
  destruct (files_match_segments P s' m' HI' HF' Em') as [C1 C2].
  exists m'. split; [exact Em'|]. split; [exact HF'|]. split; [exact C1|]. split; [exact C2|].
  split; [intros n Hn; apply (dir_exact P s' m' n HI' HF' Em' Hn)|]. split.
  - intros g Hg He. split; apply (compacted_file_gone P s s' m0 m' g _ HI Em HI' HF' Em' Hc Hg He); auto.
  - intros g' Hg'. destruct (elig P g') eqn:He; [right|left; reflexivity].
    destruct (compact_eligible_only_grown_open P s m0 m' HI HM Em Hroom H0 Em' g' Hg' He)
      as (g & Hg & Hk & Hne & Hf & Hlt & _).
    exists g. auto.
Qed.

(* ... and after TWO: every remaining segment is small or dense *)
Theorem C15_files_bounded_after_two_compactions P (s : st) (m0 : mem) :
  Inv P s -> MetaOK s -> files_exact s -> s_mem s = Some m0 -> compact_room P s -> frag0 P ->
  compact_room P (fst (db_compact flat_ops P s)) ->
  exists m2, s_mem (fst (db_compact flat_ops P (fst (db_compact flat_ops P s)))) = Some m2 /\
    pick P m2 = [] /\
    files_exact (fst (db_compact flat_ops P (fst (db_compact flat_ops P s)))) /\
    length (filter is_segfile (dir (s_disk (fst (db_compact flat_ops P (fst (db_compact flat_ops P s)))))))
      = length (m_segs m2) /\
    (length (dir (s_disk (fst (db_compact flat_ops P (fst (db_compact flat_ops P s))))))
      <= 2 * length (m_segs m2) + 5)%nat /\
    (forall g, In g (m_segs m2) -> p_minseg P <= u32 (g_size g) ->
       p_frag P (sm_delbytes (g_meta g)) (g_size g) = false).
Proof.
  intros HI HM HF Em Hroom H0 Hroom1. assert (Hm : s_mem s <> None) by congruence.
  destruct (db_compact_facts P s HI HM Hm Hroom) as (_ & HI1 & HM1 & HF1). specialize (HF1 HF).
  destruct (compact_frame P s m0 HI HM Em Hroom) as (m1 & Em1 & _).
  set (s1 := fst (db_compact flat_ops P s)) in *.
  assert (Hm1 : s_mem s1 <> None) by congruence.
  destruct (db_compact_facts P s1 HI1 HM1 Hm1 Hroom1) as (_ & HI2 & _ & HF2). specialize (HF2 HF1).
  destruct (compact_frame P s1 m1 HI1 HM1 Em1 Hroom1) as (m2 & Em2 & _).
  pose proof (compact_twice_fixpoint P s m0 m2 HI HM Em Hroom H0 Hroom1 Em2) as Ep.
  destruct (files_match_segments P _ m2 HI2 HF2 Em2) as [C1 C2].
  exists m2. split; [exact Em2|]. split; [exact Ep|]. split; [exact HF2|]. split; [exact C1|].
  split; [exact C2|]. apply sealed_segments_dense. exact Ep.
Qed.

Module FixEx.

(* segments of at most 590 bytes (header 512 + two 31-byte records + one or two small ones); a segment
   is considered from 540 bytes on; fragmentation threshold 1% (and never without dead bytes) *)
Definition P1 : params :=
  {| p_maxseg := 590; p_minseg := 540;
     p_frag := fun delbytes size => (0 <? delbytes) && frag_ratio 1 100 delbytes size;
     p_sync := false; p_grow := fun _ _ => false; p_hash := fun _ _ => 0 |}.

Lemma P1_ok : params_ok P1.
Proof. vm_compute. reflexivity. Qed.

(* the hypothesis on the fragmentation test holds literally, for every size *)
Lemma P1_frag_zero : forall size, p_frag P1 0 size = false.
Proof. intros size. reflexivity. Qed.

Lemma P1_frag0 : frag0 P1.
Proof. apply frag0_of_all. exact P1_frag_zero. Qed.

Definition big : val := repeat 65 20%nat.                       (* a 31-byte record with a 1-byte key *)
Definition put (k : N) (v : val) : op' := OpBase (OpPut [k] v).
Definition del (k : N) : op' := OpBase (OpDelete [k]).
Definition run (l : list op') : st := final' (step_flat' P1) (flat_init 7) l.

(* id, sequence id, size, DeletedBytes, DeleteRecords, Full *)
Definition shape (s : st) : list (N * N * N * N * N * bool) :=
  match s_mem s with
  | Some m => map (fun g => (g_id g, g_seq g, g_size g, sm_delbytes (g_meta g), sm_delrec (g_meta g),
                             sm_full (g_meta g))) (m_segs m)
  | None => []
  end.
Definition picks (s : st) : list (N * N) :=
  match s_mem s with Some m => map (fun g => (g_id g, g_seq g)) (pick P1 m) | None => [] end.
Definition mem_of (s : st) : mem :=
  match s_mem s with
  | Some m => m
  | None => {| m_segs := []; m_cur := (0, 0); m_cur_removed := true; m_maxseq := 0; m_idx := []; m_seed := 0 |}
  end.
Definition compacted_once (s : st) : st := fst (db_compact flat_ops P1 s).

(* every state reached by a run satisfies the hypotheses of the theorems of this file *)
Lemma run_hyps (l : list op') :
  forallb op_valid'_b l = true -> rooms'_b P1 (flat_init 7) l = true ->
  Inv P1 (run l) /\ MetaOK (run l).
Proof.
  intros Hv Hr.
  destruct (C01_chain_from_empty_with_compact P1 7 l P1_ok) as (_ & _ & _ & D & E & _).
  - apply ops_valid'_b_ok. exact Hv.
  - apply rooms'_b_ok. exact Hr.
  - exact (conj D E).
Qed.

(* (a) three segments, garbage in two of them, both picked: the fixpoint is reached *)
Definition opsA : list op' :=
  [put 97 big; put 106 [1]; put 98 big;        (* 00000-1: a, j, b *)
   put 106 [2]; put 99 big; put 100 big;       (* 00001-2: j (kills j in 00000-1), c, d *)
   put 106 [3]].                               (* 00002-3: j (kills j in 00001-2); stays open *)
Definition sA : st := run opsA.

Example fixpoint_example :
  shape sA = [(0, 1, 586, 12, 0, true); (1, 2, 586, 12, 0, true); (2, 3, 524, 0, 0, false)] /\
  picks sA = [(0, 1); (1, 2)] /\
  snd (db_compact flat_ops P1 sA) = OCompact 2 2 24 /\
  (* a, b go to the open segment 00002-3, which fills up; c, d go to a new segment that reuses id 0 *)
  shape (compacted_once sA) = [(0, 4, 574, 0, 0, false); (2, 3, 586, 0, 0, true)] /\
  picks (compacted_once sA) = [] /\
  dir (s_disk (compacted_once sA)) = [FSeg 2 3; FSeg 0 4; FMain; FOverflow; FLock].
Proof. vm_compute. repeat split. Qed.

Lemma sA_hyps : Inv P1 sA /\ MetaOK sA /\ files_exact sA /\ s_mem sA = Some (mem_of sA) /\ compact_room P1 sA.
Proof.
  destruct (run_hyps opsA) as [HI HM]; [vm_compute; reflexivity|vm_compute; reflexivity|].
  assert (HF : files_exact sA) by (split; vm_compute; reflexivity).
  assert (Em : s_mem sA = Some (mem_of sA)) by (vm_compute; reflexivity).
  assert (HR : compact_room P1 sA) by (apply compact_room_b_ok; vm_compute; reflexivity).
  exact (conj HI (conj HM (conj HF (conj Em HR)))).
Qed.

(* the theorems apply to this state and predict what vm_compute shows *)
Example fixpoint_theorems_apply :
  exists m', s_mem (compacted_once sA) = Some m' /\ pick P1 m' = [] /\ files_exact (compacted_once sA) /\
    length (filter is_segfile (dir (s_disk (compacted_once sA)))) = length (m_segs m') /\
    (length (dir (s_disk (compacted_once sA))) <= 2 * length (m_segs m') + 5)%nat.
Proof.
  destruct sA_hyps as (HI & HM & HF & Em & HR).
  destruct (C15_files_bounded_after_compact P1 sA (mem_of sA) HI HM HF Em HR P1_frag0)
    as (m' & Em' & HF' & C1 & C2 & _).
  exists m'. split; [exact Em'|]. split; [|exact (conj HF' (conj C1 C2))].
  apply (compact_fixpoint_open_clean P1 sA (mem_of sA) m' HI HM Em HR P1_frag0); [|exact Em'].
  assert (Hb : forallb (fun g => sm_full (g_meta g) || elig P1 g || (sm_delbytes (g_meta g) =? 0))
                       (m_segs (mem_of sA)) = true) by (vm_compute; reflexivity).
  intros g Hg Hf. pose proof (proj1 (forallb_forall _ _) Hb g Hg) as H. cbn beta in H.
  rewrite Hf in H. cbn [orb] in H. apply orb_true_iff in H. destruct H as [H|H]; [left; exact H|right].
  apply N.eqb_eq. exact H.
Qed.

(* (b) COUNTEREXAMPLE to "a completed Compact leaves nothing eligible".
   The open segment 00001-2 holds 12 dead bytes but is 4 bytes too small to be considered.  Compact
   picks 00000-1 and promotes its live records a, b: a goes to 00001-2, which thereby grows to 567
   bytes and passes both tests; b no longer fits and goes to a fresh segment. *)
Definition opsB : list op' :=
  [put 97 big; put 106 [1]; put 98 big;        (* 00000-1: a, j, b *)
   put 106 [2]; put 106 [3]].                  (* 00001-2: j (kills j in 00000-1), j (kills the previous j) *)
Definition sB : st := run opsB.

Lemma sB_hyps : Inv P1 sB /\ MetaOK sB /\ files_exact sB /\ s_mem sB = Some (mem_of sB) /\ compact_room P1 sB.
Proof.
  destruct (run_hyps opsB) as [HI HM]; [vm_compute; reflexivity|vm_compute; reflexivity|].
  assert (HF : files_exact sB) by (split; vm_compute; reflexivity).
  assert (Em : s_mem sB = Some (mem_of sB)) by (vm_compute; reflexivity).
  assert (HR : compact_room P1 sB) by (apply compact_room_b_ok; vm_compute; reflexivity).
  exact (conj HI (conj HM (conj HF (conj Em HR)))).
Qed.

Lemma sB_computed :
  shape sB = [(0, 1, 586, 12, 0, true); (1, 2, 536, 12, 0, false)] /\
  picks sB = [(0, 1)] /\
  snd (db_compact flat_ops P1 sB) = OCompact 1 1 12 /\
  shape (compacted_once sB) = [(1, 2, 567, 12, 0, true); (2, 3, 543, 0, 0, false)] /\
  picks (compacted_once sB) = [(1, 2)] /\
  (* the second Compact finishes the job *)
  snd (db_compact flat_ops P1 (compacted_once sB)) = OCompact 1 1 12 /\
  shape (compacted_once (compacted_once sB)) = [(2, 3, 586, 0, 0, false)] /\
  picks (compacted_once (compacted_once sB)) = [].
Proof. vm_compute. repeat split. Qed.

Theorem compact_fixpoint_refuted :
  exists (P : params) (s : st) (m0 m' : mem),
    Inv P s /\ MetaOK s /\ files_exact s /\ s_mem s = Some m0 /\ compact_room P s /\
    (forall size, p_frag P 0 size = false) /\
    (exists a b n, snd (db_compact flat_ops P s) = OCompact a b n) /\
    s_mem (fst (db_compact flat_ops P s)) = Some m' /\ pick P m' <> [].
Proof.
  destruct sB_hyps as (HI & HM & HF & Em & HR).
  exists P1, sB, (mem_of sB), (mem_of (compacted_once sB)).
  split; [exact HI|]. split; [exact HM|]. split; [exact HF|]. split; [exact Em|]. split; [exact HR|].
  split; [exact P1_frag_zero|]. split; [eexists _, _, _; vm_compute; reflexivity|].
  split; [vm_compute; reflexivity|]. vm_compute. discriminate.
Qed.

(* (c) the second Compact may rewrite a segment that the first one did not touch.
   00000-1 is dense (no dead bytes).  The open segment 00002-3 holds a delete record; after growing
   it passes the tests, and because of the delete record pickForCompaction adds every older segment. *)
Definition opsC : list op' :=
  [put 97 big; put 98 big;                     (* 00000-1: a, b *)
   put 99 big; put 120 [1]; put 100 big;       (* 00001-2: c, x, d *)
   del 120].                                   (* 00002-3: delete x (kills x in 00001-2) *)
Definition sC : st := run opsC.

Example second_compact_rewrites_untouched_segment :
  shape sC = [(0, 1, 574, 0, 0, true); (1, 2, 586, 12, 0, true); (2, 3, 523, 11, 1, false)] /\
  picks sC = [(1, 2)] /\
  snd (db_compact flat_ops P1 sC) = OCompact 1 1 12 /\
  shape (compacted_once sC) = [(0, 1, 574, 0, 0, true); (2, 3, 585, 11, 1, false)] /\
  picks (compacted_once sC) = [(0, 1); (2, 3)] /\
  snd (db_compact flat_ops P1 (compacted_once sC)) = OCompact 2 1 11 /\
  shape (compacted_once (compacted_once sC)) = [(0, 5, 574, 0, 0, false); (1, 4, 574, 0, 0, true)] /\
  picks (compacted_once (compacted_once sC)) = [] /\
  dir (s_disk (compacted_once (compacted_once sC))) = [FSeg 1 4; FSeg 0 5; FMain; FOverflow; FLock].
Proof. vm_compute. repeat split. Qed.

(* the two-compactions theorem applies to (b) *)
Example twice_theorem_applies :
  exists m2, s_mem (compacted_once (compacted_once sB)) = Some m2 /\ pick P1 m2 = [].
Proof.
  destruct sB_hyps as (HI & HM & HF & Em & HR).
  assert (HR1 : compact_room P1 (fst (db_compact flat_ops P1 sB))) by (apply compact_room_b_ok; vm_compute; reflexivity).
  destruct (C15_files_bounded_after_two_compactions P1 sB (mem_of sB) HI HM HF Em HR P1_frag0 HR1)
    as (m2 & Em2 & Ep & _).
  exists m2. exact (conj Em2 Ep).
Qed.

End FixEx.

Print Assumptions pick_nil_iff.
Print Assumptions pick_why.
Print Assumptions fx_step.
Print Assumptions compact_frame.
Print Assumptions compact_eligible_only_grown_open.
Print Assumptions compact_eligible_unique.
Print Assumptions compact_fixpoint_open_clean.
Print Assumptions compact_fixpoint_no_minsize.
Print Assumptions compact_twice_fixpoint.
Print Assumptions sealed_segments_dense.
Print Assumptions sealed_segments_dense_ratio.
Print Assumptions dense_total.
Print Assumptions files_match_segments.
Print Assumptions C15_files_bounded_after_compact.
Print Assumptions C15_files_bounded_after_two_compactions.
Print Assumptions FixEx.fixpoint_example.
Print Assumptions FixEx.fixpoint_theorems_apply.
Print Assumptions FixEx.compact_fixpoint_refuted.
Print Assumptions FixEx.second_compact_rewrites_untouched_segment.
Print Assumptions FixEx.twice_theorem_applies.
