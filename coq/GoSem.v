(* GoSem.v -- the meaning of the operators that tools/gotrans (funcs.go) emits into gen/Funcs.v:
   Go's integer operators at a fixed width, over Z.  Hand-written from the Go specification
   ("Arithmetic operators", "Integer overflow", "Conversions between numeric types"); trusted.

     U w   unsigned integers of w bits: values 0 .. 2^w - 1, arithmetic modulo 2^w
     S w   signed integers of w bits in two's complement: values -2^(w-1) .. 2^(w-1) - 1, wrap-around

   [wrap t z] is the value of type t that the infinitely precise result z is reduced to (for unsigned
   types "the high bits are discarded"; for signed types "no exception is raised, wraps around");
   a conversion between integer types is [wrap] as well (sign extension / truncation of the two's
   complement representation is exactly reduction modulo 2^w into the range of the type).
   Bitwise operators act on the two's complement representation, which is what Z.land / Z.lor /
   Z.lxor / Z.ldiff compute on Z; on operands in range their results are in range.
   Shifts: the count is non-negative (Go panics on a negative count; gotrans only emits counts of
   unsigned type or constants); `x << s` discards the high bits, for s >= w the result is 0;
   `x >> s` is an arithmetic shift for signed and a logical shift for unsigned operands, both are
   Z.shiftr on the value.  Division (only by a non-zero constant: gotrans refuses anything else)
   truncates towards zero.  Comparisons compare the values. *)
From Coq Require Import ZArith Bool Lia.
Open Scope Z_scope.

Inductive ity := U (w : Z) | S (w : Z).

Definition wrap (t : ity) (z : Z) : Z :=
  match t with
  | U w => z mod 2 ^ w
  | S w => (z + 2 ^ (w - 1)) mod 2 ^ w - 2 ^ (w - 1)
  end.

(* the values of a type *)
Definition inr (t : ity) (z : Z) : Prop :=
  match t with
  | U w => 0 <= z < 2 ^ w
  | S w => - 2 ^ (w - 1) <= z < 2 ^ (w - 1)
  end.

Definition go_conv (t : ity) (a : Z) : Z := wrap t a.
Definition go_add (t : ity) (a b : Z) : Z := wrap t (a + b).
Definition go_sub (t : ity) (a b : Z) : Z := wrap t (a - b).
Definition go_mul (t : ity) (a b : Z) : Z := wrap t (a * b).
Definition go_and (t : ity) (a b : Z) : Z := Z.land a b.
Definition go_or (t : ity) (a b : Z) : Z := Z.lor a b.
Definition go_xor (t : ity) (a b : Z) : Z := Z.lxor a b.
Definition go_andnot (t : ity) (a b : Z) : Z := Z.ldiff a b.
Definition go_not (t : ity) (a : Z) : Z := wrap t (Z.lnot a).
Definition go_shl (t : ity) (a s : Z) : Z := wrap t (Z.shiftl a s).
Definition go_shr (t : ity) (a s : Z) : Z := Z.shiftr a s.
Definition go_quo (t : ity) (a b : Z) : Z := wrap t (Z.quot a b).
Definition go_rem (t : ity) (a b : Z) : Z := Z.rem a b.
Definition go_eqb (a b : Z) : bool := a =? b.
Definition go_neqb (a b : Z) : bool := negb (a =? b).
Definition go_ltb (a b : Z) : bool := a <? b.
Definition go_leb (a b : Z) : bool := a <=? b.
Definition go_gtb (a b : Z) : bool := b <? a.
Definition go_geb (a b : Z) : bool := b <=? a.

Lemma wrap_U_id w z : 0 <= z < 2 ^ w -> wrap (U w) z = z.
Proof. intros H. cbn [wrap]. apply Z.mod_small. exact H. Qed.

Lemma wrap_S_id w z : 0 < w -> - 2 ^ (w - 1) <= z < 2 ^ (w - 1) -> wrap (S w) z = z.
Proof.
  intros Hw H. cbn [wrap].
  assert (E : 2 ^ w = 2 * 2 ^ (w - 1)).
  { replace w with (Z.succ (w - 1)) at 1 by lia. rewrite Z.pow_succ_r by lia. reflexivity. }
  rewrite Z.mod_small; lia.
Qed.

Lemma wrap_inr t z : (match t with U w => 0 <= w | S w => 0 < w end) -> inr t (wrap t z).
Proof.
  destruct t as [w|w]; intros Hw; cbn [wrap inr].
  - apply Z.mod_pos_bound. apply Z.pow_pos_nonneg; lia.
  - assert (E : 2 ^ w = 2 * 2 ^ (w - 1)).
    { replace w with (Z.succ (w - 1)) at 1 by lia. rewrite Z.pow_succ_r by lia. reflexivity. }
    assert (P : 0 < 2 ^ w) by (apply Z.pow_pos_nonneg; lia).
    pose proof (Z.mod_pos_bound (z + 2 ^ (w - 1)) (2 ^ w) P). lia.
Qed.

(* constants, kept folded *)
Lemma p2_8 : 2 ^ 8 = 256. Proof. reflexivity. Qed.
Lemma p2_16 : 2 ^ 16 = 65536. Proof. reflexivity. Qed.
Lemma p2_31 : 2 ^ 31 = 2147483648. Proof. reflexivity. Qed.
Lemma p2_32 : 2 ^ 32 = 4294967296. Proof. reflexivity. Qed.
Lemma p2_63 : 2 ^ 63 = 9223372036854775808. Proof. reflexivity. Qed.
Lemma p2_64 : 2 ^ 64 = 18446744073709551616. Proof. reflexivity. Qed.

Lemma wrap_U32 z : 0 <= z < 4294967296 -> wrap (U 32) z = z.
Proof. intros H. apply wrap_U_id. rewrite p2_32. exact H. Qed.
Lemma wrap_U8 z : 0 <= z < 256 -> wrap (U 8) z = z.
Proof. intros H. apply wrap_U_id. rewrite p2_8. exact H. Qed.
Lemma wrap_S64 z : - 9223372036854775808 <= z < 9223372036854775808 -> wrap (S 64) z = z.
Proof. intros H. apply wrap_S_id; [lia|]. change (64 - 1) with 63. rewrite p2_63. exact H. Qed.

(* ---- Z.of_N commutes with everything gotrans emits: the Funcs*Check files move the Z.of_N of
   their statements outwards with these, and are left with a goal on N ---- *)
Lemma ltb_NZ a b : (Z.of_N a <? Z.of_N b) = (a <? b)%N.
Proof. unfold Z.ltb, N.ltb. rewrite N2Z.inj_compare. reflexivity. Qed.
Lemma leb_NZ a b : (Z.of_N a <=? Z.of_N b) = (a <=? b)%N.
Proof. unfold Z.leb, N.leb. rewrite N2Z.inj_compare. reflexivity. Qed.
Lemma eqb_NZ a b : (Z.of_N a =? Z.of_N b) = (a =? b)%N.
Proof. rewrite Z.eqb_compare, N.eqb_compare, N2Z.inj_compare. reflexivity. Qed.
Lemma lor_NZ a b : Z.lor (Z.of_N a) (Z.of_N b) = Z.of_N (N.lor a b).
Proof. destruct a, b; reflexivity. Qed.

(* uint32(x) is Base.u32 *)
Lemma wrap_U32_N x : wrap (U 32) (Z.of_N x) = Z.of_N (x mod 4294967296).
Proof. rewrite N2Z.inj_mod. reflexivity. Qed.
Lemma wrap_S64_N x : (x < 2 ^ 63)%N -> wrap (S 64) (Z.of_N x) = Z.of_N x.
Proof. intros H. apply wrap_S64. change (2 ^ 63)%N with 9223372036854775808%N in H. lia. Qed.
Lemma wrap_U32_add_l a b : wrap (U 32) (wrap (U 32) a + b) = wrap (U 32) (a + b).
Proof. cbn [wrap]. apply Zplus_mod_idemp_l. Qed.

(* ---- bit 31 of a 32-bit value (the delete bit of a record's value-length field) ---- *)
(* a 32-bit value split at bit 31 *)
Lemma split31 w : 0 <= w < 4294967296 ->
  exists hi lo, w = lo + hi * 2147483648 /\ 0 <= lo < 2147483648 /\ (hi = 0 \/ hi = 1) /\
                (hi = 1 <-> 2147483648 <= w).
Proof.
  intros H. exists (w / 2147483648), (w mod 2147483648).
  pose proof (Z.div_mod w 2147483648 ltac:(lia)) as D.
  pose proof (Z.mod_pos_bound w 2147483648 ltac:(lia)) as M.
  assert (0 <= w / 2147483648 < 2) by (split; [apply Z.div_pos; lia|apply Z.div_lt_upper_bound; lia]).
  repeat split; try lia.
Qed.

Lemma testbit_lo lo n : 0 <= lo < 2147483648 -> 31 <= n -> Z.testbit lo n = false.
Proof.
  intros H Hn. destruct (Z.eq_dec lo 0) as [->|Ne]. apply Z.bits_0.
  apply Z.bits_above_log2; [lia|]. apply Z.lt_le_trans with 31; [|lia].
  apply Z.log2_lt_pow2; [lia|]. rewrite p2_31. lia.
Qed.

Lemma land_lo_bit31 lo : 0 <= lo < 2147483648 -> Z.land lo 2147483648 = 0.
Proof.
  intros H. apply Z.bits_inj'. intros n Hn. rewrite Z.land_spec, Z.bits_0. rewrite <- p2_31.
  rewrite Z.pow2_bits_eqb by lia. destruct (Z.eqb_spec 31 n) as [<-|Ne].
  - rewrite testbit_lo by lia. reflexivity.
  - apply andb_false_r.
Qed.

Lemma lor_bit31 lo : 0 <= lo < 2147483648 -> Z.lor lo 2147483648 = lo + 2147483648.
Proof.
  intros H. pose proof (land_lo_bit31 lo H) as D.
  rewrite <- Z.lxor_lor by exact D. rewrite <- Z.add_nocarry_lxor by exact D. reflexivity.
Qed.

Lemma land_bit31 w : 0 <= w < 4294967296 ->
  Z.land w 2147483648 = if 2147483648 <=? w then 2147483648 else 0.
Proof.
  intros H. destruct (split31 w H) as (hi & lo & E & Hlo & Hhi & Hw).
  destruct Hhi as [->| ->].
  - replace (2147483648 <=? w) with false by (symmetry; apply Z.leb_gt; lia).
    rewrite E, Z.mul_0_l, Z.add_0_r. apply land_lo_bit31; lia.
  - replace (2147483648 <=? w) with true by (symmetry; apply Z.leb_le; lia).
    rewrite E, Z.mul_1_l. rewrite <- (lor_bit31 lo Hlo).
    apply Z.bits_inj'. intros n Hn. rewrite Z.land_spec, Z.lor_spec.
    destruct (Z.testbit 2147483648 n); [rewrite orb_true_r|rewrite orb_false_r, andb_false_r]; reflexivity.
Qed.

Lemma ldiff_bit31 w : 0 <= w < 4294967296 -> Z.ldiff w 2147483648 = w mod 2147483648.
Proof.
  intros H. destruct (split31 w H) as (hi & lo & E & Hlo & Hhi & Hw).
  assert (M : w mod 2147483648 = lo).
  { rewrite E. rewrite Z.mod_add by lia. apply Z.mod_small. lia. }
  rewrite M. destruct Hhi as [->| ->].
  - rewrite E, Z.mul_0_l, Z.add_0_r.
    apply Z.bits_inj'. intros n Hn. rewrite Z.ldiff_spec. rewrite <- p2_31, Z.pow2_bits_eqb by lia.
    destruct (Z.eqb_spec 31 n) as [<-|Ne]; cbn [negb].
    + rewrite andb_false_r. symmetry. apply testbit_lo; lia.
    + apply andb_true_r.
  - rewrite E, Z.mul_1_l. rewrite <- (lor_bit31 lo Hlo).
    apply Z.bits_inj'. intros n Hn. rewrite Z.ldiff_spec, Z.lor_spec. rewrite <- p2_31, Z.pow2_bits_eqb by lia.
    destruct (Z.eqb_spec 31 n) as [<-|Ne]; cbn [negb].
    + rewrite andb_false_r. symmetry. apply testbit_lo; lia.
    + rewrite orb_false_r. apply andb_true_r.
Qed.
