(* PhysCrash.v -- the process-crash theorems for the database on the physical index ([phys_ops], Phys.v:
   bucket files addressed by byte offset, overflow-bucket allocation, free list).

   DBSimSessions.v transfers restart (C02), crash (C03) and crash-during-recovery (C04) from the flat
   index to the bucket-chain index; this file adds one more layer.  Three states / disks are related in
   every statement:

        s1 : st phys   --- gst_rel PR ---   sp : st pindex   --- st_rel ---   sf : st flat
        (PhysProofs.PR p c = PhysInv p /\ R_phys p c /\ PInv c;   st_rel = gst_rel idx_rel)

   Nothing is assumed about the phys state beyond [gst_rel PR s1 sp], nothing about the chain state beyond
   [st_rel sp sf]; every other hypothesis (Inv, room, bac_ok, CInv, DiskOK ...) is about the FLAT state,
   as in the chain_* theorems.  The side conditions of DBSimExact (sizes_ok, xok, ff_ok) are derived from
   these: [op3], [compact_step3], [compact_pick3] run one action on the three layers in lockstep and are
   what the other Phys*.v files use as well.  [phys_disk_ok] / [phys_open_ok] say that every index value,
   in memory and in the index files, satisfies PhysInv (no shared, leaked or dangling overflow bucket,
   free list exact, no cycle); they hold of every crash image, torn ones included.

   - As in DBSimSessions.v the theorems are stated with [gcrash_image phys_ops] and with the existence of
     related images of the other two layers; the operation theorems also return the relation of the
     states after the (uncrashed) operation.
   - [answers1] is the phys analogue of [answers] (which is specific to chain_ops); all reads of
     PR-related states are EQUAL (phys_reads), Items included (same order).
   - PhysCrashEx: Open + 35 colliding Puts (31 slots in the main bucket, 4 in an overflow bucket), then a
     Put that dies (a) with 5 bytes of its record written, (b) after the record, before the index write:
     both branches of the conclusion of phys_crash_put are inhabited. *)
From Coq Require Import ZArith Lia ZifyN ZifyNat ZifyBool Permutation List.
From Pogreb Require Import Base BaseLemmas Crc Bytes Record RecordProofs Flat Index Spec DB DBInv
  DBLemmas DBProofsOps DBMeta DBProofsCompact DBProofsRecovery DBProofsCrash DBSim DBRun DBSimExact
  Bucket Phys PhysProofs PhysDB DBSimSessions.
Import ListNotations.
Ltac Zify.zify_post_hook ::= Z.div_mod_to_equations.

Local Notation st1 := (@DB.st phys).
Local Notation stp := (@DB.st pindex).
Local Notation stf := (@DB.st flat).
Local Notation disk1 := (@DB.disk phys).
Local Notation diskp := (@DB.disk pindex).
Local Notation diskf := (@DB.disk flat).

Definition closed1 (d : disk1) : st1 := {| s_mem := None; s_disk := d; s_trace := [] |}.

Lemma closed1_rel (d1 : disk1) (dp : diskp) : gdisk_rel PR d1 dp -> gst_rel PR (closed1 d1) (closedp dp).
Proof. intros H. unfold closed1, closedp. constructor; [constructor|exact H|constructor]. Qed.

Lemma opt_rel_some_r {A B} (Q : A -> B -> Prop) x b :
  opt_rel Q x (Some b) -> exists a, x = Some a /\ Q a b.
Proof. intros H. inversion H as [|a b' Hab Ea Eb]; subst. exists a. split; [reflexivity|exact Hab]. Qed.

Lemma gob_rel_ok_r {A B} (Q : A -> B -> Prop) x b :
  gob_rel Q x (GOk b) -> exists a, x = GOk a /\ Q a b.
Proof. intros H. inversion H as [| |a b' Hab Ea Eb]; subst. exists a. split; [reflexivity|exact Hab]. Qed.

Lemma gst_rel_mem_none {I1 I2} (R : I1 -> I2 -> Prop) (a : @DB.st I1) (b : @DB.st I2) :
  gst_rel R a b -> (s_mem a = None <-> s_mem b = None).
Proof.
  intros H. destruct (st_rel_mem_cases R _ _ H) as [[E1 E2]|(x & y & E1 & E2 & _)]; rewrite E1, E2;
    split; intros E; (reflexivity || discriminate E).
Qed.

(* the physical invariant of everything stored in the index files *)
Definition phys_disk_ok (d : disk1) : Prop :=
  (forall i, d_index d = Some i -> PhysInv i) /\ (forall i, d_imeta d = GOk i -> PhysInv i).

(* an open phys database: invariant of the in-memory index and of the stored ones *)
Definition phys_open_ok (s : st1) : Prop :=
  (exists m, s_mem s = Some m /\ PhysInv (m_idx m)) /\ phys_disk_ok (s_disk s).

Lemma PR_disk_ok (d1 : disk1) (dp : diskp) : gdisk_rel PR d1 dp -> phys_disk_ok d1.
Proof.
  intros H. apply disk_rel_iff in H. destruct H as (_ & _ & Hi & _ & Hm & _). split.
  - intros i E. rewrite E in Hi. inversion Hi as [|a b Hab Ea Eb]; subst. exact (proj1 Hab).
  - intros i E. rewrite E in Hm. inversion Hm as [| |a b Hab Ea Eb]; subst. exact (proj1 Hab).
Qed.

Lemma PR_mem_open (s1 : st1) (sp : stp) (sf : stf) :
  gst_rel PR s1 sp -> st_rel sp sf -> s_mem sf <> None ->
  exists m, s_mem s1 = Some m /\ PhysInv (m_idx m).
Proof.
  intros H1 Hs Hm.
  destruct (st_rel_mem_cases idx_rel _ _ Hs) as [[_ E]|(mp & mf & Ep & _ & _)]; [congruence|].
  destruct (st_rel_mem_cases PR _ _ H1) as [[_ E]|(m1 & mp' & E1 & _ & Hr)]; [congruence|].
  exists m1. split; [exact E1|]. exact (proj1 (mem_rel_idx PR _ _ Hr)).
Qed.

Lemma PR_open_ok (s1 : st1) (sp : stp) (sf : stf) :
  gst_rel PR s1 sp -> st_rel sp sf -> s_mem sf <> None -> phys_open_ok s1.
Proof.
  intros H1 Hs Hm. split; [exact (PR_mem_open s1 sp sf H1 Hs Hm)|].
  exact (PR_disk_ok _ _ (st_rel_disk PR _ _ H1)).
Qed.

(* what the user sees of an open phys database *)
Definition answers1 (P : params) (s : st1) (ms : smap) : Prop :=
  (forall k, db_get phys_ops P k s = OVal (sget ms k)) /\
  (forall k, db_has phys_ops P k s = OBool (shas ms k)) /\
  db_count phys_ops s = ONum (scount ms) /\
  exists l, db_items phys_ops s = OItems l /\ Permutation l ms.

(* all reads of PR-related states are EQUAL (Items: the same list) *)
Theorem phys_reads P (s1 : st1) (sp : stp) :
  gst_rel PR s1 sp ->
  (forall k, db_get phys_ops P k s1 = db_get chain_ops P k sp) /\
  (forall k buf, db_get_append phys_ops P k buf s1 = db_get_append chain_ops P k buf sp) /\
  (forall k, db_has phys_ops P k s1 = db_has chain_ops P k sp) /\
  db_count phys_ops s1 = db_count chain_ops sp /\
  db_items phys_ops s1 = db_items chain_ops sp.
Proof.
  intros H.
  split; [intros k; exact (xsim_get phys_ops chain_ops PR phys_exact_sim P k s1 sp H)|].
  split; [intros k buf; exact (xsim_get_append phys_ops chain_ops PR phys_exact_sim P k buf s1 sp H)|].
  split; [intros k; exact (xsim_has phys_ops chain_ops PR phys_exact_sim P k s1 sp H)|].
  split; [exact (xsim_count phys_ops chain_ops PR phys_exact_sim s1 sp H)|].
  exact (xsim_items phys_ops chain_ops PR phys_exact_sim s1 sp H).
Qed.

Lemma answers1_of_chain P (s1 : st1) (sp : stp) ms :
  gst_rel PR s1 sp -> answers P sp ms -> answers1 P s1 ms.
Proof.
  intros H (A1 & A2 & A3 & l & A4 & A5). destruct (phys_reads P s1 sp H) as (R1 & _ & R2 & R3 & R4).
  split; [intros k; rewrite R1; apply A1|]. split; [intros k; rewrite R2; apply A2|].
  split; [rewrite R3; exact A3|]. exists l. split; [rewrite R4; exact A4|exact A5].
Qed.

Lemma answers1_meq P (s1 : st1) a b :
  NoDup (map fst a) -> NoDup (map fst b) -> meq a b -> answers1 P s1 a -> answers1 P s1 b.
Proof.
  intros Ha Hb Hq (A1 & A2 & A3 & l & A4 & A5). pose proof (meq_perm a b Ha Hb Hq) as Hp.
  split; [intros k; rewrite A1, (Hq k); reflexivity|].
  split; [intros k; rewrite A2; unfold shas; rewrite (Hq k); reflexivity|].
  split; [rewrite A3; unfold scount; rewrite (nlen_perm _ _ Hp); reflexivity|].
  exists l. split; [exact A4|]. etransitivity; eassumption.
Qed.

Theorem phys_crash_at (d1 : disk1) (dp : diskp) t1 tp n cut :
  gdisk_rel PR d1 dp -> Forall2 (gev_rel PR) t1 tp ->
  opt_rel (gdisk_rel PR) (gcrash_at phys_ops d1 t1 n cut) (gcrash_at chain_ops dp tp n cut).
Proof. intros Hd Ht. exact (crash_at_g phys_ops chain_ops PR PR_empty t1 tp Ht d1 dp n cut Hd). Qed.

Theorem phys_crash_image (d1 : disk1) (dp : diskp) t1 tp :
  gdisk_rel PR d1 dp -> Forall2 (gev_rel PR) t1 tp ->
  (forall img1, gcrash_image phys_ops d1 t1 img1 ->
     exists imgp, gcrash_image chain_ops dp tp imgp /\ gdisk_rel PR img1 imgp) /\
  (forall imgp, gcrash_image chain_ops dp tp imgp ->
     exists img1, gcrash_image phys_ops d1 t1 img1 /\ gdisk_rel PR img1 imgp).
Proof. intros Hd Ht. exact (crash_image_g phys_ops chain_ops PR PR_empty d1 dp t1 tp Hd Ht). Qed.

(* the operation started on related disks and ended in related states ([gst_rel] includes the traces) *)
Corollary phys_crash_image_st (s1 s1' : st1) (sp sp' : stp) img1 :
  gdisk_rel PR (s_disk s1) (s_disk sp) -> gst_rel PR s1' sp' ->
  gcrash_image phys_ops (s_disk s1) (s_trace s1') img1 ->
  exists imgp, gcrash_image chain_ops (s_disk sp) (s_trace sp') imgp /\ gdisk_rel PR img1 imgp.
Proof.
  intros Hd Hs' H.
  exact (proj1 (phys_crash_image _ _ _ _ Hd (st_rel_trace PR _ _ Hs')) img1 H).
Qed.

(* three layers: phys images against the crash images of DBProofsCrash.v *)
Theorem phys_crash_image_flat (d1 : disk1) (dp : diskp) (df : diskf) t1 tp tf :
  gdisk_rel PR d1 dp -> disk_rel dp df -> Forall2 (gev_rel PR) t1 tp -> Forall2 ev_rel tp tf ->
  (forall img1, gcrash_image phys_ops d1 t1 img1 ->
     exists imgp imgf, gcrash_image chain_ops dp tp imgp /\ crash_image df tf imgf /\
                       gdisk_rel PR img1 imgp /\ disk_rel imgp imgf) /\
  (forall imgf, crash_image df tf imgf ->
     exists img1 imgp, gcrash_image phys_ops d1 t1 img1 /\ gcrash_image chain_ops dp tp imgp /\
                       gdisk_rel PR img1 imgp /\ disk_rel imgp imgf).
Proof.
  intros H1 Hd Ht1 Ht.
  destruct (phys_crash_image d1 dp t1 tp H1 Ht1) as [A1 B1].
  destruct (sim_crash_image dp df tp tf Hd Ht) as [A2 B2].
  split.
  - intros img1 H. destruct (A1 img1 H) as (imgp & Hp & Hr1). destruct (A2 imgp Hp) as (imgf & Hf & Hr2).
    exists imgp, imgf. split; [exact Hp|]. split; [exact Hf|]. split; [exact Hr1|exact Hr2].
  - intros imgf H. destruct (B2 imgf H) as (imgp & Hp & Hr2). destruct (B1 imgp Hp) as (img1 & H1' & Hr1).
    exists img1, imgp. split; [exact H1'|]. split; [exact Hp|]. split; [exact Hr1|exact Hr2].
Qed.

(* whatever the instant of the crash (inside a record write too): the index files of the image hold
   values that satisfy the physical invariant *)
Corollary phys_crash_image_inv (s1 s1' : st1) (sp sp' : stp) img1 :
  gdisk_rel PR (s_disk s1) (s_disk sp) -> gst_rel PR s1' sp' ->
  gcrash_image phys_ops (s_disk s1) (s_trace s1') img1 -> phys_disk_ok img1.
Proof.
  intros Hd Hs' H. destruct (phys_crash_image_st s1 s1' sp sp' img1 Hd Hs' H) as (imgp & _ & Hr).
  exact (PR_disk_ok img1 imgp Hr).
Qed.

Lemma ff_ok_chain_img (imgp : diskp) (imgf : diskf) : disk_rel imgp imgf -> DiskOK imgf -> ff_ok imgp.
Proof.
  intros Hd Hok. apply (proj2 (ff_ok_rel idx_rel imgp imgf Hd)). apply ff_ok_of_DiskOK. exact Hok.
Qed.

(* both paths of Open (DBSimExact.xsim_open); the side condition concerns the segment files only *)
Theorem phys_open_image P seed (img1 : disk1) (imgp : diskp) :
  gdisk_rel PR img1 imgp -> ff_ok imgp ->
  so_rel PR (db_open phys_ops P seed (closed1 img1)) (db_open chain_ops P seed (closedp imgp)).
Proof.
  intros Hd Hff.
  exact (xsim_open phys_ops chain_ops PR phys_exact_sim P seed (closed1 img1) (closedp imgp)
           (closed1_rel img1 imgp Hd) Hff).
Qed.

(* no lock file (Close had finished): no side condition *)
Theorem phys_open_clean_image P seed (img1 : disk1) (imgp : diskp) :
  gdisk_rel PR img1 imgp -> d_lock imgp = false ->
  so_rel PR (db_open phys_ops P seed (closed1 img1)) (db_open chain_ops P seed (closedp imgp)).
Proof.
  intros Hd Hl.
  exact (open_clean_g phys_ops chain_ops PR PR_empty PR_count P seed (closed1 img1) (closedp imgp)
           (closed1_rel img1 imgp Hd) Hl).
Qed.

(* three layers: what the flat theorems give is enough *)
Theorem phys_open_image_flat P seed (img1 : disk1) (imgp : diskp) (imgf : diskf) :
  gdisk_rel PR img1 imgp -> disk_rel imgp imgf -> (d_lock imgf = true -> DiskOK imgf) ->
  so_rel PR (db_open phys_ops P seed (closed1 img1)) (db_open chain_ops P seed (closedp imgp)).
Proof.
  intros H1 Hd Hok. destruct (d_lock imgf) eqn:El.
  - apply phys_open_image; [exact H1|]. exact (ff_ok_chain_img imgp imgf Hd (Hok eq_refl)).
  - apply phys_open_clean_image; [exact H1|]. rewrite (d_lock_g idx_rel _ _ Hd). exact El.
Qed.

(* the same for chain against flat: the recovering Open needs the flat image recoverable *)
Lemma chain_open_image_flat P seed (imgp : diskp) (imgf : diskf) :
  disk_rel imgp imgf -> (d_lock imgf = true -> DiskOK imgf /\ bac_ok imgf) ->
  so_rel idx_rel (db_open chain_ops P seed (closedp imgp)) (db_open flat_ops P seed (closed imgf)).
Proof.
  intros Hd Hok. pose proof (closed_rel imgp imgf Hd) as Hcl. destruct (d_lock imgf) eqn:El.
  - destruct (Hok eq_refl) as [G1 G2]. apply sim_open_recover_so; assumption.
  - apply sim_open_clean_so; assumption.
Qed.

(* Open transfers from the chain image to a related phys image: same result, related states, and the
   phys database answers as the flat contents say *)
Lemma phys_open_of_chain P seed b ms (img1 : disk1) (imgp : diskp) (sp2 : stp) (sf2 : stf) :
  so_rel PR (db_open phys_ops P seed (closed1 img1)) (db_open chain_ops P seed (closedp imgp)) ->
  db_open chain_ops P seed (closedp imgp) = (sp2, OOpened b) ->
  st_rel sp2 sf2 -> Inv P sf2 -> s_mem sf2 <> None -> meq (abs (s_disk sf2)) ms -> NoDup (map fst ms) ->
  exists s2, db_open phys_ops P seed (closed1 img1) = (s2, OOpened b) /\ gst_rel PR s2 sp2 /\
             phys_open_ok s2 /\ answers1 P s2 ms.
Proof.
  intros [Eo H2] Ep Hs2 HI2 Hm2 Hq Hnd. rewrite Ep in Eo, H2.
  destruct (db_open phys_ops P seed (closed1 img1)) as [s2 o2]. cbn [fst snd] in Eo, H2. subst o2.
  exists s2. split; [reflexivity|]. split; [exact H2|]. split; [exact (PR_open_ok s2 sp2 sf2 H2 Hs2 Hm2)|].
  apply (answers1_of_chain P s2 sp2 _ H2). apply (answers_meq P sp2 (abs (s_disk sf2)) ms (abs_NoDup _) Hnd Hq).
  exact (answers_of_rel P sp2 sf2 Hs2 HI2 Hm2).
Qed.

(* recovery of the phys database from an image related (through a chain image) to a recoverable flat
   image: the index stored in the image plays no role, it is rebuilt from the log *)
Theorem phys_recover_image P seed (img1 : disk1) (imgp : diskp) (imgf : diskf) :
  params_ok P -> gdisk_rel PR img1 imgp -> disk_rel imgp imgf ->
  DiskOK imgf -> bac_ok imgf -> d_lock imgf = true ->
  exists s2 sp2 sf2,
    db_open phys_ops P seed (closed1 img1) = (s2, OOpened true) /\
    db_open chain_ops P seed (closedp imgp) = (sp2, OOpened true) /\
    db_open flat_ops P seed (closed imgf) = (sf2, OOpened true) /\
    gst_rel PR s2 sp2 /\ st_rel sp2 sf2 /\ Inv P sf2 /\ MetaOK sf2 /\ s_mem sf2 <> None /\
    bac_ok (s_disk sf2) /\ meq (abs (s_disk sf2)) (abs imgf) /\
    phys_open_ok s2 /\ answers P sp2 (abs imgf) /\ answers1 P s2 (abs imgf).
Proof.
  intros HP H1 Hd Hok Hbac Hlock.
  destruct (chain_recover_image P seed imgp imgf HP Hd Hok Hbac Hlock)
    as (sp2 & sf2 & Ep & Ef & Hs2 & HI2 & HM2 & Hm2 & Hb2 & Ha2 & Hans).
  destruct (phys_open_of_chain P seed true (abs imgf) img1 imgp sp2 sf2
              (phys_open_image P seed img1 imgp H1 (ff_ok_chain_img imgp imgf Hd Hok)) Ep Hs2 HI2 Hm2 Ha2 (abs_NoDup _))
    as (s2 & E1 & H2 & Hpo & Hans1).
  exists s2, sp2, sf2. split; [exact E1|]. split; [exact Ep|]. split; [exact Ef|].
  split; [exact H2|]. split; [exact Hs2|]. split; [exact HI2|]. split; [exact HM2|]. split; [exact Hm2|].
  split; [exact Hb2|]. split; [exact Ha2|]. split; [exact Hpo|]. split; [exact Hans|exact Hans1].
Qed.

(* the engine: an operation that ran on related states of the three layers; every crash image of the
   flat run is recoverable and satisfies [Q]; then every crash image of the PHYS run recovers, to a
   state related to the recovered chain and flat states, and answers as the flat image's contents say *)
Theorem phys_crash_recover_ok P seed (Q : diskf -> Prop)
        (s1 s1' : st1) (sp sp' : stp) (sf sf' : stf) img1 :
  params_ok P ->
  gdisk_rel PR (s_disk s1) (s_disk sp) -> gst_rel PR s1' sp' ->
  disk_rel (s_disk sp) (s_disk sf) -> st_rel sp' sf' ->
  (forall imgf, crash_image (s_disk sf) (s_trace sf') imgf ->
     DiskOK imgf /\ bac_ok imgf /\ d_lock imgf = true /\ Q imgf) ->
  gcrash_image phys_ops (s_disk s1) (s_trace s1') img1 ->
  exists imgp imgf s2 sp2 sf2,
    gcrash_image chain_ops (s_disk sp) (s_trace sp') imgp /\ gdisk_rel PR img1 imgp /\
    crash_image (s_disk sf) (s_trace sf') imgf /\ disk_rel imgp imgf /\ Q imgf /\
    db_open phys_ops P seed (closed1 img1) = (s2, OOpened true) /\
    db_open chain_ops P seed (closedp imgp) = (sp2, OOpened true) /\
    db_open flat_ops P seed (closed imgf) = (sf2, OOpened true) /\
    gst_rel PR s2 sp2 /\ st_rel sp2 sf2 /\ Inv P sf2 /\ MetaOK sf2 /\ s_mem sf2 <> None /\
    bac_ok (s_disk sf2) /\ meq (abs (s_disk sf2)) (abs imgf) /\
    phys_open_ok s2 /\ answers P sp2 (abs imgf) /\ answers1 P s2 (abs imgf).
Proof.
  intros HP Hd1 Hs1' Hd Hs' Hall Himg.
  destruct (phys_crash_image_st s1 s1' sp sp' img1 Hd1 Hs1' Himg) as (imgp & Hp & Hrel1).
  destruct (sim_crash_image_st sp sp' sf sf' imgp Hd Hs' Hp) as (imgf & Hf & Hrel).
  destruct (Hall imgf Hf) as (G1 & G2 & G3 & HQ).
  destruct (phys_recover_image P seed img1 imgp imgf HP Hrel1 Hrel G1 G2 G3) as (s2 & sp2 & sf2 & H).
  exists imgp, imgf, s2, sp2, sf2.
  split; [exact Hp|]. split; [exact Hrel1|]. split; [exact Hf|]. split; [exact Hrel|]. split; [exact HQ|exact H].
Qed.

(* One action on the three layers.  The side conditions of the two simulations (no record offset is 0 mod 2^32
   for phys against chain; Inv, the 32-bit condition and byte strings for chain against flat) all follow from
   facts about the FLAT state. *)

(* Put with a key / value of any length: chain against flat (a rejected Put changes nothing) *)
Lemma sim_put_any P (sp : stp) (sf : stf) k v :
  st_rel sp sf -> Inv P sf -> (exists m, s_mem sf = Some m /\ room m) -> Forall byte k -> Forall byte v ->
  so_rel idx_rel (db_put chain_ops P k v sp) (db_put flat_ops P k v sf).
Proof.
  intros Hs HI Hr Hbk Hbv.
  destruct (N.ltb_spec max_key_len (nlen k)) as [Hk|Hk];
    [|destruct (N.ltb_spec max_val_len (nlen v)) as [Hv|Hv]].
  - unfold db_put. destruct (st_rel_mem_cases _ _ _ Hs) as [[E1 E2]|(mp & mf & E1 & E2 & Hm)]; rewrite E1, E2;
      [split; [reflexivity|exact Hs]|].
    rewrite (proj2 (N.ltb_lt _ _) Hk). split; [reflexivity|exact Hs].
  - unfold db_put. destruct (st_rel_mem_cases _ _ _ Hs) as [[E1 E2]|(mp & mf & E1 & E2 & Hm)]; rewrite E1, E2;
      [split; [reflexivity|exact Hs]|].
    rewrite (proj2 (N.ltb_lt _ _) Hv). destruct (max_key_len <? nlen k); split; (reflexivity || exact Hs).
  - apply sim_put_so; assumption.
Qed.

(* the only operation of a caller with a side condition is Put *)
Definition put_side (sf : stf) (o : op) : Prop :=
  match o with
  | OpPut k v => (exists m, s_mem sf = Some m /\ room m) /\ Forall byte k /\ Forall byte v
  | _ => True
  end.

(* a caller's operation: phys and chain return EQUAL results, chain and flat too, except that an Items
   listing of the flat database is in another order *)
Lemma op3 P o (s1 : st1) (sp : stp) (sf : stf) :
  gst_rel PR s1 sp -> st_rel sp sf -> Inv P sf -> put_side sf o ->
  so_rel PR (step phys_ops P s1 o) (step chain_ops P sp o) /\
  st_rel (fst (step chain_ops P sp o)) (fst (step flat_ops P sf o)) /\
  match o with
  | OpItems => out_equiv (snd (step chain_ops P sp o)) (snd (step flat_ops P sf o))
  | _ => snd (step chain_ops P sp o) = snd (step flat_ops P sf o)
  end.
Proof.
  intros H1 Hs HI Hsd. split.
  - apply (xsim_step' phys_ops chain_ops PR phys_exact_sim P s1 sp (OpBase o) H1).
    destruct o; try exact Logic.I. exact (proj1 (xok_chain_of_flat P sp sf Hs HI (proj1 Hsd))).
  - destruct o as [k v|k|k|k buf|k| | |]; cbn [step fst snd put_side] in *.
    + destruct Hsd as (Hr & Hbk & Hbv). destruct (sim_put_any P sp sf k v Hs HI Hr Hbk Hbv) as [Eo Hs']. exact (conj Hs' Eo).
    + destruct (sim_delete_so P sp sf k Hs HI) as [Eo Hs']. exact (conj Hs' Eo).
    + exact (conj Hs (sim_get P sp sf k Hs HI)).
    + exact (conj Hs (sim_get_append P sp sf k buf Hs HI)).
    + exact (conj Hs (sim_has P sp sf k Hs HI)).
    + exact (conj Hs (sim_count sp sf Hs)).
    + exact (conj Hs (sim_items P sp sf Hs HI)).
    + destruct (sync_rel idx_rel chain_ops flat_ops idx_rel_empty sp sf Hs) as [Eo Hs']. exact (conj Hs' Eo).
Qed.

(* one critical section of the compaction: the same constructor on the three layers *)
Inductive cstep3 : @cstep phys -> @cstep pindex -> @cstep flat -> Prop :=
| c3_done : cstep3 CDone CDone CDone
| c3_more s1 sp sf c : gst_rel PR s1 sp -> st_rel sp sf -> cstep3 (CMore s1 c) (CMore sp c) (CMore sf c)
| c3_fail w : cstep3 (CFail w) (CFail w) (CFail w).

Lemma compact_step3 P (s1 : st1) (sp : stp) (sf : stf) c :
  gst_rel PR s1 sp -> st_rel sp sf -> Inv P sf -> (exists m, s_mem sf = Some m /\ room m) ->
  cstep3 (compact_step phys_ops P s1 c) (compact_step chain_ops P sp c) (compact_step flat_ops P sf c).
Proof.
  intros H1 Hs HI Hr.
  pose proof (xsim_compact_step phys_ops chain_ops PR phys_exact_sim P s1 sp c H1 (xok_chain_of_flat P sp sf Hs HI Hr)) as X1.
  pose proof (sim_compact_step P sp sf c Hs HI) as X2.
  destruct (compact_step phys_ops P s1 c); destruct (compact_step chain_ops P sp c); inversion X1; subst;
    destruct (compact_step flat_ops P sf c); inversion X2; subst; constructor; assumption.
Qed.

(* pickForCompaction: enabled on the three layers or on none, with the same cursor *)
Inductive pick3 : option (st1 * cursor) -> option (stp * cursor) -> option (stf * cursor) -> Prop :=
| p3_none : pick3 None None None
| p3_some s1 sp sf c : gst_rel PR s1 sp -> st_rel sp sf -> pick3 (Some (s1, c)) (Some (sp, c)) (Some (sf, c)).

Lemma compact_pick3 P (s1 : st1) (sp : stp) (sf : stf) :
  gst_rel PR s1 sp -> st_rel sp sf ->
  pick3 (compact_pick phys_ops P s1) (compact_pick chain_ops P sp) (compact_pick flat_ops P sf).
Proof.
  intros H1 Hs.
  pose proof (xsim_compact_pick phys_ops chain_ops PR phys_exact_sim P s1 sp H1) as X1.
  pose proof (compact_pick_rel idx_rel chain_ops flat_ops idx_rel_empty P sp sf Hs) as X2.
  unfold pick_res_rel in X1, X2.
  destruct (compact_pick phys_ops P s1) as [[s1' c1]|]; destruct (compact_pick chain_ops P sp) as [[sp' cp]|];
    try contradiction; destruct (compact_pick flat_ops P sf) as [[sf' cf]|]; try contradiction; [|constructor].
  destruct X1 as [X1 ->]. destruct X2 as [X2 ->]. constructor; assumption.
Qed.

(* from the engine, for Q = "contents before or after" *)
Lemma recovers_before_or_after P seed (s1 s1' : st1) (sp sp' : stp) (sf sf' : stf) img1 :
  params_ok P ->
  gdisk_rel PR (s_disk s1) (s_disk sp) -> gst_rel PR s1' sp' ->
  disk_rel (s_disk sp) (s_disk sf) -> st_rel sp' sf' ->
  (forall imgf, crash_image (s_disk sf) (s_trace sf') imgf ->
     DiskOK imgf /\ bac_ok imgf /\ d_lock imgf = true /\ before_or_after (s_disk sf) (s_disk sf') imgf) ->
  gcrash_image phys_ops (s_disk s1) (s_trace s1') img1 ->
  exists imgp imgf s2 sp2 sf2,
    gdisk_rel PR img1 imgp /\ disk_rel imgp imgf /\ before_or_after (s_disk sf) (s_disk sf') imgf /\
    db_open phys_ops P seed (closed1 img1) = (s2, OOpened true) /\
    db_open chain_ops P seed (closedp imgp) = (sp2, OOpened true) /\
    gst_rel PR s2 sp2 /\ st_rel sp2 sf2 /\ Inv P sf2 /\ s_mem sf2 <> None /\ phys_open_ok s2 /\
    (answers1 P s2 (abs (s_disk sf)) \/ answers1 P s2 (abs (s_disk sf'))).
Proof.
  intros HP Hd1 Hs1' Hd Hs' Hall Himg.
  destruct (phys_crash_recover_ok P seed _ s1 s1' sp sp' sf sf' img1 HP Hd1 Hs1' Hd Hs' Hall Himg)
    as (imgp & imgf & s2 & sp2 & sf2 & _ & Hr1 & _ & Hrel & HQ & E1 & E2 & _ & H2 & Hs2 & HI2 & _ & Hm2 & _ & _ & Hpo & _ & Hans).
  exists imgp, imgf, s2, sp2, sf2. split; [exact Hr1|]. split; [exact Hrel|]. split; [exact HQ|].
  split; [exact E1|]. split; [exact E2|]. split; [exact H2|]. split; [exact Hs2|]. split; [exact HI2|].
  split; [exact Hm2|]. split; [exact Hpo|].
  destruct HQ as [HQ|HQ]; [left|right]; exact (answers1_meq P s2 (abs imgf) _ (abs_NoDup _) (abs_NoDup _) HQ Hans).
Qed.

(* C03, Put: the recovered phys database answers like the map BEFORE the Put or AFTER it *)
Theorem phys_crash_put P seed (s1 s1' : st1) (sp : stp) (sf : stf) k v o img1 :
  params_ok P -> gst_rel PR s1 sp -> st_rel sp sf -> Inv P sf ->
  (exists m, s_mem sf = Some m /\ room m) -> bac_ok (s_disk sf) ->
  Forall byte k -> Forall byte v -> nlen k <= max_key_len -> nlen v <= max_val_len ->
  db_put phys_ops P k v (clear_trace s1) = (s1', o) ->
  gcrash_image phys_ops (s_disk s1) (s_trace s1') img1 ->
  let sp' := fst (db_put chain_ops P k v (clear_trace sp)) in
  let sf' := fst (db_put flat_ops P k v (clear_trace sf)) in
  gst_rel PR s1' sp' /\ st_rel sp' sf' /\
  exists imgp imgf s2 sp2 sf2,
    gdisk_rel PR img1 imgp /\ disk_rel imgp imgf /\ before_or_after (s_disk sf) (s_disk sf') imgf /\
    db_open phys_ops P seed (closed1 img1) = (s2, OOpened true) /\
    db_open chain_ops P seed (closedp imgp) = (sp2, OOpened true) /\
    gst_rel PR s2 sp2 /\ st_rel sp2 sf2 /\ Inv P sf2 /\ s_mem sf2 <> None /\ phys_open_ok s2 /\
    (answers1 P s2 (abs (s_disk sf)) \/ answers1 P s2 (sput (abs (s_disk sf)) k v)).
Proof.
  intros HP H1 Hs HI Hroom Hbac Hbk Hbv Hk Hv Eput Himg. cbv zeta.
  destruct (op3 P (OpPut k v) _ _ _ (clear_trace_rel PR _ _ H1) (clear_trace_rel idx_rel _ _ Hs) (Inv_clear P sf HI)
              (conj Hroom (conj Hbk Hbv))) as ([_ H1'] & Hs' & _).
  cbn [step] in H1', Hs'. rewrite Eput in H1'. cbn [fst] in H1'.
  destruct (flat_put_abs P (clear_trace sf) k v HP (Inv_clear P sf HI) Hroom Hbk Hbv Hk Hv) as (sf' & Ef & _ & _ & Eabs).
  rewrite Ef in Hs' |- *. cbn [fst] in Hs' |- *. cbn [clear_trace s_disk] in Eabs. rewrite <- Eabs.
  split; [exact H1'|]. split; [exact Hs'|].
  apply (recovers_before_or_after P seed s1 s1' sp _ sf sf' img1 HP (st_rel_disk PR _ _ H1) H1'
           (st_rel_disk idx_rel _ _ Hs) Hs'); [|exact Himg].
  exact (crash_put P sf sf' k v OOk HP HI Hroom Hbac Hbk Hbv Hk Hv Ef).
Qed.

(* C03, Delete *)
Theorem phys_crash_delete P seed (s1 s1' : st1) (sp : stp) (sf : stf) k o img1 :
  params_ok P -> gst_rel PR s1 sp -> st_rel sp sf -> Inv P sf ->
  (exists m, s_mem sf = Some m /\ room m) -> bac_ok (s_disk sf) -> Forall byte k ->
  db_delete phys_ops P k (clear_trace s1) = (s1', o) ->
  gcrash_image phys_ops (s_disk s1) (s_trace s1') img1 ->
  let sp' := fst (db_delete chain_ops P k (clear_trace sp)) in
  let sf' := fst (db_delete flat_ops P k (clear_trace sf)) in
  gst_rel PR s1' sp' /\ st_rel sp' sf' /\
  exists imgp imgf s2 sp2 sf2,
    gdisk_rel PR img1 imgp /\ disk_rel imgp imgf /\ before_or_after (s_disk sf) (s_disk sf') imgf /\
    db_open phys_ops P seed (closed1 img1) = (s2, OOpened true) /\
    db_open chain_ops P seed (closedp imgp) = (sp2, OOpened true) /\
    gst_rel PR s2 sp2 /\ st_rel sp2 sf2 /\ Inv P sf2 /\ s_mem sf2 <> None /\ phys_open_ok s2 /\
    (answers1 P s2 (abs (s_disk sf)) \/ answers1 P s2 (sdel (abs (s_disk sf)) k)).
Proof.
  intros HP H1 Hs HI Hroom Hbac Hbk Edel Himg. cbv zeta.
  destruct (op3 P (OpDelete k) _ _ _ (clear_trace_rel PR _ _ H1) (clear_trace_rel idx_rel _ _ Hs) (Inv_clear P sf HI)
              Logic.I) as ([_ H1'] & Hs' & _).
  cbn [step] in H1', Hs'. rewrite Edel in H1'. cbn [fst] in H1'.
  destruct (flat_delete_abs P (clear_trace sf) k HP (Inv_clear P sf HI) Hroom) as (sf' & Ef & _ & _ & Eabs).
  rewrite Ef in Hs' |- *. cbn [fst] in Hs' |- *. cbn [clear_trace s_disk] in Eabs. rewrite <- Eabs.
  split; [exact H1'|]. split; [exact Hs'|].
  apply (recovers_before_or_after P seed s1 s1' sp _ sf sf' img1 HP (st_rel_disk PR _ _ H1) H1'
           (st_rel_disk idx_rel _ _ Hs) Hs'); [|exact Himg].
  exact (crash_delete P sf sf' k OOk HP HI Hroom Hbac Hbk Ef).
Qed.

(* the common conclusion of the operations that do not change the contents *)
Definition recovers_unchanged (P : params) (seed : N) (b : bool) (img1 : disk1) (ms : smap) : Prop :=
  exists imgp imgf s2 sp2 sf2,
    gdisk_rel PR img1 imgp /\ disk_rel imgp imgf /\
    db_open phys_ops P seed (closed1 img1) = (s2, OOpened b) /\
    db_open chain_ops P seed (closedp imgp) = (sp2, OOpened b) /\
    gst_rel PR s2 sp2 /\ st_rel sp2 sf2 /\ Inv P sf2 /\ s_mem sf2 <> None /\ phys_open_ok s2 /\
    answers1 P s2 ms.

(* from the engine, for Q = "contents unchanged" *)
Lemma recovers_unchanged_engine P seed (s1 s1' : st1) (sp sp' : stp) (sf sf' : stf) img1 ms :
  params_ok P ->
  gdisk_rel PR (s_disk s1) (s_disk sp) -> gst_rel PR s1' sp' ->
  disk_rel (s_disk sp) (s_disk sf) -> st_rel sp' sf' ->
  (forall imgf, crash_image (s_disk sf) (s_trace sf') imgf ->
     DiskOK imgf /\ bac_ok imgf /\ d_lock imgf = true /\ meq (abs imgf) ms) ->
  NoDup (map fst ms) ->
  gcrash_image phys_ops (s_disk s1) (s_trace s1') img1 ->
  recovers_unchanged P seed true img1 ms.
Proof.
  intros HP Hd1 Hs1' Hd Hs' Hall Hnd Himg.
  destruct (phys_crash_recover_ok P seed (fun img => meq (abs img) ms) s1 s1' sp sp' sf sf' img1 HP
              Hd1 Hs1' Hd Hs' Hall Himg)
    as (imgp & imgf & s2 & sp2 & sf2 & _ & Hr1 & _ & Hrel & HQ & E1 & E2 & _ & H2 & Hs2 & HI2 & _ & Hm2 & _ & _ & Hpo & _ & Hans).
  exists imgp, imgf, s2, sp2, sf2. split; [exact Hr1|]. split; [exact Hrel|]. split; [exact E1|].
  split; [exact E2|]. split; [exact H2|]. split; [exact Hs2|]. split; [exact HI2|]. split; [exact Hm2|].
  split; [exact Hpo|].
  apply (answers1_meq P s2 (abs imgf) ms (abs_NoDup _) Hnd HQ). exact Hans.
Qed.

(* C03, Sync: no image differs from the disk before *)
Theorem phys_crash_sync P seed (s1 s1' : st1) (sp : stp) (sf : stf) o img1 :
  params_ok P -> gst_rel PR s1 sp -> st_rel sp sf -> Inv P sf -> s_mem sf <> None -> bac_ok (s_disk sf) ->
  db_sync phys_ops (clear_trace s1) = (s1', o) ->
  gcrash_image phys_ops (s_disk s1) (s_trace s1') img1 ->
  recovers_unchanged P seed true img1 (abs (s_disk sf)).
Proof.
  intros HP H1 Hs HI Hm Hbac Es Himg.
  destruct (op3 P OpSync _ _ _ (clear_trace_rel PR _ _ H1) (clear_trace_rel idx_rel _ _ Hs) (Inv_clear P sf HI)
              Logic.I) as ([_ H1'] & Hs' & _).
  cbn [step] in H1', Hs'. rewrite Es in H1'. cbn [fst] in H1'.
  apply (recovers_unchanged_engine P seed s1 s1' sp _ sf _ img1 (abs (s_disk sf)) HP
           (st_rel_disk PR _ _ H1) H1' (st_rel_disk idx_rel _ _ Hs) Hs'); [|apply abs_NoDup|exact Himg].
  intros imgf Hf.
  destruct (crash_sync P sf _ _ HI Hm Hbac (surjective_pairing _) imgf Hf) as (G1 & G2 & G3 & Hc & _).
  split; [exact G1|]. split; [exact G2|]. split; [exact G3|exact Hc].
Qed.

(* C03, one critical section of Compact: the contents never change *)
Theorem phys_crash_compact_step P seed (s1 s1' : st1) (sp : stp) (sf : stf) c c' img1 :
  params_ok P -> gst_rel PR s1 sp -> st_rel sp sf -> Inv P sf -> CInv sf c ->
  (exists m, s_mem sf = Some m /\ room m) -> bac_ok (s_disk sf) ->
  compact_step phys_ops P (clear_trace s1) c = CMore s1' c' ->
  gcrash_image phys_ops (s_disk s1) (s_trace s1') img1 ->
  recovers_unchanged P seed true img1 (abs (s_disk sf)).
Proof.
  intros HP H1 Hs HI HC Hroom Hbac Ec1 Himg.
  pose proof (compact_step3 P _ _ _ c (clear_trace_rel PR _ _ H1) (clear_trace_rel idx_rel _ _ Hs)
                (Inv_clear P sf HI) Hroom) as X.
  rewrite Ec1 in X. inversion X as [|? sp' sf' ? H1' Hs' E1 Ep Ef|]; subst.
  apply (recovers_unchanged_engine P seed s1 s1' sp sp' sf sf' img1 (abs (s_disk sf)) HP
           (st_rel_disk PR _ _ H1) H1' (st_rel_disk idx_rel _ _ Hs) Hs'); [|apply abs_NoDup|exact Himg].
  exact (crash_compact_step P sf c sf' _ HI HC Hroom Hbac (eq_sym Ef)).
Qed.

(* C03, pickForCompaction: only Sync events *)
Theorem phys_crash_compact_pick P seed (s1 s1' : st1) (sp : stp) (sf : stf) c img1 :
  params_ok P -> gst_rel PR s1 sp -> st_rel sp sf -> Inv P sf -> s_mem sf <> None -> bac_ok (s_disk sf) ->
  compact_pick phys_ops P (clear_trace s1) = Some (s1', c) ->
  gcrash_image phys_ops (s_disk s1) (s_trace s1') img1 ->
  recovers_unchanged P seed true img1 (abs (s_disk sf)).
Proof.
  intros HP H1 Hs HI Hm Hbac Ec1 Himg.
  pose proof (compact_pick3 P _ _ _ (clear_trace_rel PR _ _ H1) (clear_trace_rel idx_rel _ _ Hs)) as X.
  rewrite Ec1 in X. inversion X as [|? sp' sf' ? H1' Hs' E1 Ep Ef]; subst.
  apply (recovers_unchanged_engine P seed s1 s1' sp sp' sf sf' img1 (abs (s_disk sf)) HP
           (st_rel_disk PR _ _ H1) H1' (st_rel_disk idx_rel _ _ Hs) Hs'); [|apply abs_NoDup|exact Himg].
  intros imgf Hf. destruct (crash_compact_pick P sf sf' c HI Hm Hbac (eq_sym Ef)) as (_ & _ & H).
  destruct (H imgf Hf) as (_ & G1 & G2 & G3 & Hc). split; [exact G1|]. split; [exact G2|]. split; [exact G3|exact Hc].
Qed.

(* C04: a crash during the recovery itself; the next recovery succeeds with the same contents *)
Theorem phys_crash_open_recover P seed seed2 (d1 : disk1) (dp : diskp) (df : diskf) img1 :
  params_ok P -> gdisk_rel PR d1 dp -> disk_rel dp df -> DiskOK df -> bac_ok df -> d_lock df = true ->
  gcrash_image phys_ops d1 (s_trace (fst (db_open phys_ops P seed (closed1 d1)))) img1 ->
  recovers_unchanged P seed2 true img1 (abs df).
Proof.
  intros HP H1 Hd Hok Hbac Hlock Himg.
  destruct (phys_open_image P seed d1 dp H1 (ff_ok_chain_img dp df Hd Hok)) as [_ H1'].
  destruct (sim_open_recover_so P seed (closedp dp) (closed df) (closed_rel dp df Hd) Hok Hbac Hlock) as [_ Hs'].
  apply (recovers_unchanged_engine P seed2 (closed1 d1) _ (closedp dp) _ (closed df) _ img1 (abs df) HP
           H1 H1' Hd Hs'); [|apply abs_NoDup|exact Himg].
  intros imgf Hf. exact (crash_open_recover P seed df Hok Hbac Hlock imgf Hf).
Qed.

(* C03, Close: every image opens (by recovery, or cleanly when Close had finished) with the contents
   that were there before the Close *)
Theorem phys_crash_close P seed (s1 s1a : st1) (sp : stp) (sf : stf) o img1 :
  params_ok P -> gst_rel PR s1 sp -> st_rel sp sf -> Inv P sf -> s_mem sf <> None -> bac_ok (s_disk sf) ->
  db_close phys_ops (clear_trace s1) = (s1a, o) ->
  gcrash_image phys_ops (s_disk s1) (s_trace s1a) img1 ->
  exists b, recovers_unchanged P seed b img1 (abs (s_disk sf)).
Proof.
  intros HP H1 Hs HI Hm Hbac Ec1 Himg.
  pose proof (clear_trace_rel PR _ _ H1) as H1c.
  destruct (xsim_close phys_ops chain_ops PR phys_exact_sim (clear_trace s1) (clear_trace sp) H1c) as [_ H1a].
  rewrite Ec1 in H1a. cbn [fst] in H1a.
  destruct (db_close chain_ops (clear_trace sp)) as [sp1 op] eqn:Ec. cbn [fst] in H1a.
  pose proof (clear_trace_rel idx_rel _ _ Hs) as Hsc.
  destruct (sim_close_so _ _ Hsc) as [_ Hs1]. rewrite Ec in Hs1. cbn [fst] in Hs1.
  destruct (db_close flat_ops (clear_trace sf)) as [sf1 of] eqn:Ef. cbn [fst] in Hs1.
  destruct (phys_crash_image_st s1 s1a sp sp1 img1 (st_rel_disk PR _ _ H1) H1a Himg) as (imgp & Hp & Hrel1).
  destruct (sim_crash_image_st sp sp1 sf sf1 imgp (st_rel_disk idx_rel _ _ Hs) Hs1 Hp) as (imgf & Hf & Hrel).
  pose proof (C03_close P seed sf sf1 of imgf HP HI Hm Hbac Ef Hf) as (sf2 & b & E2 & HI2 & Hm2 & _ & Ha2).
  assert (Hlk : d_lock imgf = true -> DiskOK imgf /\ bac_ok imgf).
  { intros El. destruct (crash_close P sf sf1 of imgf HI Hm Hbac Ef Hf) as [(G1 & G2 & _)| E]; [split; assumption|].
    exfalso. destruct (s_mem sf) as [m|] eqn:Em; [|congruence].
    pose proof (close_ok P (clear_trace sf) m (Inv_clear P sf HI) Em) as Hc. rewrite Ef in Hc.
    destruct Hc as (_ & _ & _ & _ & Hl & _). rewrite E in El. congruence. }
  pose proof (chain_open_image_flat P seed imgp imgf Hrel Hlk) as Hso.
  assert (Hso1 : so_rel PR (db_open phys_ops P seed (closed1 img1)) (db_open chain_ops P seed (closedp imgp))).
  { apply (phys_open_image_flat P seed img1 imgp imgf Hrel1 Hrel). intros El. exact (proj1 (Hlk El)). }
  fold (closed imgf) in E2. rewrite E2 in Hso. destruct Hso as [Eo Hs2]. cbn [fst snd] in Eo, Hs2.
  destruct (db_open chain_ops P seed (closedp imgp)) as [sp2 o2] eqn:Ep2. cbn [fst snd] in Eo, Hs2. subst o2.
  rewrite <- Ep2 in Hso1.
  destruct (phys_open_of_chain P seed b _ img1 imgp sp2 sf2 Hso1 Ep2 Hs2 HI2 Hm2 Ha2 (abs_NoDup _))
    as (s2 & E12 & H2 & Hpo & Hans).
  exists b, imgp, imgf, s2, sp2, sf2. split; [exact Hrel1|]. split; [exact Hrel|]. split; [exact E12|].
  split; [exact Ep2|]. split; [exact H2|]. split; [exact Hs2|]. split; [exact HI2|]. split; [exact Hm2|].
  split; [exact Hpo|exact Hans].
Qed.

(* what Close left in the index files: main.pix (+ overflow.pix) and index.pmt are there, hold values
   that satisfy the physical invariant, and represent (through a chain index) the flat index [l] *)
Definition stored_index (d : disk1) (l : flat) : Prop :=
  exists i j ip jp, d_index d = Some i /\ d_imeta d = GOk j /\
    PR i ip /\ PR j jp /\ idx_rel ip l /\ idx_rel jp l.

Lemma stored_index_inv d l : stored_index d l -> phys_disk_ok d /\ d_index d <> None /\ d_imeta d <> GAbsent.
Proof.
  intros (i & j & ip & jp & Ei & Ej & Hi & Hj & _). split; [split|split].
  - intros x E. rewrite Ei in E. injection E as <-. exact (proj1 Hi).
  - intros x E. rewrite Ej in E. injection E as <-. exact (proj1 Hj).
  - rewrite Ei. discriminate.
  - rewrite Ej. discriminate.
Qed.

Lemma stored_index_of_rel (d1 : disk1) (dp : diskp) (df : diskf) l :
  gdisk_rel PR d1 dp -> disk_rel dp df -> d_index df = Some l -> d_imeta df = GOk l -> stored_index d1 l.
Proof.
  intros H1 Hd Ei Em. apply disk_rel_iff in Hd. destruct Hd as (_ & _ & Dpi & _ & Dpm & _).
  rewrite Ei in Dpi. rewrite Em in Dpm.
  destruct (opt_rel_some_r _ _ _ Dpi) as (ip & Eip & Rip). destruct (gob_rel_ok_r _ _ _ Dpm) as (jp & Ejp & Rjp).
  apply disk_rel_iff in H1. destruct H1 as (_ & _ & D1i & _ & D1m & _). rewrite Eip in D1i. rewrite Ejp in D1m.
  destruct (opt_rel_some_r _ _ _ D1i) as (i & Ei1 & Ri). destruct (gob_rel_ok_r _ _ _ D1m) as (j & Ej1 & Rj).
  exists i, j, ip, jp. exact (conj Ei1 (conj Ej1 (conj Ri (conj Rj (conj Rip Rjp))))).
Qed.

(* C02: Close, then Open: OOpened false, every answer is the one given before the Close, and the
   physical invariant holds for the index Close stored and for the reopened in-memory index *)
Theorem phys_close_reopen_ok P seed (s1 : st1) (sp : stp) (sf : stf) m :
  params_ok P -> gst_rel PR s1 sp -> st_rel sp sf -> Inv P sf -> s_mem sf = Some m -> MetaOK sf ->
  let '(s1a, o1) := db_close phys_ops s1 in
  let '(s1b, o2) := db_open phys_ops P seed (clear_trace s1a) in
  o1 = OOk /\ o2 = OOpened false /\
  answers1 P s1 (abs (s_disk sf)) /\ answers1 P s1b (abs (s_disk sf)) /\
  phys_open_ok s1 /\ s_mem s1a = None /\ stored_index (s_disk s1a) (m_idx m) /\ phys_open_ok s1b /\
  exists sp2 sf2, gst_rel PR s1b sp2 /\ st_rel sp2 sf2 /\ Inv P sf2 /\ MetaOK sf2 /\ s_mem sf2 <> None /\
                  meq (abs (s_disk sf2)) (abs (s_disk sf)).
Proof.
  intros HP H1 Hs HI Em HM.
  assert (Hopen : s_mem sf <> None) by congruence.
  pose proof (answers_of_rel P sp sf Hs HI Hopen) as Hbefore.
  destruct (xsim_close phys_ops chain_ops PR phys_exact_sim s1 sp H1) as [Eo1 H1a].
  destruct (sim_close_so sp sf Hs) as [Eo Hs1].
  pose proof (close_ok P sf m HI Em) as Hc.
  pose proof (close_reopen_ok P seed sf m HP HI Em HM) as Hr.
  destruct (db_close phys_ops s1) as [s1a o1]. destruct (db_close chain_ops sp) as [sp1 op1].
  destruct (db_close flat_ops sf) as [sf1 of1].
  cbn [fst snd] in Eo1, H1a, Eo, Hs1. destruct Hc as (-> & Hn1 & _ & _ & Hl1 & Hdi & _ & Him & _).
  subst op1 o1.
  pose proof (clear_trace_rel idx_rel _ _ Hs1) as Hs1c.
  pose proof (clear_trace_rel PR _ _ H1a) as H1ac.
  destruct (sim_open_clean_so P seed (clear_trace sp1) (clear_trace sf1) Hs1c Hl1) as [Eo2 Hs2].
  assert (Hlp : d_lock (s_disk (clear_trace sp1)) = false).
  { rewrite (d_lock_g idx_rel _ _ (st_rel_disk idx_rel _ _ Hs1c)). exact Hl1. }
  destruct (open_clean_g phys_ops chain_ops PR PR_empty PR_count P seed (clear_trace s1a) (clear_trace sp1) H1ac Hlp)
    as [Eo3 H2].
  destruct (db_open phys_ops P seed (clear_trace s1a)) as [s1b o2].
  destruct (db_open chain_ops P seed (clear_trace sp1)) as [sp2 op2].
  destruct (db_open flat_ops P seed (clear_trace sf1)) as [sf2 of2].
  cbn [fst snd] in Eo2, Hs2, Eo3, H2. destruct Hr as (-> & HI2 & Ha2 & (m2 & Em2 & _) & HM2). subst op2 o2.
  assert (Hopen2 : s_mem sf2 <> None) by congruence.
  split; [reflexivity|]. split; [reflexivity|].
  split; [exact (answers1_of_chain P s1 sp _ H1 Hbefore)|].
  split.
  { apply (answers1_of_chain P s1b sp2 _ H2).
    apply (answers_meq P sp2 (abs (s_disk sf2)) (abs (s_disk sf)) (abs_NoDup _) (abs_NoDup _) Ha2).
    apply (answers_of_rel P sp2 sf2 Hs2 HI2 Hopen2). }
  split; [exact (PR_open_ok s1 sp sf H1 Hs Hopen)|].
  split; [exact (proj2 (gst_rel_mem_none PR _ _ H1a) (proj2 (gst_rel_mem_none idx_rel _ _ Hs1) Hn1))|].
  split; [exact (stored_index_of_rel _ _ _ _ (st_rel_disk PR _ _ H1a) (st_rel_disk idx_rel _ _ Hs1) Hdi Him)|].
  split; [exact (PR_open_ok s1b sp2 sf2 H2 Hs2 Hopen2)|].
  exists sp2, sf2. split; [exact H2|]. split; [exact Hs2|]. split; [exact HI2|]. split; [exact HM2|].
  split; [exact Hopen2|exact Ha2].
Qed.

(* the same with projections instead of patterns (convenient on concrete states) *)
Corollary phys_close_reopen_ok_proj P seed (s1 : st1) (sp : stp) (sf : stf) m :
  params_ok P -> gst_rel PR s1 sp -> st_rel sp sf -> Inv P sf -> s_mem sf = Some m -> MetaOK sf ->
  let s1a := fst (db_close phys_ops s1) in
  let s1b := fst (db_open phys_ops P seed (clear_trace s1a)) in
  snd (db_close phys_ops s1) = OOk /\ snd (db_open phys_ops P seed (clear_trace s1a)) = OOpened false /\
  answers1 P s1 (abs (s_disk sf)) /\ answers1 P s1b (abs (s_disk sf)) /\
  phys_open_ok s1 /\ s_mem s1a = None /\ stored_index (s_disk s1a) (m_idx m) /\ phys_open_ok s1b /\
  exists sp2 sf2, gst_rel PR s1b sp2 /\ st_rel sp2 sf2 /\ Inv P sf2 /\ MetaOK sf2 /\ s_mem sf2 <> None /\
                  meq (abs (s_disk sf2)) (abs (s_disk sf)).
Proof.
  intros HP H1 Hs HI Em HM. cbv zeta.
  pose proof (phys_close_reopen_ok P seed s1 sp sf m HP H1 Hs HI Em HM) as H.
  destruct (db_close phys_ops s1) as [s1a o1]. cbn [fst snd].
  destruct (db_open phys_ops P seed (clear_trace s1a)) as [s1b o2]. cbn [fst snd]. exact H.
Qed.

(* Non-vacuity: a Put on the phys database cut in the middle, then the recovering Open *)

Module PhysCrashEx.
Import SessEx.

(* Open (empty directory) and 35 Puts whose keys all hash to bucket 0: 31 slots in the main bucket,
   4 in an overflow bucket allocated at offset 512 of overflow.pix *)
Definition s1X : st1 := Eval vm_compute in lfinal phys_ops exP st0 pre_ops.
Definition s1X' : st1 := Eval vm_compute in fst (db_put phys_ops exP kX vX (clear_trace s1X)).

Lemma s1X_eq : lfinal phys_ops exP st0 pre_ops = s1X. Proof. vm_compute. reflexivity. Qed.
Lemma s1X'_eq : db_put phys_ops exP kX vX (clear_trace s1X) = (s1X', OOk). Proof. vm_compute. reflexivity. Qed.

(* the physical state is not a trivial one: an overflow bucket is in use *)
Example s1X_shape :
  exists m, s_mem s1X = Some m /\ ph_nkeys (m_idx m) = 35 /\ ph_nbuckets (m_idx m) = 1 /\
    map pb_next (ph_main (m_idx m)) = [512] /\ map (fun b => nlen (pb_live b)) (ph_over (m_idx m)) = [4] /\
    ph_free (m_idx m) = [].
Proof. eexists. split; [reflexivity|]. vm_compute. repeat split. Qed.

(* the three layers are related: the hypotheses of the theorems hold *)
Lemma X_rel1 : gst_rel PR s1X spX /\ st_rel spX sfX /\ J exP sfX.
Proof.
  destruct (phys_sessions_flat exP pre_ops st0 st0 st0 exP_ok (st0_rel PR) (st0_rel idx_rel) (J_st0 exP))
    as (_ & _ & _ & A & B & C).
  - exact (lsides_b_ok exP pre_ops st0 (proj1 X_eval)).
  - rewrite s1X_eq, spX_eq in A. rewrite spX_eq, sfX_eq in B. rewrite sfX_eq in C.
    split; [exact A|]. split; [exact B|exact C].
Qed.

(* the Put emits three events: the record, the index write, the Sync of the segment (p_sync) *)
Example put_trace_shape :
  map (fun e : @fsev phys => match e with EAppend _ _ _ _ => 1 | EIndex _ => 2 | ESync (FSeg _ _) => 3 | _ => 0 end)
      (s_trace s1X') = [1; 2; 3].
Proof. vm_compute. reflexivity. Qed.

(* (a) the process dies with 5 bytes of the record in the segment file *)
Definition img1Xa : option disk1 :=
  Eval vm_compute in gcrash_at phys_ops (s_disk s1X) (s_trace s1X') 0 (Some 5).
(* (b) the process dies after the record write, before the index write *)
Definition img1Xb : option disk1 :=
  Eval vm_compute in gcrash_at phys_ops (s_disk s1X) (s_trace s1X') 1 None.

Definition nkeys_on_disk (d : disk1) : N := match d_index d with Some i => ph_nkeys i | None => 0 end.

Lemma put_hyps :
  Inv exP sfX /\ (exists m, s_mem sfX = Some m /\ room m) /\ bac_ok (s_disk sfX) /\
  Forall byte kX /\ Forall byte vX /\ nlen kX <= max_key_len /\ nlen vX <= max_val_len.
Proof.
  destruct X_rel1 as (_ & _ & HJ).
  destruct HJ as [HI HM Ho Hb|? ? _ _ _ _ E _|E _ _ _|E _];
    [|vm_compute in E; discriminate E|vm_compute in E; discriminate E|vm_compute in E; discriminate E].
  split; [exact HI|]. split; [apply open_room_b_ok; vm_compute; reflexivity|]. split; [exact Hb|].
  split; [apply forallb_byte; vm_compute; reflexivity|]. split; [apply forallb_byte; vm_compute; reflexivity|].
  split; vm_compute; discriminate.
Qed.

(* what phys_crash_put gives for an image of this Put *)
Lemma ex_put_any img1 :
  gcrash_image phys_ops (s_disk s1X) (s_trace s1X') img1 ->
  exists s2, db_open phys_ops exP 9 (closed1 img1) = (s2, OOpened true) /\ phys_open_ok s2 /\
    (answers1 exP s2 (abs (s_disk sfX)) \/ answers1 exP s2 (sput (abs (s_disk sfX)) kX vX)).
Proof.
  intros Himg. destruct X_rel1 as (H1 & Hs & _).
  destruct put_hyps as (HI & Hroom & Hb & Hbk & Hbv & Hk & Hv).
  destruct (phys_crash_put exP 9 s1X s1X' spX sfX kX vX OOk img1 exP_ok H1 Hs HI Hroom Hb Hbk Hbv Hk Hv
              s1X'_eq Himg) as (_ & _ & H).
  destruct H as (imgp & imgf & s2 & sp2 & sf2 & _ & _ & _ & E1 & _ & _ & _ & _ & _ & Hpo & Hans).
  exists s2. split; [exact E1|]. split; [exact Hpo|exact Hans].
Qed.

(* (a): a torn record.  The image is neither the disk before nor the disk after; the recovering Open
   succeeds; the Put is gone *)
Example ex_torn_put_phys :
  exists img1, img1Xa = Some img1 /\ img1 <> s_disk s1X /\ img1 <> s_disk s1X' /\
    gcrash_image phys_ops (s_disk s1X) (s_trace s1X') img1 /\
    exists s2, db_open phys_ops exP 9 (closed1 img1) = (s2, OOpened true) /\ phys_open_ok s2 /\
      (answers1 exP s2 (abs (s_disk sfX)) \/ answers1 exP s2 (sput (abs (s_disk sfX)) kX vX)) /\
      db_get phys_ops exP kX s2 = OVal None /\ db_count phys_ops s2 = ONum 35.
Proof.
  destruct img1Xa as [img1|] eqn:Ei; [|vm_compute in Ei; discriminate Ei].
  exists img1. split; [reflexivity|].
  assert (Himg : gcrash_image phys_ops (s_disk s1X) (s_trace s1X') img1)
    by (apply (gcrash_at_image phys_ops _ _ 0 (Some 5)); exact Ei).
  assert (Ep : img1 = match img1Xa with Some x => x | None => s_disk s1X end) by (rewrite Ei; reflexivity).
  split.
  { intros E. rewrite Ep in E. apply (f_equal (fun d : disk1 => map f_tail (d_segs d))) in E.
    vm_compute in E. discriminate E. }
  split.
  { intros E. rewrite Ep in E. apply (f_equal (fun d : disk1 => map f_tail (d_segs d))) in E.
    vm_compute in E. discriminate E. }
  split; [exact Himg|].
  destruct (ex_put_any img1 Himg) as (s2 & E1 & Hpo & Hans).
  exists s2. split; [exact E1|]. split; [exact Hpo|]. split; [exact Hans|].
  assert (E3 : s2 = fst (db_open phys_ops exP 9 (closed1 img1))) by (rewrite E1; reflexivity).
  rewrite E3, Ep. split; vm_compute; reflexivity.
Qed.

(* (b): the record is complete, main.pix still holds the index of before the Put (35 keys, as opposed to
   36 after the Put).  Recovery rebuilds the index from the log: the Put is there *)
Example ex_put_no_index_write :
  exists img1, img1Xb = Some img1 /\ img1 <> s_disk s1X /\ img1 <> s_disk s1X' /\
    nkeys_on_disk img1 = 35 /\ nkeys_on_disk (s_disk s1X') = 36 /\
    gcrash_image phys_ops (s_disk s1X) (s_trace s1X') img1 /\
    exists s2, db_open phys_ops exP 9 (closed1 img1) = (s2, OOpened true) /\ phys_open_ok s2 /\
      (answers1 exP s2 (abs (s_disk sfX)) \/ answers1 exP s2 (sput (abs (s_disk sfX)) kX vX)) /\
      db_get phys_ops exP kX s2 = OVal (Some vX) /\ db_count phys_ops s2 = ONum 36.
Proof.
  destruct img1Xb as [img1|] eqn:Ei; [|vm_compute in Ei; discriminate Ei].
  exists img1. split; [reflexivity|].
  assert (Himg : gcrash_image phys_ops (s_disk s1X) (s_trace s1X') img1)
    by (apply (gcrash_at_image phys_ops _ _ 1 None); exact Ei).
  assert (Ep : img1 = match img1Xb with Some x => x | None => s_disk s1X end) by (rewrite Ei; reflexivity).
  split.
  { intros E. rewrite Ep in E. apply (f_equal (fun d : disk1 => map (fun f => length (f_recs f)) (d_segs d))) in E.
    vm_compute in E. discriminate E. }
  split.
  { intros E. rewrite Ep in E. apply (f_equal nkeys_on_disk) in E. vm_compute in E. discriminate E. }
  split; [rewrite Ep; vm_compute; reflexivity|]. split; [vm_compute; reflexivity|].
  split; [exact Himg|].
  destruct (ex_put_any img1 Himg) as (s2 & E1 & Hpo & Hans).
  exists s2. split; [exact E1|]. split; [exact Hpo|]. split; [exact Hans|].
  assert (E3 : s2 = fst (db_open phys_ops exP 9 (closed1 img1))) by (rewrite E1; reflexivity).
  rewrite E3, Ep. split; vm_compute; reflexivity.
Qed.

(* Close; Open on the same state: phys_close_reopen_ok applies (MetaOK from J) *)
Example ex_close_reopen :
  let s1a := fst (db_close phys_ops s1X) in
  let s1b := fst (db_open phys_ops exP 9 (clear_trace s1a)) in
  snd (db_close phys_ops s1X) = OOk /\ snd (db_open phys_ops exP 9 (clear_trace s1a)) = OOpened false /\
  phys_open_ok s1b /\ (exists l, stored_index (s_disk s1a) l) /\ answers1 exP s1b (abs (s_disk sfX)) /\
  db_count phys_ops s1b = ONum 35.
Proof.
  destruct X_rel1 as (H1 & Hs & HJ).
  destruct HJ as [HI HM Ho Hb|? ? _ _ _ _ E _|E _ _ _|E _];
    [|vm_compute in E; discriminate E|vm_compute in E; discriminate E|vm_compute in E; discriminate E].
  assert (Em : exists m, s_mem sfX = Some m) by (eexists; reflexivity).
  destruct Em as [m Em].
  pose proof (phys_close_reopen_ok_proj exP 9 s1X spX sfX m exP_ok H1 Hs HI Em HM) as H.
  cbv zeta in H |- *. destruct H as (A & B & _ & C & _ & _ & D & E & _).
  split; [exact A|]. split; [exact B|]. split; [exact E|]. split; [exists (m_idx m); exact D|].
  split; [exact C|]. vm_compute. reflexivity.
Qed.
End PhysCrashEx.

Print Assumptions phys_reads.
Print Assumptions phys_crash_at.
Print Assumptions phys_crash_image.
Print Assumptions phys_crash_image_flat.
Print Assumptions phys_crash_image_inv.
Print Assumptions phys_open_image.
Print Assumptions phys_open_clean_image.
Print Assumptions phys_open_image_flat.
Print Assumptions phys_recover_image.
Print Assumptions phys_crash_recover_ok.
Print Assumptions phys_crash_put.
Print Assumptions phys_crash_delete.
Print Assumptions phys_crash_sync.
Print Assumptions phys_crash_compact_step.
Print Assumptions phys_crash_compact_pick.
Print Assumptions phys_crash_close.
Print Assumptions phys_crash_open_recover.
Print Assumptions phys_close_reopen_ok.
Print Assumptions phys_close_reopen_ok_proj.
Print Assumptions PhysCrashEx.s1X_shape.
Print Assumptions PhysCrashEx.X_rel1.
Print Assumptions PhysCrashEx.ex_torn_put_phys.
Print Assumptions PhysCrashEx.ex_put_no_index_write.
Print Assumptions PhysCrashEx.ex_close_reopen.
