(* FSImpl.v -- executable models of the three fs.File implementations of pogreb
   (fs/mem.go, fs/os.go, fs/os_mmap.go + fs/os_mmap_unix.go) and of the `file` wrapper of
   file.go, and the proof that for every sequence of the calls the database makes all three
   behave like one abstract (POSIX-like) file.  Property C17.

   TRUSTED (not proved, these are the definitions of the kernel model below):
     - pwrite/pread/write/read/lseek/ftruncate/fstat semantics of a regular file
       (zero fill of holes, no short transfers except at end of file);
     - the behaviour of Go's os.File methods on top of them (ReadAt loops over pread until the
       buffer is full or pread returns 0 = io.EOF; zero-length ReadAt/WriteAt return (0,nil)
       without a system call, even on a closed file; Read returns io.EOF only for a 0-byte
       transfer into a non-empty buffer);
     - COHERENCE OF THE MAPPING: a MAP_SHARED, PROT_READ mapping of the file shows, at every
       moment, the current bytes of the kernel file (also bytes written later with pwrite and
       also after ftruncate), for offsets below the current end of file.  Touching a mapped
       byte beyond the end of the file is modelled as [RFault] (SIGBUS; in reality
       page-granular), slicing beyond the mapped length as [RPanic] (Go slice bounds panic);
     - mmap/munmap/close/fsync do not fail (ENOMEM, EIO, ... are out of scope).
   Aliasing of the slices returned by Slice (mem: into buf; mmap: into the mapping) is out of
   scope here: a result is the list of bytes at the moment of the call. *)
From Coq Require Import ZArith Lia ZifyN ZifyNat ZifyBool.
From Pogreb Require Import Base BaseLemmas.
Open Scope N_scope.

Definition zeros (n : N) : bytes := N.iter n (cons 0) [].

(* bytes [off, off+n) that exist *)
Definition read_at (d : bytes) (off n : N) : bytes := ntake n (ndrop off d).

(* pwrite: holes are zero filled *)
Definition write_at (d : bytes) (off : N) (p : bytes) : bytes :=
  ntake off d ++ zeros (off - nlen d) ++ p ++ ndrop (off + nlen p) d.

(* ftruncate: cut, or grow with zeros *)
Definition truncate (d : bytes) (sz : N) : bytes := ntake sz d ++ zeros (sz - nlen d).

Lemma zeros_repeat n : zeros n = repeat 0 (N.to_nat n).
Proof.
  unfold zeros. rewrite N2Nat.inj_iter.
  induction (N.to_nat n) as [|k IH]; [reflexivity|].
  change (Nat.iter (S k) (cons 0) []) with (0 :: Nat.iter k (cons 0) []).
  cbn [repeat]. rewrite IH. reflexivity.
Qed.

Lemma zeros_0 : zeros 0 = [].
Proof. reflexivity. Qed.

Lemma nlen_zeros n : nlen (zeros n) = n.
Proof. rewrite zeros_repeat, nlen_length, repeat_length. lia. Qed.

Lemma zeros_add a b : zeros (a + b) = zeros a ++ zeros b.
Proof. rewrite !zeros_repeat, N2Nat.inj_add. apply repeat_app. Qed.

Lemma ntake_zeros_add a b : ntake a (zeros (a + b)) = zeros a.
Proof.
  rewrite zeros_add. rewrite <- (nlen_zeros a) at 1. apply ntake_app_exact.
Qed.

Lemma nlen_read_at d off n : nlen (read_at d off n) = N.min n (nlen d - off).
Proof. unfold read_at. rewrite nlen_ntake, nlen_ndrop. reflexivity. Qed.

Lemma read_at_0 d off : read_at d off 0 = [].
Proof. reflexivity. Qed.

Lemma read_at_beyond d off n : nlen d <= off -> read_at d off n = [].
Proof. intros H. unfold read_at. rewrite ndrop_all by exact H. apply ntake_nil. Qed.

Lemma nlen_write_at d off p : nlen (write_at d off p) = N.max (nlen d) (off + nlen p).
Proof.
  unfold write_at. rewrite !nlen_app, nlen_ntake, nlen_zeros, nlen_ndrop. lia.
Qed.

Lemma nlen_truncate d sz : nlen (truncate d sz) = sz.
Proof. unfold truncate. rewrite nlen_app, nlen_ntake, nlen_zeros. lia. Qed.

Lemma write_at_end d p : write_at d (nlen d) p = d ++ p.
Proof.
  unfold write_at. rewrite ntake_nlen, N.sub_diag, zeros_0.
  rewrite ndrop_all by lia. cbn [app]. rewrite app_nil_r. reflexivity.
Qed.

Lemma write_at_gap d off p :
  nlen d <= off -> write_at d off p = d ++ zeros (off - nlen d) ++ p.
Proof.
  intros H. unfold write_at. rewrite ntake_all by exact H.
  rewrite ndrop_all by lia. rewrite app_nil_r. reflexivity.
Qed.

Lemma truncate_grow d sz : nlen d <= sz -> truncate d sz = d ++ zeros (sz - nlen d).
Proof. intros H. unfold truncate. rewrite ntake_all by exact H. reflexivity. Qed.

Lemma truncate_shrink d sz : sz <= nlen d -> truncate d sz = ntake sz d.
Proof.
  intros H. unfold truncate. replace (sz - nlen d) with 0 by lia.
  rewrite zeros_0. apply app_nil_r.
Qed.

(* what is left after a short read: nothing *)
Lemma read_at_after_short d off n m :
  nlen (read_at d off n) < n -> read_at d (off + nlen (read_at d off n)) m = [].
Proof.
  intros H. apply read_at_beyond. rewrite nlen_read_at in *. lia.
Qed.

Inductive call :=
| CWriteAt (p : bytes) (off : N)
| CWrite (p : bytes)
| CReadAt (n off : N)
| CRead (n : N)
| CSeekStart (off : N)
| CTruncate (size : N)
| CSlice (s e : N)
| CStatSize
| CSync
| CClose.

(* [RBytes b eof]: the call returned the bytes [b] (count = nlen b) and the error was io.EOF
   iff [eof].  [RPanic]: Go run-time panic (slice bounds out of range).  [RFault]: access to a
   mapped page beyond the end of the file (SIGBUS).  The last two are never produced by the
   abstract file. *)
Inductive res :=
| RInt (n : N)
| RBytes (b : bytes) (eof : bool)
| RUnit
| RErrClosed
| RErrEOF
| RPanic
| RFault.

Record afile := { a_data : bytes; a_pos : N; a_open : bool }.

Definition step_abs (a : afile) (c : call) : afile * res :=
  if negb (a_open a) then (a, RErrClosed) else
  let d := a_data a in
  match c with
  | CWriteAt p off =>
      ({| a_data := write_at d off p; a_pos := a_pos a; a_open := true |}, RInt (nlen p))
  | CWrite p =>
      ({| a_data := write_at d (a_pos a) p; a_pos := a_pos a + nlen p; a_open := true |},
       RInt (nlen p))
  | CReadAt n off =>
      let b := read_at d off n in (a, RBytes b (nlen b <? n))
  | CRead n =>
      let b := read_at d (a_pos a) n in
      ({| a_data := d; a_pos := a_pos a + nlen b; a_open := true |}, RBytes b (nlen b <? n))
  | CSeekStart off => ({| a_data := d; a_pos := off; a_open := true |}, RInt off)
  | CTruncate sz =>
      ({| a_data := truncate d sz; a_pos := a_pos a; a_open := true |}, RUnit)
  | CSlice s e =>
      if nlen d <? e then (a, RErrEOF) else (a, RBytes (read_at d s (e - s)) false)
  | CStatSize => (a, RInt (nlen d))
  | CSync => (a, RUnit)
  | CClose => ({| a_data := d; a_pos := a_pos a; a_open := false |}, RUnit)
  end.

Definition abs_open (d0 : bytes) : afile := {| a_data := d0; a_pos := 0; a_open := true |}.

Lemma step_abs_closed a c : a_open a = false -> step_abs a c = (a, RErrClosed).
Proof. intros H. unfold step_abs. rewrite H. reflexivity. Qed.

(* The observation: the only canonicalisation is that the io.EOF flag of a read that returned
   at least one byte is not observed (difference D-a below: fs.Mem returns (k,nil) for a short
   ReadAt where os.File.ReadAt returns (k,io.EOF); os.File.Read returns (k,nil)).  A read that
   returns no byte keeps its flag: (0,io.EOF) is distinguished from (0,nil). *)
Definition obs (r : res) : res :=
  match r with
  | RBytes b eof => RBytes b (eof && (nlen b =? 0))
  | _ => r
  end.

Lemma obs_inv r r' :
  obs r = r' ->
  match r' with
  | RBytes b x => exists e, r = RBytes b e /\ e && (nlen b =? 0) = x
  | _ => r = r'
  end.
Proof. intros <-. destruct r; cbn [obs]; eauto. Qed.

(* Calls on which the three implementations agree.  Every excluded case is a real difference
   of the Go code, exhibited by the Examples named diff_...:
   - zero-length WriteAt/Write/ReadAt/Read (os.File shortcuts them, fs.Mem does not; a
     zero-length write beyond the end grows a fs.Mem file and makes osMMapFile.size stale);
   - Slice with start > end (panics everywhere, at different points);
   - a zero-length Slice unless the file is open, non-empty and end <= size (os: always
     succeeds, even closed; mmap: ErrClosed on an open EMPTY file because it is not mapped);
   - Slice of a closed file with end > size (mmap checks the size first: io.EOF instead of
     ErrClosed).
   The database never makes these calls: records are >= 10 bytes, buckets and headers 512
   bytes, every file starts with a 512-byte header, the only zero-length Slice is readKey of
   an empty key inside an existing record. *)
Definition wf_callb (a : afile) (c : call) : bool :=
  match c with
  | CWriteAt p _ => negb (nlen p =? 0)
  | CWrite p => negb (nlen p =? 0)
  | CReadAt n _ => 0 <? n
  | CRead n => 0 <? n
  | CSlice s e =>
      ((s <? e) && (a_open a || (e <=? nlen (a_data a))))
      || ((s =? e) && a_open a && (e <=? nlen (a_data a)) && (0 <? nlen (a_data a)))
  | _ => true
  end.
Definition well_formed_call (a : afile) (c : call) : Prop := wf_callb a c = true.

Fixpoint run {S : Type} (step : S -> call -> S * res) (s : S) (cs : list call)
  : S * list res :=
  match cs with
  | [] => (s, [])
  | c :: cs' =>
      let (s1, r) := step s c in
      let (s2, rs) := run step s1 cs' in (s2, r :: rs)
  end.

(* all calls of the sequence are well formed in the state in which they are made *)
Fixpoint seq_wf (a : afile) (cs : list call) : bool :=
  match cs with
  | [] => true
  | c :: cs' => wf_callb a c && seq_wf (fst (step_abs a c)) cs'
  end.

(* fs.Mem: memFile + seekableMemFile (fs/mem.go) *)

(* [m_buf] is the slice f.buf up to its length.  The capacity tail that survives
   `f.buf = f.buf[:size]` is not modelled: the only way to make it visible again is
   `append(f.buf, make([]byte, diff)...)`, which overwrites it with zeros. *)
Record memFile := { m_buf : bytes; m_size : N; m_refs : N }.
Record smemFile := { sm_file : memFile; sm_off : N }.

Definition mem_truncate (f : memFile) (sz : N) : memFile :=
  if m_size f <? sz
  then {| m_buf := m_buf f ++ zeros (sz - m_size f); m_size := sz; m_refs := m_refs f |}
  else {| m_buf := ntake sz (m_buf f); m_size := sz; m_refs := m_refs f |}.

Definition mem_ReadAt (f : memFile) (n off : N) : res :=
  if m_refs f =? 0 then RErrClosed
  else if m_size f <=? off then RBytes [] true                      (* 0, io.EOF *)
  else if m_size f - off <? n
       then RBytes (ntake (m_size f - off) (ndrop off (m_buf f))) false  (* size-off, nil *)
       else RBytes (ntake n (ndrop off (m_buf f))) false.            (* n, nil *)

Definition mem_WriteAt (f : memFile) (p : bytes) (off : N) : memFile * res :=
  if m_refs f =? 0 then (f, RErrClosed) else
  let n := nlen p in
  let f1 := if m_size f <? off + n then mem_truncate f (off + n) else f in
  (* copy(f.buf[off:off+n], p) *)
  ({| m_buf := ntake off (m_buf f1) ++ p ++ ndrop (off + n) (m_buf f1);
      m_size := m_size f1; m_refs := m_refs f1 |}, RInt n).

Definition mem_Truncate (f : memFile) (sz : N) : memFile * res :=
  if m_refs f =? 0 then (f, RErrClosed) else (mem_truncate f sz, RUnit).

Definition mem_Slice (f : memFile) (s e : N) : res :=
  if m_refs f =? 0 then RErrClosed
  else if m_size f <? e then RErrEOF
  else if e <? s then RPanic                                         (* buf[s:e], s > e *)
  else RBytes (ntake (e - s) (ndrop s (m_buf f))) false.

Definition mem_Close (f : memFile) : memFile * res :=
  if m_refs f =? 0 then (f, RErrClosed)
  else ({| m_buf := m_buf f; m_size := m_size f; m_refs := m_refs f - 1 |}, RUnit).

Definition step_mem (f : smemFile) (c : call) : smemFile * res :=
  let mf := sm_file f in
  match c with
  | CWriteAt p off =>
      let (mf1, r) := mem_WriteAt mf p off in ({| sm_file := mf1; sm_off := sm_off f |}, r)
  | CWrite p =>
      let (mf1, r) := mem_WriteAt mf p (sm_off f) in
      match r with
      | RInt n => ({| sm_file := mf1; sm_off := sm_off f + n |}, r)
      | _ => ({| sm_file := mf1; sm_off := sm_off f |}, r)
      end
  | CReadAt n off => (f, mem_ReadAt mf n off)
  | CRead n =>
      let r := mem_ReadAt mf n (sm_off f) in
      match r with
      | RBytes b false => ({| sm_file := mf; sm_off := sm_off f + nlen b |}, r)
      | _ => (f, r)                                                  (* err != nil *)
      end
  | CSeekStart off =>
      if m_refs mf =? 0 then (f, RErrClosed)
      else ({| sm_file := mf; sm_off := off |}, RInt off)
  | CTruncate sz =>
      let (mf1, r) := mem_Truncate mf sz in ({| sm_file := mf1; sm_off := sm_off f |}, r)
  | CSlice s e => (f, mem_Slice mf s e)
  | CStatSize => if m_refs mf =? 0 then (f, RErrClosed) else (f, RInt (m_size mf))
  | CSync => if m_refs mf =? 0 then (f, RErrClosed) else (f, RUnit)
  | CClose =>
      let (mf1, r) := mem_Close mf in ({| sm_file := mf1; sm_off := sm_off f |}, r)
  end.

(* memFS.OpenFile of an existing file nobody else holds (refs 0 -> 1), or of a new one *)
Definition mem_open (d0 : bytes) : smemFile :=
  {| sm_file := {| m_buf := d0; m_size := nlen d0; m_refs := 1 |}; sm_off := 0 |}.

(* the kernel file and os.File; fs.OS: osFile (fs/os.go) *)

Record kfile := { k_data : bytes; k_off : N; k_open : bool }.

(* os.File.WriteAt: `for len(b) > 0 { pwrite }` -- no system call for an empty buffer *)
Definition osf_WriteAt (k : kfile) (p : bytes) (off : N) : kfile * res :=
  if nlen p =? 0 then (k, RInt 0)
  else if negb (k_open k) then (k, RErrClosed)
  else ({| k_data := write_at (k_data k) off p; k_off := k_off k; k_open := true |},
        RInt (nlen p)).

(* os.File.Write: write(2) at the descriptor offset *)
Definition osf_Write (k : kfile) (p : bytes) : kfile * res :=
  if negb (k_open k) then (k, RErrClosed)
  else if nlen p =? 0 then (k, RInt 0)
  else ({| k_data := write_at (k_data k) (k_off k) p; k_off := k_off k + nlen p;
           k_open := true |}, RInt (nlen p)).

(* os.File.ReadAt: loops over pread; a short result comes with io.EOF *)
Definition osf_ReadAt (k : kfile) (n off : N) : res :=
  if n =? 0 then RBytes [] false
  else if negb (k_open k) then RErrClosed
  else let b := read_at (k_data k) off n in RBytes b (nlen b <? n).

(* os.File.Read: one read(2); io.EOF iff 0 bytes for a non-empty buffer *)
Definition osf_Read (k : kfile) (n : N) : kfile * res :=
  if negb (k_open k) then (k, RErrClosed)
  else let b := read_at (k_data k) (k_off k) n in
       ({| k_data := k_data k; k_off := k_off k + nlen b; k_open := true |},
        RBytes b ((nlen b =? 0) && (0 <? n))).

Definition osf_Seek (k : kfile) (off : N) : kfile * res :=
  if negb (k_open k) then (k, RErrClosed)
  else ({| k_data := k_data k; k_off := off; k_open := true |}, RInt off).

Definition osf_Truncate (k : kfile) (sz : N) : kfile * res :=
  if negb (k_open k) then (k, RErrClosed)
  else ({| k_data := truncate (k_data k) sz; k_off := k_off k; k_open := true |}, RUnit).

Definition osf_Stat (k : kfile) : res :=
  if negb (k_open k) then RErrClosed else RInt (nlen (k_data k)).

Definition osf_Sync (k : kfile) : res :=
  if negb (k_open k) then RErrClosed else RUnit.

Definition osf_Close (k : kfile) : kfile * res :=
  if negb (k_open k) then (k, RErrClosed)
  else ({| k_data := k_data k; k_off := k_off k; k_open := false |}, RUnit).

(* osFile.Slice: buf := make([]byte, end-start); _, err := f.ReadAt(buf, start) *)
Definition os_Slice (k : kfile) (s e : N) : res :=
  if e <? s then RPanic                                  (* make: negative length *)
  else match osf_ReadAt k (e - s) s with
       | RBytes b false => RBytes b false
       | RBytes _ true => RErrEOF
       | r => r
       end.

Definition step_os (k : kfile) (c : call) : kfile * res :=
  match c with
  | CWriteAt p off => osf_WriteAt k p off
  | CWrite p => osf_Write k p
  | CReadAt n off => (k, osf_ReadAt k n off)
  | CRead n => osf_Read k n
  | CSeekStart off => osf_Seek k off
  | CTruncate sz => osf_Truncate k sz
  | CSlice s e => (k, os_Slice k s e)
  | CStatSize => (k, osf_Stat k)
  | CSync => (k, osf_Sync k)
  | CClose => osf_Close k
  end.

Definition os_open (d0 : bytes) : kfile := {| k_data := d0; k_off := 0; k_open := true |}.

(* fs.OSMMap: osMMapFile (fs/os_mmap.go, fs/os_mmap_unix.go) *)

Record mmapFile := {
  mm_k : kfile;          (* *os.File *)
  mm_size : N;           (* size: the wrapper's own idea of the file size *)
  mm_msize : N;          (* mmapSize *)
  mm_mapped : bool;      (* data != nil *)
  mm_off : N             (* offset *)
}.

Section WithImm.
Variable imm : N.                       (* initialMmapSize = 1024 << 20 *)
Hypothesis imm_pos : 0 < imm.

Definition mm_munmap (f : mmapFile) : mmapFile :=
  if mm_mapped f
  then {| mm_k := mm_k f; mm_size := mm_size f; mm_msize := 0; mm_mapped := false;
          mm_off := mm_off f |}
  else f.

(* f.mmap(fileSize, mappingSize) followed by f.mmapSize = len(f.data) *)
Definition mm_mmap (f : mmapFile) (msz : N) : mmapFile :=
  {| mm_k := mm_k f; mm_size := mm_size f; mm_msize := msz; mm_mapped := true;
     mm_off := mm_off f |}.

(* exactly the code: doubling happens ONCE, whatever f.size is *)
Definition mm_mremap (f : mmapFile) : mmapFile :=
  let m := mm_msize f in
  if mm_size f <=? m then f
  else if m =? 0 then mm_mmap f (if imm <? mm_size f then mm_size f else imm)
  else mm_mmap (mm_munmap f) (m * 2).

Definition mm_with (f : mmapFile) (k : kfile) (sz off : N) : mmapFile :=
  {| mm_k := k; mm_size := sz; mm_msize := mm_msize f; mm_mapped := mm_mapped f;
     mm_off := off |}.

Definition mm_WriteAt (f : mmapFile) (p : bytes) (off : N) : mmapFile * res :=
  let (k1, r) := osf_WriteAt (mm_k f) p off in
  match r with
  | RInt n =>
      let woff := off + n in
      let sz := if mm_size f <? woff then woff else mm_size f in
      (mm_mremap (mm_with f k1 sz (mm_off f)), RInt n)
  | _ => (mm_with f k1 (mm_size f) (mm_off f), r)
  end.

Definition mm_Write (f : mmapFile) (p : bytes) : mmapFile * res :=
  let (k1, r) := osf_Write (mm_k f) p in
  match r with
  | RInt n =>
      let o := mm_off f + n in
      let sz := if mm_size f <? o then o else mm_size f in
      (mm_mremap (mm_with f k1 sz o), RInt n)
  | _ => (mm_with f k1 (mm_size f) (mm_off f), r)
  end.

(* off, err := f.File.Seek(...); f.offset = off   (off = 0 when err != nil) *)
Definition mm_Seek (f : mmapFile) (off : N) : mmapFile * res :=
  let (k1, r) := osf_Seek (mm_k f) off in
  match r with
  | RInt o => (mm_with f k1 (mm_size f) o, r)
  | _ => (mm_with f k1 (mm_size f) 0, r)
  end.

Definition mm_Read (f : mmapFile) (n : N) : mmapFile * res :=
  let (k1, r) := osf_Read (mm_k f) n in
  match r with
  | RBytes b _ => (mm_with f k1 (mm_size f) (mm_off f + nlen b), r)
  | _ => (mm_with f k1 (mm_size f) (mm_off f), r)
  end.

Definition mm_Truncate (f : mmapFile) (sz : N) : mmapFile * res :=
  let (k1, r) := osf_Truncate (mm_k f) sz in
  match r with
  | RUnit => (mm_mremap (mm_with f k1 sz (mm_off f)), RUnit)
  | _ => (mm_with f k1 (mm_size f) (mm_off f), r)
  end.

Definition mm_Slice (f : mmapFile) (s e : N) : res :=
  if mm_size f <? e then RErrEOF
  else if negb (mm_mapped f) then RErrClosed
  else if e <? s then RPanic                         (* data[s:e], s > e *)
  else if mm_msize f <? e then RPanic                (* data[s:e], e > cap(data) *)
  else if nlen (k_data (mm_k f)) <? e then RFault    (* mapped, but beyond end of file *)
  else RBytes (read_at (k_data (mm_k f)) s (e - s)) false.   (* coherence: TRUSTED *)

Definition mm_Close (f : mmapFile) : mmapFile * res :=
  let f1 := mm_munmap f in
  let (k1, r) := osf_Close (mm_k f1) in
  (mm_with f1 k1 (mm_size f1) (mm_off f1), r).

Definition step_mmap (f : mmapFile) (c : call) : mmapFile * res :=
  match c with
  | CWriteAt p off => mm_WriteAt f p off
  | CWrite p => mm_Write f p
  | CReadAt n off => (f, osf_ReadAt (mm_k f) n off)     (* not overridden *)
  | CRead n => mm_Read f n
  | CSeekStart off => mm_Seek f off
  | CTruncate sz => mm_Truncate f sz
  | CSlice s e => (f, mm_Slice f s e)
  | CStatSize => (f, osf_Stat (mm_k f))                 (* not overridden: fstat *)
  | CSync => (f, osf_Sync (mm_k f))
  | CClose => mm_Close f
  end.

(* osMMapFS.OpenFile: size: stat.Size(), then mremap() *)
Definition mmap_open (d0 : bytes) : mmapFile :=
  mm_mremap {| mm_k := os_open d0; mm_size := nlen d0; mm_msize := 0; mm_mapped := false;
               mm_off := 0 |}.

End WithImm.

Definition R_mem (f : smemFile) (a : afile) : Prop :=
  m_buf (sm_file f) = a_data a /\
  m_size (sm_file f) = nlen (a_data a) /\
  sm_off f = a_pos a /\
  m_refs (sm_file f) = (if a_open a then 1 else 0).

Lemma mem_truncate_spec d r sz :
  mem_truncate {| m_buf := d; m_size := nlen d; m_refs := r |} sz
  = {| m_buf := truncate d sz; m_size := sz; m_refs := r |}.
Proof.
  unfold mem_truncate. cbn [m_buf m_size m_refs].
  destruct (nlen d <? sz) eqn:E.
  - rewrite truncate_grow by lia. reflexivity.
  - rewrite truncate_shrink by lia. reflexivity.
Qed.

(* the two-phase algorithm of memFile.WriteAt (grow with truncate, then copy) is pwrite *)
Lemma mem_overwrite_spec d off p :
  let b1 := if nlen d <? off + nlen p then truncate d (off + nlen p) else d in
  ntake off b1 ++ p ++ ndrop (off + nlen p) b1 = write_at d off p.
Proof.
  cbv zeta. destruct (nlen d <? off + nlen p) eqn:E.
  - rewrite truncate_grow by lia.
    rewrite (ndrop_all (off + nlen p)) by (rewrite nlen_app, nlen_zeros; lia).
    destruct (off <=? nlen d) eqn:E2.
    + rewrite ntake_app_le by lia. unfold write_at.
      replace (off - nlen d) with 0 by lia.
      rewrite zeros_0, (ndrop_all (off + nlen p) d) by lia. reflexivity.
    + rewrite ntake_app_ge by lia.
      replace (off + nlen p - nlen d) with ((off - nlen d) + nlen p) by lia.
      rewrite ntake_zeros_add, write_at_gap by lia.
      rewrite app_nil_r, <- app_assoc. reflexivity.
  - unfold write_at. replace (off - nlen d) with 0 by lia. reflexivity.
Qed.

Lemma mem_WriteAt_spec d p off :
  mem_WriteAt {| m_buf := d; m_size := nlen d; m_refs := 1 |} p off
  = ({| m_buf := write_at d off p; m_size := nlen (write_at d off p); m_refs := 1 |},
     RInt (nlen p)).
Proof.
  unfold mem_WriteAt. cbn [m_buf m_size m_refs].
  change (1 =? 0) with false. cbv iota.
  pose proof (mem_overwrite_spec d off p) as H. cbv zeta in H.
  destruct (nlen d <? off + nlen p) eqn:E.
  - rewrite mem_truncate_spec. cbn [m_buf m_size m_refs]. rewrite H.
    f_equal. f_equal. rewrite nlen_write_at. lia.
  - cbn [m_buf m_size m_refs]. rewrite H.
    f_equal. f_equal. rewrite nlen_write_at. lia.
Qed.

Lemma mem_ReadAt_exact d n off :
  mem_ReadAt {| m_buf := d; m_size := nlen d; m_refs := 1 |} n off
  = if nlen d <=? off then RBytes [] true else RBytes (read_at d off n) false.
Proof.
  unfold mem_ReadAt. cbn [m_buf m_size m_refs].
  change (1 =? 0) with false. cbv iota.
  destruct (nlen d <=? off) eqn:E1; [reflexivity|].
  destruct (nlen d - off <? n) eqn:E2; [|reflexivity].
  unfold read_at.
  rewrite (ntake_all (nlen d - off)) by (rewrite nlen_ndrop; lia).
  rewrite (ntake_all n) by (rewrite nlen_ndrop; lia).
  reflexivity.
Qed.

Lemma mem_ReadAt_spec d n off :
  0 < n ->
  obs (mem_ReadAt {| m_buf := d; m_size := nlen d; m_refs := 1 |} n off)
  = obs (RBytes (read_at d off n) (nlen (read_at d off n) <? n)).
Proof.
  intros Hn. rewrite mem_ReadAt_exact.
  destruct (nlen d <=? off) eqn:E1.
  - rewrite read_at_beyond by lia. cbn [obs nlen]. f_equal. lia.
  - cbn [obs]. f_equal. rewrite nlen_read_at. lia.
Qed.

Ltac mem_simpl := cbn [fst snd m_buf m_size m_refs sm_file sm_off a_data a_pos a_open].

Theorem mem_step_fs f a c :
  R_mem f a -> well_formed_call a c ->
  R_mem (fst (step_mem f c)) (fst (step_abs a c)) /\
  obs (snd (step_mem f c)) = obs (snd (step_abs a c)).
Proof.
  destruct f as [[buf size refs] off]. destruct a as [d pos o].
  unfold R_mem, well_formed_call. cbn [m_buf m_size m_refs sm_file sm_off a_data a_pos a_open].
  intros (-> & -> & -> & ->) Hwf.
  destruct o.
  - (* open *)
    destruct c as [p o1|p|n o1|n|o1|sz|s e| | |];
      unfold step_mem, step_abs;
      cbn [m_buf m_size m_refs sm_file sm_off a_data a_pos a_open negb wf_callb] in *.
    + rewrite mem_WriteAt_spec. mem_simpl. auto.
    + rewrite mem_WriteAt_spec. mem_simpl. auto.
    + mem_simpl.
      split; [auto|]. apply mem_ReadAt_spec. lia.
    + rewrite mem_ReadAt_exact. cbv zeta.
      destruct (nlen d <=? pos) eqn:E1;
        cbn [fst snd m_buf m_size m_refs sm_file sm_off a_data a_pos a_open obs].
      * rewrite read_at_beyond by lia. cbn [nlen]. rewrite N.add_0_r.
        split; [auto|]. f_equal. lia.
      * split; [auto|]. f_equal. rewrite nlen_read_at. lia.
    + change (1 =? 0) with false. cbv iota.
      mem_simpl. auto.
    + unfold mem_Truncate. cbn [m_refs]. change (1 =? 0) with false. cbv iota.
      rewrite mem_truncate_spec.
      mem_simpl.
      rewrite nlen_truncate. auto.
    + unfold mem_Slice. cbn [m_buf m_size m_refs]. change (1 =? 0) with false. cbv iota.
      destruct (nlen d <? e) eqn:E1;
        mem_simpl; [auto|].
      destruct (e <? s) eqn:E2; [exfalso; lia|]. auto.
    + change (1 =? 0) with false. cbv iota.
      mem_simpl. auto.
    + change (1 =? 0) with false. cbv iota.
      mem_simpl. auto.
    + unfold mem_Close. cbn [m_buf m_size m_refs]. change (1 =? 0) with false. cbv iota.
      mem_simpl. auto.
  - (* closed: refs = 0, every method returns os.ErrClosed and changes nothing *)
    destruct c as [p o1|p|n o1|n|o1|sz|s e| | |];
      unfold step_mem, step_abs, mem_WriteAt, mem_ReadAt, mem_Truncate, mem_Slice, mem_Close;
      cbn [m_buf m_size m_refs sm_file sm_off a_data a_pos a_open negb];
      change (0 =? 0) with true; cbv iota;
      mem_simpl; auto.
Qed.

Definition R_os (k : kfile) (a : afile) : Prop :=
  k_data k = a_data a /\ k_off k = a_pos a /\ k_open k = a_open a.

Lemma slice_short_iff d s e :
  s < e -> (nlen (read_at d s (e - s)) <? e - s) = (nlen d <? e).
Proof. intros H. rewrite nlen_read_at. lia. Qed.

Lemma os_Slice_spec d off o s e :
  wf_callb {| a_data := d; a_pos := off; a_open := o |} (CSlice s e) = true ->
  os_Slice {| k_data := d; k_off := off; k_open := o |} s e
  = snd (step_abs {| a_data := d; a_pos := off; a_open := o |} (CSlice s e)).
Proof.
  cbn [wf_callb a_open a_data]. intros Hwf.
  unfold os_Slice, osf_ReadAt, step_abs. cbn [k_data k_off k_open a_data a_pos a_open].
  destruct (e <? s) eqn:E0; [exfalso; lia|].
  destruct (e - s =? 0) eqn:E1.
  - (* zero-length: open, inside a non-empty file *)
    destruct o; [|exfalso; lia]. cbn [negb].
    assert (nlen d <? e = false) as -> by lia. cbn [snd].
    replace (e - s) with 0 by lia. reflexivity.
  - destruct o; cbn [negb snd]; [|reflexivity].
    rewrite slice_short_iff by lia.
    destruct (nlen d <? e); reflexivity.
Qed.

Theorem os_step_fs k a c :
  R_os k a -> well_formed_call a c ->
  R_os (fst (step_os k c)) (fst (step_abs a c)) /\
  obs (snd (step_os k c)) = obs (snd (step_abs a c)).
Proof.
  destruct k as [kd ko kopen]. destruct a as [d pos o].
  unfold R_os, well_formed_call. cbn [k_data k_off k_open a_data a_pos a_open].
  intros (-> & -> & ->) Hwf.
  destruct c as [p o1|p|n o1|n|o1|sz|s e| | |].
  7:{ (* Slice *)
    unfold step_os. cbn [fst snd]. rewrite os_Slice_spec by exact Hwf.
    split; [|reflexivity].
    unfold step_abs. cbn [a_data a_pos a_open].
    destruct (negb o); [cbn [fst a_data a_pos a_open]; auto|].
    destruct (nlen d <? e); cbn [fst a_data a_pos a_open]; auto. }
  all: unfold step_os, step_abs, osf_WriteAt, osf_Write, osf_ReadAt, osf_Read, osf_Seek,
         osf_Truncate, osf_Stat, osf_Sync, osf_Close;
       cbn [k_data k_off k_open a_data a_pos a_open wf_callb] in *.
  all: try (assert (nlen p =? 0 = false) as -> by lia);
    try (assert (n =? 0 = false) as -> by lia);
    destruct o; cbn [negb fst snd k_data k_off k_open a_data a_pos a_open obs]; auto.
  (* Read of an open file: the flags differ when bytes were read *)
  split; [auto|]. f_equal. lia.
Qed.

(* The side condition.  [m] is the current mmapSize; the call must not grow the file beyond
   twice the current mapping (nothing is required while nothing is mapped: the first mapping
   is max(initialMmapSize, size)). *)
Definition grow_okb (m : N) (a : afile) (c : call) : bool :=
  (m =? 0) || (nlen (a_data (fst (step_abs a c))) <=? 2 * m).

Section MMapProofs.
Variable imm : N.
Hypothesis imm_pos : 0 < imm.

(* mmapSize after a call, computed from the abstract file [a'] reached by the call and the
   previous mmapSize [m] (ghost copy of mremap / munmap-at-Close) *)
Definition next_msize (m : N) (a' : afile) : N :=
  if a_open a' then
    let sz := nlen (a_data a') in
    if sz <=? m then m
    else if m =? 0 then (if imm <? sz then sz else imm)
    else m * 2
  else 0.

Definition R_mmap (f : mmapFile) (a : afile) : Prop :=
  k_data (mm_k f) = a_data a /\
  k_off (mm_k f) = a_pos a /\
  k_open (mm_k f) = a_open a /\
  mm_size f = nlen (a_data a) /\                       (* size = kernel length *)
  (a_open a = true -> mm_off f = a_pos a) /\
  (a_open a = true -> mm_size f <= mm_msize f) /\      (* the mapping covers the file *)
  (mm_mapped f = false -> mm_msize f = 0) /\
  (mm_msize f = 0 \/ imm <= mm_msize f) /\
  (a_open a = false -> mm_mapped f = false).

Ltac mm_simpl :=
  cbn [mm_k mm_size mm_msize mm_mapped mm_off k_data k_off k_open a_data a_pos a_open].

Ltac split_AC :=
  match goal with
  | |- ?A /\ _ /\ ?C =>
      cut (A /\ C); [intros [HA HC]; split; [exact HA|split; [reflexivity|exact HC]]|]
  end.

Lemma next_msize_same m a : a_open a = true -> nlen (a_data a) <= m -> next_msize m a = m.
Proof.
  intros Ho H. unfold next_msize. rewrite Ho. cbv zeta.
  destruct (nlen (a_data a) <=? m) eqn:E; [reflexivity|lia].
Qed.

Lemma next_msize_spec m a :
  (m = 0 \/ imm <= m) -> (m =? 0) || (nlen (a_data a) <=? 2 * m) = true ->
  (a_open a = false -> next_msize m a = 0) /\
  (next_msize m a = 0 \/ imm <= next_msize m a) /\
  (a_open a = true -> nlen (a_data a) <= next_msize m a).
Proof.
  intros Hm Hg. unfold next_msize. destruct (a_open a); cbv zeta.
  - destruct (_ <=? m) eqn:E1; [|destruct (m =? 0) eqn:E2; [destruct (imm <? _) eqn:E3|]];
      (split; [discriminate|]); (split; [lia|]); intros _; lia.
  - split; [reflexivity|]. split; [left; reflexivity|discriminate].
Qed.

Lemma mm_mremap_eq g a :
  a_open a = true -> mm_size g = nlen (a_data a) ->
  mm_mremap imm g
  = {| mm_k := mm_k g; mm_size := mm_size g; mm_msize := next_msize (mm_msize g) a;
       mm_mapped := mm_mapped g || negb (mm_size g <=? mm_msize g); mm_off := mm_off g |}.
Proof.
  destruct g as [k size msize mapped moff]. mm_simpl. intros Ho ->.
  unfold mm_mremap, next_msize, mm_mmap, mm_munmap. rewrite Ho. mm_simpl.
  destruct (nlen (a_data a) <=? msize); [rewrite Bool.orb_false_r; reflexivity|].
  rewrite Bool.orb_true_r. destruct (msize =? 0); [reflexivity|]. destruct mapped; reflexivity.
Qed.

(* what mremap re-establishes, for the three calls that may grow the file ([m]: the old
   mmapSize, a variable of its own so that the lemma applies to concrete states) *)
Lemma mm_mremap_R g a m :
  mm_msize g = m -> R_os (mm_k g) a -> a_open a = true ->
  mm_size g = nlen (a_data a) -> mm_off g = a_pos a ->
  (mm_mapped g = false -> m = 0) -> (m = 0 \/ imm <= m) ->
  (m =? 0) || (nlen (a_data a) <=? 2 * m) = true ->
  R_mmap (mm_mremap imm g) a /\ mm_msize (mm_mremap imm g) = next_msize m a.
Proof.
  intros <- (Hd & Hp & Hk) Ho Hsz Hoff Hmap Hm Hg.
  destruct (next_msize_spec _ a Hm Hg) as (_ & Hm' & Hcov).
  rewrite (mm_mremap_eq g a Ho Hsz). unfold R_mmap. mm_simpl.
  split; [|reflexivity].
  refine (conj Hd (conj Hp (conj Hk (conj Hsz (conj (fun _ => Hoff)
           (conj _ (conj _ (conj Hm' _)))))))).
  - rewrite Hsz. exact Hcov.
  - intros E. apply Bool.orb_false_elim in E. destruct E as [E1 E2].
    rewrite next_msize_same; [auto|exact Ho|lia].
  - rewrite Ho. discriminate.
Qed.

Ltac mm_R :=
  unfold R_mmap; mm_simpl;
  repeat (split; [auto; intros; try discriminate; lia|]);
  try (intros; discriminate); auto.

Theorem mmap_step_fs f a c :
  R_mmap f a -> well_formed_call a c -> grow_okb (mm_msize f) a c = true ->
  R_mmap (fst (step_mmap imm f c)) (fst (step_abs a c)) /\
  obs (snd (step_mmap imm f c)) = obs (snd (step_abs a c)) /\
  mm_msize (fst (step_mmap imm f c)) = next_msize (mm_msize f) (fst (step_abs a c)).
Proof.
  destruct f as [[kd ko kopen] size msize mapped moff]. destruct a as [d pos o].
  unfold R_mmap at 1, well_formed_call, grow_okb. mm_simpl.
  intros (-> & -> & -> & -> & Hmoff & Hcover & Hmap & Hmi & Hclosed) Hwf Hgrow.
  destruct o.
  - (* open *)
    specialize (Hmoff eq_refl). specialize (Hcover eq_refl). subst moff. clear Hclosed.
    destruct c as [p o1|p|n o1|n|o1|sz|s e| | |];
      unfold step_mmap, step_abs, mm_WriteAt, mm_Write, mm_Read, mm_Seek, mm_Truncate,
        osf_WriteAt, osf_Write, osf_ReadAt, osf_Read, osf_Seek, osf_Truncate, osf_Stat, osf_Sync
        in *;
      cbn [mm_k k_open a_data a_pos a_open negb wf_callb fst] in *.
    1,2,6: (* WriteAt, Write, Truncate: the kernel call, then mremap *)
      try (assert (nlen p =? 0 = false) as -> by lia); cbn [fst snd]; split_AC;
      apply mm_mremap_R; unfold mm_with, R_os; mm_simpl; auto;
      rewrite ?nlen_write_at, ?nlen_truncate; try destruct (_ <? _) eqn:E; lia.
    1,3,5,6: (* ReadAt, Seek, Stat, Sync *)
      try (assert (n =? 0 = false) as -> by lia); unfold mm_with; mm_simpl; cbn [fst snd]; mm_simpl;
      rewrite next_msize_same by (reflexivity || (mm_simpl; lia)); (split; [|split; reflexivity]); mm_R.
    + (* Read *)
      unfold mm_with. mm_simpl. cbn [fst snd]. mm_simpl.
      rewrite next_msize_same by (reflexivity || (mm_simpl; lia)).
      split; [|split; [|reflexivity]].
      * mm_R.
      * cbn [obs]. f_equal. lia.
    + (* Slice: inside the mapping and inside the file *)
      unfold mm_Slice. mm_simpl.
      destruct (nlen d <? e) eqn:E1; cbn [fst snd];
        rewrite next_msize_same by (reflexivity || (mm_simpl; lia));
        (split; [mm_R|split; [|reflexivity]]); [reflexivity|].
      destruct mapped; cbn [negb]; [|exfalso; specialize (Hmap eq_refl); lia].
      destruct (e <? s) eqn:E2; [exfalso; lia|].
      destruct (msize <? e) eqn:E3; [exfalso; lia|]. reflexivity.
    + (* Close *)
      unfold mm_Close, mm_munmap, osf_Close, mm_with, next_msize. mm_simpl.
      destruct mapped; [|specialize (Hmap eq_refl); subst msize];
        mm_simpl; cbn [negb fst snd]; mm_simpl;
        (split; [|split; reflexivity]); mm_R.
  - (* closed *)
    specialize (Hclosed eq_refl). subst mapped. specialize (Hmap eq_refl). subst msize.
    clear Hmoff Hcover Hgrow Hmi.
    destruct c as [p o1|p|n o1|n|o1|sz|s e| | |];
      unfold step_mmap, step_abs, mm_WriteAt, mm_Write, mm_Read, mm_Seek, mm_Truncate,
        mm_Slice, mm_Close, mm_munmap, mm_with, next_msize,
        osf_WriteAt, osf_Write, osf_ReadAt, osf_Read, osf_Seek,
        osf_Truncate, osf_Stat, osf_Sync, osf_Close;
      cbn [mm_k mm_size mm_msize mm_mapped mm_off k_data k_off k_open
           a_data a_pos a_open negb wf_callb fst snd] in *;
      (* zero-length calls are excluded; Slice of a closed file has end <= size, so the
         nil-data test is reached *)
      try (assert (nlen p =? 0 = false) as -> by lia);
      try (assert (n =? 0 = false) as -> by lia);
      try (assert (nlen d <? e = false) as -> by lia);
      cbn [fst snd]; mm_simpl; (split; [|split; reflexivity]); mm_R.
Qed.

End MMapProofs.

(* the statements in the form "let (conc', r) := ... in ..." *)
Corollary mem_step f a c :
  R_mem f a -> well_formed_call a c ->
  let (f', r) := step_mem f c in let (a', r') := step_abs a c in
  R_mem f' a' /\ obs r = obs r'.
Proof.
  intros HR Hwf. pose proof (mem_step_fs f a c HR Hwf) as H.
  destruct (step_mem f c) as [f' r]. destruct (step_abs a c) as [a' r']. exact H.
Qed.

Corollary os_step k a c :
  R_os k a -> well_formed_call a c ->
  let (k', r) := step_os k c in let (a', r') := step_abs a c in
  R_os k' a' /\ obs r = obs r'.
Proof.
  intros HR Hwf. pose proof (os_step_fs k a c HR Hwf) as H.
  destruct (step_os k c) as [k' r]. destruct (step_abs a c) as [a' r']. exact H.
Qed.

Corollary mmap_step imm (Himm : 0 < imm) f a c :
  R_mmap imm f a -> well_formed_call a c -> grow_okb (mm_msize f) a c = true ->
  let (f', r) := step_mmap imm f c in let (a', r') := step_abs a c in
  R_mmap imm f' a' /\ obs r = obs r'.
Proof.
  intros HR Hwf Hg. pose proof (mmap_step_fs imm Himm f a c HR Hwf Hg) as H.
  destruct (step_mmap imm f c) as [f' r]. destruct (step_abs a c) as [a' r'].
  cbn [fst snd] in H. tauto.
Qed.

Lemma run_cons {S} (step : S -> call -> S * res) s c cs :
  run step s (c :: cs)
  = (fst (run step (fst (step s c)) cs), snd (step s c) :: snd (run step (fst (step s c)) cs)).
Proof.
  cbn [run]. destruct (step s c) as [s1 r]. cbn [fst snd].
  destruct (run step s1 cs) as [s2 rs]. reflexivity.
Qed.

Lemma run_app {S} (step : S -> call -> S * res) cs1 : forall s cs2,
  fst (run step s (cs1 ++ cs2)) = fst (run step (fst (run step s cs1)) cs2).
Proof.
  induction cs1 as [|c cs1 IH]; intros s cs2; [reflexivity|].
  cbn [app]. rewrite !run_cons. cbn [fst]. apply IH.
Qed.

(* generic lifting of a one-step simulation that needs only well-formedness *)
Lemma run_sim {S} (step : S -> call -> S * res) (R : S -> afile -> Prop)
  (Hstep : forall s a c, R s a -> well_formed_call a c ->
     R (fst (step s c)) (fst (step_abs a c)) /\
     obs (snd (step s c)) = obs (snd (step_abs a c))) :
  forall cs s a, R s a -> seq_wf a cs = true ->
    R (fst (run step s cs)) (fst (run step_abs a cs)) /\
    map obs (snd (run step s cs)) = map obs (snd (run step_abs a cs)).
Proof.
  induction cs as [|c cs IH]; intros s a HR Hwf.
  - cbn [run fst snd map]. auto.
  - cbn [seq_wf] in Hwf. apply andb_prop in Hwf. destruct Hwf as [Hc Hcs].
    destruct (Hstep s a c HR Hc) as [HR1 Hobs].
    destruct (IH _ _ HR1 Hcs) as [HR2 Hobs2].
    rewrite !run_cons. cbn [fst snd map]. split; [exact HR2|].
    rewrite Hobs, Hobs2. reflexivity.
Qed.

Section Sequences.
Variable imm : N.
Hypothesis imm_pos : 0 < imm.

(* PRECISE side condition for the mapped file, as a boolean function of the call sequence
   (and of the state in which it starts): every call is well formed and no single call grows
   the file beyond twice the mapping size current at that moment. *)
Fixpoint seq_ok (m : N) (a : afile) (cs : list call) : bool :=
  match cs with
  | [] => true
  | c :: cs' =>
      wf_callb a c && grow_okb m a c &&
      seq_ok (next_msize imm m (fst (step_abs a c))) (fst (step_abs a c)) cs'
  end.

(* SUFFICIENT side condition that does not mention the mapping: no single call grows the
   file by more than initialMmapSize.  For the database: every growth is one record
   (<= 512 MiB + 64 KiB + 10), one bucket (512) or one header (512), all < 1 GiB. *)
Definition small_growb (a : afile) (c : call) : bool :=
  nlen (a_data (fst (step_abs a c))) <=? nlen (a_data a) + imm.

Fixpoint seq_small (a : afile) (cs : list call) : bool :=
  match cs with
  | [] => true
  | c :: cs' => wf_callb a c && small_growb a c && seq_small (fst (step_abs a c)) cs'
  end.

Definition init_msize (d0 : bytes) : N := next_msize imm 0 (abs_open d0).
Definition calls_ok (d0 : bytes) (cs : list call) : bool :=
  seq_ok (init_msize d0) (abs_open d0) cs.
Definition calls_small (d0 : bytes) (cs : list call) : bool := seq_small (abs_open d0) cs.

Lemma seq_ok_wf cs : forall m a, seq_ok m a cs = true -> seq_wf a cs = true.
Proof.
  induction cs as [|c cs IH]; intros m a H; [reflexivity|].
  cbn [seq_ok seq_wf] in *.
  apply andb_prop in H. destruct H as [H H2]. apply andb_prop in H. destruct H as [H0 H1].
  rewrite H0. cbn [andb]. eapply IH. exact H2.
Qed.

Lemma seq_ok_app cs1 : forall m a cs2,
  seq_ok m a (cs1 ++ cs2) = true -> seq_ok m a cs1 = true.
Proof.
  induction cs1 as [|c cs1 IH]; intros m a cs2 H; [reflexivity|].
  cbn [app seq_ok] in *.
  apply andb_prop in H. destruct H as [H H2]. rewrite H. cbn [andb]. eapply IH. exact H2.
Qed.

(* ghost invariant used to derive the precise condition from the sufficient one *)
Definition ghost_inv (m : N) (a : afile) : Prop :=
  (a_open a = false -> m = 0) /\ (m = 0 \/ imm <= m) /\
  (a_open a = true -> nlen (a_data a) <= m).

Lemma ghost_step m a c :
  ghost_inv m a -> small_growb a c = true ->
  grow_okb m a c = true /\ ghost_inv (next_msize imm m (fst (step_abs a c))) (fst (step_abs a c)).
Proof.
  intros (Hc & Hm & Ho) Hs. unfold small_growb, grow_okb in *.
  assert (Hg : (m =? 0) || (nlen (a_data (fst (step_abs a c))) <=? 2 * m) = true).
  { destruct (a_open a) eqn:Eo.
    - specialize (Ho eq_refl). lia.
    - specialize (Hc eq_refl). lia. }
  split; [exact Hg|]. apply next_msize_spec; assumption.
Qed.

Lemma seq_small_ok cs : forall m a,
  ghost_inv m a -> seq_small a cs = true -> seq_ok m a cs = true.
Proof.
  induction cs as [|c cs IH]; intros m a HG H; [reflexivity|].
  cbn [seq_small seq_ok] in *.
  apply andb_prop in H. destruct H as [H H2]. apply andb_prop in H. destruct H as [H0 H1].
  destruct (ghost_step m a c HG H1) as [Hg HG'].
  rewrite H0, Hg. cbn [andb]. apply IH; assumption.
Qed.

Lemma ghost_inv_init d0 : ghost_inv (init_msize d0) (abs_open d0).
Proof.
  apply next_msize_spec; auto.
Qed.

Theorem calls_small_ok d0 cs : calls_small d0 cs = true -> calls_ok d0 cs = true.
Proof. apply seq_small_ok. apply ghost_inv_init. Qed.

(* lifting of the mmap simulation *)
Lemma run_sim_mmap cs : forall f a,
  R_mmap imm f a -> seq_ok (mm_msize f) a cs = true ->
  R_mmap imm (fst (run (step_mmap imm) f cs)) (fst (run step_abs a cs)) /\
  map obs (snd (run (step_mmap imm) f cs)) = map obs (snd (run step_abs a cs)).
Proof.
  induction cs as [|c cs IH]; intros f a HR H.
  - cbn [run fst snd map]. auto.
  - cbn [seq_ok] in H.
    apply andb_prop in H. destruct H as [H H2]. apply andb_prop in H. destruct H as [H0 H1].
    destruct (mmap_step_fs imm imm_pos f a c HR H0 H1) as (HR1 & Hobs & Hm).
    rewrite <- Hm in H2.
    destruct (IH _ _ HR1 H2) as [HR2 Hobs2].
    rewrite !run_cons. cbn [fst snd map]. split; [exact HR2|].
    rewrite Hobs, Hobs2. reflexivity.
Qed.

(* initial states: OpenFile of a file with contents d0 *)
Lemma R_mem_open d0 : R_mem (mem_open d0) (abs_open d0).
Proof. unfold R_mem, mem_open, abs_open. cbn. auto. Qed.

Lemma R_os_open d0 : R_os (os_open d0) (abs_open d0).
Proof. unfold R_os, os_open, abs_open. cbn. auto. Qed.

Lemma R_mmap_open d0 :
  R_mmap imm (mmap_open imm d0) (abs_open d0) /\ mm_msize (mmap_open imm d0) = init_msize d0.
Proof.
  unfold mmap_open, init_msize.
  apply (mm_mremap_R imm imm_pos); cbn; auto using R_os_open.
Qed.

(* observed results and final contents *)
Definition run_abs d0 cs := map obs (snd (run step_abs (abs_open d0) cs)).
Definition run_mem d0 cs := map obs (snd (run step_mem (mem_open d0) cs)).
Definition run_os d0 cs := map obs (snd (run step_os (os_open d0) cs)).
Definition run_mmap d0 cs := map obs (snd (run (step_mmap imm) (mmap_open imm d0) cs)).

Definition final_abs d0 cs := a_data (fst (run step_abs (abs_open d0) cs)).
Definition final_mem d0 cs := m_buf (sm_file (fst (run step_mem (mem_open d0) cs))).
Definition final_os d0 cs := k_data (fst (run step_os (os_open d0) cs)).
Definition final_mmap d0 cs :=
  k_data (mm_k (fst (run (step_mmap imm) (mmap_open imm d0) cs))).

Theorem mem_refines_abs d0 cs :
  seq_wf (abs_open d0) cs = true ->
  run_mem d0 cs = run_abs d0 cs /\ final_mem d0 cs = final_abs d0 cs.
Proof.
  intros H.
  destruct (run_sim step_mem R_mem mem_step_fs cs _ _ (R_mem_open d0) H) as [HR Ho].
  split; [exact Ho|]. destruct HR as (Hd & _). exact Hd.
Qed.

Theorem os_refines_abs d0 cs :
  seq_wf (abs_open d0) cs = true ->
  run_os d0 cs = run_abs d0 cs /\ final_os d0 cs = final_abs d0 cs.
Proof.
  intros H.
  destruct (run_sim step_os R_os os_step_fs cs _ _ (R_os_open d0) H) as [HR Ho].
  split; [exact Ho|]. destruct HR as (Hd & _). exact Hd.
Qed.

Theorem mmap_refines_abs d0 cs :
  calls_ok d0 cs = true ->
  run_mmap d0 cs = run_abs d0 cs /\ final_mmap d0 cs = final_abs d0 cs /\
  R_mmap imm (fst (run (step_mmap imm) (mmap_open imm d0) cs))
             (fst (run step_abs (abs_open d0) cs)).
Proof.
  intros H. destruct (R_mmap_open d0) as [HR0 Hm0].
  unfold calls_ok in H. rewrite <- Hm0 in H.
  destruct (run_sim_mmap cs _ _ HR0 H) as [HR Ho].
  split; [exact Ho|]. split; [|exact HR]. destruct HR as (Hd & _). exact Hd.
Qed.

Theorem C17_fs_equivalent d0 cs :
  calls_ok d0 cs = true ->
  run_mem d0 cs = run_os d0 cs /\ run_os d0 cs = run_mmap d0 cs /\
  run_mmap d0 cs = run_abs d0 cs /\
  final_mem d0 cs = final_os d0 cs /\ final_os d0 cs = final_mmap d0 cs /\
  final_mmap d0 cs = final_abs d0 cs.
Proof.
  intros H. pose proof (seq_ok_wf _ _ _ H) as Hwf.
  destruct (mem_refines_abs d0 cs Hwf) as [M1 M2].
  destruct (os_refines_abs d0 cs Hwf) as [O1 O2].
  destruct (mmap_refines_abs d0 cs H) as (P1 & P2 & _).
  rewrite M1, O1, P1, M2, O2, P2. auto 7.
Qed.

Corollary C17_fs_equivalent_small d0 cs :
  calls_small d0 cs = true ->
  run_mem d0 cs = run_os d0 cs /\ run_os d0 cs = run_mmap d0 cs /\
  final_mem d0 cs = final_os d0 cs /\ final_os d0 cs = final_mmap d0 cs.
Proof.
  intros H. destruct (C17_fs_equivalent d0 cs (calls_small_ok d0 cs H)) as (A & B & _ & C & D & _).
  auto.
Qed.

Lemma abs_never_panics a c : snd (step_abs a c) <> RPanic /\ snd (step_abs a c) <> RFault.
Proof.
  unfold step_abs. destruct (negb (a_open a)); [cbn [snd]; split; discriminate|].
  destruct c; cbn [snd]; try (split; discriminate).
  destruct (nlen (a_data a) <? e); cbn [snd]; split; discriminate.
Qed.

Lemma run_abs_never_panics cs : forall a,
  ~ In RPanic (snd (run step_abs a cs)) /\ ~ In RFault (snd (run step_abs a cs)).
Proof.
  induction cs as [|c cs IH]; intros a.
  - cbn [run snd In]. tauto.
  - rewrite run_cons. cbn [snd In].
    destruct (abs_never_panics a c) as [H1 H2].
    destruct (IH (fst (step_abs a c))) as [H3 H4].
    split; intros [H|H]; auto.
Qed.

Lemma map_obs_In rs rs' r :
  map obs rs = map obs rs' -> In r rs -> exists x, In x rs' /\ obs x = obs r.
Proof.
  intros E Hin. apply (in_map obs) in Hin. rewrite E in Hin.
  apply in_map_iff in Hin. destruct Hin as (x & Hx & Hin). eauto.
Qed.

Theorem C17_mmap_never_panics d0 cs :
  calls_ok d0 cs = true ->
  ~ In RPanic (snd (run (step_mmap imm) (mmap_open imm d0) cs)) /\
  ~ In RFault (snd (run (step_mmap imm) (mmap_open imm d0) cs)).
Proof.
  intros H. destruct (mmap_refines_abs d0 cs H) as (P1 & _).
  unfold run_mmap, run_abs in P1.
  destruct (run_abs_never_panics cs (abs_open d0)) as [A1 A2].
  split; intros Hin; destruct (map_obs_In _ _ _ P1 Hin) as (x & Hx & E);
    apply obs_inv in E; cbn in E; subst x; auto.
Qed.

(* the invariant, in every state reached along an admissible sequence *)
Theorem C17_mmap_invariant d0 cs1 cs2 :
  calls_ok d0 (cs1 ++ cs2) = true ->
  let f := fst (run (step_mmap imm) (mmap_open imm d0) cs1) in
  (mm_mapped f = true -> mm_size f <= mm_msize f) /\
  mm_size f = nlen (k_data (mm_k f)) /\
  (k_open (mm_k f) = true -> 0 < mm_size f -> mm_mapped f = true).
Proof.
  intros H. apply seq_ok_app in H.
  destruct (mmap_refines_abs d0 cs1 H) as (_ & _ & HR).
  cbv zeta. destruct HR as (Hd & _ & Ho & Hs & _ & Hcov & Hmap & _ & Hcl).
  rewrite Hd, Ho. split; [|split; [exact Hs|]].
  - intros Hm. destruct (a_open (fst (run step_abs (abs_open d0) cs1))) eqn:E.
    + apply Hcov. reflexivity.
    + rewrite (Hcl eq_refl) in Hm. discriminate.
  - intros Hopen Hpos. specialize (Hcov Hopen).
    destruct (mm_mapped (fst (run (step_mmap imm) (mmap_open imm d0) cs1))) eqn:E;
      [reflexivity|]. specialize (Hmap eq_refl). lia.
Qed.

End Sequences.

(* One doubling is not always enough (mmapSize < size is reachable).  osMMapFile.mremap doubles the
   mapping ONCE.  If a single WriteAt/Write/Truncate takes the file beyond twice the current mapping, mremap returns with mmapSize < size; Slice only
   checks `end > f.size`, so a Slice of the tail does data[start:end] with end > len(data):
   a run-time panic (slice bounds out of range), where fs.Mem and fs.OS return the bytes.
   Shown here with initialMmapSize = 4; with the real 1 GiB it needs one call that grows a
   file from <= 1 GiB (or from <= mmapSize) to more than twice the mapping, e.g. Truncate or
   a sparse WriteAt -- the database itself never does that (see [small_growb]). *)
Definition gap_calls : list call :=
  [CWriteAt [1;2;3;4] 0; CWriteAt [1;2;3;4;5;6;7;8;9;10;11;12;13] 0; CSlice 0 13].

Theorem mmap_gap_refuted :
  exists (imm : N) (cs : list call),
    0 < imm /\ seq_wf (abs_open []) cs = true /\
    In RPanic (snd (run (step_mmap imm) (mmap_open imm []) cs)) /\
    snd (run step_os (os_open []) cs) = snd (run step_mem (mem_open []) cs) /\
    ~ In RPanic (snd (run step_os (os_open []) cs)) /\
    calls_ok imm [] cs = false.
Proof.
  exists 4, gap_calls. split; [reflexivity|]. split; [vm_compute; reflexivity|].
  split; [vm_compute; tauto|]. split; [vm_compute; reflexivity|].
  split; [|vm_compute; reflexivity].
  vm_compute. intros [H|[H|[H|[]]]]; discriminate.
Qed.

(* the state after the second call: mapped, size 13, mmapSize 8 *)
Example mmap_gap_state :
  let f := fst (run (step_mmap 4) (mmap_open 4 []) [CWriteAt [1;2;3;4] 0;
                 CWriteAt [1;2;3;4;5;6;7;8;9;10;11;12;13] 0]) in
  (mm_mapped f, mm_size f, mm_msize f) = (true, 13, 8).
Proof. vm_compute. reflexivity. Qed.

(* the same through file.extend-like Truncate calls *)
Example mmap_gap_truncate :
  snd (run (step_mmap 4) (mmap_open 4 []) [CTruncate 4; CTruncate 13; CSlice 12 13])
  = [RUnit; RUnit; RPanic]
  /\ snd (run step_os (os_open []) [CTruncate 4; CTruncate 13; CSlice 12 13])
  = [RUnit; RUnit; RBytes [0] false].
Proof. vm_compute. auto. Qed.

(* the gap heals at the next growing call (mremap doubles again) *)
Example mmap_gap_heals :
  snd (run (step_mmap 4) (mmap_open 4 []) [CTruncate 4; CTruncate 13; CTruncate 14; CSlice 12 13])
  = [RUnit; RUnit; RUnit; RBytes [0] false].
Proof. vm_compute. reflexivity. Qed.

(* the differences excluded by [well_formed_call] / hidden by [obs] are real *)

(* D-a (hidden by obs): short ReadAt -- fs.Mem: (k, nil); os.File: (k, io.EOF) *)
Lemma readat_short_differs d n off :
  0 < nlen (read_at d off n) < n ->
  mem_ReadAt {| m_buf := d; m_size := nlen d; m_refs := 1 |} n off
  = RBytes (read_at d off n) false /\
  osf_ReadAt {| k_data := d; k_off := 0; k_open := true |} n off
  = RBytes (read_at d off n) true.
Proof.
  intros H. rewrite mem_ReadAt_exact. unfold osf_ReadAt. cbn [k_data k_open negb].
  rewrite nlen_read_at in H.
  assert (nlen d <=? off = false) as -> by lia.
  assert (n =? 0 = false) as -> by lia.
  split; [reflexivity|]. f_equal. rewrite nlen_read_at. lia.
Qed.

Example diff_readat_short :
  snd (step_mem (mem_open [1;2;3]) (CReadAt 4 1)) = RBytes [2;3] false /\
  snd (step_os (os_open [1;2;3]) (CReadAt 4 1)) = RBytes [2;3] true /\
  snd (step_mmap 8 (mmap_open 8 [1;2;3]) (CReadAt 4 1)) = RBytes [2;3] true.
Proof. vm_compute. auto. Qed.

(* D-b: zero-length ReadAt / Read at or beyond the end: fs.Mem io.EOF, os.File nil *)
Example diff_readat_zero :
  snd (step_mem (mem_open [1]) (CReadAt 0 1)) = RBytes [] true /\
  snd (step_os (os_open [1]) (CReadAt 0 1)) = RBytes [] false.
Proof. vm_compute. auto. Qed.
Example diff_read_zero :
  snd (step_mem (mem_open []) (CRead 0)) = RBytes [] true /\
  snd (step_os (os_open []) (CRead 0)) = RBytes [] false.
Proof. vm_compute. auto. Qed.

(* D-c: zero-length WriteAt beyond the end: fs.Mem grows the file, the kernel file does not
   change, and osMMapFile.size becomes larger than the file: the next Slice touches mapped
   memory beyond the end of the file *)
Example diff_writeat_empty_beyond :
  final_mem [1] [CWriteAt [] 5] = [1;0;0;0;0] /\
  final_os [1] [CWriteAt [] 5] = [1] /\
  final_mmap 8 [1] [CWriteAt [] 5] = [1] /\
  mm_size (fst (run (step_mmap 8) (mmap_open 8 [1]) [CWriteAt [] 5])) = 5 /\
  snd (run (step_mmap 8) (mmap_open 8 [1]) [CWriteAt [] 5; CSlice 0 5]) = [RInt 0; RFault].
Proof. vm_compute. auto 6. Qed.

(* D-d: zero-length WriteAt on a closed file: os.File returns (0, nil) *)
Example diff_writeat_empty_closed :
  snd (run step_mem (mem_open [1]) [CClose; CWriteAt [] 0]) = [RUnit; RErrClosed] /\
  snd (run step_os (os_open [1]) [CClose; CWriteAt [] 0]) = [RUnit; RInt 0].
Proof. vm_compute. auto. Qed.

(* D-e: zero-length Slice: osFile always succeeds (even closed, even beyond the end);
   osMMapFile returns ErrClosed on an OPEN empty file (nothing is mapped) *)
Example diff_slice_zero_closed :
  snd (run step_mem (mem_open [1]) [CClose; CSlice 0 0]) = [RUnit; RErrClosed] /\
  snd (run step_os (os_open [1]) [CClose; CSlice 0 0]) = [RUnit; RBytes [] false].
Proof. vm_compute. auto. Qed.
Example diff_slice_zero_beyond :
  snd (step_mem (mem_open [1]) (CSlice 7 7)) = RErrEOF /\
  snd (step_os (os_open [1]) (CSlice 7 7)) = RBytes [] false.
Proof. vm_compute. auto. Qed.
Example diff_slice_zero_empty_mmap :
  snd (step_mem (mem_open []) (CSlice 0 0)) = RBytes [] false /\
  snd (step_os (os_open []) (CSlice 0 0)) = RBytes [] false /\
  snd (step_mmap 8 (mmap_open 8 []) (CSlice 0 0)) = RErrClosed.
Proof. vm_compute. auto. Qed.

(* D-f: Slice beyond the size of a closed file: osMMapFile tests the size first *)
Example diff_slice_closed_eof :
  snd (run step_mem (mem_open [1]) [CClose; CSlice 0 5]) = [RUnit; RErrClosed] /\
  snd (run step_os (os_open [1]) [CClose; CSlice 0 5]) = [RUnit; RErrClosed] /\
  snd (run (step_mmap 8) (mmap_open 8 [1]) [CClose; CSlice 0 5]) = [RUnit; RErrEOF].
Proof. vm_compute. auto. Qed.

(* D-g (outside the one-handle model): memFile.refs is shared by all handles of a file, so
   with two handles open, Close of one does not close it: it still reads. *)
Example diff_mem_two_handles :
  snd (run step_mem {| sm_file := {| m_buf := [1]; m_size := 1; m_refs := 2 |}; sm_off := 0 |}
         [CClose; CRead 1]) = [RUnit; RBytes [1] false].
Proof. vm_compute. reflexivity. Qed.

(* a sequence the theorems apply to: growth past the mapping, shrink, slice at the end, read to EOF *)

Definition demo_calls : list call :=
  [CWrite [1;2;3];                 (* first mapping: 4 *)
   CWriteAt [4;5;6;7;8] 3;         (* size 8 > 4: remap to 8 *)
   CSlice 5 8;                     (* slice at the end *)
   CWriteAt [9] 8;                 (* size 9 > 8: remap to 16 *)
   CSlice 0 9;
   CSlice 8 10;                    (* beyond the end: io.EOF *)
   CTruncate 2;                    (* shrink *)
   CStatSize;
   CSlice 1 3;                     (* io.EOF after the shrink *)
   CSeekStart 0;
   CRead 5;                        (* short read *)
   CRead 5;                        (* 0, io.EOF *)
   CReadAt 4 1;                    (* short ReadAt: flag differs, hidden by obs *)
   CTruncate 6;                    (* grow with zeros *)
   CSlice 0 6;
   CWriteAt [7;7] 8;               (* sparse write: zero gap *)
   CSlice 4 10;
   CSlice 3 3;                     (* zero-length slice inside the file (empty key) *)
   CSync; CClose; CStatSize; CSlice 0 2; CClose].

Example demo_ok : calls_ok 4 [] demo_calls = true.
Proof. vm_compute. reflexivity. Qed.

Example demo_results :
  run_mem [] demo_calls
  = [RInt 3; RInt 5; RBytes [6;7;8] false; RInt 1; RBytes [1;2;3;4;5;6;7;8;9] false;
     RErrEOF; RUnit; RInt 2; RErrEOF; RInt 0; RBytes [1;2] false; RBytes [] true;
     RBytes [2] false; RUnit; RBytes [1;2;0;0;0;0] false; RInt 2;
     RBytes [0;0;0;0;7;7] false; RBytes [] false; RUnit; RUnit; RErrClosed; RErrClosed;
     RErrClosed]
  /\ run_os [] demo_calls = run_mem [] demo_calls
  /\ run_mmap 4 [] demo_calls = run_mem [] demo_calls
  /\ final_mem [] demo_calls = [1;2;0;0;0;0;0;0;7;7]
  /\ final_os [] demo_calls = [1;2;0;0;0;0;0;0;7;7]
  /\ final_mmap 4 [] demo_calls = [1;2;0;0;0;0;0;0;7;7].
Proof. vm_compute. auto 7. Qed.

(* the mapping really was re-established twice: 4 -> 8 -> 16 *)
Example demo_remaps :
  map (fun k => mm_msize (fst (run (step_mmap 4) (mmap_open 4 []) (firstn k demo_calls))))
      [0; 1; 2; 4; 7; 20]%nat
  = [0; 4; 8; 16; 16; 0].
Proof. vm_compute. reflexivity. Qed.

(* an existing file larger than initialMmapSize is mapped whole *)
Example demo_open_large :
  mm_msize (mmap_open 4 [1;2;3;4;5;6]) = 6 /\
  snd (step_mmap 4 (mmap_open 4 [1;2;3;4;5;6]) (CSlice 4 6)) = RBytes [5;6] false.
Proof. vm_compute. auto. Qed.

(* the [file] wrapper of file.go *)

Record wfile (St : Type) := { w_f : St; w_size : N }.
Arguments w_f {St}. Arguments w_size {St}.

(* func (f *file) append(data []byte) (int64, error) *)
Definition w_append {St} (step : St -> call -> St * res) (w : wfile St) (data : bytes)
  : wfile St * option N :=
  let off := w_size w in
  let (f1, r) := step (w_f w) (CWriteAt data off) in
  match r with
  | RInt _ => ({| w_f := f1; w_size := off + nlen data |}, Some off)
  | _ => ({| w_f := f1; w_size := off |}, None)
  end.

(* func (f *file) extend(size uint32) (int64, error) *)
Definition w_extend {St} (step : St -> call -> St * res) (w : wfile St) (n : N)
  : wfile St * option N :=
  let off := w_size w in
  let (f1, r) := step (w_f w) (CTruncate (off + n)) in
  match r with
  | RUnit => ({| w_f := f1; w_size := off + n |}, Some off)
  | _ => ({| w_f := f1; w_size := off |}, None)
  end.

(* I2: if size is the length of the file, append returns the old size, the file becomes
   old ++ data and size is the length again. *)
Theorem file_wrapper_append a data :
  a_open a = true ->
  let (w1, r) := w_append step_abs {| w_f := a; w_size := nlen (a_data a) |} data in
  r = Some (nlen (a_data a)) /\
  a_data (w_f w1) = a_data a ++ data /\
  w_size w1 = nlen (a_data (w_f w1)) /\
  a_pos (w_f w1) = a_pos a /\ a_open (w_f w1) = true.
Proof.
  intros Ho. unfold w_append, step_abs. cbn [w_f w_size]. rewrite Ho. cbn [negb].
  cbn [w_f w_size a_data a_pos a_open]. rewrite write_at_end, nlen_app. auto.
Qed.

(* a stale size LARGER than the file (D2: size kept after the file was cut underneath the
   wrapper): the record lands at the stale offset, after a gap of zeros; the returned
   offset is the stale size; afterwards size is the length again. *)
Theorem file_wrapper_stale_gap a sz data :
  a_open a = true -> nlen (a_data a) <= sz ->
  let (w1, r) := w_append step_abs {| w_f := a; w_size := sz |} data in
  r = Some sz /\
  a_data (w_f w1) = a_data a ++ zeros (sz - nlen (a_data a)) ++ data /\
  w_size w1 = nlen (a_data (w_f w1)).
Proof.
  intros Ho Hsz. unfold w_append, step_abs. cbn [w_f w_size]. rewrite Ho. cbn [negb].
  cbn [w_f w_size a_data a_pos a_open]. rewrite write_at_gap by exact Hsz.
  rewrite !nlen_app, nlen_zeros. split; [reflexivity|]. split; [reflexivity|]. lia.
Qed.

(* a stale size SMALLER than the file: append overwrites the tail in place *)
Lemma file_wrapper_stale_overwrite a sz data :
  a_open a = true -> sz + nlen data <= nlen (a_data a) ->
  let (w1, r) := w_append step_abs {| w_f := a; w_size := sz |} data in
  r = Some sz /\
  a_data (w_f w1) = ntake sz (a_data a) ++ data ++ ndrop (sz + nlen data) (a_data a) /\
  nlen (a_data (w_f w1)) = nlen (a_data a).
Proof.
  intros Ho Hsz. unfold w_append, step_abs. cbn [w_f w_size]. rewrite Ho. cbn [negb].
  cbn [w_f w_size a_data a_pos a_open]. split; [reflexivity|].
  rewrite nlen_write_at. split; [|lia].
  unfold write_at. replace (sz - nlen (a_data a)) with 0 by lia. reflexivity.
Qed.

Theorem file_wrapper_extend a n :
  a_open a = true ->
  let (w1, r) := w_extend step_abs {| w_f := a; w_size := nlen (a_data a) |} n in
  r = Some (nlen (a_data a)) /\
  a_data (w_f w1) = a_data a ++ zeros n /\
  w_size w1 = nlen (a_data (w_f w1)).
Proof.
  intros Ho. unfold w_extend, step_abs. cbn [w_f w_size]. rewrite Ho. cbn [negb].
  cbn [w_f w_size a_data a_pos a_open]. rewrite truncate_grow by lia.
  replace (nlen (a_data a) + n - nlen (a_data a)) with n by lia.
  rewrite nlen_app, nlen_zeros. auto.
Qed.

(* the same through any implementation that simulates the abstract file ([ok] is the extra
   side condition of the implementation: True for Mem and OS, grow_okb for OSMMap) *)
Section WrapperConcrete.
Context {St : Type} (step : St -> call -> St * res) (R : St -> afile -> Prop)
        (ok : St -> afile -> call -> Prop).
Hypothesis Hstep : forall s a c, R s a -> well_formed_call a c -> ok s a c ->
  R (fst (step s c)) (fst (step_abs a c)) /\
  obs (snd (step s c)) = obs (snd (step_abs a c)).

Lemma file_wrapper_append_conc s a data :
  R s a -> a_open a = true -> data <> [] ->
  ok s a (CWriteAt data (nlen (a_data a))) ->
  let (w1, r) := w_append step {| w_f := s; w_size := nlen (a_data a) |} data in
  r = Some (nlen (a_data a)) /\
  w_size w1 = nlen (a_data a ++ data) /\
  R (w_f w1) {| a_data := a_data a ++ data; a_pos := a_pos a; a_open := true |}.
Proof.
  intros HR Ho Hne Hok.
  assert (Hwf : well_formed_call a (CWriteAt data (nlen (a_data a)))).
  { unfold well_formed_call. cbn [wf_callb].
    destruct data as [|x l]; [congruence|]. rewrite nlen_cons. lia. }
  destruct (Hstep s a _ HR Hwf Hok) as [HR1 Hobs].
  unfold step_abs in HR1, Hobs. rewrite Ho in HR1, Hobs. cbn [negb fst snd] in HR1, Hobs.
  rewrite write_at_end in HR1. cbn [obs] in Hobs. apply obs_inv in Hobs.
  unfold w_append. cbn [w_f w_size].
  destruct (step s (CWriteAt data (nlen (a_data a)))) as [s1 r1].
  cbn [fst snd] in HR1, Hobs. subst r1. cbn [w_f w_size].
  rewrite nlen_app. auto.
Qed.

Lemma file_wrapper_extend_conc s a n :
  R s a -> a_open a = true ->
  ok s a (CTruncate (nlen (a_data a) + n)) ->
  let (w1, r) := w_extend step {| w_f := s; w_size := nlen (a_data a) |} n in
  r = Some (nlen (a_data a)) /\
  w_size w1 = nlen (a_data a ++ zeros n) /\
  R (w_f w1) {| a_data := a_data a ++ zeros n; a_pos := a_pos a; a_open := true |}.
Proof.
  intros HR Ho Hok.
  assert (Hwf : well_formed_call a (CTruncate (nlen (a_data a) + n))) by reflexivity.
  destruct (Hstep s a _ HR Hwf Hok) as [HR1 Hobs].
  unfold step_abs in HR1, Hobs. rewrite Ho in HR1, Hobs. cbn [negb fst snd] in HR1, Hobs.
  rewrite truncate_grow in HR1 by lia.
  replace (nlen (a_data a) + n - nlen (a_data a)) with n in HR1 by lia.
  cbn [obs] in Hobs. apply obs_inv in Hobs.
  unfold w_extend. cbn [w_f w_size].
  destruct (step s (CTruncate (nlen (a_data a) + n))) as [s1 r1].
  cbn [fst snd] in HR1, Hobs. subst r1. cbn [w_f w_size].
  rewrite nlen_app, nlen_zeros. auto.
Qed.
End WrapperConcrete.

Definition file_wrapper_append_mem :=
  file_wrapper_append_conc step_mem R_mem (fun _ _ _ => True)
    (fun s a c HR Hwf _ => mem_step_fs s a c HR Hwf).
Definition file_wrapper_append_os :=
  file_wrapper_append_conc step_os R_os (fun _ _ _ => True)
    (fun s a c HR Hwf _ => os_step_fs s a c HR Hwf).
Definition file_wrapper_append_mmap imm (Himm : 0 < imm) :=
  file_wrapper_append_conc (step_mmap imm) (R_mmap imm)
    (fun f a c => grow_okb (mm_msize f) a c = true)
    (fun s a c HR Hwf Hok =>
       let H := mmap_step_fs imm Himm s a c HR Hwf Hok in conj (proj1 H) (proj1 (proj2 H))).
Definition file_wrapper_extend_mem :=
  file_wrapper_extend_conc step_mem R_mem (fun _ _ _ => True)
    (fun s a c HR Hwf _ => mem_step_fs s a c HR Hwf).
Definition file_wrapper_extend_os :=
  file_wrapper_extend_conc step_os R_os (fun _ _ _ => True)
    (fun s a c HR Hwf _ => os_step_fs s a c HR Hwf).
Definition file_wrapper_extend_mmap imm (Himm : 0 < imm) :=
  file_wrapper_extend_conc (step_mmap imm) (R_mmap imm)
    (fun f a c => grow_okb (mm_msize f) a c = true)
    (fun s a c HR Hwf Hok =>
       let H := mmap_step_fs imm Himm s a c HR Hwf Hok in conj (proj1 H) (proj1 (proj2 H))).

Example wrapper_demo :
  let w0 := {| w_f := mmap_open 4 [9;9]; w_size := 2 |} in
  let (w1, r1) := w_append (step_mmap 4) w0 [1;2;3] in
  let (w2, r2) := w_extend (step_mmap 4) w1 2 in
  (r1, r2, w_size w2, k_data (mm_k (w_f w2)), mm_msize (w_f w2))
  = (Some 2, Some 5, 7, [9;9;1;2;3;0;0], 8).
Proof. vm_compute. reflexivity. Qed.

Example wrapper_stale_demo :   (* file cut to 1 byte under a wrapper that still says 3 *)
  let w0 := {| w_f := os_open [9]; w_size := 3 |} in
  let (w1, r1) := w_append step_os w0 [1;2] in
  (r1, w_size w1, k_data (w_f w1)) = (Some 3, 5, [9;0;0;1;2]).
Proof. vm_compute. reflexivity. Qed.

(* the call patterns of the database do not see the io.EOF flag of a short read *)

(* io.ReadFull(r, buf) = io.ReadAtLeast(r, buf, len(buf)):
     for n < min && err == nil { nn, err = r.Read(buf[n:]); n += nn }
     if n >= min { err = nil } else if n > 0 && err == EOF { err = ErrUnexpectedEOF }
   [read_full_cur]: r is the file itself (file.readHeader; bufio.Reader in the segment
   iterator fills its buffer with the same Read calls).  [read_full_at]: r is a reader that
   turns Read into ReadAt at an advancing offset (io.SectionReader). *)
Inductive rf_out := RFFull | RFEOF | RFUnexpectedEOF | RFErr (r : res) | RFFuel.

Fixpoint read_full_at {St} (step : St -> call -> St * res) (fuel : nat) (s : St)
  (off need : N) (acc : bytes) : St * (bytes * rf_out) :=
  match fuel with
  | O => (s, (acc, RFFuel))
  | Datatypes.S fuel' =>
      if need <=? nlen acc then (s, (acc, RFFull)) else
      let (s1, r) := step s (CReadAt (need - nlen acc) (off + nlen acc)) in
      match r with
      | RBytes b eof =>
          let acc' := acc ++ b in
          if eof then
            (s1, (acc', if need <=? nlen acc' then RFFull
                        else if nlen acc' =? 0 then RFEOF else RFUnexpectedEOF))
          else read_full_at step fuel' s1 off need acc'
      | _ => (s1, (acc, RFErr r))
      end
  end.

Fixpoint read_full_cur {St} (step : St -> call -> St * res) (fuel : nat) (s : St)
  (need : N) (acc : bytes) : St * (bytes * rf_out) :=
  match fuel with
  | O => (s, (acc, RFFuel))
  | Datatypes.S fuel' =>
      if need <=? nlen acc then (s, (acc, RFFull)) else
      let (s1, r) := step s (CRead (need - nlen acc)) in
      match r with
      | RBytes b eof =>
          let acc' := acc ++ b in
          if eof then
            (s1, (acc', if need <=? nlen acc' then RFFull
                        else if nlen acc' =? 0 then RFEOF else RFUnexpectedEOF))
          else read_full_cur step fuel' s1 need acc'
      | _ => (s1, (acc, RFErr r))
      end
  end.

Definition read_full_spec (d : bytes) (off need : N) : bytes * rf_out :=
  let b := read_at d off need in
  (b, if need <=? nlen b then RFFull else if nlen b =? 0 then RFEOF else RFUnexpectedEOF).

Definition is_read (c : call) : bool :=
  match c with CReadAt _ _ | CRead _ => true | _ => false end.

Section ReadFull.
Context {St : Type} (step : St -> call -> St * res) (R : St -> afile -> Prop).
Hypothesis Hrd : forall s a c, R s a -> is_read c = true -> well_formed_call a c ->
  R (fst (step s c)) (fst (step_abs a c)) /\
  obs (snd (step s c)) = obs (snd (step_abs a c)).

(* one read of [n > 0] bytes: the bytes [b] the abstract file returns, with some flag [e] that
   can differ from the abstract one only when bytes were returned *)
Lemma rd_step s a c n b :
  R s a -> is_read c = true -> well_formed_call a c ->
  snd (step_abs a c) = RBytes b (nlen b <? n) ->
  R (fst (step s c)) (fst (step_abs a c)) /\
  exists e, snd (step s c) = RBytes b e /\ (nlen b = 0 -> e = (0 <? n)).
Proof.
  intros HR Hc Hwf Hr. destruct (Hrd s a c HR Hc Hwf) as [HR1 Ho].
  split; [exact HR1|]. rewrite Hr in Ho. apply obs_inv in Ho. destruct Ho as (e & -> & He).
  exists e. split; [reflexivity|]. intros Hb. rewrite Hb in He. cbn in He.
  rewrite !Bool.andb_true_r in He. exact He.
Qed.

(* Whatever the implementation does with the flag of a short read (obs-equal to the abstract
   file), two iterations decide the loop and the outcome is the specified one. *)
Theorem read_full_at_spec fuel s d pos off need :
  R s {| a_data := d; a_pos := pos; a_open := true |} ->
  let (s', out) := read_full_at step (2 + fuel) s off need [] in
  R s' {| a_data := d; a_pos := pos; a_open := true |} /\ out = read_full_spec d off need.
Proof.
  intros HR. set (a := {| a_data := d; a_pos := pos; a_open := true |}) in *.
  cbn [Nat.add read_full_at nlen]. unfold read_full_spec. cbv zeta.
  destruct (need <=? 0) eqn:E0.
  { assert (need = 0) as -> by lia. split; [exact HR|]. reflexivity. }
  rewrite N.sub_0_r, N.add_0_r. set (b := read_at d off need).
  destruct (rd_step s a (CReadAt need off) need b HR eq_refl) as (HR1 & e1 & Hr1 & _);
    [unfold well_formed_call; cbn [wf_callb]; lia|reflexivity|].
  destruct (step s (CReadAt need off)) as [s1 r1]. cbn [fst snd] in HR1, Hr1. subst r1.
  cbn [app]. destruct e1; [split; [exact HR1|reflexivity]|].
  destruct (need <=? nlen b) eqn:E1; [split; [exact HR1|reflexivity]|].
  assert (Hshort : nlen b < need) by lia.
  destruct (rd_step s1 a (CReadAt (need - nlen b) (off + nlen b)) (need - nlen b) [] HR1 eq_refl)
    as (HR2 & e2 & Hr2 & He2).
  - unfold well_formed_call. cbn [wf_callb]. lia.
  - unfold step_abs, b. cbn [a a_open a_data negb snd].
    rewrite !read_at_after_short by exact Hshort. reflexivity.
  - destruct (step s1 (CReadAt (need - nlen b) (off + nlen b))) as [s2 r2].
    cbn [fst snd] in HR2, Hr2. subst r2. rewrite (He2 eq_refl), app_nil_r, E1.
    assert (0 <? need - nlen b = true) as -> by lia. split; [exact HR2|reflexivity].
Qed.

Theorem read_full_cur_spec fuel s d pos need :
  R s {| a_data := d; a_pos := pos; a_open := true |} ->
  let (s', out) := read_full_cur step (2 + fuel) s need [] in
  R s' {| a_data := d; a_pos := pos + nlen (read_at d pos need); a_open := true |} /\
  out = read_full_spec d pos need.
Proof.
  intros HR. set (a := {| a_data := d; a_pos := pos; a_open := true |}) in *.
  cbn [Nat.add read_full_cur nlen]. unfold read_full_spec. cbv zeta.
  destruct (need <=? 0) eqn:E0.
  { assert (need = 0) as -> by lia. rewrite read_at_0. cbn [nlen]. rewrite N.add_0_r.
    split; [exact HR|]. reflexivity. }
  rewrite N.sub_0_r. set (b := read_at d pos need).
  set (a1 := {| a_data := d; a_pos := pos + nlen b; a_open := true |}).
  destruct (rd_step s a (CRead need) need b HR eq_refl) as (HR1 & e1 & Hr1 & _);
    [unfold well_formed_call; cbn [wf_callb]; lia|reflexivity|].
  destruct (step s (CRead need)) as [s1 r1]. cbn [fst snd] in HR1, Hr1. subst r1.
  cbn [app]. destruct e1; [split; [exact HR1|reflexivity]|].
  destruct (need <=? nlen b) eqn:E1; [split; [exact HR1|reflexivity]|].
  assert (Hshort : nlen b < need) by lia.
  destruct (rd_step s1 a1 (CRead (need - nlen b)) (need - nlen b) [] HR1 eq_refl)
    as (HR2 & e2 & Hr2 & He2).
  - unfold well_formed_call. cbn [wf_callb]. lia.
  - unfold step_abs. cbn [a1 a_open a_data a_pos negb snd]. unfold b.
    rewrite !read_at_after_short by exact Hshort. reflexivity.
  - destruct (step s1 (CRead (need - nlen b))) as [s2 r2].
    cbn [fst snd] in HR2, Hr2. subst r2. rewrite (He2 eq_refl), app_nil_r, E1.
    assert (0 <? need - nlen b = true) as -> by lia. split; [|reflexivity].
    unfold step_abs in HR2. cbn [a1 a_open a_data a_pos negb fst] in HR2. unfold b in HR2.
    rewrite read_at_after_short in HR2 by exact Hshort. cbn [nlen] in HR2.
    rewrite N.add_0_r in HR2. exact HR2.
Qed.
End ReadFull.

(* reads never need the growth condition *)
Lemma grow_ok_read imm f a c :
  R_mmap imm f a -> is_read c = true -> grow_okb (mm_msize f) a c = true.
Proof.
  intros (_ & _ & _ & Hs & _ & Hcov & Hmap & _ & Hcl) Hc. unfold grow_okb.
  destruct (a_open a) eqn:Eo.
  - specialize (Hcov eq_refl).
    assert (Hd : a_data (fst (step_abs a c)) = a_data a).
    { unfold step_abs. rewrite Eo. cbn [negb].
      destruct c; try discriminate; reflexivity. }
    rewrite Hd. lia.
  - rewrite (Hmap (Hcl eq_refl)). reflexivity.
Qed.

Definition read_full_at_mem := read_full_at_spec step_mem R_mem
  (fun s a c HR _ Hwf => mem_step_fs s a c HR Hwf).
Definition read_full_at_os := read_full_at_spec step_os R_os
  (fun s a c HR _ Hwf => os_step_fs s a c HR Hwf).
Definition read_full_at_mmap imm (Himm : 0 < imm) :=
  read_full_at_spec (step_mmap imm) (R_mmap imm)
    (fun s a c HR Hc Hwf =>
       let H := mmap_step_fs imm Himm s a c HR Hwf (grow_ok_read imm s a c HR Hc) in
       conj (proj1 H) (proj1 (proj2 H))).
Definition read_full_cur_mem := read_full_cur_spec step_mem R_mem
  (fun s a c HR _ Hwf => mem_step_fs s a c HR Hwf).
Definition read_full_cur_os := read_full_cur_spec step_os R_os
  (fun s a c HR _ Hwf => os_step_fs s a c HR Hwf).
Definition read_full_cur_mmap imm (Himm : 0 < imm) :=
  read_full_cur_spec (step_mmap imm) (R_mmap imm)
    (fun s a c HR Hc Hwf =>
       let H := mmap_step_fs imm Himm s a c HR Hwf (grow_ok_read imm s a c HR Hc) in
       conj (proj1 H) (proj1 (proj2 H))).

(* ReadFull over ReadAt of a 3-byte file, 5 bytes wanted from offset 1: fs.Mem needs two
   calls ((2,nil) then (0,EOF)), os.File one ((2,EOF)); same outcome *)
Example read_full_demo :
  snd (read_full_at step_mem 2 (mem_open [1;2;3]) 1 5 []) = ([2;3], RFUnexpectedEOF) /\
  snd (read_full_at step_os 1 (os_open [1;2;3]) 1 5 []) = ([2;3], RFUnexpectedEOF) /\
  snd (read_full_at step_mem 1 (mem_open [1;2;3]) 1 5 []) = ([2;3], RFFuel) /\
  snd (read_full_cur (step_mmap 4) 2 (mmap_open 4 [1;2;3]) 3 []) = ([1;2;3], RFFull) /\
  snd (read_full_cur step_mem 2 (mem_open []) 3 []) = ([], RFEOF).
Proof. vm_compute. auto 6. Qed.

(* the growth steps of the database satisfy the sufficient condition *)

(* initialMmapSize = 1024 << 20; the largest record is 512 MiB + 64 KiB + 10 bytes
   (MaxValueLength + MaxKeyLength + 6-byte sizes + 4-byte CRC); buckets and headers are 512 *)
Definition initialMmapSize : N := 1073741824.
Definition maxRecordSize : N := 536936458.

Lemma db_append_small a p off :
  a_open a = true -> off <= nlen (a_data a) -> nlen p <= maxRecordSize ->
  small_growb initialMmapSize a (CWriteAt p off) = true.
Proof.
  intros Ho Hoff Hp. unfold small_growb, step_abs. rewrite Ho.
  cbn [negb fst a_data]. rewrite nlen_write_at.
  unfold initialMmapSize, maxRecordSize in *. lia.
Qed.

Lemma db_extend_small a n :
  a_open a = true -> n <= 512 ->
  small_growb initialMmapSize a (CTruncate (nlen (a_data a) + n)) = true.
Proof.
  intros Ho Hn. unfold small_growb, step_abs. rewrite Ho.
  cbn [negb fst a_data]. rewrite nlen_truncate.
  unfold initialMmapSize. lia.
Qed.

(* a stale wrapper size (D2) adds the stale gap to the growth of one append: still fine as
   long as gap + record <= initialMmapSize *)
Lemma db_stale_append_small a p sz :
  a_open a = true -> sz + nlen p <= nlen (a_data a) + initialMmapSize ->
  small_growb initialMmapSize a (CWriteAt p sz) = true.
Proof.
  intros Ho H. unfold small_growb, step_abs. rewrite Ho.
  cbn [negb fst a_data]. rewrite nlen_write_at. lia.
Qed.

Print Assumptions C17_fs_equivalent.
Print Assumptions C17_fs_equivalent_small.
Print Assumptions C17_mmap_never_panics.
Print Assumptions C17_mmap_invariant.
Print Assumptions mmap_gap_refuted.
Print Assumptions file_wrapper_append.
Print Assumptions file_wrapper_stale_gap.
Print Assumptions file_wrapper_append_mmap.
Print Assumptions read_full_at_mmap.
Print Assumptions read_full_cur_mem.
