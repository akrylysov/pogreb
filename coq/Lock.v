(* Lock.v -- the lock-file protocol of pogreb (fs/os_unix.go createLockFile,
   fs/os.go osLockFile.Unlock) at system-call granularity, for an unbounded
   number of processes, all interleavings, and process death at any point.

   The model proper is the CURRENT (repaired) protocol
             create(O_EXCL) | open ; flock(LOCK_EX|LOCK_NB) ;
             verify (fstat + stat(path), reads the size) ; mark (write one byte)
             release = unlink ; close
   with an inductive invariant from which the C13_* theorems follow.  Module
   NoMark is the intermediate repair (verify but no mark) with the race that
   makes the mark necessary; module Pinned is the old protocol
   (stat ; open(O_CREATE) ; flock) with its refutation witnesses.

   Standard library only; no axioms. *)

From Coq Require Import Arith List Lia Bool.
Import ListNotations.

Definition upd {A} (f : nat -> A) (k : nat) (v : A) : nat -> A :=
  fun x => if Nat.eqb x k then v else f x.

Lemma upd_same {A} (f : nat -> A) k v : upd f k v k = v.
Proof. unfold upd. now rewrite Nat.eqb_refl. Qed.
Lemma upd_other {A} (f : nat -> A) k v x : x <> k -> upd f k v x = f x.
Proof. unfold upd. intros H. destruct (Nat.eqb_spec x k); congruence. Qed.

(* A schedule is a list of events.  [Step p] lets process p perform its next
   system call; [Acquire p] makes an idle process enter createLockFile;
   [Release p] makes a holder enter Unlock; [Die p] kills p (the kernel closes
   its descriptor, which drops its flock; the path is not removed).  Events
   that are not enabled (Acquire of a busy process, Release of a non-holder,
   Step of an idle process or of a holder) are no-ops. *)
Inductive event := Step (p : nat) | Acquire (p : nat) | Release (p : nat) | Die (p : nat).

Definition actor (e : event) : nat :=
  match e with Step p | Acquire p | Release p | Die p => p end.

Definition is_die (e : event) : bool := match e with Die _ => true | _ => false end.

(* Observable result of the last finished acquisition attempt of a process. *)
Inductive outcome := NoResult | Succeeded (existing : bool) | FailedLocked.

(* Program counter = the next system call the process will perform. *)
Inductive pc :=
| Idle        (* not in createLockFile/Unlock (also: dead)                          *)
| TryCreate   (* next: open(O_RDWR|O_CREATE|O_EXCL)   -- top of the for loop "lock.create" *)
| WantOpen    (* got EEXIST; next: open(O_RDWR)                          "lock.open"   *)
| HaveFd      (* has a descriptor; next: flock(LOCK_EX|LOCK_NB)          "lock.flock"  *)
| Locked      (* holds the flock; next: fstat + stat(path) verify        "lock.verify" *)
| Verified    (* verify passed; next: WriteAt([1],0)                     "lock.mark"   *)
| Holder      (* createLockFile returned success; Unlock not yet entered              *)
| Releasing   (* in Unlock; next: unlink(path)                           "unlock.remove" *)
| Unlinked.   (* in Unlock; next: close(fd)                              "unlock.close"  *)

Record proc := {
  ppc       : pc;
  pfd       : nat;      (* inode of the open descriptor (meaningful when hasfdb ppc) *)
  pexisting : bool;     (* local variable acquiredExisting                            *)
  pres      : outcome;  (* result of the last finished attempt (observable)           *)
  pborn     : nat       (* GHOST: value of [next] when the current attempt started    *)
}.

Definition mkp c fd ex r b : proc :=
  {| ppc := c; pfd := fd; pexisting := ex; pres := r; pborn := b |}.

Record kst := {
  path       : option nat;        (* inode the lock path names, if any               *)
  next       : nat;               (* fresh inode counter                             *)
  lockedby   : nat -> option nat; (* per inode: the process whose descriptor holds the flock *)
  marked     : nat -> bool;       (* per inode: file size <> 0 (the mark byte was written)   *)
  procs      : nat -> proc;
  created_by : nat -> nat;        (* GHOST: per inode, the process whose O_EXCL create made it *)
  owners     : nat -> nat         (* GHOST: per inode, number of acquisitions completed on it *)
}.

Definition init : kst :=
  {| path := None; next := 0; lockedby := fun _ => None; marked := fun _ => false;
     procs := fun _ => mkp Idle 0 false NoResult 0;
     created_by := fun _ => 0; owners := fun _ => 0 |}.

Definition setp (s : kst) (p : nat) (q : proc) : kst :=
  {| path := path s; next := next s; lockedby := lockedby s; marked := marked s;
     procs := upd (procs s) p q; created_by := created_by s; owners := owners s |}.

(* process holds the flock on pfd *)
Definition holdsb (c : pc) : bool :=
  match c with Locked | Verified | Holder | Releasing | Unlinked => true | _ => false end.
(* process has an open descriptor on pfd *)
Definition hasfdb (c : pc) : bool :=
  match c with HaveFd | Locked | Verified | Holder | Releasing | Unlinked => true | _ => false end.
(* process has verified that the path names pfd, and has not unlinked it *)
Definition ownsb (c : pc) : bool :=
  match c with Verified | Holder | Releasing => true | _ => false end.
(* process is "in session": acquire returned success, path not yet unlinked *)
Definition sessb (c : pc) : bool :=
  match c with Holder | Releasing => true | _ => false end.
Definition verifb (c : pc) : bool :=
  match c with Verified => true | _ => false end.
(* acquire returned success and the process has not finished Unlock *)
Definition postb (c : pc) : bool :=
  match c with Holder | Releasing | Unlinked => true | _ => false end.

Definition path_is (s : kst) (i : nat) : bool :=
  match path s with Some j => Nat.eqb j i | None => false end.

(* The next system call of process p.  Deterministic. *)
Definition run_proc (s : kst) (p : nat) : kst :=
  let q := procs s p in
  match ppc q with
  | Idle => s
  | Holder => s
  | TryCreate =>
      match path s with
      | None =>      (* O_EXCL create succeeds: fresh, empty inode; path now names it *)
          {| path := Some (next s); next := S (next s); lockedby := lockedby s;
             marked := marked s;
             procs := upd (procs s) p (mkp HaveFd (next s) false NoResult (pborn q));
             created_by := upd (created_by s) (next s) p; owners := owners s |}
      | Some _ =>    (* EEXIST *)
          setp s p (mkp WantOpen 0 true NoResult (pborn q))
      end
  | WantOpen =>
      match path s with
      | Some i => setp s p (mkp HaveFd i true NoResult (pborn q))
      | None   => setp s p (mkp TryCreate 0 false NoResult (pborn q))   (* ENOENT: continue *)
      end
  | HaveFd =>
      match lockedby s (pfd q) with
      | None =>      (* flock succeeds *)
          {| path := path s; next := next s;
             lockedby := upd (lockedby s) (pfd q) (Some p); marked := marked s;
             procs := upd (procs s) p (mkp Locked (pfd q) (pexisting q) NoResult (pborn q));
             created_by := created_by s; owners := owners s |}
      | Some _ =>    (* EWOULDBLOCK: close, return ErrExist ("locked") *)
          setp s p (mkp Idle 0 false FailedLocked (pborn q))
      end
  | Locked =>
      if path_is s (pfd q)
      then           (* SameFile; acquiredExisting |= (size <> 0) *)
          setp s p (mkp Verified (pfd q) (pexisting q || marked s (pfd q)) NoResult (pborn q))
      else           (* path gone or names another inode: close, continue *)
          {| path := path s; next := next s;
             lockedby := upd (lockedby s) (pfd q) None; marked := marked s;
             procs := upd (procs s) p (mkp TryCreate 0 false NoResult (pborn q));
             created_by := created_by s; owners := owners s |}
  | Verified =>      (* WriteAt([1],0), then return success *)
      {| path := path s; next := next s; lockedby := lockedby s;
         marked := upd (marked s) (pfd q) true;
         procs := upd (procs s) p
                    (mkp Holder (pfd q) (pexisting q) (Succeeded (pexisting q)) (pborn q));
         created_by := created_by s;
         owners := upd (owners s) (pfd q) (S (owners s (pfd q))) |}
  | Releasing =>     (* os.Remove(path) *)
      {| path := None; next := next s; lockedby := lockedby s; marked := marked s;
         procs := upd (procs s) p (mkp Unlinked (pfd q) (pexisting q) (pres q) (pborn q));
         created_by := created_by s; owners := owners s |}
  | Unlinked =>      (* f.Close(): drops the flock *)
      {| path := path s; next := next s;
         lockedby := upd (lockedby s) (pfd q) None; marked := marked s;
         procs := upd (procs s) p (mkp Idle 0 false (pres q) (pborn q));
         created_by := created_by s; owners := owners s |}
  end.

Definition start_acquire (s : kst) (p : nat) : kst :=
  match ppc (procs s p) with
  | Idle => setp s p (mkp TryCreate 0 false NoResult (next s))
  | _ => s
  end.

Definition start_release (s : kst) (p : nat) : kst :=
  let q := procs s p in
  match ppc q with
  | Holder => setp s p (mkp Releasing (pfd q) (pexisting q) (pres q) (pborn q))
  | _ => s
  end.

(* Process death: the kernel closes the descriptor (dropping the flock if the
   process holds it); the path and the file contents stay. *)
Definition die (s : kst) (p : nat) : kst :=
  let q := procs s p in
  {| path := path s; next := next s;
     lockedby := if holdsb (ppc q) then upd (lockedby s) (pfd q) None else lockedby s;
     marked := marked s;
     procs := upd (procs s) p (mkp Idle 0 false NoResult (pborn q));
     created_by := created_by s; owners := owners s |}.

Definition apply_event (s : kst) (e : event) : kst :=
  match e with
  | Step p => run_proc s p
  | Acquire p => start_acquire s p
  | Release p => start_release s p
  | Die p => die s p
  end.

Definition exec (evs : list event) (s : kst) : kst := fold_left apply_event evs s.

Lemma exec_cons e evs s : exec (e :: evs) s = exec evs (apply_event s e).
Proof. reflexivity. Qed.

Lemma exec_app evs1 evs2 s : exec (evs1 ++ evs2) s = exec evs2 (exec evs1 s).
Proof. apply fold_left_app. Qed.

Lemma exec_snoc evs e s : exec (evs ++ [e]) s = apply_event (exec evs s) e.
Proof. now rewrite exec_app. Qed.

(* What a harness compares with the real code. *)
Definition obs (s : kst) (p : nat) := (ppc (procs s p), pfd (procs s p), pres (procs s p)).

Record Inv (s : kst) : Prop := {
  i_path_fresh : forall i, path s = Some i -> i < next s;
  i_fd_fresh   : forall p, hasfdb (ppc (procs s p)) = true -> pfd (procs s p) < next s;
  i_owner      : forall i p, lockedby s i = Some p ->
                   pfd (procs s p) = i /\ holdsb (ppc (procs s p)) = true;
  i_holds      : forall p, holdsb (ppc (procs s p)) = true ->
                   lockedby s (pfd (procs s p)) = Some p;
  i_owns_path  : forall p, ownsb (ppc (procs s p)) = true -> path s = Some (pfd (procs s p));
  i_fresh_flag : forall p, hasfdb (ppc (procs s p)) = true -> pexisting (procs s p) = false ->
                   pborn (procs s p) <= pfd (procs s p) /\ created_by s (pfd (procs s p)) = p;
  i_born       : forall p, pborn (procs s p) <= next s;
  i_result     : forall p, sessb (ppc (procs s p)) = true ->
                   pres (procs s p) = Succeeded (pexisting (procs s p));
  i_marked_fresh : forall i, marked s i = true -> i < next s;
  i_unmarked   : forall i, marked s i = false -> owners s i = 0;
  i_marked     : forall i, marked s i = true -> 0 < owners s i;
  i_verified   : forall p, verifb (ppc (procs s p)) = true -> pexisting (procs s p) = false ->
                   marked s (pfd (procs s p)) = false;
  i_sole_owner : forall p, sessb (ppc (procs s p)) = true -> pexisting (procs s p) = false ->
                   owners s (pfd (procs s p)) = 1;
  i_sess_marked : forall p, sessb (ppc (procs s p)) = true -> marked s (pfd (procs s p)) = true }.

Lemma sess_owns c : sessb c = true -> ownsb c = true.
Proof. destruct c; cbn; congruence. Qed.
Lemma verif_owns c : verifb c = true -> ownsb c = true.
Proof. destruct c; cbn; congruence. Qed.
Lemma owns_holds c : ownsb c = true -> holdsb c = true.
Proof. destruct c; cbn; congruence. Qed.

Lemma path_is_true s i : path_is s i = true <-> path s = Some i.
Proof.
  unfold path_is. destruct (path s) as [j|]; [|split; discriminate].
  rewrite Nat.eqb_eq. split; congruence.
Qed.

(* What a system call can do to the state outside the caller's own record. *)
Definition set_lock (s : kst) (i : nat) (v : option nat) : kst :=
  {| path := path s; next := next s; lockedby := upd (lockedby s) i v; marked := marked s;
     procs := procs s; created_by := created_by s; owners := owners s |}.
Definition create (s : kst) (p : nat) : kst :=
  {| path := Some (next s); next := S (next s); lockedby := lockedby s; marked := marked s;
     procs := procs s; created_by := upd (created_by s) (next s) p; owners := owners s |}.
Definition mark (s : kst) (i : nat) : kst :=
  {| path := path s; next := next s; lockedby := lockedby s; marked := upd (marked s) i true;
     procs := procs s; created_by := created_by s;
     owners := upd (owners s) i (S (owners s i)) |}.
Definition unlink (s : kst) : kst :=
  {| path := None; next := next s; lockedby := lockedby s; marked := marked s;
     procs := procs s; created_by := created_by s; owners := owners s |}.

(* [kstep s e s1 q']: event [e] is enabled in [s]; it turns the rest of the state into [s1] and the
   record of its actor into [q'].  One constructor per leaf of [apply_event]. *)
Inductive kstep (s : kst) : event -> kst -> proc -> Prop :=
| k_create p : ppc (procs s p) = TryCreate -> path s = None ->
    kstep s (Step p) (create s p) (mkp HaveFd (next s) false NoResult (pborn (procs s p)))
| k_eexist p i : ppc (procs s p) = TryCreate -> path s = Some i ->
    kstep s (Step p) s (mkp WantOpen 0 true NoResult (pborn (procs s p)))
| k_open p i : ppc (procs s p) = WantOpen -> path s = Some i ->
    kstep s (Step p) s (mkp HaveFd i true NoResult (pborn (procs s p)))
| k_enoent p : ppc (procs s p) = WantOpen -> path s = None ->
    kstep s (Step p) s (mkp TryCreate 0 false NoResult (pborn (procs s p)))
| k_flock p : ppc (procs s p) = HaveFd -> lockedby s (pfd (procs s p)) = None ->
    kstep s (Step p) (set_lock s (pfd (procs s p)) (Some p))
      (mkp Locked (pfd (procs s p)) (pexisting (procs s p)) NoResult (pborn (procs s p)))
| k_busy p r : ppc (procs s p) = HaveFd -> lockedby s (pfd (procs s p)) = Some r ->
    kstep s (Step p) s (mkp Idle 0 false FailedLocked (pborn (procs s p)))
| k_verify p : ppc (procs s p) = Locked -> path s = Some (pfd (procs s p)) ->
    kstep s (Step p) s
      (mkp Verified (pfd (procs s p)) (pexisting (procs s p) || marked s (pfd (procs s p))) NoResult
         (pborn (procs s p)))
| k_retry p : ppc (procs s p) = Locked -> path s <> Some (pfd (procs s p)) ->
    kstep s (Step p) (set_lock s (pfd (procs s p)) None)
      (mkp TryCreate 0 false NoResult (pborn (procs s p)))
| k_mark p : ppc (procs s p) = Verified ->
    kstep s (Step p) (mark s (pfd (procs s p)))
      (mkp Holder (pfd (procs s p)) (pexisting (procs s p)) (Succeeded (pexisting (procs s p)))
         (pborn (procs s p)))
| k_unlink p : ppc (procs s p) = Releasing ->
    kstep s (Step p) (unlink s)
      (mkp Unlinked (pfd (procs s p)) (pexisting (procs s p)) (pres (procs s p)) (pborn (procs s p)))
| k_close p : ppc (procs s p) = Unlinked ->
    kstep s (Step p) (set_lock s (pfd (procs s p)) None)
      (mkp Idle 0 false (pres (procs s p)) (pborn (procs s p)))
| k_acquire p : ppc (procs s p) = Idle ->
    kstep s (Acquire p) s (mkp TryCreate 0 false NoResult (next s))
| k_release p : ppc (procs s p) = Holder ->
    kstep s (Release p) s
      (mkp Releasing (pfd (procs s p)) (pexisting (procs s p)) (pres (procs s p)) (pborn (procs s p)))
| k_die_held p : holdsb (ppc (procs s p)) = true ->
    kstep s (Die p) (set_lock s (pfd (procs s p)) None) (mkp Idle 0 false NoResult (pborn (procs s p)))
| k_die_free p : holdsb (ppc (procs s p)) = false ->
    kstep s (Die p) s (mkp Idle 0 false NoResult (pborn (procs s p))).

Lemma apply_event_cases s e :
  apply_event s e = s \/
  exists s1 q', kstep s e s1 q' /\ apply_event s e = setp s1 (actor e) q'.
Proof.
  destruct e as [p|p|p|p]; cbn [apply_event actor].
  - unfold run_proc. cbv zeta.
    destruct (ppc (procs s p)) eqn:E; auto; right;
      [destruct (path s) eqn:P | destruct (path s) eqn:P
      | destruct (lockedby s (pfd (procs s p))) eqn:L
      | destruct (path_is s (pfd (procs s p))) eqn:P;
        [apply path_is_true in P
        |assert (path s <> Some (pfd (procs s p))) by (rewrite <- path_is_true; congruence)]
      | | | ];
      eexists _, _; (split; [econstructor; eassumption | reflexivity]).
  - unfold start_acquire. destruct (ppc (procs s p)) eqn:E; auto; right.
    eexists _, _; split; [econstructor; eassumption | reflexivity].
  - unfold start_release. cbv zeta. destruct (ppc (procs s p)) eqn:E; auto; right.
    eexists _, _; split; [econstructor; eassumption | reflexivity].
  - right. unfold die. cbv zeta. destruct (holdsb (ppc (procs s p))) eqn:E;
      eexists _, _; (split; [econstructor; eassumption | reflexivity]).
Qed.

Lemma kstep_procs s e s1 q' : kstep s e s1 q' -> procs s1 = procs s.
Proof. destruct 1; reflexivity. Qed.

(* The invariant, split into what speaks of the files and what speaks of one process. *)

Record GI (s : kst) : Prop := {
  g_path_fresh   : forall i, path s = Some i -> i < next s;
  g_marked_fresh : forall i, marked s i = true -> i < next s;
  g_unmarked     : forall i, marked s i = false -> owners s i = 0;
  g_marked       : forall i, marked s i = true -> 0 < owners s i }.

(* [q] is the record of process [p]; of [s] only the other fields are looked at *)
Record PI (s : kst) (p : nat) (q : proc) : Prop := {
  p_fd_fresh    : hasfdb (ppc q) = true -> pfd q < next s;
  p_owner       : forall i, lockedby s i = Some p -> pfd q = i /\ holdsb (ppc q) = true;
  p_holds       : holdsb (ppc q) = true -> lockedby s (pfd q) = Some p;
  p_owns_path   : ownsb (ppc q) = true -> path s = Some (pfd q);
  p_fresh_flag  : hasfdb (ppc q) = true -> pexisting q = false ->
                    pborn q <= pfd q /\ created_by s (pfd q) = p;
  p_born        : pborn q <= next s;
  p_result      : sessb (ppc q) = true -> pres q = Succeeded (pexisting q);
  p_verified    : verifb (ppc q) = true -> pexisting q = false -> marked s (pfd q) = false;
  p_sole_owner  : sessb (ppc q) = true -> pexisting q = false -> owners s (pfd q) = 1;
  p_sess_marked : sessb (ppc q) = true -> marked s (pfd q) = true }.

Lemma Inv_split s : Inv s <-> GI s /\ forall p, PI s p (procs s p).
Proof.
  split.
  - intros []. split; [|intros p]; constructor; auto.
  - intros [G P]. constructor; try apply G; intros; destruct (P p); auto.
Qed.

(* the shape of every enabled event *)
Lemma Inv_setp s1 p q' :
  GI s1 -> (forall r, r <> p -> PI s1 r (procs s1 r)) -> PI s1 p q' -> Inv (setp s1 p q').
Proof.
  intros G F P. apply Inv_split. split; [destruct G; constructor; assumption|].
  intros r. cbn [setp procs]. destruct (Nat.eq_dec r p) as [->|NE].
  - rewrite upd_same. destruct P; constructor; assumption.
  - rewrite upd_other by exact NE. destruct (F r NE); constructor; assumption.
Qed.

(* an inode whose flock [p] holds is not the descriptor of any other holder *)
Lemma PI_not_mine s r q i p : PI s r q -> lockedby s i = Some p -> r <> p ->
  holdsb (ppc q) = true -> pfd q <> i.
Proof. intros P L NE H <-. rewrite (p_holds _ _ _ P H) in L. congruence. Qed.

(* The clauses of the OTHER processes survive each of the four effects. *)
Lemma PI_create s p r q : path s = None -> PI s r q -> PI (create s p) r q.
Proof.
  intros N P. pose proof (p_fd_fresh _ _ _ P) as F. destruct P. constructor; cbn; auto.
  - intros H. specialize (F H). lia.
  - intros O. rewrite p_owns_path0 in N by exact O. discriminate.
  - intros H X. rewrite upd_other by (specialize (F H); lia). auto.
Qed.

Lemma PI_lock s p r q i : lockedby s i = None -> r <> p -> PI s r q -> PI (set_lock s i (Some p)) r q.
Proof.
  intros L NE P. destruct P. constructor; cbn; auto.
  - intros j. unfold upd. destruct (Nat.eqb j i); [congruence|auto].
  - intros H. rewrite upd_other; auto. intros E. rewrite E, L in p_holds0. discriminate (p_holds0 H).
Qed.

Lemma PI_unlock s p r q i : lockedby s i = Some p -> r <> p -> PI s r q -> PI (set_lock s i None) r q.
Proof.
  intros L NE P. pose proof (PI_not_mine _ _ _ _ _ P L NE) as N. destruct P. constructor; cbn; auto.
  - intros j. unfold upd. destruct (Nat.eqb j i); [discriminate|auto].
  - intros H. rewrite upd_other; auto.
Qed.

Lemma PI_mark s p r q i : lockedby s i = Some p -> r <> p -> PI s r q -> PI (mark s i) r q.
Proof.
  intros L NE P. pose proof (PI_not_mine _ _ _ _ _ P L NE) as N. destruct P.
  constructor; cbn; auto; intros H.
  - rewrite upd_other; auto using verif_owns, owns_holds.
  - rewrite upd_other; auto using sess_owns, owns_holds.
  - rewrite upd_other; auto using sess_owns, owns_holds.
Qed.

Lemma PI_unlink s p r q i : path s = Some i -> lockedby s i = Some p -> r <> p ->
  PI s r q -> PI (unlink s) r q.
Proof.
  intros Pa L NE P. pose proof (PI_not_mine _ _ _ _ _ P L NE) as N. destruct P.
  constructor; cbn; auto.
  intros O. exfalso. apply N; [auto using owns_holds|]. rewrite p_owns_path0 in Pa by exact O. congruence.
Qed.

Lemma GI_create s p : GI s -> GI (create s p).
Proof.
  intros []. constructor; cbn; auto.
  - intros i [= <-]. lia.
  - intros i M. specialize (g_marked_fresh0 i M). lia.
Qed.

Lemma GI_set_lock s i v : GI s -> GI (set_lock s i v).
Proof. intros []. constructor; assumption. Qed.

Lemma GI_unlink s : GI s -> GI (unlink s).
Proof. intros []. constructor; cbn; auto. discriminate. Qed.

Lemma GI_mark s i : i < next s -> GI s -> GI (mark s i).
Proof.
  intros F []. constructor; cbn; auto; intros j; unfold upd; destruct (Nat.eqb_spec j i); auto.
  - subst; auto.
  - discriminate.
  - lia.
Qed.

(* a process without descriptor and without flock satisfies its clauses for lack of premises *)
Lemma PI_nofd s p q : hasfdb (ppc q) = false -> pborn q <= next s ->
  (forall i, lockedby s i <> Some p) -> PI s p q.
Proof.
  intros F B L. constructor; auto; try (intros H; exfalso; revert F H; destruct (ppc q); discriminate).
  intros i H. destruct (L i H).
Qed.

Lemma inv_init : Inv init.
Proof.
  constructor; cbn; intros; try congruence; try lia.
Qed.

(* a process that holds no flock owns no entry of [lockedby]; one that drops its flock neither *)
Lemma no_flock s p q : PI s p q -> holdsb (ppc q) = false -> forall i, lockedby s i <> Some p.
Proof. intros P H i L. destruct (p_owner _ _ _ P i L). congruence. Qed.

Lemma unlock_mine s p q : PI s p q -> forall i, lockedby (set_lock s (pfd q) None) i <> Some p.
Proof.
  intros P i. cbn. unfold upd. destruct (Nat.eqb_spec i (pfd q)) as [->|NE]; [discriminate|].
  intros L. destruct (p_owner _ _ _ P i L). congruence.
Qed.

(* events after which the actor has no descriptor: it had no flock, or drops the one it had *)
Lemma inv_nofd s p q' : Inv s -> holdsb (ppc (procs s p)) = false ->
  hasfdb (ppc q') = false -> pborn q' <= next s -> Inv (setp s p q').
Proof.
  intros I H F B. apply Inv_split in I. destruct I as [G P]. apply Inv_setp; auto.
  apply PI_nofd; auto. apply (no_flock _ _ _ (P p) H).
Qed.

Lemma inv_unlock s p q' : Inv s -> holdsb (ppc (procs s p)) = true ->
  hasfdb (ppc q') = false -> pborn q' <= next s ->
  Inv (setp (set_lock s (pfd (procs s p)) None) p q').
Proof.
  intros I H F B. apply Inv_split in I. destruct I as [G P]. apply Inv_setp.
  - apply GI_set_lock, G.
  - intros r NE. exact (PI_unlock s p r _ _ (p_holds _ _ _ (P p) H) NE (P r)).
  - apply PI_nofd; auto. apply (unlock_mine _ _ _ (P p)).
Qed.

(* The other events, per leaf: the file clauses, the other processes (framed), the actor's own
   clauses; [Pp] holds the actor's clauses before the event, specialised to its program counter. *)
Lemma inv_kstep s e s1 q' : Inv s -> kstep s e s1 q' -> Inv (setp s1 (actor e) q').
Proof.
  intros I K. pose proof (i_born s I) as B. destruct (proj1 (Inv_split s) I) as [G P].
  destruct K as [p E N|p i E Pa|p i E Pa|p E N|p E L|p r E L|p E Pa|p E NP|p E|p E|p E|p E|p E|p H|p H];
    cbn [actor]; pose proof (P p) as Pp.
  - (* create *) apply Inv_setp.
    + apply GI_create, G.
    + intros r _. exact (PI_create s p r _ N (P r)).
    + pose proof (no_flock _ _ _ Pp) as NF. rewrite E in NF.
      constructor; cbn; try (intros; discriminate); auto.
      * intros i L. destruct (NF eq_refl i L).
      * intros _ _. split; [apply B|apply upd_same].
  - (* EEXIST *) apply inv_nofd; cbn; auto. rewrite E. reflexivity.
  - (* open *) apply Inv_setp; auto.
    pose proof (no_flock _ _ _ Pp) as NF. rewrite E in NF.
    constructor; cbn; try (intros; discriminate); auto.
    + intros _. exact (g_path_fresh s G i Pa).
    + intros j L. destruct (NF eq_refl j L).
  - (* ENOENT *) apply inv_nofd; cbn; auto. rewrite E. reflexivity.
  - (* flock *) apply Inv_setp.
    + apply GI_set_lock, G.
    + intros r NE. exact (PI_lock s p r _ _ L NE (P r)).
    + pose proof (no_flock _ _ _ Pp) as NF. destruct Pp as [F _ _ _ FF _ _ _ _ _].
      rewrite E in NF, F, FF. constructor; cbn; try (intros; discriminate); auto.
      * intros j. unfold upd. destruct (Nat.eqb_spec j (pfd (procs s p))) as [->|NE]; [auto|].
        intros L'. destruct (NF eq_refl j L').
      * intros _. apply upd_same.
  - (* EWOULDBLOCK *) apply inv_nofd; cbn; auto. rewrite E. reflexivity.
  - (* verify *) apply Inv_setp; auto.
    destruct Pp as [F O H _ FF _ _ _ _ _]. rewrite E in F, O, H, FF.
    constructor; cbn; try (intros; discriminate); auto.
    + intros _ X. apply orb_false_elim in X. apply FF; tauto.
    + intros _ X. apply orb_false_elim in X. tauto.
  - (* verify fails *) apply inv_unlock; cbn; auto. rewrite E. reflexivity.
  - (* mark *) apply Inv_setp.
    + apply GI_mark; [apply Pp; rewrite E; reflexivity|exact G].
    + intros r NE. refine (PI_mark s p r _ _ _ NE (P r)). apply Pp. rewrite E. reflexivity.
    + destruct Pp as [F O H Op FF _ _ V _ _]. rewrite E in F, O, H, Op, FF, V.
      constructor; cbn; try (intros; discriminate); auto.
      * (* reported fresh: the file was unmarked, so nobody had completed an acquisition on it *)
        intros _ X. rewrite upd_same, (g_unmarked s G _ (V eq_refl X)). reflexivity.
      * intros _. apply upd_same.
  - (* unlink *) apply Inv_setp.
    + apply GI_unlink, G.
    + intros r NE. refine (PI_unlink s p r _ (pfd (procs s p)) _ _ NE (P r)); apply Pp; rewrite E; reflexivity.
    + destruct Pp as [F O H _ FF _ _ _ _ _]. rewrite E in F, O, H, FF.
      constructor; cbn; try (intros; discriminate); auto.
  - (* close *) apply inv_unlock; cbn; auto. rewrite E. reflexivity.
  - (* Acquire *) apply inv_nofd; cbn; auto. rewrite E. reflexivity.
  - (* Release *) apply Inv_setp; auto.
    destruct Pp as [F O H Op FF _ R V SO SM]. rewrite E in F, O, H, Op, FF, R, SO, SM.
    constructor; cbn; try (intros; discriminate); auto.
  - (* Die *) apply inv_unlock; cbn; auto.
  - apply inv_nofd; cbn; auto.
Qed.

Lemma inv_apply_event s e : Inv s -> Inv (apply_event s e).
Proof.
  intros I. destruct (apply_event_cases s e) as [->|(s1 & q' & K & ->)]; [exact I|].
  exact (inv_kstep s e s1 q' I K).
Qed.

Lemma inv_exec evs : forall s, Inv s -> Inv (exec evs s).
Proof.
  induction evs as [|e evs IH]; intros s I; cbn; auto.
  apply IH, inv_apply_event, I.
Qed.

Lemma inv_reachable evs : Inv (exec evs init).
Proof. apply inv_exec, inv_init. Qed.

Lemma inv_owner_owns s p : Inv s -> ownsb (ppc (procs s p)) = true ->
  path s = Some (pfd (procs s p)) /\ lockedby s (pfd (procs s p)) = Some p.
Proof.
  intros I H. split.
  - apply (i_owns_path s I p H).
  - apply (i_holds s I p), owns_holds, H.
Qed.

(* a flock has one holder *)
Lemma holds_inj s p r : Inv s ->
  holdsb (ppc (procs s p)) = true -> holdsb (ppc (procs s r)) = true ->
  pfd (procs s p) = pfd (procs s r) -> p = r.
Proof.
  intros I Hp Hr E. pose proof (i_holds s I p Hp) as Lp. pose proof (i_holds s I r Hr) as Lr.
  rewrite E in Lp. congruence.
Qed.

Lemma inv_owner_unique s p q : Inv s ->
  ownsb (ppc (procs s p)) = true -> ownsb (ppc (procs s q)) = true -> p = q.
Proof.
  intros I Hp Hq. apply (holds_inj s p q I); auto using owns_holds.
  pose proof (i_owns_path s I p Hp). pose proof (i_owns_path s I q Hq). congruence.
Qed.

Lemma holder_sess s p : ppc (procs s p) = Holder -> sessb (ppc (procs s p)) = true.
Proof. intros ->. reflexivity. Qed.

Theorem C13_mutual_exclusion : forall evs p q,
  let s := exec evs init in
  ppc (procs s p) = Holder -> ppc (procs s q) = Holder -> p = q.
Proof.
  intros evs p q s Hp Hq.
  apply (inv_owner_unique s p q (inv_reachable evs)); apply sess_owns; now apply holder_sess.
Qed.

(** Stronger: exclusion covers the whole interval from a successful verify
    until the holder's unlink (pc Verified, Holder or Releasing). *)
Theorem C13_mutual_exclusion_strong : forall evs p q,
  let s := exec evs init in
  ownsb (ppc (procs s p)) = true -> ownsb (ppc (procs s q)) = true -> p = q.
Proof.
  intros evs p q s. apply inv_owner_unique, inv_reachable.
Qed.

Theorem C13_holder_owns_path : forall evs p,
  let s := exec evs init in
  ppc (procs s p) = Holder ->
  path s = Some (pfd (procs s p)) /\ lockedby s (pfd (procs s p)) = Some p.
Proof.
  intros evs p s H. apply inv_owner_owns. apply inv_reachable.
  apply sess_owns. now apply holder_sess.
Qed.

Theorem C13_holder_result : forall evs p,
  let s := exec evs init in
  ppc (procs s p) = Holder -> pres (procs s p) = Succeeded (pexisting (procs s p)).
Proof.
  intros evs p s H. apply (i_result s (inv_reachable evs)). now apply holder_sess.
Qed.

(** Transition form.  When an acquisition completes (the mark step of a
    Verified process) and reports [existing = false], NO process has ever
    completed an acquisition on that inode before: the file is still empty and
    its ghost owner count is 0.  Hence no unclean leftover is ever missed. *)
Theorem C13_fresh_means_never_owned : forall evs p,
  let s := exec evs init in
  let s' := run_proc s p in
  ppc (procs s p) = Verified ->
  pres (procs s' p) = Succeeded false ->
  ppc (procs s' p) = Holder
  /\ marked s (pfd (procs s p)) = false /\ owners s (pfd (procs s p)) = 0.
Proof.
  intros evs p s s' E R.
  assert (I : Inv s) by apply inv_reachable.
  unfold s', run_proc in *. cbv zeta in *. rewrite E in *. cbn in *.
  rewrite upd_same in *. cbn in *.
  assert (X : pexisting (procs s p) = false) by congruence.
  assert (M : marked s (pfd (procs s p)) = false).
  { apply (i_verified s I p); auto. rewrite E. reflexivity. }
  auto using (i_unmarked s I).
Qed.

(** State form.  A holder whose result is [Succeeded false] holds an inode
    that was created by the O_EXCL create of this very attempt, and its own
    acquisition is the only one ever completed on that inode. *)
Theorem C13_fresh_only_if_created : forall evs p,
  let s := exec evs init in
  ppc (procs s p) = Holder -> pres (procs s p) = Succeeded false ->
  owners s (pfd (procs s p)) = 1
  /\ created_by s (pfd (procs s p)) = p
  /\ pborn (procs s p) <= pfd (procs s p).
Proof.
  intros evs p s H R.
  pose proof (inv_reachable evs : Inv s) as I.
  pose proof (holder_sess s p H) as S.
  pose proof (i_result s I p S) as R'.
  assert (X : pexisting (procs s p) = false) by congruence.
  assert (F : hasfdb (ppc (procs s p)) = true) by (rewrite H; reflexivity).
  destruct (i_fresh_flag s I p F X). pose proof (i_sole_owner s I p S X). auto.
Qed.

Lemma frame_other s e q : q <> actor e -> procs (apply_event s e) q = procs s q.
Proof.
  intros NE. destruct (apply_event_cases s e) as [->|(s1 & q' & K & ->)]; [reflexivity|].
  cbn [setp procs]. rewrite upd_other by exact NE. now rewrite (kstep_procs _ _ _ _ K).
Qed.

Lemma next_mono s e : next s <= next (apply_event s e).
Proof. destruct (apply_event_cases s e) as [->|(s1 & q' & K & ->)]; [|destruct K; cbn]; auto. Qed.

Lemma owners_mono s e i : owners s i <= owners (apply_event s e) i.
Proof.
  destruct (apply_event_cases s e) as [->|(s1 & q' & K & ->)]; [|destruct K; cbn]; auto.
  unfold upd. destruct (Nat.eqb_spec i (pfd (procs s p))) as [->|]; auto.
Qed.

(* How a process can be in its post-success phase after an event: it already
   was (same descriptor, same flag), or the event was its own mark step. *)
Lemma post_step s e p : postb (ppc (procs (apply_event s e) p)) = true ->
  pfd (procs (apply_event s e) p) = pfd (procs s p)
  /\ pexisting (procs (apply_event s e) p) = pexisting (procs s p)
  /\ (postb (ppc (procs s p)) = true \/ ppc (procs s p) = Verified).
Proof.
  destruct (Nat.eq_dec p (actor e)) as [->|NE]; [|rewrite frame_other by exact NE; auto].
  destruct (apply_event_cases s e) as [->|(s1 & q' & K & ->)]; [auto|].
  cbn [setp procs]. rewrite upd_same.
  destruct K; cbn; try discriminate; intros _; rewrite H; cbn; auto.
Qed.

(** Schedule form.  Let some process have completed an acquisition on inode
    [i] by state [s1] ([0 < owners s1 i]: it returned success, i.e. performed
    the mark) -- whether it is still running, died, or was overtaken does not
    matter -- and let [p] be a process whose own completed acquisition on [i],
    if any, is not already present in [s1] (e.g. [p] is idle, or anywhere inside
    createLockFile, even stalled right after creating [i]).  If [p] later is
    holder of that same inode [i] -- which, by [C13_holder_owns_path], is what
    happens whenever the earlier owner never unlinked [i] and [p] succeeds on
    the path -- then [p] reports [existing = true].  No hypothesis on who died
    or when. *)
Theorem C13_unclean_detected : forall evs1 evs2 p i,
  let s1 := exec evs1 init in
  let s2 := exec evs2 s1 in
  0 < owners s1 i ->
  (postb (ppc (procs s1 p)) = true -> pfd (procs s1 p) <> i) ->
  ppc (procs s2 p) = Holder -> pfd (procs s2 p) = i ->
  pres (procs s2 p) = Succeeded true.
Proof.
  intros evs1 evs2 p i s1 s2 O NP H F.
  assert (I1 : Inv s1) by apply inv_reachable.
  assert (K : owners s1 i <= owners s2 i
              /\ (postb (ppc (procs s2 p)) = true -> pfd (procs s2 p) = i ->
                  pexisting (procs s2 p) = true)).
  { unfold s2. clear H F s2.
    induction evs2 as [|e evs2 IH] using rev_ind.
    - cbn. split; [lia|]. intros PB FD. exfalso. apply NP; assumption.
    - rewrite exec_snoc. destruct IH as [IH1 IH2].
      assert (I : Inv (exec evs2 s1)) by (apply inv_exec, I1).
      set (s := exec evs2 s1) in *.
      pose proof (owners_mono s e i) as M.
      split; [lia|]. intros PB FD.
      destruct (post_step s e p PB) as (F1 & F2 & [PS|V]).
      + rewrite F2. apply IH2; congruence.
      + rewrite F2. destruct (pexisting (procs s p)) eqn:X; [reflexivity|exfalso].
        assert (VB : verifb (ppc (procs s p)) = true) by (rewrite V; reflexivity).
        pose proof (i_verified s I p VB X) as MK.
        pose proof (i_unmarked s I _ MK) as OW.
        rewrite <- F1, FD in OW. lia. }
  destruct K as [_ K].
  assert (I2 : Inv s2) by (apply inv_exec, I1).
  rewrite (i_result s2 I2 p (holder_sess s2 p H)).
  rewrite K; auto. rewrite H. reflexivity.
Qed.

(** In particular: a holder dies; whoever next becomes holder of the inode the
    dead holder held -- including a process that was stalled inside
    createLockFile the whole time -- reports true. *)
Corollary C13_dead_holder_detected : forall evs1 evs2 q p,
  let s0 := exec evs1 init in
  let s1 := apply_event s0 (Die q) in
  let s2 := exec evs2 s1 in
  ppc (procs s0 q) = Holder ->
  ppc (procs s2 p) = Holder -> pfd (procs s2 p) = pfd (procs s0 q) ->
  pres (procs s2 p) = Succeeded true.
Proof.
  intros evs1 evs2 q p s0 s1 s2 Hq H2 F.
  assert (I0 : Inv s0) by apply inv_reachable.
  assert (E1 : s1 = exec (evs1 ++ [Die q]) init) by (unfold s1, s0; now rewrite exec_snoc).
  pose proof (holder_sess s0 q Hq) as S.
  assert (O : 0 < owners s1 (pfd (procs s0 q))).
  { change (owners s1) with (owners s0).
    apply (i_marked s0 I0), (i_sess_marked s0 I0 q S). }
  assert (NP : postb (ppc (procs s1 p)) = true -> pfd (procs s1 p) <> pfd (procs s0 q)).
  { destruct (Nat.eq_dec p q) as [->|NE].
    - unfold s1. cbn. rewrite upd_same. cbn. discriminate.
    - unfold s1. rewrite frame_other by exact NE. intros PB EQ.
      apply NE, (holds_inj s0 p q I0); auto using owns_holds, sess_owns.
      destruct (ppc (procs s0 p)); cbn in *; congruence. }
  unfold s2 in *. rewrite E1 in *.
  eapply C13_unclean_detected; eauto.
Qed.

Lemma born_step_busy s e q : ppc (procs s q) <> Idle ->
  pborn (procs (apply_event s e) q) = pborn (procs s q).
Proof.
  intros Q. destruct (Nat.eq_dec q (actor e)) as [->|NE]; [|now rewrite frame_other by exact NE].
  destruct (apply_event_cases s e) as [->|(s1 & q' & K & ->)]; [auto|].
  cbn [setp procs]. rewrite upd_same. destruct K; cbn; auto. cbn in Q. congruence.
Qed.

Lemma born_step_idle s e q : ppc (procs s q) = Idle ->
  ppc (procs (apply_event s e) q) = Idle \/ pborn (procs (apply_event s e) q) = next s.
Proof.
  intros Q. destruct (Nat.eq_dec q (actor e)) as [->|NE]; [|left; now rewrite frame_other by exact NE].
  destruct (apply_event_cases s e) as [->|(s1 & q' & K & ->)]; [auto|].
  cbn [setp procs]. rewrite upd_same. destruct K; cbn in *; auto; congruence.
Qed.

Lemma born_after evs2 s1 p : ppc (procs s1 p) = Idle ->
  next s1 <= next (exec evs2 s1)
  /\ (ppc (procs (exec evs2 s1) p) <> Idle -> next s1 <= pborn (procs (exec evs2 s1) p)).
Proof.
  intros Q. induction evs2 as [|e evs2 IH] using rev_ind.
  - cbn. split; [lia | congruence].
  - rewrite exec_snoc. destruct IH as [IH1 IH2].
    pose proof (next_mono (exec evs2 s1) e) as M.
    split; [lia|]. intros NI.
    destruct (ppc (procs (exec evs2 s1) p)) eqn:Q2.
    1: { destruct (born_step_idle _ e p Q2) as [B|B]; [congruence | lia]. }
    all: rewrite born_step_busy by congruence; apply IH2; congruence.
Qed.

(** Any lock file that already exists when an attempt starts -- whether or not
    anybody ever completed an acquisition on it (e.g. its creator died before
    flock) -- yields [existing = true] if that attempt ends up holding it. *)
Theorem C13_leftover_detected : forall evs1 evs2 p i,
  let s1 := exec evs1 init in
  let s2 := exec evs2 s1 in
  path s1 = Some i ->
  ppc (procs s1 p) = Idle ->
  ppc (procs s2 p) = Holder -> pfd (procs s2 p) = i ->
  pres (procs s2 p) = Succeeded true.
Proof.
  intros evs1 evs2 p i s1 s2 P Q H F.
  assert (I1 : Inv s1) by apply inv_reachable.
  assert (I2 : Inv s2) by (apply inv_exec, I1).
  pose proof (i_result s2 I2 p (holder_sess s2 p H)) as R.
  rewrite R. destruct (pexisting (procs s2 p)) eqn:X; [reflexivity|exfalso].
  assert (HF : hasfdb (ppc (procs s2 p)) = true) by (rewrite H; reflexivity).
  destruct (i_fresh_flag s2 I2 p HF X) as [B _].
  destruct (born_after evs2 s1 p Q) as [_ B2]. fold s2 in B2.
  assert (next s1 <= pborn (procs s2 p)) by (apply B2; congruence).
  pose proof (i_path_fresh s1 I1 i P). lia.
Qed.

(* Processes: C = 0, B = 1, A = 2.
   A opens and closes cleanly; then C creates the file, B overtakes C. *)
Definition sched_flag_race : list event :=
  [ Acquire 2; Step 2; Step 2; Step 2; Step 2;  (* A: create, flock, verify, mark -> holder, existing=false *)
    Release 2; Step 2; Step 2;             (* A: unlink, close   -- clean shutdown              *)
    Acquire 0; Acquire 1;
    Step 0;                                (* C: O_EXCL create succeeds (inode 1)               *)
    Step 1;                                (* B: O_EXCL -> EEXIST                               *)
    Step 1;                                (* B: open C's inode                                 *)
    Step 1;                                (* B: flock succeeds before C tried                  *)
    Step 1;                                (* B: verify ok (size 0, but acquiredExisting = true)*)
    Step 1;                                (* B: mark -> holder, existing = TRUE                *)
    Step 0 ].                              (* C: flock -> EWOULDBLOCK -> FailedLocked           *)

(** Nobody ever died, the previous holder (process 2) released cleanly and
    every process other than the winner is out of the protocol, yet the winner
    (process 1) reports [existing = true] (a needless recovery); the process
    that created the file (process 0) fails as "locked". *)
Theorem C13_flag_race_refuted : exists evs p,
  let s := exec evs init in
  forallb (fun e => negb (is_die e)) evs = true
  /\ (forall q, q <> p -> ppc (procs s q) = Idle)
  /\ pres (procs s 2) = Succeeded false          (* an earlier, cleanly closed session *)
  /\ pres (procs s 0) = FailedLocked             (* the creator of the file lost       *)
  /\ ppc (procs s p) = Holder
  /\ owners s (pfd (procs s p)) = 1              (* first acquisition ever on this inode *)
  /\ pres (procs s p) = Succeeded true.
Proof.
  exists sched_flag_race, 1. cbv zeta.
  split; [vm_compute; reflexivity|].
  split.
  { intros q Hq. destruct q as [|[|[|q]]]; try congruence; vm_compute; reflexivity. }
  repeat split; vm_compute; reflexivity.
Qed.

Lemma path_change s e :
  path (apply_event s e) = path s
  \/ (exists p, e = Step p /\ ppc (procs s p) = TryCreate /\ path s = None
                /\ path (apply_event s e) = Some (next s))
  \/ (exists p, e = Step p /\ ppc (procs s p) = Releasing /\ path (apply_event s e) = None).
Proof.
  destruct (apply_event_cases s e) as [->|(s1 & q' & K & ->)]; [|destruct K; cbn]; eauto 8.
Qed.

(** Every event of a process that is not in session (holder / releasing holder)
    preserves the path, the only exception being a successful O_EXCL create on
    an ABSENT path.  In particular a failing attempt never unlinks and never
    replaces an existing lock file. *)
Theorem C13_loser_changes_nothing : forall evs e,
  let s := exec evs init in
  let s' := apply_event s e in
  sessb (ppc (procs s (actor e))) = false ->
  path s' = path s
  \/ (path s = None /\ e = Step (actor e) /\ ppc (procs s (actor e)) = TryCreate
      /\ path s' = Some (next s)).
Proof.
  intros evs e s s' NS.
  destruct (path_change s e) as [H|[(p & -> & E & P & P')|(p & -> & E & P')]].
  - left. exact H.
  - right. cbn [actor]. auto.
  - exfalso. cbn [actor] in NS. rewrite E in NS. discriminate.
Qed.

(** No event of process [actor e] ever removes the flock of another process. *)
Lemma others_keep_flock s e i q : Inv s ->
  lockedby s i = Some q -> q <> actor e -> lockedby (apply_event s e) i = Some q.
Proof.
  intros I L NE. destruct (i_owner s I i q L) as [<- H].
  rewrite <- (frame_other s e q NE) in H |- *. apply (i_holds _ (inv_apply_event s e I)), H.
Qed.

(** The mark byte is only ever written by the process that owns the path. *)
Lemma marked_change s e i :
  marked (apply_event s e) i = marked s i
  \/ (e = Step (actor e) /\ ppc (procs s (actor e)) = Verified /\ i = pfd (procs s (actor e))).
Proof.
  destruct (apply_event_cases s e) as [->|(s1 & q' & K & ->)]; [|destruct K; cbn]; auto.
  unfold upd. destruct (Nat.eqb_spec i (pfd (procs s p))); auto.
Qed.

(** While some process [q] is in session, no event of any OTHER process changes
    the path, the lock file's contents, [q]'s flock, or [q]'s own state:
    a competing Open changes nothing. *)
Theorem C13_competitor_changes_nothing : forall evs e q,
  let s := exec evs init in
  let s' := apply_event s e in
  sessb (ppc (procs s q)) = true -> actor e <> q ->
  path s' = path s
  /\ marked s' (pfd (procs s q)) = marked s (pfd (procs s q))
  /\ lockedby s' (pfd (procs s q)) = Some q
  /\ procs s' q = procs s q.
Proof.
  intros evs e q s s' S NE.
  assert (I : Inv s) by apply inv_reachable.
  pose proof (sess_owns _ S) as O.
  destruct (inv_owner_owns s q I O) as [P L].
  split; [|split; [|split]].
  - destruct (path_change s e) as [H|[(p & -> & E & P0 & _)|(p & -> & E & _)]]; auto.
    + congruence.
    + exfalso. apply NE. cbn.
      apply (inv_owner_unique s p q I); auto. rewrite E. reflexivity.
  - destruct (marked_change s e (pfd (procs s q))) as [H|(_ & E & F)]; auto.
    exfalso. apply NE, (holds_inj s _ q I); auto using owns_holds. rewrite E. reflexivity.
  - apply others_keep_flock; auto.
  - apply frame_other. auto.
Qed.

(** An attempt fails as "locked" only because ANOTHER process really holds the
    flock on the inode it opened; the failing step changes neither the path,
    nor any file contents, nor any flock. *)
Theorem C13_failed_means_locked : forall evs p,
  let s := exec evs init in
  let s' := run_proc s p in
  ppc (procs s p) = HaveFd -> pres (procs s' p) = FailedLocked ->
  (exists q, q <> p /\ lockedby s (pfd (procs s p)) = Some q)
  /\ path s' = path s /\ lockedby s' = lockedby s /\ marked s' = marked s.
Proof.
  intros evs p s s' E R.
  assert (I : Inv s) by apply inv_reachable.
  unfold s', run_proc in *. cbv zeta in *. rewrite E in *.
  destruct (lockedby s (pfd (procs s p))) as [q|] eqn:L; cbn in *.
  - split; auto. exists q. split; auto. intros ->.
    destruct (i_owner s I _ _ L) as [_ H]. rewrite E in H. discriminate.
  - rewrite upd_same in R. cbn in R. discriminate.
Qed.

Lemma run_fix s p k : run_proc s p = s -> exec (repeat (Step p) k) s = s.
Proof.
  intros H. induction k as [|k IH]; [reflexivity|].
  cbn [repeat]. rewrite exec_cons. cbn [apply_event]. now rewrite H.
Qed.

Lemma run_idle s p : ppc (procs s p) = Idle -> run_proc s p = s.
Proof. intros H. unfold run_proc. cbv zeta. now rewrite H. Qed.
Lemma run_holder s p : ppc (procs s p) = Holder -> run_proc s p = s.
Proof. intros H. unfold run_proc. cbv zeta. now rewrite H. Qed.

(* The part of the state a solo run of p depends on. *)
Record same_env (s s' : kst) : Prop := {
  se_path : path s' = path s; se_next : next s' = next s;
  se_lock : lockedby s' = lockedby s; se_mark : marked s' = marked s }.

Lemma obs_acquire s p : ppc (procs s p) = Idle ->
  let s' := start_acquire s p in
  ppc (procs s' p) = TryCreate /\ same_env s s'.
Proof.
  intros E. unfold start_acquire. rewrite E. cbn. rewrite upd_same. cbn.
  split; [reflexivity|constructor; reflexivity].
Qed.

Lemma obs_create s p : ppc (procs s p) = TryCreate -> path s = None ->
  let s' := run_proc s p in
  ppc (procs s' p) = HaveFd /\ pfd (procs s' p) = next s /\ pexisting (procs s' p) = false
  /\ path s' = Some (next s) /\ lockedby s' = lockedby s /\ marked s' = marked s.
Proof.
  intros E P. unfold run_proc. cbv zeta. rewrite E, P. cbn. rewrite upd_same. cbn. auto 10.
Qed.

Lemma obs_eexist s p i : ppc (procs s p) = TryCreate -> path s = Some i ->
  let s' := run_proc s p in
  ppc (procs s' p) = WantOpen /\ same_env s s'.
Proof.
  intros E P. unfold run_proc. cbv zeta. rewrite E, P. cbn. rewrite upd_same. cbn.
  split; [reflexivity|constructor; reflexivity].
Qed.

Lemma obs_open s p i : ppc (procs s p) = WantOpen -> path s = Some i ->
  let s' := run_proc s p in
  ppc (procs s' p) = HaveFd /\ pfd (procs s' p) = i /\ pexisting (procs s' p) = true
  /\ same_env s s'.
Proof.
  intros E P. unfold run_proc. cbv zeta. rewrite E, P. cbn. rewrite upd_same. cbn.
  repeat split; reflexivity.
Qed.

Lemma obs_flock_ok s p : ppc (procs s p) = HaveFd -> lockedby s (pfd (procs s p)) = None ->
  let s' := run_proc s p in
  ppc (procs s' p) = Locked /\ pfd (procs s' p) = pfd (procs s p)
  /\ pexisting (procs s' p) = pexisting (procs s p)
  /\ path s' = path s /\ marked s' = marked s.
Proof.
  intros E L. unfold run_proc. cbv zeta. rewrite E, L. cbn. rewrite upd_same. cbn. auto.
Qed.

Lemma obs_flock_fail s p q : ppc (procs s p) = HaveFd -> lockedby s (pfd (procs s p)) = Some q ->
  let s' := run_proc s p in ppc (procs s' p) = Idle.
Proof.
  intros E L. unfold run_proc. cbv zeta. rewrite E, L. cbn. rewrite upd_same. reflexivity.
Qed.

Lemma obs_verify_ok s p : ppc (procs s p) = Locked -> path s = Some (pfd (procs s p)) ->
  let s' := run_proc s p in
  ppc (procs s' p) = Verified
  /\ pexisting (procs s' p) = (pexisting (procs s p) || marked s (pfd (procs s p))).
Proof.
  intros E P. unfold run_proc, path_is. cbv zeta. rewrite E, P, Nat.eqb_refl. cbn.
  rewrite upd_same. cbn. auto.
Qed.

Lemma obs_mark s p : ppc (procs s p) = Verified ->
  let s' := run_proc s p in
  ppc (procs s' p) = Holder /\ pres (procs s' p) = Succeeded (pexisting (procs s p)).
Proof.
  intros E. unfold run_proc. cbv zeta. rewrite E. cbn. rewrite upd_same. cbn. auto.
Qed.

(* what an attempt of [p] that runs alone from [s] on reports, should it succeed *)
Definition solo_result (s : kst) (p : nat) (b : bool) : Prop :=
  forall k, ppc (procs (exec (repeat (Step p) k) s) p) = Holder ->
            pres (procs (exec (repeat (Step p) k) s) p) = Succeeded b.

Lemma solo_step s p b :
  ppc (procs s p) <> Holder -> solo_result (run_proc s p) p b -> solo_result s p b.
Proof. intros NH H [|k]; [cbn; congruence|exact (H k)]. Qed.

Lemma solo_stuck s p b : run_proc s p = s -> pres (procs s p) = Succeeded b \/ ppc (procs s p) <> Holder ->
  solo_result s p b.
Proof. intros F H k. rewrite (run_fix s p k F). tauto. Qed.

(* with a descriptor on the file the path names: flock, verify, mark *)
Lemma solo_from_havefd s p : ppc (procs s p) = HaveFd -> path s = Some (pfd (procs s p)) ->
  solo_result s p (pexisting (procs s p) || marked s (pfd (procs s p))).
Proof.
  intros E Pa. apply solo_step; [congruence|].
  destruct (lockedby s (pfd (procs s p))) as [q|] eqn:L.
  - (* locked by somebody else: the attempt fails, p stays idle *)
    pose proof (obs_flock_fail s p q E L) as D1.
    apply solo_stuck; [apply run_idle, D1|right; congruence].
  - destruct (obs_flock_ok s p E L) as (D1 & D2 & D3 & D4 & D5).
    set (sd := run_proc s p) in *. apply solo_step; [congruence|].
    assert (D4' : path sd = Some (pfd (procs sd p))) by congruence.
    destruct (obs_verify_ok sd p D1 D4') as (E1 & E2).
    set (se := run_proc sd p) in *. apply solo_step; [congruence|].
    destruct (obs_mark se p E1) as (F1 & F2).
    apply solo_stuck; [apply run_holder, F1|left]. rewrite F2, E2, D3, D2, D5. reflexivity.
Qed.

(** If, from any reachable state in which [p] is idle, [p] starts an attempt
    and runs it alone ([k] consecutive steps of [p], nobody else moves) and ends
    up as holder, then it reports [existing = true] iff the lock path existed
    when the attempt started.  (Combined with [C13_holder_owns_path]: the path
    exists in a state without holder/releaser iff the last owner did not
    unlink, i.e. did not complete a clean release.) *)
Theorem C13_flag_exact_sequential : forall evs p k,
  let s0 := exec evs init in
  let s1 := exec (Acquire p :: repeat (Step p) k) s0 in
  ppc (procs s0 p) = Idle ->
  ppc (procs s1 p) = Holder ->
  pres (procs s1 p) = Succeeded (match path s0 with Some _ => true | None => false end).
Proof.
  intros evs p k s0 s1 Q0.
  assert (I0 : Inv s0) by apply inv_reachable.
  unfold s1. clear s1. revert k.
  change (solo_result (start_acquire s0 p) p match path s0 with Some _ => true | None => false end).
  destruct (obs_acquire s0 p Q0) as (A1 & [A2 A3 A4 A5]).
  set (sa := start_acquire s0 p) in *. apply solo_step; [congruence|].
  destruct (path s0) as [i|] eqn:P0.
  - (* the path exists: EEXIST, open *)
    destruct (obs_eexist sa p i A1 A2) as (B1 & [B2 B3 B4 B5]).
    set (sb := run_proc sa p) in *. apply solo_step; [congruence|].
    assert (B2' : path sb = Some i) by congruence.
    destruct (obs_open sb p i B1 B2') as (C1 & C2 & C3 & [C4 C5 C6 C7]).
    set (sc := run_proc sb p) in *.
    assert (C4' : path sc = Some (pfd (procs sc p))) by congruence.
    pose proof (solo_from_havefd sc p C1 C4') as R. rewrite C3 in R. exact R.
  - (* the path is absent: create; the fresh inode is not marked *)
    destruct (obs_create sa p A1 A2) as (B1 & B2 & B3 & B4 & B5 & B6).
    set (sb := run_proc sa p) in *.
    assert (M : marked sb (pfd (procs sb p)) = false).
    { rewrite B2, B6, A5, A3.
      destruct (marked s0 (next s0)) eqn:M; auto. exfalso.
      pose proof (i_marked_fresh s0 I0 _ M). lia. }
    assert (B4' : path sb = Some (pfd (procs sb p))) by congruence.
    pose proof (solo_from_havefd sb p B1 B4') as R. rewrite B3, M in R. exact R.
Qed.

(** The intermediate repair without the mark (verify only).

    Same protocol as above but success is returned right after the verify step
    and the file is never written.  Mutual exclusion holds for it as well, but
    "unclean shutdown is always detected" does not: the witness below is why
    the mark byte was added. *)

Module NoMark.

Inductive pc := Idle | TryCreate | WantOpen | HaveFd | Locked | Holder | Releasing | Unlinked.

Record proc := { ppc : pc; pfd : nat; pexisting : bool; pres : outcome }.
Definition mkp c fd ex r : proc := {| ppc := c; pfd := fd; pexisting := ex; pres := r |}.

Record kst := {
  path     : option nat;
  next     : nat;
  lockedby : nat -> option nat;
  procs    : nat -> proc;
  owners   : nat -> nat          (* GHOST: acquisitions completed per inode *)
}.

Definition init : kst :=
  {| path := None; next := 0; lockedby := fun _ => None;
     procs := fun _ => mkp Idle 0 false NoResult; owners := fun _ => 0 |}.

Definition setp (s : kst) (p : nat) (q : proc) : kst :=
  {| path := path s; next := next s; lockedby := lockedby s;
     procs := upd (procs s) p q; owners := owners s |}.

Definition holdsb (c : pc) : bool :=
  match c with Locked | Holder | Releasing | Unlinked => true | _ => false end.

Definition path_is (s : kst) (i : nat) : bool :=
  match path s with Some j => Nat.eqb j i | None => false end.

Definition run_proc (s : kst) (p : nat) : kst :=
  let q := procs s p in
  match ppc q with
  | Idle => s
  | Holder => s
  | TryCreate =>
      match path s with
      | None =>
          {| path := Some (next s); next := S (next s); lockedby := lockedby s;
             procs := upd (procs s) p (mkp HaveFd (next s) false NoResult);
             owners := owners s |}
      | Some _ => setp s p (mkp WantOpen 0 true NoResult)
      end
  | WantOpen =>
      match path s with
      | Some i => setp s p (mkp HaveFd i true NoResult)
      | None   => setp s p (mkp TryCreate 0 false NoResult)
      end
  | HaveFd =>
      match lockedby s (pfd q) with
      | None =>
          {| path := path s; next := next s;
             lockedby := upd (lockedby s) (pfd q) (Some p);
             procs := upd (procs s) p (mkp Locked (pfd q) (pexisting q) NoResult);
             owners := owners s |}
      | Some _ => setp s p (mkp Idle 0 false FailedLocked)
      end
  | Locked =>
      if path_is s (pfd q)
      then {| path := path s; next := next s; lockedby := lockedby s;
              procs := upd (procs s) p
                         (mkp Holder (pfd q) (pexisting q) (Succeeded (pexisting q)));
              owners := upd (owners s) (pfd q) (S (owners s (pfd q))) |}
      else {| path := path s; next := next s;
              lockedby := upd (lockedby s) (pfd q) None;
              procs := upd (procs s) p (mkp TryCreate 0 false NoResult);
              owners := owners s |}
  | Releasing =>
      {| path := None; next := next s; lockedby := lockedby s;
         procs := upd (procs s) p (mkp Unlinked (pfd q) (pexisting q) (pres q));
         owners := owners s |}
  | Unlinked =>
      {| path := path s; next := next s;
         lockedby := upd (lockedby s) (pfd q) None;
         procs := upd (procs s) p (mkp Idle 0 false (pres q));
         owners := owners s |}
  end.

Definition start_acquire (s : kst) (p : nat) : kst :=
  match ppc (procs s p) with
  | Idle => setp s p (mkp TryCreate 0 false NoResult)
  | _ => s
  end.

Definition start_release (s : kst) (p : nat) : kst :=
  let q := procs s p in
  match ppc q with
  | Holder => setp s p (mkp Releasing (pfd q) (pexisting q) (pres q))
  | _ => s
  end.

Definition die (s : kst) (p : nat) : kst :=
  let q := procs s p in
  {| path := path s; next := next s;
     lockedby := if holdsb (ppc q) then upd (lockedby s) (pfd q) None else lockedby s;
     procs := upd (procs s) p (mkp Idle 0 false NoResult);
     owners := owners s |}.

Definition apply_event (s : kst) (e : event) : kst :=
  match e with
  | Step p => run_proc s p
  | Acquire p => start_acquire s p
  | Release p => start_release s p
  | Die p => die s p
  end.

Definition exec (evs : list event) (s : kst) : kst := fold_left apply_event evs s.

(* Processes: C = 0, B = 1. *)
Definition sched_residual_prefix : list event :=
  [ Acquire 0; Acquire 1;
    Step 0;                                (* C: O_EXCL create (inode 0), then stalls           *)
    Step 1; Step 1; Step 1; Step 1 ].      (* B: EEXIST, open, flock, verify -> holder (true)   *)
Definition sched_residual_suffix : list event :=
  [ Step 0; Step 0 ].                      (* C: flock ok, verify ok -> holder, existing=false  *)

(** The process that created the lock file is overtaken by a second opener
    that becomes holder and DIES; the creator then succeeds on that same inode
    and reports [existing = false].  Two acquisitions completed on the inode,
    the first ended uncleanly, the second does not notice. *)
Theorem C13_unclean_race_residual : exists evs1 evs2 q p,
  let s1 := exec evs1 init in
  let s2 := exec (Die q :: evs2) s1 in
  ppc (procs s1 q) = Holder
  /\ ppc (procs s1 p) = HaveFd                   (* p is mid-attempt: it created the file *)
  /\ ppc (procs s2 p) = Holder
  /\ pfd (procs s2 p) = pfd (procs s1 q)
  /\ path s2 = Some (pfd (procs s2 p))
  /\ owners s2 (pfd (procs s2 p)) = 2
  /\ pres (procs s2 p) = Succeeded false.
Proof.
  exists sched_residual_prefix, sched_residual_suffix, 1, 0.
  vm_compute. repeat split; reflexivity.
Qed.

End NoMark.

(** The very same schedule on the current protocol (one extra step each for the
    mark): the stalled creator now reports [existing = true]. *)
Example residual_race_closed :
  let s1 := exec [Acquire 0; Acquire 1; Step 0; Step 1; Step 1; Step 1; Step 1; Step 1] init in
  let s2 := exec [Die 1; Step 0; Step 0; Step 0] s1 in
  ppc (procs s1 1) = Holder /\ ppc (procs s1 0) = HaveFd
  /\ ppc (procs s2 0) = Holder /\ pfd (procs s2 0) = pfd (procs s1 1)
  /\ owners s2 (pfd (procs s2 0)) = 2
  /\ pres (procs s2 0) = Succeeded true.
Proof. vm_compute. repeat split; reflexivity. Qed.

(** The pinned (old, defective) protocol

    acquire:  stat(path)            existing := path exists
              open(O_RDWR|O_CREATE) creates if absent, else opens what is there
              flock(LOCK_EX|LOCK_NB) fail -> "locked"; success -> holder at once
    release:  unlink(path) ; close *)

Module Pinned.

Inductive pc := Idle | WantStat | WantOpen | HaveFd | Holder | Releasing | Unlinked.

Record proc := { ppc : pc; pfd : nat; pexisting : bool; pres : outcome }.
Definition mkp c fd ex r : proc := {| ppc := c; pfd := fd; pexisting := ex; pres := r |}.

Record kst := {
  path     : option nat;
  next     : nat;
  lockedby : nat -> option nat;
  procs    : nat -> proc
}.

Definition init : kst :=
  {| path := None; next := 0; lockedby := fun _ => None;
     procs := fun _ => mkp Idle 0 false NoResult |}.

Definition setp (s : kst) (p : nat) (q : proc) : kst :=
  {| path := path s; next := next s; lockedby := lockedby s; procs := upd (procs s) p q |}.

Definition holdsb (c : pc) : bool :=
  match c with Holder | Releasing | Unlinked => true | _ => false end.

Definition run_proc (s : kst) (p : nat) : kst :=
  let q := procs s p in
  match ppc q with
  | Idle => s
  | Holder => s
  | WantStat =>      (* os.Stat(name) *)
      setp s p (mkp WantOpen 0 (match path s with Some _ => true | None => false end) NoResult)
  | WantOpen =>      (* os.OpenFile(name, O_RDWR|O_CREATE) *)
      match path s with
      | Some i => setp s p (mkp HaveFd i (pexisting q) NoResult)
      | None =>
          {| path := Some (next s); next := S (next s); lockedby := lockedby s;
             procs := upd (procs s) p (mkp HaveFd (next s) (pexisting q) NoResult) |}
      end
  | HaveFd =>        (* flock *)
      match lockedby s (pfd q) with
      | None =>
          {| path := path s; next := next s;
             lockedby := upd (lockedby s) (pfd q) (Some p);
             procs := upd (procs s) p
                        (mkp Holder (pfd q) (pexisting q) (Succeeded (pexisting q))) |}
      | Some _ => setp s p (mkp Idle 0 false FailedLocked)
      end
  | Releasing =>
      {| path := None; next := next s; lockedby := lockedby s;
         procs := upd (procs s) p (mkp Unlinked (pfd q) (pexisting q) (pres q)) |}
  | Unlinked =>
      {| path := path s; next := next s;
         lockedby := upd (lockedby s) (pfd q) None;
         procs := upd (procs s) p (mkp Idle 0 false (pres q)) |}
  end.

Definition start_acquire (s : kst) (p : nat) : kst :=
  match ppc (procs s p) with
  | Idle => setp s p (mkp WantStat 0 false NoResult)
  | _ => s
  end.

Definition start_release (s : kst) (p : nat) : kst :=
  let q := procs s p in
  match ppc q with
  | Holder => setp s p (mkp Releasing (pfd q) (pexisting q) (pres q))
  | _ => s
  end.

Definition die (s : kst) (p : nat) : kst :=
  let q := procs s p in
  {| path := path s; next := next s;
     lockedby := if holdsb (ppc q) then upd (lockedby s) (pfd q) None else lockedby s;
     procs := upd (procs s) p (mkp Idle 0 false NoResult) |}.

Definition apply_event (s : kst) (e : event) : kst :=
  match e with
  | Step p => run_proc s p
  | Acquire p => start_acquire s p
  | Release p => start_release s p
  | Die p => die s p
  end.

Definition exec (evs : list event) (s : kst) : kst := fold_left apply_event evs s.

(* Processes: A = 0, B = 1, C = 2. *)
Definition sched_two_holders : list event :=
  [ Acquire 0; Step 0; Step 0; Step 0;     (* A: stat, open (creates inode 0), flock -> holder  *)
    Acquire 1; Step 1; Step 1;             (* B: stat (exists), open A's inode 0                *)
    Release 0; Step 0; Step 0;             (* A: unlink, close                                  *)
    Step 1;                                (* B: flock inode 0 -> holder on an UNLINKED inode   *)
    Acquire 2; Step 2; Step 2; Step 2 ].   (* C: stat (absent), open (creates inode 1), flock -> holder *)

Theorem two_holders_refuted : exists evs p q,
  let s := exec evs init in
  p <> q
  /\ forallb (fun e => negb (is_die e)) evs = true
  /\ ppc (procs s p) = Holder /\ ppc (procs s q) = Holder
  /\ path s = Some (pfd (procs s q)) /\ pfd (procs s p) <> pfd (procs s q).
Proof.
  exists sched_two_holders, 1, 2. vm_compute.
  repeat split; try reflexivity; intros H; discriminate H.
Qed.

(* Spurious flag: stat sees A's file, A then closes cleanly, B creates a new
   file and reports existing = true.  Nobody died. *)
Definition sched_flag_spurious : list event :=
  [ Acquire 0; Step 0; Step 0; Step 0;     (* A holder (existing=false) *)
    Acquire 1; Step 1;                     (* B: stat -> exists *)
    Release 0; Step 0; Step 0;             (* A: unlink, close *)
    Step 1; Step 1 ].                      (* B: open (creates inode 1), flock -> holder, existing=TRUE *)

(* Missed flag: B stats an absent path; A creates the file, becomes holder and
   DIES; B opens A's file and reports existing = false. *)
Definition sched_flag_missed_prefix : list event :=
  [ Acquire 1; Step 1;                     (* B: stat -> absent *)
    Acquire 0; Step 0; Step 0; Step 0 ].   (* A: stat, open (creates), flock -> holder *)
Definition sched_flag_missed_suffix : list event :=
  [ Step 1; Step 1 ].                      (* B: open A's inode, flock -> holder, existing=FALSE *)

Theorem flag_refuted :
  (* spurious: existing = true although the previous session closed cleanly *)
  (exists evs p,
     let s := exec evs init in
     forallb (fun e => negb (is_die e)) evs = true
     /\ (forall q, q <> p -> ppc (procs s q) = Idle)
     /\ ppc (procs s p) = Holder /\ pres (procs s p) = Succeeded true)
  /\
  (* missed: existing = false although the previous holder of this very inode died *)
  (exists evs1 evs2 q p,
     let s1 := exec evs1 init in
     let s2 := exec (Die q :: evs2) s1 in
     ppc (procs s1 q) = Holder
     /\ ppc (procs s2 p) = Holder /\ pfd (procs s2 p) = pfd (procs s1 q)
     /\ pres (procs s2 p) = Succeeded false).
Proof.
  split.
  - exists sched_flag_spurious, 1. cbv zeta.
    split; [vm_compute; reflexivity|]. split.
    { intros q Hq. destruct q as [|[|q]]; try congruence; vm_compute; reflexivity. }
    split; vm_compute; reflexivity.
  - exists sched_flag_missed_prefix, sched_flag_missed_suffix, 0, 1.
    vm_compute. repeat split; reflexivity.
Qed.

End Pinned.

(* One process acquires and releases; another then acquires: existing = false. *)
Example ex_clean_reopen :
  let s := exec [ Acquire 0; Step 0; Step 0; Step 0; Step 0;      (* create flock verify mark *)
                  Release 0; Step 0; Step 0;                      (* unlink close *)
                  Acquire 1; Step 1; Step 1; Step 1; Step 1 ] init in
  obs s 0 = (Idle, 0, Succeeded false) /\ obs s 1 = (Holder, 1, Succeeded false)
  /\ path s = Some 1.
Proof. vm_compute. repeat split; reflexivity. Qed.

(* A holder dies; the next acquirer gets existing = true. *)
Example ex_unclean_reopen :
  let s := exec [ Acquire 0; Step 0; Step 0; Step 0; Step 0;
                  Die 0;
                  Acquire 1; Step 1; Step 1; Step 1; Step 1; Step 1 ] init in  (* EEXIST open flock verify mark *)
  obs s 0 = (Idle, 0, NoResult) /\ obs s 1 = (Holder, 0, Succeeded true)
  /\ path s = Some 0.
Proof. vm_compute. repeat split; reflexivity. Qed.

(* A process dies between verify and mark: it never returned success, and the
   next acquirer sees a leftover (existing) file. *)
Example ex_die_before_mark :
  let s := exec [ Acquire 0; Step 0; Step 0; Step 0; Die 0;
                  Acquire 1; Step 1; Step 1; Step 1; Step 1; Step 1 ] init in
  obs s 1 = (Holder, 0, Succeeded true) /\ owners s 0 = 1.
Proof. vm_compute. repeat split; reflexivity. Qed.

(* A competitor fails with FailedLocked while the first process is holder;
   nothing changed for the holder. *)
Example ex_competitor_fails :
  let s := exec [ Acquire 0; Step 0; Step 0; Step 0; Step 0;
                  Acquire 1; Step 1; Step 1; Step 1 ] init in           (* EEXIST open flock->EWOULDBLOCK *)
  obs s 0 = (Holder, 0, Succeeded false) /\ obs s 1 = (Idle, 0, FailedLocked)
  /\ path s = Some 0 /\ lockedby s 0 = Some 0.
Proof. vm_compute. repeat split; reflexivity. Qed.

(* An opener that opened the file just before the owner unlinked it retries
   (verify fails) and then succeeds on a fresh file with existing = false. *)
Example ex_retry_after_unlink :
  let s := exec [ Acquire 0; Step 0; Step 0; Step 0; Step 0;           (* A holder on inode 0 *)
                  Acquire 1; Step 1; Step 1;                            (* B: EEXIST, open inode 0 *)
                  Release 0; Step 0; Step 0;                            (* A: unlink, close *)
                  Step 1;                                               (* B: flock inode 0 ok *)
                  Step 1;                                               (* B: verify FAILS -> retry *)
                  Step 1; Step 1; Step 1; Step 1 ] init in              (* B: create inode 1, flock, verify, mark *)
  obs s 1 = (Holder, 1, Succeeded false) /\ path s = Some 1.
Proof. vm_compute. repeat split; reflexivity. Qed.

Print Assumptions C13_mutual_exclusion.
Print Assumptions C13_mutual_exclusion_strong.
Print Assumptions C13_holder_owns_path.
Print Assumptions C13_holder_result.
Print Assumptions C13_fresh_means_never_owned.
Print Assumptions C13_fresh_only_if_created.
Print Assumptions C13_unclean_detected.
Print Assumptions C13_dead_holder_detected.
Print Assumptions C13_leftover_detected.
Print Assumptions C13_flag_race_refuted.
Print Assumptions C13_flag_exact_sequential.
Print Assumptions C13_loser_changes_nothing.
Print Assumptions C13_competitor_changes_nothing.
Print Assumptions C13_failed_means_locked.
Print Assumptions NoMark.C13_unclean_race_residual.
Print Assumptions Pinned.two_holders_refuted.
Print Assumptions Pinned.flag_refuted.
