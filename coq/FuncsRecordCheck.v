(* FuncsRecordCheck.v -- OBLIGATIONS tying the integer code of the record format (segment.go:
   encodedRecordSize, the length fields written by encodeRecord, the decoding of the two length
   fields and the "does the record fit into the rest of the file" guard of segmentIterator.next;
   db.go: the size limits checked by Put) AS TRANSLATED FROM THE CURRENT SOURCES (gen/Funcs.v) to the
   definitions of the model (Record.v: rsize, vfield, decode_next; Spec/DB: valid).
   Each statement quantifies over ALL values of the Go types involved. *)
From Coq Require Import ZArith NArith Bool Lia List.
From Pogreb Require Import Base Bytes Record GoSem.
From Pogreb.gen Require Import Funcs.
Open Scope Z_scope.

(* encodedRecordSize(n) = uint32(n + 10): the two additions 6 + n and + 4 wrap once *)
Lemma encodedRecordSize_N n : go_encodedRecordSize (Z.of_N n) = Z.of_N (u32 (rec_overhead + n)).
Proof.
  unfold go_encodedRecordSize, go_add, u32. rewrite wrap_U32_add_l, <- wrap_U32_N. f_equal.
  unfold rec_overhead. lia.
Qed.

(* encodedRecordSize(n) = n + 10 as long as that fits in 32 bits *)
Theorem encodedRecordSize_ok : forall n : N, (n + 10 < 2 ^ 32)%N ->
  go_encodedRecordSize (Z.of_N n) = Z.of_N (rec_overhead + n).
Proof.
  intros n Hn. rewrite encodedRecordSize_N. f_equal. apply N.mod_small.
  rewrite N.add_comm. exact Hn.
Qed.

(* encodeRecord: for every key and value within the limits Put enforces, the buffer size is [rsize]
   and the value-length field is [vfield] (length, delete bit on top) *)
Theorem encode_sizes_ok : forall (r : rec),
  (nlen (rk r) <= max_key_len)%N -> (nlen (rv r) <= max_val_len)%N ->
  go_encode_sizes (Z.of_N (nlen (rk r))) (Z.of_N (nlen (rv r))) (if rdel r then 1 else 0)
  = (Z.of_N (rsize r), Z.of_N (vfield r)).
Proof.
  intros r. unfold rsize, vfield, max_key_len, max_val_len, rec_overhead.
  generalize (nlen (rk r)) (nlen (rv r)). intros k v Hk Hv.
  unfold go_encode_sizes, go_conv, go_add, go_or, go_eqb.
  rewrite <- N2Z.inj_add, wrap_S64_N, !wrap_U32_N, encodedRecordSize_N
    by (change (2 ^ 63)%N with 9223372036854775808%N; lia).
  unfold u32, rec_overhead. rewrite (N.mod_small (k + v)), (N.mod_small (10 + (k + v))) by lia.
  rewrite N.add_assoc. f_equal.
  destruct (rdel r); cbn [Z.eqb Pos.eqb]; [apply (lor_NZ _ delbit)|rewrite N.lor_0_r; reflexivity].
Qed.

(* segmentIterator.next, from the two length fields to the guard: the decoded key size, value size,
   record type and record size are those of Record.decode_next, and the guard rejects exactly when
   the record does not fit into the bytes that are left ([rest] = file size - offset). *)
Theorem next_sizes_ok : forall (ks w fsize off : N),
  (ks < 2 ^ 16)%N -> (w < 2 ^ 32)%N -> (off <= fsize)%N -> (fsize < 2 ^ 63)%N -> (off < 2 ^ 32)%N ->
  go_next_sizes (Z.of_N ks) (Z.of_N w) (Z.of_N fsize) (Z.of_N off)
  = (if (delbit <=? w)%N then 1 else 0, Z.of_N ks, Z.of_N (w mod delbit),
     Z.of_N (rec_overhead + ks + w mod delbit),
     (fsize - off <? rec_overhead + ks + w mod delbit)%N).
Proof.
  intros ks w fsize off Hk Hw Ho Hf Ho32.
  change (2 ^ 16)%N with 65536%N in Hk. change (2 ^ 32)%N with 4294967296%N in Hw, Ho32.
  change (2 ^ 63)%N with 9223372036854775808%N in Hf.
  assert (W : 0 <= Z.of_N w < 4294967296) by lia.
  unfold go_next_sizes, go_conv, go_and, go_neqb, go_andnot, go_add, go_sub, go_gtb.
  rewrite (land_bit31 _ W), (ldiff_bit31 _ W).
  change 2147483648 with (Z.of_N delbit). rewrite leb_NZ, <- N2Z.inj_mod.
  (* both branches of the delete-bit test leave w mod delbit as the value size *)
  assert (E : (if negb ((if (delbit <=? w)%N then Z.of_N delbit else 0) =? 0)
               then (1, Z.of_N (w mod delbit)) else (0, Z.of_N w))
              = (if (delbit <=? w)%N then 1 else 0, Z.of_N (w mod delbit))).
  { destruct (N.leb_spec delbit w) as [G|L]; [reflexivity|]. rewrite (N.mod_small _ _ L). reflexivity. }
  rewrite E. clear E.
  assert (Hv : (w mod delbit < 2147483648)%N) by (apply N.mod_lt; discriminate).
  revert Hv. generalize (w mod delbit)%N. intros vs Hv.
  rewrite !wrap_U32_N, <- N2Z.inj_add, wrap_U32_N, encodedRecordSize_N.
  unfold u32, rec_overhead.
  rewrite (N.mod_small ks), (N.mod_small (ks + vs)), N.mod_small by lia.
  rewrite !wrap_S64_N by (change (2 ^ 63)%N with 9223372036854775808%N; lia).
  rewrite <- N2Z.inj_sub by exact Ho.
  rewrite wrap_S64_N by (change (2 ^ 63)%N with 9223372036854775808%N; lia).
  rewrite ltb_NZ, !N.add_assoc. reflexivity.
Qed.

(* the limits Put enforces are the model's *)
Theorem put_limits_ok : forall klen vlen : N,
  go_key_too_large (Z.of_N klen) = (max_key_len <? klen)%N /\
  go_value_too_large (Z.of_N vlen) = (max_val_len <? vlen)%N.
Proof.
  intros klen vlen. unfold go_key_too_large, go_value_too_large, go_gtb, max_key_len, max_val_len.
  split; [exact (ltb_NZ 65535 klen)|exact (ltb_NZ 536870912 vlen)].
Qed.
