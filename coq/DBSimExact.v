(* An exact simulation between two index implementations ([exact_sim ops1 ops2 R]: same results, states
   related by R) lifts to every function of DB.v: from [gst_rel R]-related states the two databases
   return EQUAL outputs (Items: the same list) and related states.  The laws for ix_put / ix_repoint
   are only required for NONZERO slot offsets, because a physical bucket layout uses offset 0 for "empty
   slot"; hence the side condition [xok s := sizes_ok s /\ ff_ok (s_disk s)]: the next append offset
   of every open segment, and the offset of every record (also of the framings recovery would accept
   from a tail) of the segment file found for an id, are nonzero mod 2^32.  It mentions segments only,
   so it can be checked on either instance (xok_rel, lop_ok_x, loks_x).  Put needs sizes_ok, one step
   of Compact xok, Open ff_ok; nothing else needs anything.  Like DBInv.room it is not inductive (no
   bound on segment sizes is), so runs require it before every step ([loks], [xoks'], [cxok]); it
   follows from Inv and room of a related flat state (xok_of_Inv), which is how C01_exact_refines_map
   gets it without a new hypothesis.  Put, Delete, the reads, Compact and the replay of recovery are
   DBSim's Section Guarded with the guard "nonzero offset" ([exact_guarded]).  Section Gen: Close, Open
   and the frame of recovery call no index operation and need only R on the empty indexes and equal
   counts (also used by DBSimSessions.v).
   The run language [lop] has LCrash (forget the handle) so that the next LOpen recovers.
   Not here: crash images and power loss; C01_exact_refines_map covers DBRun's op' (no Close / Open). *)
From Coq Require Import ZArith Lia ZifyN ZifyNat ZifyBool Permutation.
From Pogreb Require Import Base BaseLemmas Crc Bytes Record RecordProofs Flat Index Spec DB DBInv
  DBLemmas DBProofsOps DBMeta DBProofsCompact DBProofsRecovery DBSim DBRun.
Ltac Zify.zify_post_hook ::= Z.div_mod_to_equations.

Record exact_sim {I1 I2} (ops1 : idx_ops I1) (ops2 : idx_ops I2) (R : I1 -> I2 -> Prop) : Prop := {
  xs_empty : R (ix_empty ops1) (ix_empty ops2);
  xs_get : forall a b h m, R a b -> ix_get ops1 a h m = ix_get ops2 b h m;
  xs_put : forall g a b sl m, R a b -> sl_off sl <> 0 ->
     snd (ix_put ops1 g a sl m) = snd (ix_put ops2 g b sl m) /\
     R (fst (ix_put ops1 g a sl m)) (fst (ix_put ops2 g b sl m));
  xs_del : forall a b h m, R a b ->
     snd (ix_del ops1 a h m) = snd (ix_del ops2 b h m) /\
     R (fst (ix_del ops1 a h m)) (fst (ix_del ops2 b h m));
  xs_repoint : forall a b h seg off nseg noff, R a b -> noff <> 0 ->
     opt_rel R (ix_repoint ops1 a h seg off nseg noff) (ix_repoint ops2 b h seg off nseg noff);
  xs_count : forall a b, R a b -> ix_count ops1 a = ix_count ops2 b;
  xs_nbuckets : forall a b, R a b -> ix_nbuckets ops1 a = ix_nbuckets ops2 b;
  xs_bucket : forall a b n, R a b -> ix_bucket ops1 a n = ix_bucket ops2 b n
}.

(* the guard of DBSim.guarded_sim: any callback, nonzero offsets *)
Lemma exact_guarded {I1 I2} (ops1 : idx_ops I1) (ops2 : idx_ops I2) R :
  exact_sim ops1 ops2 R -> guarded_sim ops1 ops2 R (fun _ _ => True) (fun o => o <> 0).
Proof.
  intros XS. constructor.
  - exact (xs_empty _ _ _ XS).
  - exact (xs_count _ _ _ XS).
  - intros a b h m H _. exact (xs_get _ _ _ XS a b h m H).
  - intros g a b sl m H _ Ho. exact (xs_put _ _ _ XS g a b sl m H Ho).
  - intros a b h m H _. exact (xs_del _ _ _ XS a b h m H).
  - intros a b h seg off nseg noff H _ Ho. exact (xs_repoint _ _ _ XS a b h seg off nseg noff H Ho).
Qed.

(* every record of the segment file -- including the valid framings recovery would accept from the
   tail -- starts at an offset whose 32-bit truncation is not 0 *)
Definition xseg_ok (f : dseg) : Prop :=
  Forall (fun e : N * rec => u32 (fst e) <> 0)
         (with_offsets header_size (f_recs f ++ fst (fst (parse_tail (f_tail f))))).

Definition msizes_ok (l : list mseg) : Prop := forall g, In g l -> u32 (g_size g) <> 0.

(* the next append offset of every open segment *)
Definition sizes_ok {I} (s : @DB.st I) : Prop :=
  forall m, s_mem s = Some m -> msizes_ok (m_segs m).

Definition xdisk_ok {I} (d : @DB.disk I) : Prop := Forall xseg_ok (d_segs d).

(* what recovery needs: the segment found for every id (the FIRST one with that id) *)
Definition ffl_ok (l : list dseg) : Prop :=
  forall id f, find (fun s => f_id s =? id) l = Some f -> xseg_ok f.
Definition ff_ok {I} (d : @DB.disk I) : Prop := ffl_ok (d_segs d).

Definition xok {I} (s : @DB.st I) : Prop := sizes_ok s /\ ff_ok (s_disk s).

Lemma u32_header : u32 header_size <> 0.
Proof. vm_compute. discriminate. Qed.

Lemma xdisk_ok_ff {I} (d : @DB.disk I) : xdisk_ok d -> ff_ok d.
Proof.
  intros H id f E. apply find_some in E. destruct E as [E _].
  exact (proj1 (Forall_forall _ _) H f E).
Qed.

Lemma find_dseg_In_g {I} (d : @DB.disk I) id f : find_dseg id d = Some f -> In f (d_segs d).
Proof. unfold find_dseg. intros E. apply find_some in E. tauto. Qed.

Lemma xseg_ok_entry f o r : xseg_ok f -> In (o, r) (seg_entries f) -> u32 o <> 0.
Proof.
  unfold xseg_ok, seg_entries. rewrite with_offsets_app. intros H Hin.
  apply Forall_app in H. destruct H as [H _].
  exact (proj1 (Forall_forall _ _) H (o, r) Hin).
Qed.

(* the bounds that [DBInv.dseg_ok] gives *)
Lemma xseg_ok_of_bound f :
  fst (fst (parse_tail (f_tail f))) = [] -> header_size + recs_len (f_recs f) < 4294967296 -> xseg_ok f.
Proof.
  intros Et Hb. unfold xseg_ok. rewrite Et, app_nil_r. apply Forall_forall. intros [o r] Hin.
  cbn [fst]. destruct (with_offsets_In_range _ _ _ _ Hin) as [H1 H2].
  pose proof (rsize_ge r) as H3. pose proof header_size_eq as H4.
  rewrite u32_small by lia. lia.
Qed.

Lemma xseg_ok_ext f g : f_recs g = f_recs f -> f_tail g = f_tail f -> xseg_ok f -> xseg_ok g.
Proof. unfold xseg_ok. intros -> ->. exact (fun H => H). Qed.

Lemma xseg_ok_empty id seq hdr meta :
  xseg_ok {| f_id := id; f_seq := seq; f_hdr := hdr; f_recs := []; f_tail := []; f_meta := meta |}.
Proof. unfold xseg_ok. cbn [f_recs f_tail]. rewrite empty_tail. cbn [fst app]. constructor. Qed.

Lemma find_snoc {A} (p : A -> bool) l x :
  find p (l ++ [x]) = match find p l with Some y => Some y | None => if p x then Some x else None end.
Proof.
  induction l as [|y l IH]; cbn [app find]; [reflexivity|]. destruct (p y); [reflexivity|exact IH].
Qed.

Lemma ffl_snoc l x : xseg_ok x -> ffl_ok l -> ffl_ok (l ++ [x]).
Proof.
  intros Hx H id f E. rewrite find_snoc in E.
  destruct (find (fun s => f_id s =? id) l) as [y|] eqn:F.
  - injection E as <-. exact (H id y F).
  - destruct (f_id x =? id); [|discriminate]. injection E as <-. exact Hx.
Qed.

(* a change of some segment files that keeps ids, records and tails *)
Lemma ffl_map id seq (G : dseg -> dseg) l :
  (forall s, f_id (G s) = f_id s /\ f_recs (G s) = f_recs s /\ f_tail (G s) = f_tail s) ->
  ffl_ok l -> ffl_ok (map (fun s => if is_seg id seq s then G s else s) l).
Proof.
  intros HG H id' f E.
  rewrite find_map_id in E by (intros s; destruct (is_seg id seq s); [apply HG|reflexivity]).
  destruct (find (fun s => f_id s =? id') l) as [s|] eqn:F; [|discriminate].
  cbn [option_map] in E. injection E as <-. specialize (H id' s F).
  destruct (is_seg id seq s); [|exact H]. destruct (HG s) as (_ & A & B).
  apply (xseg_ok_ext s); assumption.
Qed.

(* a change of the segment files (id, seq): only the file FOUND for [id] matters *)
Lemma ffl_map_found id seq (G : dseg -> dseg) l f :
  (forall s, f_id (G s) = f_id s) -> ffl_ok l ->
  find (fun s => f_id s =? id) l = Some f ->
  (is_seg id seq f = true -> xseg_ok f -> xseg_ok (G f)) ->
  ffl_ok (map (fun s => if is_seg id seq s then G s else s) l).
Proof.
  intros HG H Ef Hf id' f' E.
  rewrite find_map_id in E by (intros s; destruct (is_seg id seq s); [apply HG|reflexivity]).
  destruct (find (fun s => f_id s =? id') l) as [s|] eqn:F; [|discriminate].
  cbn [option_map] in E. injection E as <-. pose proof (H id' s F) as Hs.
  destruct (is_seg id seq s) eqn:Eis; [|exact Hs].
  assert (id' = id).
  { apply find_some in F. destruct F as [_ F]. apply N.eqb_eq in F.
    unfold is_seg in Eis. apply andb_true_iff in Eis. destruct Eis as [Eis _]. apply N.eqb_eq in Eis. congruence. }
  subst id'. assert (s = f) by congruence. subst s. apply Hf; assumption.
Qed.

Lemma trunc_seg_id n s : f_id (trunc_seg n s) = f_id s.
Proof.
  unfold trunc_seg. destruct (negb (f_hdr s)); [reflexivity|].
  destruct (trunc_recs header_size n (f_recs s)) as [keep e]. reflexivity.
Qed.

(* the reader: consumed bytes = sizes of the accepted records; nothing more is accepted after the
   consumed prefix *)
Lemma parse_props : forall k bs rs n why, (length bs <= k)%nat ->
  parse_tail bs = (rs, n, why) ->
  recs_len rs = n /\ fst (fst (parse_tail (ndrop n bs))) = [].
Proof.
  induction k as [|k IH]; intros bs rs n why Hk E.
  - destruct bs; [|cbn [length] in Hk; lia]. rewrite empty_tail in E. injection E as <- <- <-.
    split; [reflexivity|]. rewrite ndrop_0, empty_tail. reflexivity.
  - rewrite parse_tail_step in E. destruct (decode_next bs) as [| | |r len rest] eqn:D.
    + injection E as <- <- <-. split; [reflexivity|]. rewrite ndrop_0, parse_tail_step, D. reflexivity.
    + injection E as <- <- <-. split; [reflexivity|]. rewrite ndrop_0, parse_tail_step, D. reflexivity.
    + injection E as <- <- <-. split; [reflexivity|]. rewrite ndrop_0, parse_tail_step, D. reflexivity.
    + destruct (parse_tail rest) as [[rs' n'] why'] eqn:Er. injection E as <- <- <-.
      pose proof (decode_next_ok_shorter _ _ _ _ D) as Hsh.
      destruct (IH rest rs' n' why' ltac:(lia) Er) as [A B].
      destruct (decode_next_ok_inv _ _ _ _ D) as (_ & _ & Erest).
      destruct (decode_next_ok_frame _ _ _ _ D) as (hk & hv & sm & _ & _ & _ & _ & _ & _ & _ & _ & Elen).
      split.
      * rewrite recs_len_cons, A. unfold rsize. rewrite Elen. reflexivity.
      * rewrite ndrop_add, <- Erest. exact B.
Qed.

(* recover_segment's change of representation: the framings accepted from the tail become records *)
Definition reframed (extra : list rec) (n : N) (f : dseg) : dseg :=
  {| f_id := f_id f; f_seq := f_seq f; f_hdr := f_hdr f; f_recs := f_recs f ++ extra;
     f_tail := ndrop n (f_tail f); f_meta := f_meta f |}.

Lemma xseg_ok_reframed f extra n why :
  parse_tail (f_tail f) = (extra, n, why) -> xseg_ok f -> xseg_ok (reframed extra n f).
Proof.
  intros Ep H. unfold xseg_ok in *. cbn [reframed f_recs f_tail]. rewrite Ep in H. cbn [fst] in H.
  destruct (parse_props _ _ _ _ _ (le_n _) Ep) as [_ B]. rewrite B, app_nil_r. exact H.
Qed.

Lemma xseg_ok_trunc_reframed f extra n why :
  parse_tail (f_tail f) = (extra, n, why) -> xseg_ok f ->
  xseg_ok (trunc_seg (header_size + recs_len (f_recs f) + n) (reframed extra n f)).
Proof.
  intros Ep H. pose proof (xseg_ok_reframed f extra n why Ep H) as H0.
  destruct (parse_props _ _ _ _ _ (le_n _) Ep) as [A _].
  unfold trunc_seg. cbn [reframed f_hdr f_recs f_tail f_id f_seq f_meta].
  destruct (f_hdr f); cbn [negb]; [|exact H0].
  rewrite (rc_trunc_recs_all (f_recs f ++ extra) header_size) by (rewrite recs_len_app, A; lia).
  cbv beta iota. unfold xseg_ok. cbn [f_recs f_tail].
  replace (header_size + recs_len (f_recs f) + n - (header_size + recs_len (f_recs f ++ extra))) with 0
    by (rewrite recs_len_app, A; lia).
  rewrite ntake_0, empty_tail. cbn [fst]. rewrite app_nil_r.
  unfold xseg_ok in H. rewrite Ep in H. exact H.
Qed.

(* the run language: DBRun.op' (= DBSim.op + Compact), Close, Open, and a crash that only forgets the
   in-memory state (so that the next Open takes the recovery path) *)
Inductive lop := LBase (o : op') | LClose | LOpen (seed : N) | LCrash.

Section One.
Context {I : Type}.
Variable ops : idx_ops I.

Lemma upd_mseg_sizes id F l :
  (forall g, g_size (F g) = g_size g) -> msizes_ok l -> msizes_ok (upd_mseg id F l).
Proof.
  intros HF H g Hg. unfold upd_mseg in Hg. apply in_map_iff in Hg. destruct Hg as (x & <- & Hx).
  destruct (g_id x =? id); [rewrite HF|]; apply H; exact Hx.
Qed.

Lemma seal_sizes id (s : @DB.st I) m :
  msizes_ok (m_segs m) -> msizes_ok (m_segs (snd (seal ops id s m))).
Proof.
  intros H. unfold seal. destruct (find_mseg id (m_segs m)) as [g|]; [|exact H].
  destruct (sm_full (g_meta g)); [exact H|]. cbn [snd set_msegs m_segs].
  apply upd_mseg_sizes; [reflexivity|exact H].
Qed.

Lemma swap_sizes (s : @DB.st I) m :
  msizes_ok (m_segs m) -> msizes_ok (m_segs (snd (swap_segment ops s m))).
Proof.
  intros H. unfold swap_segment.
  destruct (find (fun g => negb (sm_full (g_meta g))) (m_segs m)) as [g|]; [exact H|].
  cbv zeta. cbn [snd set_cur set_maxseq set_msegs m_segs]. intros g Hg.
  apply insert_mseg_In in Hg. destruct Hg as [->|Hg]; [cbn [g_size]; exact u32_header|apply H; exact Hg].
Qed.

Lemma gprelude_sizes P r (s : @DB.st I) m :
  msizes_ok (m_segs m) -> msizes_ok (m_segs (snd (gprelude ops P r s m))).
Proof.
  intros H. unfold gprelude. destruct (cur_seg m) as [g|].
  - destruct (sm_full (g_meta g) || (p_maxseg P <? g_size g + rsize r)); [|exact H].
    pose proof (seal_sizes (g_id g) s m H) as H0.
    destruct (seal ops (g_id g) s m) as [s0 m0]. cbn [snd] in H0. apply swap_sizes. exact H0.
  - apply swap_sizes. exact H.
Qed.

Lemma cur_seg_In (m : @DB.mem I) g : cur_seg m = Some g -> In g (m_segs m).
Proof.
  unfold cur_seg. destruct (m_cur_removed m); [discriminate|].
  destruct (find_mseg (fst (m_cur m)) (m_segs m)) as [g'|] eqn:F; [|discriminate].
  destruct (g_seq g' =? snd (m_cur m)); [|discriminate]. intros E. injection E as <-.
  unfold find_mseg in F. apply find_some in F. tauto.
Qed.

Lemma gtail_off r (s1 : @DB.st I) m1 s' m' id off :
  gtail ops r s1 m1 = Some (s', m', id, off) -> msizes_ok (m_segs m1) -> off <> 0.
Proof.
  unfold gtail. destruct (cur_seg m1) as [g|] eqn:Ec; [|discriminate].
  destruct (find_dseg (g_id g) (s_disk s1)) as [f|]; [|discriminate].
  destruct (negb ((f_seq f =? g_seq g) && (flen f =? g_size g))); [discriminate|].
  cbv zeta. intros E H. injection E as _ _ _ <-. apply H. apply cur_seg_In. exact Ec.
Qed.

Lemma write_record_off P r (s : @DB.st I) m s' m' id off :
  write_record ops P r s m = Some (s', m', id, off) -> msizes_ok (m_segs m) -> off <> 0.
Proof.
  rewrite write_record_g. intros E H. pose proof (gprelude_sizes P r s m H) as H1.
  destruct (gprelude ops P r s m) as [s1 m1]. cbn [snd] in H1.
  exact (gtail_off _ _ _ _ _ _ _ E H1).
Qed.

(* Items as a named fixpoint *)
Definition items_go (s : @DB.st I) : list N -> out :=
  fix go (l : list N) : out :=
  match l with
  | [] => OItems []
  | n :: l' => match fetch_bucket ops s n, go l' with
               | Some a, OItems b => OItems (a ++ b)
               | None, _ => OBroken 4
               | _, o => o
               end
  end.

Lemma items_go_cons (s : @DB.st I) n l :
  items_go s (n :: l) = match fetch_bucket ops s n, items_go s l with
                        | Some a, OItems b => OItems (a ++ b)
                        | None, _ => OBroken 4
                        | _, o => o
                        end.
Proof. reflexivity. Qed.

Lemma db_items_go (s : @DB.st I) :
  db_items ops s = match s_mem s with
                   | None => OErr EClosed
                   | Some m => items_go s (nseq 0 (N.to_nat (ix_nbuckets ops (m_idx m))))
                   end.
Proof. reflexivity. Qed.

(* the side condition along a compaction (as DBProofsCompact.run_room) *)
Fixpoint cxok (P : params) (fuel : nat) (s : @DB.st I) (c : cursor) : Prop :=
  match fuel with
  | O => True
  | S f => xok s /\
           match compact_step ops P s c with
           | CMore s' c' => cxok P f s' c'
           | _ => True
           end
  end.

Definition compact_xok (P : params) (s : @DB.st I) : Prop :=
  match compact_pick ops P s with
  | Some (s1, c) => cxok P (S (2 * length (c_todo c) + 2 * total_recs (s_disk s1) + 2)) s1 c
  | None => True
  end.

(* [xok] is the guard of one compaction step, [cxok] of a whole compaction *)
Lemma step_guard_xok P (s : @DB.st I) : xok s -> step_guard ops (fun _ _ => True) (fun o => o <> 0) P s.
Proof.
  intros [Hsz Hdk] m Em. split; [intros; exact Logic.I|]. split.
  - intros id f off r Ef Er. apply (xseg_ok_entry f off r (Hdk id f Ef)). apply rec_at_In. exact Er.
  - intros r s' m' id off Ew. exact (write_record_off P r s m s' m' id off Ew (Hsz m Em)).
Qed.

Lemma cxok_step P f (s : @DB.st I) c : cxok P (S f) s c ->
  step_guard ops (fun _ _ => True) (fun o => o <> 0) P s /\
  forall s' c', compact_step ops P s c = CMore s' c' -> cxok P f s' c'.
Proof.
  cbn [cxok]. intros [Hx Hn]. split; [apply step_guard_xok; exact Hx|].
  intros s' c' E. rewrite E in Hn. exact Hn.
Qed.

(* Open: the disk part of the side condition ([ff_ok]) survives everything Open does to the segment
   files before and while it replays them *)
(* events that never change the records or the tail of a segment file (nor remove one) *)
Definition ev_safe (e : @fsev I) : Prop :=
  match e with
  | EAppend _ _ _ _ => False
  | ETrunc (FSeg _ _) _ => False
  | ERename (FSeg _ _) _ => False
  | ERemove (FSeg _ _) => False
  | _ => True
  end.

Lemma ff_apply_ev (d : @DB.disk I) e : ev_safe e -> ff_ok d -> ff_ok (apply_ev ops d e).
Proof.
  unfold ff_ok. destruct d as [segs orph ix ov im dbm lk bac].
  destruct e as [f|f|id seq off r|i|id seq m|i|sd|f n|f g|f|f]; cbn [ev_safe]; intros Hs H;
    try destruct f; try contradiction;
    cbv beta iota delta [apply_ev file_removed set_segs set_orphans set_index set_overflow set_imeta
      set_dbmeta set_lock set_bac upd_seg d_segs d_orphans d_index d_overflow d_imeta d_dbmeta d_lock d_bac];
    try exact H;
    try (apply ffl_map; [intros s; repeat split|exact H]).
  apply ffl_snoc; [apply xseg_ok_empty|exact H].
Qed.

Lemma ff_emit e (s : @DB.st I) : ev_safe e -> ff_ok (s_disk s) -> ff_ok (s_disk (emit ops e s)).
Proof. intros He H. unfold emit. cbn [s_disk]. apply ff_apply_ev; assumption. Qed.

Lemma ff_emits es : Forall ev_safe es -> forall s : @DB.st I,
  ff_ok (s_disk s) -> ff_ok (s_disk (emits ops es s)).
Proof.
  unfold emits. induction 1 as [|e es He Hes IH]; intros s H; cbn [fold_left]; [exact H|].
  apply IH. apply ff_emit; assumption.
Qed.

Lemma ff_fold_emit {A} (ev : A -> @fsev I) (l : list A) :
  (forall a, In a l -> ev_safe (ev a)) -> forall s : @DB.st I,
  ff_ok (s_disk s) -> ff_ok (s_disk (fold_left (fun s a => emit ops (ev a) s) l s)).
Proof.
  induction l as [|a l IH]; intros Hl s H; cbn [fold_left]; [exact H|].
  apply IH; [intros b Hb; apply Hl; right; exact Hb|]. apply ff_emit; [apply Hl; left; reflexivity|exact H].
Qed.

Lemma ff_backup_nonseg (s : @DB.st I) : ff_ok (s_disk s) -> ff_ok (s_disk (backup_nonseg ops s)).
Proof.
  intros H. unfold backup_nonseg. apply (ff_fold_emit (fun f => ERename f (FBac f))); [|exact H].
  intros f Hf. apply (Permutation_in _ (rc_sort_names_perm _)) in Hf. apply filter_In in Hf.
  destruct Hf as [_ Hf]. destruct f; cbn [ev_safe]; try exact Logic.I. discriminate Hf.
Qed.

Lemma ff_open_index (s s' : @DB.st I) i :
  open_index ops s = Some (s', i) -> ff_ok (s_disk s) -> ff_ok (s_disk s').
Proof.
  unfold open_index. intros E H.
  set (fresh := match d_index (s_disk s) with None => true | Some _ => false end) in E.
  set (s1 := if fresh then emits ops [ECreate FMain; EHeader FMain] s else s) in E.
  assert (H1 : ff_ok (s_disk s1)).
  { subst s1. destruct fresh; [|exact H]. apply ff_emits; [|exact H]. repeat constructor. }
  set (s2 := if d_overflow (s_disk s1) then s1 else emits ops [ECreate FOverflow; EHeader FOverflow] s1) in E.
  assert (H2 : ff_ok (s_disk s2)).
  { subst s2. destruct (d_overflow (s_disk s1)); [exact H1|]. apply ff_emits; [|exact H1]. repeat constructor. }
  destruct fresh.
  - injection E as <- _. apply (ff_emits [ETrunc FMain (header_size + 512); EIndex (ix_empty ops)]); [|exact H2].
    repeat constructor.
  - destruct (d_index (s_disk s2)) as [j|]; [|discriminate].
    destruct (d_imeta (s_disk s2)) as [| |j']; try discriminate. injection E as <- _. exact H2.
Qed.

Lemma ff_open_segments_fold (L : list dseg) : forall acc : @DB.st I * list mseg,
  ff_ok (s_disk (fst acc)) ->
  ff_ok (s_disk (fst (fold_left (fun (acc : @DB.st I * list mseg) (f : dseg) =>
    let '(s, l) := acc in
    let s1 := if f_hdr f then s else emit ops (EHeader (FSeg (f_id f) (f_seq f))) s in
    let size := match find_dseg (f_id f) (s_disk s1) with Some f' => flen f' | None => 0 end in
    let meta := match f_meta f with GOk m => m | _ => smeta0 end in
    (s1, insert_mseg {| g_id := f_id f; g_seq := f_seq f; g_size := size; g_meta := meta |} l)) L acc))).
Proof.
  induction L as [|f L IH]; intros [s l] H; cbn [fold_left]; [exact H|].
  apply IH. cbv beta iota zeta. cbn [fst] in *.
  destruct (f_hdr f); [exact H|]. apply ff_emit; [exact Logic.I|exact H].
Qed.

Lemma ff_open_segments (s : @DB.st I) :
  ff_ok (s_disk s) -> ff_ok (s_disk (fst (open_segments ops s))).
Proof. intros H. unfold open_segments. apply ff_open_segments_fold. exact H. Qed.

Lemma ff_swap_segment (s : @DB.st I) m :
  ff_ok (s_disk s) -> ff_ok (s_disk (fst (swap_segment ops s m))).
Proof.
  intros H. unfold swap_segment.
  destruct (find (fun g => negb (sm_full (g_meta g))) (m_segs m)) as [g|]; [exact H|].
  cbv zeta. cbn [fst]. apply ff_emits; [|exact H]. repeat constructor.
Qed.

Lemma s_disk_reframe id seq extra n (s : @DB.st I) :
  s_disk (reframe id seq extra n s) = upd_seg id seq (reframed extra n) (s_disk s).
Proof. reflexivity. Qed.

Lemma ff_recover_segment P id seq (s : @DB.st I) m :
  ff_ok (s_disk s) -> ff_ok (s_disk (fst (recover_segment ops P id seq s m))).
Proof.
  intros H. unfold recover_segment.
  destruct (find_dseg id (s_disk s)) as [f|] eqn:Ef; [|exact H].
  destruct (parse_tail (f_tail f)) as [[extra n] why] eqn:Ep. cbv zeta. cbn [fst].
  assert (H0 : ff_ok (s_disk (reframe id seq extra n s))).
  { rewrite s_disk_reframe. unfold ff_ok in *. destruct (s_disk s) as [segs orph ix ov im dbm lk bac].
    unfold find_dseg in Ef. cbn [upd_seg d_segs] in *.
    apply (ffl_map_found id seq _ segs f); [reflexivity|exact H|exact Ef|].
    intros _ Hf. exact (xseg_ok_reframed f extra n why Ep Hf). }
  assert (H1 : ff_ok (s_disk (emit ops (ETrunc (FSeg id seq) (header_size + recs_len (f_recs f) + n))
                               (reframe id seq extra n s)))).
  { unfold emit. cbn [s_disk apply_ev]. rewrite s_disk_reframe in *. unfold ff_ok in *.
    destruct (s_disk s) as [segs orph ix ov im dbm lk bac]. unfold find_dseg in Ef.
    cbn [upd_seg d_segs] in *.
    set (c1 := fun s => if is_seg id seq s then reframed extra n s else s) in *.
    apply (ffl_map_found id seq _ (map c1 segs) (c1 f)); [apply trunc_seg_id|exact H0| |].
    - rewrite find_map_id, Ef; [reflexivity|].
      intros x. unfold c1. destruct (is_seg id seq x); reflexivity.
    - unfold c1. destruct (is_seg id seq f) eqn:Eis; intros Hi _; [|congruence].
      exact (xseg_ok_trunc_reframed f extra n why Ep (H id f Ef)). }
  destruct why; assumption.
Qed.

(* db_open = lock, backup of the non-segment files if the lock was there; then [open_mid] *)
Definition open_mid (P : params) (seed : N) (existing : bool) (s1 : @DB.st I) : @DB.st I * out :=
  match open_index ops s1 with
  | None => (s1, OErr EOpenFailed)
  | Some (s2, i) =>
    let '(s3, segs) := open_segments ops s2 in
    let maxseq := fold_left (fun n g => N.max n (g_seq g)) segs 0 in
    let m0 := {| m_segs := segs; m_cur := (0, 0); m_cur_removed := true; m_maxseq := maxseq;
                 m_idx := i; m_seed := seed |} in
    let '(s4, m1) := swap_segment ops s3 m0 in
    let seed_ok :=
      if ix_count ops i =? 0 then Some seed
      else match d_dbmeta (s_disk s4) with GOk sd => Some sd | _ => None end in
    match seed_ok with
    | None => (s4, OErr EOpenFailed)
    | Some sd =>
      let m2 := {| m_segs := m_segs m1; m_cur := m_cur m1; m_cur_removed := m_cur_removed m1;
                   m_maxseq := m_maxseq m1; m_idx := m_idx m1; m_seed := sd |} in
      if existing
      then let '(s5, m3) := recover ops P s4 m2 in (with_mem m3 s5, OOpened true)
      else (with_mem m2 s4, OOpened false)
    end
  end.

Lemma db_open_mid P seed (s : @DB.st I) :
  db_open ops P seed s =
  match s_mem s with
  | Some _ => (s, OErr ELocked)
  | None =>
    let existing := d_lock (s_disk s) in
    let s0 := if existing then s else emit ops (ECreate FLock) s in
    let s1 := if existing then backup_nonseg ops s0 else s0 in
    open_mid P seed existing s1
  end.
Proof. reflexivity. Qed.

(* Backup as a named fixpoint *)
Definition backup_go (d : @DB.disk I) : list (N * N * option N) -> option (list dseg) :=
  fix go (l : list (N * N * option N)) : option (list dseg) :=
  match l with
  | [] => Some []
  | p :: l' => match copy_seg d p, go l' with
               | Some c, Some r => Some (c :: r)
               | _, _ => None
               end
  end.

Lemma backup_go_cons (d : @DB.disk I) p l :
  backup_go d (p :: l) = match copy_seg d p, backup_go d l with
                         | Some c, Some r => Some (c :: r)
                         | _, _ => None
                         end.
Proof. reflexivity. Qed.

Lemma db_backup_go (s : @DB.st I) :
  db_backup s = match s_mem s with
                | None => None
                | Some m => option_map backup_disk (backup_go (s_disk s) (backup_plan m))
                end.
Proof. reflexivity. Qed.

Lemma ff_gob_write f b (s : @DB.st I) :
  match f with FSeg _ _ => False | _ => True end -> ev_safe b ->
  ff_ok (s_disk s) -> ff_ok (s_disk (gob_write ops f b s)).
Proof.
  intros Hf Hb H. unfold gob_write. apply ff_emits.
  - constructor; [exact Logic.I|]. constructor; [exact Hb|]. constructor; [exact Logic.I|constructor].
  - destruct (exists_file (s_disk s) f); apply ff_emit; try exact H; [|exact Logic.I].
    destruct f; try exact Logic.I. contradiction.
Qed.

Lemma ff_close_fold (l : list mseg) : forall s0 : @DB.st I, ff_ok (s_disk s0) ->
  ff_ok (s_disk (fold_left (fun s g =>
      gob_write ops (FSegMeta (g_id g) (g_seq g)) (EGobSeg (g_id g) (g_seq g) (g_meta g))
                (emit ops (ESync (FSeg (g_id g) (g_seq g))) s)) l s0)).
Proof.
  induction l as [|g l IH]; intros s0 H; cbn [fold_left]; [exact H|].
  apply IH. apply ff_gob_write; [exact Logic.I|exact Logic.I|]. apply ff_emit; [exact Logic.I|exact H].
Qed.

Lemma ff_close (s : @DB.st I) : ff_ok (s_disk s) -> ff_ok (s_disk (fst (db_close ops s))).
Proof.
  intros H. unfold db_close. destruct (s_mem s) as [m|]; [|exact H]. cbv zeta. cbn [fst s_disk].
  apply (ff_emits [ESync FMain; ESync FOverflow; ERemove FLock]); [repeat constructor|].
  apply ff_gob_write; [exact Logic.I|exact Logic.I|]. apply ff_close_fold.
  apply ff_gob_write; [exact Logic.I|exact Logic.I|exact H].
Qed.

(* the side condition an operation needs BEFORE it runs *)
Definition op_xok (P : params) (s : @DB.st I) (o : op') : Prop :=
  match o with
  | OpBase (OpPut _ _) => sizes_ok s
  | OpCompact => compact_xok P s
  | _ => True
  end.

Definition lstep (P : params) (s : @DB.st I) (o : lop) : @DB.st I * out :=
  match o with
  | LBase b => step' ops P s b
  | LClose => db_close ops s
  | LOpen seed => db_open ops P seed s
  | LCrash => ({| s_mem := None; s_disk := s_disk s; s_trace := s_trace s |}, OOk)
  end.

Definition lop_ok (P : params) (s : @DB.st I) (o : lop) : Prop :=
  match o with
  | LBase b => op_xok P s b
  | LOpen _ => ff_ok (s_disk s)
  | LClose | LCrash => True
  end.

Fixpoint lrun (P : params) (s : @DB.st I) (l : list lop) : list out :=
  match l with
  | [] => []
  | o :: l' => let '(s', r) := lstep P s o in r :: lrun P s' l'
  end.

Definition lfinal (P : params) (s : @DB.st I) (l : list lop) : @DB.st I :=
  fold_left (fun s o => fst (lstep P s o)) l s.

(* the side condition before every operation of the run *)
Inductive loks (P : params) : @DB.st I -> list lop -> Prop :=
| loks_nil s : loks P s []
| loks_cons s o l : lop_ok P s o -> loks P (fst (lstep P s o)) l -> loks P s (o :: l).

Inductive xoks' (P : params) : @DB.st I -> list op' -> Prop :=
| xoks'_nil s : xoks' P s []
| xoks'_cons s o l :
    op_xok P s o -> xoks' P (fst (step' ops P s o)) l -> xoks' P s (o :: l).

End One.

Lemma opt_rel_cases {A B} (Q : A -> B -> Prop) x y : opt_rel Q x y ->
  (x = None /\ y = None) \/ (exists a b, x = Some a /\ y = Some b /\ Q a b).
Proof. intros H. destruct H as [|a b Hab]; [left; auto|right; exists a, b; auto]. Qed.

Lemma gob_rel_cases {A B} (Q : A -> B -> Prop) x y : gob_rel Q x y ->
  (x = GAbsent /\ y = GAbsent) \/ (x = GPartial /\ y = GPartial) \/
  (exists a b, x = GOk a /\ y = GOk b /\ Q a b).
Proof.
  intros H. destruct H as [| |a b Hab]; [left; auto|right; left; auto|right; right; exists a, b; auto].
Qed.

Section Gen.
Context {I1 I2 : Type}.
Variable ops1 : idx_ops I1.
Variable ops2 : idx_ops I2.
Variable R : I1 -> I2 -> Prop.
Hypothesis RE : R (ix_empty ops1) (ix_empty ops2).
Hypothesis RC : forall a b, R a b -> ix_count ops1 a = ix_count ops2 b.

Local Notation st1 := (@DB.st I1). Local Notation st2 := (@DB.st I2).
Local Notation mem1 := (@DB.mem I1). Local Notation mem2 := (@DB.mem I2).
Local Notation disk1 := (@DB.disk I1). Local Notation disk2 := (@DB.disk I2).

Lemma gob_write_g f b1 b2 (s1 : st1) (s2 : st2) :
  gst_rel R s1 s2 -> gev_rel R b1 b2 -> gst_rel R (gob_write ops1 f b1 s1) (gob_write ops2 f b2 s2).
Proof.
  intros Hs Hb. unfold gob_write. rewrite (exists_file_rel R _ _ f (st_rel_disk R _ _ Hs)).
  apply (emits_rel R ops1 ops2 RE).
  - constructor; [constructor|]. constructor; [exact Hb|]. constructor; [constructor|constructor].
  - destruct (exists_file (s_disk s2) f); apply (emit_rel R ops1 ops2 RE); try exact Hs; constructor.
Qed.

Lemma close_fold_g (l : list mseg) : forall (a : st1) (b : st2), gst_rel R a b ->
  gst_rel R
    (fold_left (fun s g => gob_write ops1 (FSegMeta (g_id g) (g_seq g)) (EGobSeg (g_id g) (g_seq g) (g_meta g))
                             (emit ops1 (ESync (FSeg (g_id g) (g_seq g))) s)) l a)
    (fold_left (fun s g => gob_write ops2 (FSegMeta (g_id g) (g_seq g)) (EGobSeg (g_id g) (g_seq g) (g_meta g))
                             (emit ops2 (ESync (FSeg (g_id g) (g_seq g))) s)) l b).
Proof.
  induction l as [|g l IH]; intros a b Hab; cbn [fold_left]; [exact Hab|].
  apply IH. apply gob_write_g; [|constructor]. apply (emit_rel R ops1 ops2 RE); [exact Hab|constructor].
Qed.

(* Close: no index operation at all; the index value goes to index.pmt (EGobIndex), related by R *)
Theorem close_g (s1 : st1) (s2 : st2) :
  gst_rel R s1 s2 -> so_rel R (db_close ops1 s1) (db_close ops2 s2).
Proof.
  intros Hs. unfold db_close.
  destruct (st_rel_mem_cases R _ _ Hs) as [[E1 E2]|(m1 & m2 & E1 & E2 & Hm)]; rewrite E1, E2.
  { split; [reflexivity|exact Hs]. }
  cbv beta iota zeta. split; [reflexivity|]. cbn [fst].
  rewrite (mem_rel_seed R _ _ Hm), (mem_rel_segs R _ _ Hm).
  match goal with
  | |- gst_rel R {| s_mem := None; s_disk := s_disk ?a; s_trace := _ |}
                 {| s_mem := None; s_disk := s_disk ?b; s_trace := _ |} =>
      assert (H4 : gst_rel R a b)
  end.
  { apply (emits_rel R ops1 ops2 RE).
    - constructor; [constructor|]. constructor; [constructor|]. constructor; [constructor|constructor].
    - apply gob_write_g; [|constructor; exact (mem_rel_idx R _ _ Hm)].
      apply close_fold_g. apply gob_write_g; [exact Hs|constructor]. }
  apply st_rel_iff. cbn [s_mem s_disk s_trace].
  split; [constructor|]. split; [exact (st_rel_disk R _ _ H4)|exact (st_rel_trace R _ _ H4)].
Qed.

Lemma d_lock_g (d1 : disk1) (d2 : disk2) : gdisk_rel R d1 d2 -> d_lock d1 = d_lock d2.
Proof. intros H. destruct H. reflexivity. Qed.
Lemma d_overflow_g (d1 : disk1) (d2 : disk2) : gdisk_rel R d1 d2 -> d_overflow d1 = d_overflow d2.
Proof. intros H. destruct H. reflexivity. Qed.
Lemma d_dbmeta_g (d1 : disk1) (d2 : disk2) : gdisk_rel R d1 d2 -> d_dbmeta d1 = d_dbmeta d2.
Proof. intros H. destruct H. reflexivity. Qed.
Lemma d_index_g (d1 : disk1) (d2 : disk2) : gdisk_rel R d1 d2 -> opt_rel R (d_index d1) (d_index d2).
Proof. intros H. destruct H. assumption. Qed.
Lemma d_imeta_g (d1 : disk1) (d2 : disk2) : gdisk_rel R d1 d2 -> gob_rel R (d_imeta d1) (d_imeta d2).
Proof. intros H. destruct H. assumption. Qed.

Lemma upd_seg_g id seq G (d1 : disk1) (d2 : disk2) :
  gdisk_rel R d1 d2 -> gdisk_rel R (upd_seg id seq G d1) (upd_seg id seq G d2).
Proof.
  intros H. destruct H. unfold upd_seg.
  cbn [d_segs d_orphans d_index d_overflow d_imeta d_dbmeta d_lock d_bac]. constructor; assumption.
Qed.

Lemma fold_emit_g {A} (ev1 : A -> @fsev I1) (ev2 : A -> @fsev I2) (l : list A) :
  (forall a, gev_rel R (ev1 a) (ev2 a)) -> forall (s1 : st1) (s2 : st2), gst_rel R s1 s2 ->
  gst_rel R (fold_left (fun s a => emit ops1 (ev1 a) s) l s1)
            (fold_left (fun s a => emit ops2 (ev2 a) s) l s2).
Proof.
  intros He. induction l as [|a l IH]; intros s1 s2 Hs; cbn [fold_left]; [exact Hs|].
  apply IH. apply (emit_rel R ops1 ops2 RE); [exact Hs|apply He].
Qed.

Lemma backup_nonseg_g (s1 : st1) (s2 : st2) :
  gst_rel R s1 s2 -> gst_rel R (backup_nonseg ops1 s1) (backup_nonseg ops2 s2).
Proof.
  intros Hs. unfold backup_nonseg. rewrite (dir_rel R _ _ (st_rel_disk R _ _ Hs)).
  apply (fold_emit_g (fun f => ERename f (FBac f)) (fun f => ERename f (FBac f))); [|exact Hs].
  intros f. constructor.
Qed.

Lemma remove_bac_g (s1 : st1) (s2 : st2) :
  gst_rel R s1 s2 -> gst_rel R (remove_bac ops1 s1) (remove_bac ops2 s2).
Proof.
  intros Hs. unfold remove_bac. rewrite (d_bac_rel R _ _ (st_rel_disk R _ _ Hs)).
  apply (fold_emit_g (fun f => ERemove f) (fun f => ERemove f)); [|exact Hs].
  intros f. constructor.
Qed.

(* openIndex: the index read from main.pix / index.pmt, or a new one *)
Definition oi_rel_g (a : option (st1 * I1)) (b : option (st2 * I2)) : Prop :=
  match a, b with
  | None, None => True
  | Some (s1, i1), Some (s2, i2) => gst_rel R s1 s2 /\ R i1 i2
  | _, _ => False
  end.

Lemma oi_tail_g (s1 : st1) (s2 : st2) : gst_rel R s1 s2 ->
  oi_rel_g (match d_index (s_disk s1), d_imeta (s_disk s1) with
            | Some i, GOk j => Some (s1, i)
            | _, _ => None
            end)
           (match d_index (s_disk s2), d_imeta (s_disk s2) with
            | Some i, GOk j => Some (s2, i)
            | _, _ => None
            end).
Proof.
  intros Hs. pose proof (st_rel_disk R _ _ Hs) as Hd.
  destruct (opt_rel_cases _ _ _ (d_index_g _ _ Hd)) as [[E1 E2]|(a & b & E1 & E2 & Hab)]; rewrite E1, E2;
    [exact Logic.I|].
  destruct (gob_rel_cases _ _ _ (d_imeta_g _ _ Hd)) as [[F1 F2]|[[F1 F2]|(a' & b' & F1 & F2 & _)]];
    rewrite F1, F2; [exact Logic.I|exact Logic.I|]. split; assumption.
Qed.

Lemma open_index_g (s1 : st1) (s2 : st2) :
  gst_rel R s1 s2 -> oi_rel_g (open_index ops1 s1) (open_index ops2 s2).
Proof.
  intros Hs. unfold open_index. pose proof (st_rel_disk R _ _ Hs) as Hd.
  destruct (opt_rel_cases _ _ _ (d_index_g _ _ Hd)) as [[E1 E2]|(a & b & E1 & E2 & Hab)]; rewrite E1, E2;
    cbv beta iota zeta.
  - assert (Ha : gst_rel R (emits ops1 [ECreate FMain; EHeader FMain] s1)
                           (emits ops2 [ECreate FMain; EHeader FMain] s2)).
    { apply (emits_rel R ops1 ops2 RE); [|exact Hs]. repeat constructor. }
    rewrite (d_overflow_g _ _ (st_rel_disk R _ _ Ha)).
    destruct (d_overflow (s_disk (emits ops2 [ECreate FMain; EHeader FMain] s2))).
    + split; [|exact RE]. apply (emits_rel R ops1 ops2 RE); [|exact Ha].
      constructor; [constructor|]. constructor; [constructor; exact RE|constructor].
    + split; [|exact RE]. apply (emits_rel R ops1 ops2 RE).
      * constructor; [constructor|]. constructor; [constructor; exact RE|constructor].
      * apply (emits_rel R ops1 ops2 RE); [|exact Ha]. repeat constructor.
  - rewrite (d_overflow_g _ _ Hd). destruct (d_overflow (s_disk s2)).
    + apply oi_tail_g. exact Hs.
    + apply oi_tail_g. apply (emits_rel R ops1 ops2 RE); [|exact Hs]. repeat constructor.
Qed.

(* openDatalog *)
Definition os_rel_g (a : st1 * list mseg) (b : st2 * list mseg) : Prop :=
  gst_rel R (fst a) (fst b) /\ snd a = snd b.

Lemma open_segments_fold_g (L : list dseg) : forall a b, os_rel_g a b ->
  os_rel_g
    (fold_left (fun (acc : st1 * list mseg) (f : dseg) =>
      let '(s, l) := acc in
      let s1 := if f_hdr f then s else emit ops1 (EHeader (FSeg (f_id f) (f_seq f))) s in
      let size := match find_dseg (f_id f) (s_disk s1) with Some f' => flen f' | None => 0 end in
      let meta := match f_meta f with GOk m => m | _ => smeta0 end in
      (s1, insert_mseg {| g_id := f_id f; g_seq := f_seq f; g_size := size; g_meta := meta |} l)) L a)
    (fold_left (fun (acc : st2 * list mseg) (f : dseg) =>
      let '(s, l) := acc in
      let s1 := if f_hdr f then s else emit ops2 (EHeader (FSeg (f_id f) (f_seq f))) s in
      let size := match find_dseg (f_id f) (s_disk s1) with Some f' => flen f' | None => 0 end in
      let meta := match f_meta f with GOk m => m | _ => smeta0 end in
      (s1, insert_mseg {| g_id := f_id f; g_seq := f_seq f; g_size := size; g_meta := meta |} l)) L b).
Proof.
  induction L as [|f L IH]; intros [sa la] [sb lb] [A B]; cbn [fold_left]; [split; assumption|].
  cbn [fst snd] in A, B. subst lb. apply IH. cbv beta iota zeta.
  assert (H1 : gst_rel R (if f_hdr f then sa else emit ops1 (EHeader (FSeg (f_id f) (f_seq f))) sa)
                         (if f_hdr f then sb else emit ops2 (EHeader (FSeg (f_id f) (f_seq f))) sb)).
  { destruct (f_hdr f); [exact A|]. apply (emit_rel R ops1 ops2 RE); [exact A|constructor]. }
  split; cbn [fst snd]; [exact H1|].
  rewrite (find_dseg_rel R _ _ (f_id f) (st_rel_disk R _ _ H1)). reflexivity.
Qed.

Lemma open_segments_g (s1 : st1) (s2 : st2) :
  gst_rel R s1 s2 -> os_rel_g (open_segments ops1 s1) (open_segments ops2 s2).
Proof.
  intros Hs. unfold open_segments. rewrite (d_segs_rel R _ _ (st_rel_disk R _ _ Hs)).
  apply open_segments_fold_g. split; [exact Hs|reflexivity].
Qed.

Lemma reframe_g id seq extra n (s1 : st1) (s2 : st2) :
  gst_rel R s1 s2 -> gst_rel R (reframe id seq extra n s1) (reframe id seq extra n s2).
Proof.
  intros Hs. destruct Hs as [m1 m2 d1 d2 t1 t2 Hm Hd Ht]. unfold reframe. cbn [s_mem s_disk s_trace].
  constructor; [exact Hm|apply upd_seg_g; exact Hd|exact Ht].
Qed.

Lemma seal_all_but_last_g l (m1 : mem1) (m2 : mem2) :
  gmem_rel R m1 m2 -> gmem_rel R (seal_all_but_last l m1) (seal_all_but_last l m2).
Proof.
  unfold seal_all_but_last. generalize (removelast l). intros l0. revert m1 m2.
  induction l0 as [|g l0 IH]; intros m1 m2 Hm; cbn [fold_left]; [exact Hm|].
  apply IH. apply set_msegs_upd_g. exact Hm.
Qed.

(* [db_open] after the lock / backup prelude is [open_mid]; here it is cut in two: *)
(* everything up to (and excluding) the recovery *)
Definition open_pre {I} (ops : idx_ops I) (seed : N) (s1 : @DB.st I) :
    option (@DB.st I * @DB.mem I * I) :=
  match open_index ops s1 with
  | None => None
  | Some (s2, i) =>
    let '(s3, segs) := open_segments ops s2 in
    let maxseq := fold_left (fun n g => N.max n (g_seq g)) segs 0 in
    let m0 := {| m_segs := segs; m_cur := (0, 0); m_cur_removed := true; m_maxseq := maxseq;
                 m_idx := i; m_seed := seed |} in
    let '(s4, m1) := swap_segment ops s3 m0 in
    Some (s4, m1, i)
  end.

Definition reseed {I} (m : @DB.mem I) (sd : N) : @DB.mem I :=
  {| m_segs := m_segs m; m_cur := m_cur m; m_cur_removed := m_cur_removed m; m_maxseq := m_maxseq m;
     m_idx := m_idx m; m_seed := sd |}.

Definition open_post {I} (ops : idx_ops I) (P : params) (seed : N) (existing : bool) (s1 : @DB.st I)
    (pre : option (@DB.st I * @DB.mem I * I)) : @DB.st I * out :=
  match pre with
  | None => (s1, OErr EOpenFailed)
  | Some (s4, m1, i) =>
    let seed_ok :=
      if ix_count ops i =? 0 then Some seed
      else match d_dbmeta (s_disk s4) with GOk sd => Some sd | _ => None end in
    match seed_ok with
    | None => (s4, OErr EOpenFailed)
    | Some sd =>
      if existing
      then let '(s5, m3) := recover ops P s4 (reseed m1 sd) in (with_mem m3 s5, OOpened true)
      else (with_mem (reseed m1 sd) s4, OOpened false)
    end
  end.

Lemma open_mid_pre_post {I} (ops : idx_ops I) P seed existing (s1 : @DB.st I) :
  open_mid ops P seed existing s1 = open_post ops P seed existing s1 (open_pre ops seed s1).
Proof.
  unfold open_mid, open_pre, open_post, reseed. destruct (open_index ops s1) as [[s2 i]|]; [|reflexivity].
  destruct (open_segments ops s2) as [s3 segs]. cbv zeta.
  destruct (swap_segment ops s3 _) as [s4 m1]. reflexivity.
Qed.

Definition pre_rel (a : option (st1 * mem1 * I1)) (b : option (st2 * mem2 * I2)) : Prop :=
  match a, b with
  | None, None => True
  | Some (sa, ma, ia), Some (sb, mb, ib) => gst_rel R sa sb /\ gmem_rel R ma mb /\ R ia ib
  | _, _ => False
  end.

Lemma open_pre_g seed (s1 : st1) (s2 : st2) :
  gst_rel R s1 s2 -> pre_rel (open_pre ops1 seed s1) (open_pre ops2 seed s2).
Proof.
  intros Hs. unfold open_pre.
  pose proof (open_index_g s1 s2 Hs) as Hoi.
  destruct (open_index ops1 s1) as [[sa ia]|]; destruct (open_index ops2 s2) as [[sb ib]|];
    unfold oi_rel_g in Hoi; try contradiction; [|exact Logic.I].
  destruct Hoi as [Hsa Hi].
  pose proof (open_segments_g sa sb Hsa) as Hos.
  destruct (open_segments ops1 sa) as [sc segs1]. destruct (open_segments ops2 sb) as [sd segs].
  destruct Hos as [Hsc Esegs]. cbn [fst snd] in Hsc, Esegs. subst segs1.
  set (mx := fold_left (fun n g => N.max n (g_seq g)) segs 0).
  assert (Hm0 : gmem_rel R {| m_segs := segs; m_cur := (0, 0); m_cur_removed := true; m_maxseq := mx;
                              m_idx := ia; m_seed := seed |}
                           {| m_segs := segs; m_cur := (0, 0); m_cur_removed := true; m_maxseq := mx;
                              m_idx := ib; m_seed := seed |}) by (constructor; exact Hi).
  pose proof (swap_segment_rel R ops1 ops2 RE sc sd _ _ Hsc Hm0) as Hsw.
  cbv zeta.
  destruct (swap_segment ops1 sc _) as [se ma]. destruct (swap_segment ops2 sd _) as [sf mb].
  destruct Hsw as [Hse Hmab]. cbn [fst snd] in Hse, Hmab.
  split; [exact Hse|]. split; [exact Hmab|exact Hi].
Qed.

Lemma reseed_g (ma : mem1) (mb : mem2) sd0 : gmem_rel R ma mb -> gmem_rel R (reseed ma sd0) (reseed mb sd0).
Proof. intros H. destruct H. constructor. assumption. Qed.

(* the part of Open after [open_pre]; [recover] runs only if the lock file was there, and what makes it
   commute is the caller's business *)
Lemma open_post_g P seed existing (s1 : st1) (s2 : st2) a b :
  gst_rel R s1 s2 -> pre_rel a b ->
  (existing = true -> forall sa ma ia sb mb ib sd, a = Some (sa, ma, ia) -> b = Some (sb, mb, ib) ->
     sm_rel R (recover ops1 P sa (reseed ma sd)) (recover ops2 P sb (reseed mb sd))) ->
  so_rel R (open_post ops1 P seed existing s1 a) (open_post ops2 P seed existing s2 b).
Proof.
  intros Hs Hab Hrec. unfold open_post.
  destruct a as [[[sa ma] ia]|]; destruct b as [[[sb mb] ib]|]; unfold pre_rel in Hab; try contradiction;
    [|split; [reflexivity|exact Hs]].
  destruct Hab as (Hse & Hm & Hi).
  rewrite (RC ia ib Hi), (d_dbmeta_g _ _ (st_rel_disk R _ _ Hse)).
  assert (Hfin : forall sd0, so_rel R
     (if existing then let '(s5, m3) := recover ops1 P sa (reseed ma sd0) in (with_mem m3 s5, OOpened true)
      else (with_mem (reseed ma sd0) sa, OOpened false))
     (if existing then let '(s5, m3) := recover ops2 P sb (reseed mb sd0) in (with_mem m3 s5, OOpened true)
      else (with_mem (reseed mb sd0) sb, OOpened false))).
  { intros sd0. destruct existing.
    - pose proof (Hrec eq_refl sa ma ia sb mb ib sd0 eq_refl eq_refl) as Hr.
      destruct (recover ops1 P sa _) as [s5 m3]. destruct (recover ops2 P sb _) as [s5' m3'].
      destruct Hr as [A B]. split; [reflexivity|]. apply with_mem_rel; assumption.
    - split; [reflexivity|]. apply with_mem_rel; [exact Hse|apply reseed_g; exact Hm]. }
  destruct (ix_count ops2 ib =? 0); [apply Hfin|].
  destruct (d_dbmeta (s_disk sb)) as [| |sd0]; [split; [reflexivity|exact Hse]|split; [reflexivity|exact Hse]|].
  apply Hfin.
Qed.

(* recover() after its loop over the segments *)
Lemma recover_g P (s1 : st1) (s2 : st2) (m1 : mem1) (m2 : mem2) :
  gmem_rel R m1 m2 ->
  sm_rel R (fold_left (fun sm g => recover_segment ops1 P (g_id g) (g_seq g) (fst sm) (snd sm))
                      (by_seq (m_segs m2)) (s1, m1))
           (fold_left (fun sm g => recover_segment ops2 P (g_id g) (g_seq g) (fst sm) (snd sm))
                      (by_seq (m_segs m2)) (s2, m2)) ->
  sm_rel R (recover ops1 P s1 m1) (recover ops2 P s2 m2).
Proof.
  intros Hm Hf. unfold recover. rewrite (mem_rel_segs R _ _ Hm). cbv zeta.
  destruct (fold_left _ _ (s1, m1)) as [sa ma]. destruct (fold_left _ _ (s2, m2)) as [sb mb].
  destruct Hf as [A B]. cbn [fst snd] in A, B.
  pose proof (swap_segment_rel R ops1 ops2 RE sa sb _ _ A
                (seal_all_but_last_g (by_seq (m_segs m2)) ma mb B)) as Hsw.
  destruct (swap_segment ops1 sa _) as [sa' ma']. destruct (swap_segment ops2 sb _) as [sb' mb'].
  destruct Hsw as [C D]. cbn [fst snd] in C, D.
  split; cbn [fst snd]; [|exact D].
  apply remove_bac_g. apply (emit_rel R ops1 ops2 RE); [exact C|]. constructor. exact (mem_rel_idx R _ _ D).
Qed.

(* Open when no lock file is there (the last session was closed, or the directory is new) *)
Theorem open_clean_g P seed (s1 : st1) (s2 : st2) :
  gst_rel R s1 s2 -> d_lock (s_disk s2) = false ->
  so_rel R (db_open ops1 P seed s1) (db_open ops2 P seed s2).
Proof.
  intros Hs Hl. rewrite !db_open_mid.
  destruct (st_rel_mem_cases R _ _ Hs) as [[E1 E2]|(m1 & m2 & E1 & E2 & Hm)]; rewrite E1, E2;
    [|split; [reflexivity|exact Hs]].
  cbv beta iota zeta. rewrite (d_lock_g _ _ (st_rel_disk R _ _ Hs)), Hl. cbv beta iota.
  rewrite !open_mid_pre_post.
  assert (H0 : gst_rel R (emit ops1 (ECreate FLock) s1) (emit ops2 (ECreate FLock) s2))
    by (apply (emit_rel R ops1 ops2 RE); [exact Hs|constructor]).
  apply open_post_g; [exact H0|apply open_pre_g; exact H0|discriminate].
Qed.

(* Open on a database that somebody holds open: ErrLocked on both sides *)
Lemma open_locked_g P seed (s1 : st1) (s2 : st2) :
  gst_rel R s1 s2 -> s_mem s2 <> None -> so_rel R (db_open ops1 P seed s1) (db_open ops2 P seed s2).
Proof.
  intros Hs Hm. rewrite !db_open_mid.
  destruct (st_rel_mem_cases R _ _ Hs) as [[E1 E2]|(m1 & m2 & E1 & E2 & _)]; [congruence|].
  rewrite E1, E2. split; [reflexivity|exact Hs].
Qed.

End Gen.

Lemma ff_open_pre {I} (ops : idx_ops I) seed (s s4 : @DB.st I) m i :
  open_pre ops seed s = Some (s4, m, i) -> ff_ok (s_disk s) -> ff_ok (s_disk s4).
Proof.
  unfold open_pre. intros E Hff.
  destruct (open_index ops s) as [[s2 i2]|] eqn:Eoi; [|discriminate].
  pose proof (ff_open_segments ops s2 (ff_open_index ops s s2 i2 Eoi Hff)) as F3.
  destruct (open_segments ops s2) as [s3 segs]. cbv zeta in E. cbn [fst] in F3.
  destruct (swap_segment ops s3 _) as [s4' m1] eqn:Esw. injection E as <- _ _.
  change s4' with (fst (s4', m1)). rewrite <- Esw. apply ff_swap_segment. exact F3.
Qed.

Section Exact.
Context {I1 I2 : Type}.
Variable ops1 : idx_ops I1.
Variable ops2 : idx_ops I2.
Variable R : I1 -> I2 -> Prop.
Hypothesis XS : exact_sim ops1 ops2 R.

Local Notation st1 := (@DB.st I1). Local Notation st2 := (@DB.st I2).
Local Notation mem1 := (@DB.mem I1). Local Notation mem2 := (@DB.mem I2).
Local Notation disk1 := (@DB.disk I1). Local Notation disk2 := (@DB.disk I2).

Let RE : R (ix_empty ops1) (ix_empty ops2) := xs_empty _ _ _ XS.

(* the side condition does not depend on the index: it transfers along the relation *)
Lemma sizes_ok_rel (s1 : st1) (s2 : st2) : gst_rel R s1 s2 -> (sizes_ok s1 <-> sizes_ok s2).
Proof.
  intros Hs. unfold sizes_ok.
  destruct (st_rel_mem_cases R _ _ Hs) as [[E1 E2]|(m1 & m2 & E1 & E2 & Hm)]; rewrite E1, E2.
  - split; intros _ m E; discriminate.
  - split; intros H m E; injection E as <-.
    + rewrite <- (mem_rel_segs R _ _ Hm). exact (H m1 eq_refl).
    + rewrite (mem_rel_segs R _ _ Hm). exact (H m2 eq_refl).
Qed.

Lemma xdisk_ok_rel (d1 : disk1) (d2 : disk2) : gdisk_rel R d1 d2 -> (xdisk_ok d1 <-> xdisk_ok d2).
Proof. intros Hd. unfold xdisk_ok. rewrite (d_segs_rel R _ _ Hd). tauto. Qed.

Lemma ff_ok_rel (d1 : disk1) (d2 : disk2) : gdisk_rel R d1 d2 -> (ff_ok d1 <-> ff_ok d2).
Proof. intros Hd. unfold ff_ok. rewrite (d_segs_rel R _ _ Hd). tauto. Qed.

Lemma xok_rel (s1 : st1) (s2 : st2) : gst_rel R s1 s2 -> (xok s1 <-> xok s2).
Proof.
  intros Hs. unfold xok. rewrite (sizes_ok_rel s1 s2 Hs), (ff_ok_rel _ _ (st_rel_disk R _ _ Hs)). tauto.
Qed.

Theorem xsim_put P k v (s1 : st1) (s2 : st2) :
  gst_rel R s1 s2 -> sizes_ok s2 ->
  so_rel R (db_put ops1 P k v s1) (db_put ops2 P k v s2).
Proof.
  intros Hs Hok. apply (gsim_put _ _ _ _ _ (exact_guarded _ _ _ XS)); [exact Hs|].
  intros m s' m' id off Em Ew.
  split; [exact Logic.I|exact (write_record_off ops2 _ _ _ _ _ _ _ _ Ew (Hok m Em))].
Qed.

(* no side condition: ix_del has none *)
Theorem xsim_delete P k (s1 : st1) (s2 : st2) :
  gst_rel R s1 s2 -> so_rel R (db_delete ops1 P k s1) (db_delete ops2 P k s2).
Proof.
  intros Hs. exact (gsim_delete _ _ _ _ _ (exact_guarded _ _ _ XS) P k s1 s2 Hs (fun _ _ => Logic.I)).
Qed.

Theorem xsim_get P k (s1 : st1) (s2 : st2) :
  gst_rel R s1 s2 -> db_get ops1 P k s1 = db_get ops2 P k s2.
Proof.
  intros Hs. exact (gsim_get _ _ _ _ _ (exact_guarded _ _ _ XS) P k s1 s2 Hs (fun _ _ => Logic.I)).
Qed.

Theorem xsim_get_append P k buf (s1 : st1) (s2 : st2) :
  gst_rel R s1 s2 -> db_get_append ops1 P k buf s1 = db_get_append ops2 P k buf s2.
Proof. intros Hs. unfold db_get_append. rewrite (xsim_get P k s1 s2 Hs). reflexivity. Qed.

Theorem xsim_has P k (s1 : st1) (s2 : st2) :
  gst_rel R s1 s2 -> db_has ops1 P k s1 = db_has ops2 P k s2.
Proof.
  intros Hs. exact (gsim_has _ _ _ _ _ (exact_guarded _ _ _ XS) P k s1 s2 Hs (fun _ _ => Logic.I)).
Qed.

Theorem xsim_count (s1 : st1) (s2 : st2) :
  gst_rel R s1 s2 -> db_count ops1 s1 = db_count ops2 s2.
Proof. exact (gsim_count _ _ _ _ _ (exact_guarded _ _ _ XS) s1 s2). Qed.

(* Items: the SAME list (same buckets, same slot order) *)
Lemma fetch_bucket_x (s1 : st1) (s2 : st2) n :
  gst_rel R s1 s2 -> fetch_bucket ops1 s1 n = fetch_bucket ops2 s2 n.
Proof.
  intros Hs. unfold fetch_bucket.
  destruct (st_rel_mem_cases R _ _ Hs) as [[E1 E2]|(m1 & m2 & E1 & E2 & Hm)]; rewrite E1, E2; [reflexivity|].
  cbv beta iota. rewrite (xs_bucket _ _ _ XS _ _ n (mem_rel_idx R _ _ Hm)).
  apply (read_slots_rel R). exact (st_rel_disk R _ _ Hs).
Qed.

Theorem xsim_items (s1 : st1) (s2 : st2) :
  gst_rel R s1 s2 -> db_items ops1 s1 = db_items ops2 s2.
Proof.
  intros Hs. rewrite !db_items_go.
  destruct (st_rel_mem_cases R _ _ Hs) as [[E1 E2]|(m1 & m2 & E1 & E2 & Hm)]; rewrite E1, E2; [reflexivity|].
  cbv beta iota. rewrite (xs_nbuckets _ _ _ XS _ _ (mem_rel_idx R _ _ Hm)).
  generalize (nseq 0 (N.to_nat (ix_nbuckets ops2 (m_idx m2)))). intros l.
  induction l as [|n l IH]; [reflexivity|].
  rewrite !items_go_cons, IH, (fetch_bucket_x s1 s2 n Hs). reflexivity.
Qed.

Theorem xsim_sync (s1 : st1) (s2 : st2) :
  gst_rel R s1 s2 -> so_rel R (db_sync ops1 s1) (db_sync ops2 s2).
Proof. intros Hs. exact (sync_rel R ops1 ops2 RE s1 s2 Hs). Qed.

Theorem xsim_compact_pick P (s1 : st1) (s2 : st2) :
  gst_rel R s1 s2 -> pick_res_rel R (compact_pick ops1 P s1) (compact_pick ops2 P s2).
Proof. intros Hs. exact (compact_pick_rel R ops1 ops2 RE P s1 s2 Hs). Qed.

Inductive xcstep_rel : @cstep I1 -> @cstep I2 -> Prop :=
| xcr_done : xcstep_rel CDone CDone
| xcr_more s1 s2 c : gst_rel R s1 s2 -> xcstep_rel (CMore s1 c) (CMore s2 c)
| xcr_fail w : xcstep_rel (CFail w) (CFail w).

Theorem xsim_compact_step P (s1 : st1) (s2 : st2) c :
  gst_rel R s1 s2 -> xok s2 ->
  xcstep_rel (compact_step ops1 P s1 c) (compact_step ops2 P s2 c).
Proof.
  intros Hs Hx.
  destruct (gsim_compact_step _ _ _ _ _ (exact_guarded _ _ _ XS) P s1 s2 c Hs (step_guard_xok ops2 P s2 Hx));
    constructor; assumption.
Qed.

(* whole compactions: the side condition holds along the run of the SECOND instance *)
Theorem xsim_compact_run P fuel : forall (s1 : st1) (s2 : st2) c,
  gst_rel R s1 s2 -> cxok ops2 P fuel s2 c ->
  so_rel R (compact_run ops1 P fuel s1 c) (compact_run ops2 P fuel s2 c).
Proof.
  exact (gsim_compact_run _ _ _ _ _ (exact_guarded _ _ _ XS) P (cxok ops2 P) (cxok_step ops2 P) fuel).
Qed.

Theorem xsim_db_compact P (s1 : st1) (s2 : st2) :
  gst_rel R s1 s2 -> compact_xok ops2 P s2 ->
  so_rel R (db_compact ops1 P s1) (db_compact ops2 P s2).
Proof.
  intros Hs Hc.
  apply (gsim_db_compact _ _ _ _ _ (exact_guarded _ _ _ XS) P (cxok ops2 P) (cxok_step ops2 P) s1 s2 Hs).
  intros s c E. unfold compact_xok in Hc. rewrite E in Hc. exact Hc.
Qed.

Theorem xsim_close (s1 : st1) (s2 : st2) :
  gst_rel R s1 s2 -> so_rel R (db_close ops1 s1) (db_close ops2 s2).
Proof. exact (close_g ops1 ops2 R RE s1 s2). Qed.

(* recover(): the index is rebuilt by replaying the records; every Put handed to the index has a
   nonzero offset because of [ff_ok] *)
Lemma replay_fold_x P (d1 : disk1) (d2 : disk2) id (es : list (N * rec)) :
  gdisk_rel R d1 d2 -> Forall (fun e => u32 (fst e) <> 0) es ->
  forall (m1 : mem1) (m2 : mem2), gmem_rel R m1 m2 ->
  gmem_rel R (fold_left (fun m e => replay_rec ops1 P d1 id (fst e) (snd e) m) es m1)
             (fold_left (fun m e => replay_rec ops2 P d2 id (fst e) (snd e) m) es m2).
Proof.
  intros Hd Hes. induction Hes as [|e es He Hes IH]; intros m1 m2 Hm; cbn [fold_left]; [exact Hm|].
  apply IH. apply (greplay_rec _ _ _ _ _ (exact_guarded _ _ _ XS)); try assumption. exact Logic.I.
Qed.

Lemma recover_segment_x P id seq (s1 : st1) (s2 : st2) (m1 : mem1) (m2 : mem2) :
  gst_rel R s1 s2 -> gmem_rel R m1 m2 -> ff_ok (s_disk s2) ->
  sm_rel R (recover_segment ops1 P id seq s1 m1) (recover_segment ops2 P id seq s2 m2).
Proof.
  intros Hs Hm Hff. unfold recover_segment.
  rewrite (find_dseg_rel R _ _ id (st_rel_disk R _ _ Hs)).
  destruct (find_dseg id (s_disk s2)) as [f|] eqn:Ef; [|split; assumption].
  destruct (parse_tail (f_tail f)) as [[extra n] why] eqn:Ep. cbv zeta.
  pose proof (reframe_g R id seq extra n s1 s2 Hs) as Hs0.
  split; cbn [fst snd].
  - destruct why; try exact Hs0; (apply (emit_rel R ops1 ops2 RE); [exact Hs0|constructor]).
  - apply replay_fold_x.
    + apply (st_rel_disk R).
      destruct why; try exact Hs0; (apply (emit_rel R ops1 ops2 RE); [exact Hs0|constructor]).
    + pose proof (Hff id f Ef) as Hok. unfold xseg_ok in Hok. rewrite Ep in Hok. exact Hok.
    + destruct why; try exact Hm; (apply set_msegs_upd_g; exact Hm).
Qed.

Lemma recover_fold_x P (order : list mseg) : forall a b, sm_rel R a b -> ff_ok (s_disk (fst b)) ->
  sm_rel R (fold_left (fun sm g => recover_segment ops1 P (g_id g) (g_seq g) (fst sm) (snd sm)) order a)
           (fold_left (fun sm g => recover_segment ops2 P (g_id g) (g_seq g) (fst sm) (snd sm)) order b).
Proof.
  induction order as [|g order IH]; intros a b Hab Hff; cbn [fold_left]; [exact Hab|].
  apply IH.
  - destruct Hab as [A B]. apply recover_segment_x; assumption.
  - apply ff_recover_segment. exact Hff.
Qed.

Lemma recover_x P (s1 : st1) (s2 : st2) (m1 : mem1) (m2 : mem2) :
  gst_rel R s1 s2 -> gmem_rel R m1 m2 -> ff_ok (s_disk s2) ->
  sm_rel R (recover ops1 P s1 m1) (recover ops2 P s2 m2).
Proof.
  intros Hs Hm Hff. apply (recover_g ops1 ops2 R RE); [exact Hm|].
  exact (recover_fold_x P (by_seq (m_segs m2)) (s1, m1) (s2, m2) (conj Hs Hm) Hff).
Qed.

Lemma open_mid_x P seed existing (s1 : st1) (s2 : st2) :
  gst_rel R s1 s2 -> (existing = true -> ff_ok (s_disk s2)) ->
  so_rel R (open_mid ops1 P seed existing s1) (open_mid ops2 P seed existing s2).
Proof.
  intros Hs Hff. rewrite !open_mid_pre_post.
  apply (open_post_g ops1 ops2 R (xs_count _ _ _ XS));
    [exact Hs|apply (open_pre_g ops1 ops2 R RE); exact Hs|].
  intros E sa ma ia sb mb ib sd Ea Eb.
  pose proof (open_pre_g ops1 ops2 R RE seed s1 s2 Hs) as Hp. rewrite Ea, Eb in Hp. destruct Hp as (Hsa & Hm & _).
  apply recover_x; [exact Hsa|apply reseed_g; exact Hm|exact (ff_open_pre ops2 seed s2 sb mb ib Eb (Hff E))].
Qed.

(* Open: the lock file tells whether the last session closed cleanly.  If it did, the index is read
   from main.pix / index.pmt ([d_index], [d_imeta]: related by R); if not, the index files are set
   aside and the index is rebuilt from the segment files.  The side condition concerns the disk only. *)
Theorem xsim_open P seed (s1 : st1) (s2 : st2) :
  gst_rel R s1 s2 -> ff_ok (s_disk s2) ->
  so_rel R (db_open ops1 P seed s1) (db_open ops2 P seed s2).
Proof.
  intros Hs Hff. rewrite !db_open_mid.
  destruct (st_rel_mem_cases R _ _ Hs) as [[E1 E2]|(m1 & m2 & E1 & E2 & Hm)]; rewrite E1, E2;
    [|split; [reflexivity|exact Hs]].
  cbv beta iota zeta. rewrite (d_lock_g R _ _ (st_rel_disk R _ _ Hs)).
  destruct (d_lock (s_disk s2)).
  - apply open_mid_x; [apply (backup_nonseg_g ops1 ops2 R RE); exact Hs|]. intros _. apply ff_backup_nonseg. exact Hff.
  - apply open_mid_x; [|discriminate]. apply (emit_rel R ops1 ops2 RE); [exact Hs|constructor].
Qed.

(* Backup: the copies are the same segment files; the backup has no index *)
Lemma backup_plan_x (m1 : mem1) (m2 : mem2) : gmem_rel R m1 m2 -> backup_plan m1 = backup_plan m2.
Proof. intros H. destruct H. reflexivity. Qed.

Lemma copy_seg_x (d1 : disk1) (d2 : disk2) p : gdisk_rel R d1 d2 -> copy_seg d1 p = copy_seg d2 p.
Proof. intros H. destruct H. reflexivity. Qed.

Lemma backup_disk_x copies : gdisk_rel R (@backup_disk I1 copies) (@backup_disk I2 copies).
Proof. unfold backup_disk. constructor; constructor. Qed.

Lemma backup_go_x (d1 : disk1) (d2 : disk2) l : gdisk_rel R d1 d2 -> backup_go d1 l = backup_go d2 l.
Proof.
  intros Hd. induction l as [|p l IH]; [reflexivity|].
  rewrite !backup_go_cons, IH, (copy_seg_x d1 d2 p Hd). reflexivity.
Qed.

Theorem xsim_backup (s1 : st1) (s2 : st2) :
  gst_rel R s1 s2 -> opt_rel (gdisk_rel R) (db_backup s1) (db_backup s2).
Proof.
  intros Hs. rewrite !db_backup_go.
  destruct (st_rel_mem_cases R _ _ Hs) as [[E1 E2]|(m1 & m2 & E1 & E2 & Hm)]; rewrite E1, E2; [constructor|].
  rewrite (backup_plan_x m1 m2 Hm), (backup_go_x _ _ (backup_plan m2) (st_rel_disk R _ _ Hs)).
  destruct (backup_go (s_disk s2) (backup_plan m2)) as [copies|]; cbn [option_map]; constructor.
  apply backup_disk_x.
Qed.

(* ItemIterator ([dbiter0] does not depend on the index) *)
Lemma dbiter_fill_x fuel (s1 : st1) (s2 : st2) : gst_rel R s1 s2 -> forall it,
  dbiter_fill ops1 fuel s1 it = dbiter_fill ops2 fuel s2 it.
Proof.
  intros Hs. induction fuel as [|f IH]; intros it; cbn [dbiter_fill]; [reflexivity|].
  destruct (it_queue it); [|reflexivity].
  destruct (st_rel_mem_cases R _ _ Hs) as [[E1 E2]|(m1 & m2 & E1 & E2 & Hm)]; rewrite E1, E2; [reflexivity|].
  rewrite (xs_nbuckets _ _ _ XS _ _ (mem_rel_idx R _ _ Hm)).
  destruct (it_next it <? ix_nbuckets ops2 (m_idx m2)); [|reflexivity].
  rewrite (fetch_bucket_x s1 s2 (it_next it) Hs).
  destruct (fetch_bucket ops2 s2 (it_next it)) as [l|]; [apply IH|reflexivity].
Qed.

Theorem xsim_iter_step (s1 : st1) (s2 : st2) it :
  gst_rel R s1 s2 -> dbiter_step ops1 s1 it = dbiter_step ops2 s2 it.
Proof.
  intros Hs. unfold dbiter_step.
  destruct (st_rel_mem_cases R _ _ Hs) as [[E1 E2]|(m1 & m2 & E1 & E2 & Hm)]; rewrite E1, E2; [reflexivity|].
  cbv beta iota zeta. rewrite (xs_nbuckets _ _ _ XS _ _ (mem_rel_idx R _ _ Hm)).
  rewrite (dbiter_fill_x _ s1 s2 Hs). reflexivity.
Qed.

Theorem xsim_step' P (s1 : st1) (s2 : st2) o :
  gst_rel R s1 s2 -> op_xok ops2 P s2 o -> so_rel R (step' ops1 P s1 o) (step' ops2 P s2 o).
Proof.
  intros Hs Hx. destruct o as [[k v|k|k|k buf|k| | |]|]; cbn [step' step op_xok] in *.
  - apply xsim_put; assumption.
  - apply xsim_delete; assumption.
  - split; [apply xsim_get; exact Hs|exact Hs].
  - split; [apply xsim_get_append; exact Hs|exact Hs].
  - split; [apply xsim_has; exact Hs|exact Hs].
  - split; [apply xsim_count; exact Hs|exact Hs].
  - split; [apply xsim_items; exact Hs|exact Hs].
  - apply xsim_sync; exact Hs.
  - apply xsim_db_compact; assumption.
Qed.

Theorem xsim_lstep P (s1 : st1) (s2 : st2) o :
  gst_rel R s1 s2 -> lop_ok ops2 P s2 o -> so_rel R (lstep ops1 P s1 o) (lstep ops2 P s2 o).
Proof.
  intros Hs Hx. destruct o as [b| |seed|]; cbn [lstep lop_ok] in *.
  - apply xsim_step'; assumption.
  - apply xsim_close; exact Hs.
  - apply xsim_open; assumption.
  - split; [reflexivity|]. cbn [fst]. apply st_rel_iff. cbn [s_mem s_disk s_trace].
    split; [constructor|]. split; [exact (st_rel_disk R _ _ Hs)|exact (st_rel_trace R _ _ Hs)].
Qed.

(* the side condition of an operation can be checked on either instance *)
Lemma cxok_x P fuel : forall (s1 : st1) (s2 : st2) c,
  gst_rel R s1 s2 -> (cxok ops1 P fuel s1 c <-> cxok ops2 P fuel s2 c).
Proof.
  induction fuel as [|f IH]; intros s1 s2 c Hs; cbn [cxok]; [tauto|].
  rewrite (xok_rel s1 s2 Hs).
  (* under [xok s2] the two steps end alike, in related states *)
  assert (H : xok s2 ->
    (match compact_step ops1 P s1 c with CMore s' c' => cxok ops1 P f s' c' | _ => True end <->
     match compact_step ops2 P s2 c with CMore s' c' => cxok ops2 P f s' c' | _ => True end)).
  { intros Hx. pose proof (xsim_compact_step P s1 s2 c Hs Hx) as H.
    destruct (compact_step ops1 P s1 c); destruct (compact_step ops2 P s2 c); inversion H; subst;
      [tauto|apply IH; assumption|tauto]. }
  tauto.
Qed.

Lemma compact_xok_x P (s1 : st1) (s2 : st2) :
  gst_rel R s1 s2 -> (compact_xok ops1 P s1 <-> compact_xok ops2 P s2).
Proof.
  intros Hs. unfold compact_xok.
  pose proof (compact_pick_rel R ops1 ops2 RE P s1 s2 Hs) as Hp.
  destruct (compact_pick ops1 P s1) as [[s1' c1]|]; destruct (compact_pick ops2 P s2) as [[s2' c2]|];
    unfold pick_res_rel in Hp; try contradiction; [|tauto].
  destruct Hp as [Hs' ->]. rewrite (total_recs_rel R _ _ (st_rel_disk R _ _ Hs')). apply cxok_x. exact Hs'.
Qed.

Lemma lop_ok_x P (s1 : st1) (s2 : st2) o :
  gst_rel R s1 s2 -> (lop_ok ops1 P s1 o <-> lop_ok ops2 P s2 o).
Proof.
  intros Hs. destruct o as [[[k v|k|k|k buf|k| | |]|]| |seed|]; cbn [lop_ok op_xok]; try tauto.
  - apply sizes_ok_rel. exact Hs.
  - apply compact_xok_x. exact Hs.
  - apply ff_ok_rel. exact (st_rel_disk R _ _ Hs).
Qed.

End Exact.

(* the full run language: Put, Delete, Get, GetAppend, Has, Count, Items, Sync, Compact, Close, Open
   (clean reopen AND recovery), Crash.  The side condition is required along the run of the SECOND
   instance; by [loks_x] it can equally be checked along the run of the first one. *)
Theorem xsim_run {I1 I2} (ops1 : idx_ops I1) (ops2 : idx_ops I2) R (XS : exact_sim ops1 ops2 R) P
    (l : list lop) : forall (s1 : @DB.st I1) (s2 : @DB.st I2),
  gst_rel R s1 s2 -> loks ops2 P s2 l ->
  lrun ops1 P s1 l = lrun ops2 P s2 l /\
  gst_rel R (lfinal ops1 P s1 l) (lfinal ops2 P s2 l).
Proof.
  unfold lfinal. induction l as [|o l IH]; intros s1 s2 Hs Hx; cbn [lrun fold_left].
  - split; [reflexivity|exact Hs].
  - inversion Hx as [|? ? ? Ho Hl]; subst.
    destruct (xsim_lstep ops1 ops2 R XS P s1 s2 o Hs Ho) as [Eo Hs'].
    destruct (IH _ _ Hs' Hl) as [Er Hf].
    destruct (lstep ops1 P s1 o) as [s1' r1]. destruct (lstep ops2 P s2 o) as [s2' r2].
    cbn [fst snd] in *. subst r2. rewrite Er. split; [reflexivity|exact Hf].
Qed.

Lemma loks_x {I1 I2} (ops1 : idx_ops I1) (ops2 : idx_ops I2) R (XS : exact_sim ops1 ops2 R) P
    (l : list lop) : forall (s1 : @DB.st I1) (s2 : @DB.st I2),
  gst_rel R s1 s2 -> (loks ops1 P s1 l <-> loks ops2 P s2 l).
Proof.
  induction l as [|o l IH]; intros s1 s2 Hs; [split; intros _; constructor|].
  pose proof (lop_ok_x ops1 ops2 R XS P s1 s2 o Hs) as Ho.
  assert (H : lop_ok ops2 P s2 o ->
            (loks ops1 P (fst (lstep ops1 P s1 o)) l <-> loks ops2 P (fst (lstep ops2 P s2 o)) l)).
  { intros Ho2. apply IH. exact (proj2 (xsim_lstep ops1 ops2 R XS P s1 s2 o Hs Ho2)). }
  split; intros Hx; inversion Hx as [|? ? ? A B]; subst; constructor; tauto.
Qed.

(* the same for the run language of DBRun.v (DBSim.op + Compact), with DBRun's [run'] / [final'] *)
Theorem xsim_run' {I1 I2} (ops1 : idx_ops I1) (ops2 : idx_ops I2) R (XS : exact_sim ops1 ops2 R) P
    (l : list op') : forall (s1 : @DB.st I1) (s2 : @DB.st I2),
  gst_rel R s1 s2 -> xoks' ops2 P s2 l ->
  run' (step' ops1 P) s1 l = run' (step' ops2 P) s2 l /\
  gst_rel R (final' (step' ops1 P) s1 l) (final' (step' ops2 P) s2 l).
Proof.
  unfold final'. induction l as [|o l IH]; intros s1 s2 Hs Hx; cbn [run' fold_left].
  - split; [reflexivity|exact Hs].
  - inversion Hx as [|? ? ? Ho Hl]; subst.
    destruct (xsim_step' ops1 ops2 R XS P s1 s2 o Hs Ho) as [Eo Hs'].
    destruct (IH _ _ Hs' Hl) as [Er Hf].
    destruct (step' ops1 P s1 o) as [s1' r1]. destruct (step' ops2 P s2 o) as [s2' r2].
    cbn [fst snd] in *. subst r2. rewrite Er. split; [reflexivity|exact Hf].
Qed.

Local Notation stp := (@DB.st pindex).
Local Notation stf := (@DB.st flat).

Lemma xdisk_ok_of_DiskOK (d : @DB.disk flat) : DiskOK d -> xdisk_ok d.
Proof.
  intros (Hall & _ & _). unfold xdisk_ok. apply Forall_forall. intros f Hf.
  pose proof (proj1 (Forall_forall _ _) Hall f Hf) as (_ & (Ht & _) & _ & _ & Hb).
  apply xseg_ok_of_bound; assumption.
Qed.

(* the side condition holds in every state of the flat database that satisfies the invariant and
   the 32-bit condition [room] of DBInv.v *)
Lemma xok_of_Inv P (sf : stf) : Inv P sf -> (forall m, s_mem sf = Some m -> room m) -> xok sf.
Proof.
  unfold Inv, xok, sizes_ok. destruct (s_mem sf) as [m|].
  - intros (HD & (Hag & _) & _) Hroom. split; [|apply xdisk_ok_ff, xdisk_ok_of_DiskOK; exact HD].
    intros m0 E g Hg. injection E as <-.
    destruct (Hag g Hg) as (f & _ & _ & _ & Hh & _ & Hl).
    pose proof (Hroom m eq_refl g Hg) as Hr. unfold flen in Hl. rewrite Hh in Hl.
    pose proof header_size_eq. pose proof rec_max_eq.
    rewrite u32_small by lia. lia.
  - intros HD _. split; [intros m E; discriminate|apply xdisk_ok_ff, xdisk_ok_of_DiskOK; exact HD].
Qed.

Lemma xok_chain_of_flat P (sp : stp) (sf : stf) :
  st_rel sp sf -> Inv P sf -> (exists m, s_mem sf = Some m /\ room m) -> xok sp.
Proof.
  intros Hs HI (m & Em & Hroom). apply (xok_rel idx_rel sp sf Hs). apply (xok_of_Inv P); [exact HI|].
  intros m0 E. assert (m0 = m) by congruence. subst m0. exact Hroom.
Qed.

Lemma cxok_of_flat P fuel : forall (sp : stp) (sf : stf) c,
  st_rel sp sf -> Inv P sf -> CInv sf c -> run_room P fuel sf c -> cxok chain_ops P fuel sp c.
Proof.
  induction fuel as [|f IH]; intros sp sf c Hs HI HC Hr; [exact I|].
  cbn [run_room] in Hr. cbn [cxok]. destruct Hr as [Hroom Hrest].
  split; [exact (xok_chain_of_flat P sp sf Hs HI Hroom)|].
  pose proof (sim_compact_step P sp sf c Hs HI) as Hstep.
  pose proof (compact_step_ok P sf c HI HC Hroom) as Hok.
  destruct (compact_step chain_ops P sp c) as [|sp' cp'|wp]; [exact I| |exact I].
  destruct (compact_step flat_ops P sf c) as [|sf' cf'|wf]; inversion Hstep; subst.
  destruct Hok as (HI' & HC' & _). apply (IH sp' sf' cf'); assumption.
Qed.

Lemma compact_xok_of_flat P (sp : stp) (sf : stf) :
  st_rel sp sf -> Inv P sf -> MetaOK sf -> s_mem sf <> None -> compact_room P sf ->
  compact_xok chain_ops P sp.
Proof.
  intros Hs HI HM Hopen Hroom. unfold compact_xok.
  pose proof (compact_pick_rel idx_rel chain_ops flat_ops idx_rel_empty P sp sf Hs) as Hp.
  destruct (compact_pick_ok P sf HI HM Hopen) as (sf1 & c & Ep & HI1 & HC1 & _).
  unfold compact_room in Hroom. rewrite Ep in Hroom, Hp.
  destruct (compact_pick chain_ops P sp) as [[sp1 cp]|]; unfold pick_res_rel in Hp; [|exact I].
  destruct Hp as [Hs1 ->]. rewrite (total_recs_rel idx_rel _ _ (st_rel_disk idx_rel _ _ Hs1)).
  apply (cxok_of_flat P _ sp1 sf1 c); assumption.
Qed.

(* the hypotheses of DBRun.C01_chain_refines_map_with_compact give the side condition along the
   whole run of the chain-index database *)
Lemma xoks'_of_flat P (l : list op') : params_ok P -> forall (sp : stp) (sf : stf),
  st_rel sp sf -> Inv P sf -> MetaOK sf -> Forall op_valid' l -> rooms' P sf l ->
  xoks' chain_ops P sp l.
Proof.
  intros HP. induction l as [|o l IH]; intros sp sf Hs HI HM Hv Hr; [constructor|].
  inversion Hv as [|? ? Hvo Hvl]; subst. inversion Hr as [|? ? ? Hro Hrc Hrl]; subst.
  assert (Hopen : s_mem sf <> None) by (destruct Hro as (m & -> & _); discriminate).
  constructor.
  - destruct o as [[k v|k|k|k buf|k| | |]|]; cbn [op_xok]; try exact I.
    + exact (proj1 (xok_chain_of_flat P sp sf Hs HI Hro)).
    + apply (compact_xok_of_flat P sp sf); try assumption. apply Hrc. reflexivity.
  - destruct (step_refines' P sp sf (abs (s_disk sf)) o HP Hs HI HM (meq_refl _) (abs_NoDup _) Hvo Hro Hrc)
      as (A & B & C & _).
    apply (IH _ (fst (step_flat' P sf o))); assumption.
Qed.

(* C01 for ANY index implementation that exactly simulates the bucket chains of Index.v: for every
   hash function, split policy, thresholds and sync mode, the outputs of any run of valid Put, Delete,
   Get, GetAppend, Has, Count, Items, Sync and Compact are those of the plain map -- under exactly the
   hypotheses of DBRun.C01_chain_refines_map_with_compact *)
Theorem C01_exact_refines_map {I1} (ops1 : idx_ops I1) (R : I1 -> pindex -> Prop) P
    (s1 : @DB.st I1) (sp : stp) (sf : stf) (l : list op') :
  exact_sim ops1 chain_ops R ->
  params_ok P -> gst_rel R s1 sp -> st_rel sp sf -> Inv P sf -> MetaOK sf ->
  Forall op_valid' l -> rooms' P sf l ->
  (* the outputs are those of the plain map (Items up to order, CompactionResult numbers ignored) *)
  Forall2 out_equiv' (run' (step' ops1 P) s1 l) (run' step_spec' (abs (s_disk sf)) l) /\
  (* ... and those of the flat-index database (Items up to order, CompactionResults equal) *)
  Forall2 out_equiv (run' (step' ops1 P) s1 l) (run' (step_flat' P) sf l) /\
  (* ... and EQUAL to those of the chain-index database *)
  run' (step' ops1 P) s1 l = run' (step_chain' P) sp l /\
  (* the final states are again related; invariants of the flat one; its contents *)
  let s1' := final' (step' ops1 P) s1 l in
  let sp' := final' (step_chain' P) sp l in
  let sf' := final' (step_flat' P) sf l in
  gst_rel R s1' sp' /\ st_rel sp' sf' /\ Inv P sf' /\ MetaOK sf' /\
  meq (abs (s_disk sf')) (final' step_spec' (abs (s_disk sf)) l).
Proof.
  intros XS HP H1 Hs HI HM Hv Hr. cbv zeta.
  pose proof (xoks'_of_flat P l HP sp sf Hs HI HM Hv Hr) as Hx.
  destruct (xsim_run' ops1 chain_ops R XS P l s1 sp H1 Hx) as [Eo Hf].
  destruct (C01_chain_refines_map_with_compact P sp sf l HP Hs HI HM Hv Hr) as (A & B & C).
  cbv zeta in C. unfold step_chain' in *. rewrite Eo.
  exact (conj A (conj B (conj eq_refl (conj Hf C)))).
Qed.

(* the side condition of Open (clean reopen or recovery) from the invariant of a related flat state,
   open or closed *)
Lemma ff_ok_of_DiskOK (d : @DB.disk flat) : DiskOK d -> ff_ok d.
Proof. intros H. apply xdisk_ok_ff, xdisk_ok_of_DiskOK. exact H. Qed.

Lemma ff_ok_chain_of_flat P (sp : stp) (sf : stf) : st_rel sp sf -> Inv P sf -> ff_ok (s_disk sp).
Proof.
  intros Hs HI. apply (ff_ok_rel idx_rel _ _ (st_rel_disk idx_rel _ _ Hs)). apply ff_ok_of_DiskOK.
  unfold Inv in HI. destruct (s_mem sf); [apply HI|exact HI].
Qed.

Lemma xok_closed {I} (s : @DB.st I) : s_mem s = None -> ff_ok (s_disk s) -> xok s.
Proof. intros E H. split; [intros m Em; congruence|exact H]. Qed.

(* from an empty directory: Open on both sides, then any run *)
Lemma st0_rel {I1 I2} (R : I1 -> I2 -> Prop) : gst_rel R (@st0 I1) (@st0 I2).
Proof. unfold st0, disk0. constructor; [constructor|constructor; constructor|constructor]. Qed.

Lemma ff_ok_disk0 {I} : ff_ok (@disk0 I).
Proof. intros id f E. discriminate E. Qed.

Corollary C01_exact_from_empty {I1} (ops1 : idx_ops I1) (R : I1 -> pindex -> Prop) P seed (l : list op') :
  exact_sim ops1 chain_ops R ->
  params_ok P -> Forall op_valid' l -> rooms' P (flat_init seed) l ->
  let s0 := fst (db_open ops1 P seed st0) in
  snd (db_open ops1 P seed st0) = OOpened false /\
  Forall2 out_equiv' (run' (step' ops1 P) s0 l) (run' step_spec' [] l) /\
  run' (step' ops1 P) s0 l = run' (step_chain' P) (fst (db_open chain_ops P seed st0)) l.
Proof.
  intros XS HP Hv Hr. cbv zeta.
  pose proof (xsim_open ops1 chain_ops R XS P seed st0 st0 (st0_rel R) ff_ok_disk0) as [Eo H1].
  pose proof (init_rel P seed) as H. rewrite flat_open_fresh in H.
  destruct (db_open chain_ops P seed st0) as [sp o]. destruct H as (-> & _ & Hs & HI & _ & Ea).
  cbn [fst snd] in *.
  destruct (C01_exact_refines_map ops1 R P _ sp (flat_init seed) l XS HP H1 Hs HI (flat_init_MetaOK seed) Hv Hr)
    as (A & _ & B & _).
  rewrite Ea in A. exact (conj Eo (conj A B)).
Qed.

(* the interface is satisfiable and the theorems are not vacuous *)

Lemma opt_rel_eq_refl {A} (x : option A) : opt_rel eq x x.
Proof. destruct x; constructor; reflexivity. Qed.

Lemma exact_sim_refl {I} (ops : idx_ops I) : exact_sim ops ops eq.
Proof.
  constructor; try (intros; subst; reflexivity).
  - intros g a b sl m -> _. split; reflexivity.
  - intros a b h m ->. split; reflexivity.
  - intros a b h seg off nseg noff -> _. apply opt_rel_eq_refl.
Qed.

Lemma gev_rel_eq_refl {I} (e : @fsev I) : gev_rel eq e e.
Proof. destruct e; constructor; reflexivity. Qed.

Lemma gst_rel_eq_refl {I} (s : @DB.st I) : gst_rel eq s s.
Proof.
  destruct s as [m d t]. constructor.
  - destruct m as [m|]; constructor. destruct m. constructor. reflexivity.
  - destruct d as [a b c e f g h j]. constructor; [apply opt_rel_eq_refl|]. destruct f; constructor; reflexivity.
  - induction t as [|e t IH]; constructor; [apply gev_rel_eq_refl|exact IH].
Qed.

Corollary xsim_run_chain_self P (s : @DB.st pindex) (l : list lop) :
  loks chain_ops P s l ->
  lrun chain_ops P s l = lrun chain_ops P s l /\
  gst_rel eq (lfinal chain_ops P s l) (lfinal chain_ops P s l).
Proof. exact (xsim_run chain_ops chain_ops eq (exact_sim_refl chain_ops) P l s s (gst_rel_eq_refl s)). Qed.

Definition xseg_ok_b (f : dseg) : bool :=
  forallb (fun e : N * rec => negb (u32 (fst e) =? 0))
          (with_offsets header_size (f_recs f ++ fst (fst (parse_tail (f_tail f))))).

Lemma xseg_ok_b_ok f : xseg_ok_b f = true -> xseg_ok f.
Proof.
  unfold xseg_ok_b, xseg_ok. intros H. apply Forall_forall. intros e He.
  pose proof (proj1 (forallb_forall _ _) H e He) as Hb. apply negb_true_iff, N.eqb_neq in Hb. exact Hb.
Qed.

Section Checks.
Context {I : Type}.
Variable ops : idx_ops I.

Definition sizes_ok_b (s : @DB.st I) : bool :=
  match s_mem s with
  | None => true
  | Some m => forallb (fun g => negb (u32 (g_size g) =? 0)) (m_segs m)
  end.

Lemma sizes_ok_b_ok s : sizes_ok_b s = true -> sizes_ok s.
Proof.
  unfold sizes_ok_b, sizes_ok. intros H m E. rewrite E in H. intros g Hg.
  pose proof (proj1 (forallb_forall _ _) H g Hg) as Hb. apply negb_true_iff, N.eqb_neq in Hb. exact Hb.
Qed.

Definition ff_ok_b (d : @DB.disk I) : bool := forallb xseg_ok_b (d_segs d).

Lemma ff_ok_b_ok d : ff_ok_b d = true -> ff_ok d.
Proof.
  intros H. apply xdisk_ok_ff. unfold xdisk_ok. apply Forall_forall. intros f Hf.
  apply xseg_ok_b_ok. exact (proj1 (forallb_forall _ _) H f Hf).
Qed.

Definition xok_b (s : @DB.st I) : bool := sizes_ok_b s && ff_ok_b (s_disk s).

Lemma xok_b_ok s : xok_b s = true -> xok s.
Proof.
  unfold xok_b. intros H. apply andb_true_iff in H. destruct H as [A B].
  split; [apply sizes_ok_b_ok; exact A|apply ff_ok_b_ok; exact B].
Qed.

Fixpoint cxok_b (P : params) (fuel : nat) (s : @DB.st I) (c : cursor) : bool :=
  match fuel with
  | O => true
  | S f => xok_b s &&
           match compact_step ops P s c with
           | CMore s' c' => cxok_b P f s' c'
           | _ => true
           end
  end.

Lemma cxok_b_ok P fuel : forall s c, cxok_b P fuel s c = true -> cxok ops P fuel s c.
Proof.
  induction fuel as [|f IH]; intros s c H; [exact Logic.I|]. cbn [cxok_b] in H. cbn [cxok].
  apply andb_true_iff in H. destruct H as [A B]. split; [apply xok_b_ok; exact A|].
  destruct (compact_step ops P s c) as [|s' c'|w]; [exact Logic.I|apply IH; exact B|exact Logic.I].
Qed.

Definition compact_xok_b (P : params) (s : @DB.st I) : bool :=
  match compact_pick ops P s with
  | Some (s1, c) => cxok_b P (S (2 * length (c_todo c) + 2 * total_recs (s_disk s1) + 2)) s1 c
  | None => true
  end.

Lemma compact_xok_b_ok P s : compact_xok_b P s = true -> compact_xok ops P s.
Proof.
  unfold compact_xok_b, compact_xok. destruct (compact_pick ops P s) as [[s1 c]|]; [|intros _; exact Logic.I].
  apply cxok_b_ok.
Qed.

Definition lop_ok_b (P : params) (s : @DB.st I) (o : lop) : bool :=
  match o with
  | LBase (OpBase (OpPut _ _)) => sizes_ok_b s
  | LBase OpCompact => compact_xok_b P s
  | LOpen _ => ff_ok_b (s_disk s)
  | _ => true
  end.

Lemma lop_ok_b_ok P s o : lop_ok_b P s o = true -> lop_ok ops P s o.
Proof.
  destruct o as [[[k v|k|k|k buf|k| | |]|]| |seed|]; cbn [lop_ok_b lop_ok op_xok]; try (intros _; exact Logic.I).
  - apply sizes_ok_b_ok.
  - apply compact_xok_b_ok.
  - apply ff_ok_b_ok.
Qed.

Fixpoint loks_b (P : params) (s : @DB.st I) (l : list lop) : bool :=
  match l with
  | [] => true
  | o :: l' => lop_ok_b P s o && loks_b P (fst (lstep ops P s o)) l'
  end.

Lemma loks_b_ok P l : forall s, loks_b P s l = true -> loks ops P s l.
Proof.
  induction l as [|o l IH]; intros s H; [constructor|]. cbn [loks_b] in H.
  apply andb_true_iff in H. destruct H as [A B]. constructor; [apply lop_ok_b_ok; exact A|apply IH; exact B].
Qed.

(* a check before every step, the outputs and the final state in one pass over the run *)
Fixpoint lwalk (okb : @DB.st I -> lop -> bool) (P : params) (s : @DB.st I) (l : list lop) :
    bool * list out * @DB.st I :=
  match l with
  | [] => (true, [], s)
  | o :: l' => let sr := lstep ops P s o in
               let w := lwalk okb P (fst sr) l' in
               (okb s o && fst (fst w), snd sr :: snd (fst w), snd w)
  end.

Lemma lwalk_outs okb P l : forall s, snd (fst (lwalk okb P s l)) = lrun ops P s l.
Proof.
  induction l as [|o l IH]; intros s; cbn [lwalk lrun fst snd]; [reflexivity|].
  rewrite IH. destruct (lstep ops P s o) as [s' r]. reflexivity.
Qed.

Lemma lwalk_final okb P l : forall s, snd (lwalk okb P s l) = lfinal ops P s l.
Proof. unfold lfinal. induction l as [|o l IH]; intros s; cbn [lwalk fold_left snd]; [reflexivity|apply IH]. Qed.

(* how the examples use it: [Q] of the three results is checked by ONE evaluation of the run (the
   checker's lazy evaluator shares the value of [w] within the single conversion) *)
Lemma lwalk_elim okb P l s (Q : bool -> list out -> @DB.st I -> Prop) :
  (let w := lwalk okb P s l in Q (fst (fst w)) (snd (fst w)) (snd w)) ->
  Q (fst (fst (lwalk okb P s l))) (lrun ops P s l) (lfinal ops P s l).
Proof. cbv zeta. rewrite lwalk_outs, lwalk_final. exact (fun H => H). Qed.

Lemma lwalk_loks P l : forall s, fst (fst (lwalk (lop_ok_b P) P s l)) = loks_b P s l.
Proof.
  induction l as [|o l IH]; intros s; cbn [lwalk loks_b fst]; [reflexivity|]. rewrite IH. reflexivity.
Qed.

End Checks.

Module ExactEx.
(* the parameters of DBRun.RunEx: one hash for every key, no split, small segments, every segment is
   always worth compacting *)
Definition exP : params := RunEx.exP.

Definition put (i : nat) : lop := LBase (RunEx.put i).
Definition get (i : nat) : lop := LBase (OpBase (OpGet (RunEx.key_of i))).

(* Open on an empty directory; 40 colliding keys (overflow bucket); a delete; a crash; Open again
   (RECOVERY: the index is rebuilt by replaying 41 records through ix_put / ix_del); reads; Compact
   (ix_repoint); Close; Open again (clean: the index is read back from the files); reads *)
Definition ex_ops : list lop :=
  [LOpen 1] ++ map put (seq 1 40) ++
  [LBase (OpBase (OpDelete (RunEx.key_of 3))); LCrash; LOpen 1;
   get 3; get 32; LBase (OpBase OpCount); put 41; LBase OpCompact; get 41; get 5;
   LClose; get 5; LOpen 1; get 5; get 3; LBase (OpBase OpCount); LBase (OpBase OpItems); LBase (OpBase OpSync)].

(* side condition, outputs and the slots of the final index from one evaluation of the run.  Below, no
   tactic may compare a run of [ex_ops] with anything up to conversion (that evaluates it again). *)
Definition ex_outs : list out := Eval vm_compute in firstn 16 (skipn 41 (lrun chain_ops exP st0 ex_ops)).
Definition ex_slots : list slot := Eval vm_compute in SimEx.chain_slots (lfinal chain_ops exP st0 ex_ops).
Lemma ex_eval :
  loks_b chain_ops exP st0 ex_ops = true /\
  firstn 16 (skipn 41 (lrun chain_ops exP st0 ex_ops)) = ex_outs /\
  SimEx.chain_slots (lfinal chain_ops exP st0 ex_ops) = ex_slots.
Proof.
  rewrite <- lwalk_loks.
  refine (lwalk_elim chain_ops _ exP ex_ops st0 (fun b outs fin =>
            b = true /\ firstn 16 (skipn 41 outs) = ex_outs /\ SimEx.chain_slots fin = ex_slots) _).
  vm_compute. repeat split.
Qed.

(* the side condition of [xsim_run] holds along this run: the theorem applies *)
Example ex_loks : loks chain_ops exP st0 ex_ops.
Proof. exact (loks_b_ok chain_ops exP ex_ops st0 (proj1 ex_eval)). Qed.

Example ex_run :
  lrun chain_ops exP st0 ex_ops = lrun chain_ops exP st0 ex_ops /\
  gst_rel eq (lfinal chain_ops exP st0 ex_ops) (lfinal chain_ops exP st0 ex_ops).
Proof. exact (xsim_run_chain_self exP st0 ex_ops ex_loks). Qed.

(* what the run returns: recovery happened, the contents survived it, the compaction did real work *)
Example ex_outputs :
  firstn 16 (skipn 41 (lrun chain_ops exP st0 ex_ops)) =
    [OOk; OOk; OOpened true; OVal None; OVal (Some (RunEx.val_of 32)); ONum 39; OOk;
     OCompact 7 2 24; OVal (Some (RunEx.val_of 41)); OVal (Some (RunEx.val_of 5));
     OOk; OErr EClosed; OOpened false; OVal (Some (RunEx.val_of 5)); OVal None; ONum 40].
Proof. rewrite (proj1 (proj2 ex_eval)). reflexivity. Qed.

(* C01_exact_refines_map applies to the run of DBRun.RunEx (with the trivial simulation) *)
Example ex_C01 :
  Forall2 out_equiv' (run' (step' chain_ops RunEx.exP) RunEx.sp0 RunEx.ex_ops) (run' step_spec' [] RunEx.ex_ops).
Proof.
  pose proof (init_rel RunEx.exP 1) as H. rewrite flat_open_fresh in H. unfold RunEx.sp0.
  destruct (db_open chain_ops RunEx.exP 1 st0) as [sp o]. destruct H as (_ & _ & Hs & HI & _ & Ea).
  cbn [fst].
  destruct (C01_exact_refines_map chain_ops eq RunEx.exP sp sp (flat_init 1) RunEx.ex_ops
              (exact_sim_refl chain_ops) RunEx.exP_ok (gst_rel_eq_refl sp) Hs HI (flat_init_MetaOK 1))
    as (A & _).
  - exact RunEx.ex_valid.
  - exact RunEx.ex_rooms.
  - rewrite Ea in A. exact A.
Qed.
End ExactEx.

Print Assumptions xsim_put.
Print Assumptions xsim_delete.
Print Assumptions xsim_get.
Print Assumptions xsim_get_append.
Print Assumptions xsim_has.
Print Assumptions xsim_count.
Print Assumptions xsim_items.
Print Assumptions xsim_sync.
Print Assumptions xsim_compact_pick.
Print Assumptions xsim_compact_step.
Print Assumptions xsim_compact_run.
Print Assumptions xsim_db_compact.
Print Assumptions xsim_close.
Print Assumptions xsim_open.
Print Assumptions xsim_backup.
Print Assumptions xsim_iter_step.
Print Assumptions xsim_step'.
Print Assumptions xsim_lstep.
Print Assumptions lop_ok_x.
Print Assumptions xsim_run.
Print Assumptions loks_x.
Print Assumptions xsim_run'.
Print Assumptions xok_of_Inv.
Print Assumptions xoks'_of_flat.
Print Assumptions C01_exact_refines_map.
Print Assumptions C01_exact_from_empty.
Print Assumptions ff_ok_chain_of_flat.
Print Assumptions exact_sim_refl.
Print Assumptions xsim_run_chain_self.
Print Assumptions loks_b_ok.
Print Assumptions ff_close.
Print Assumptions ExactEx.ex_loks.
Print Assumptions ExactEx.ex_run.
Print Assumptions ExactEx.ex_outputs.
Print Assumptions ExactEx.ex_C01.
