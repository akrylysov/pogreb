(* BaseLemmas.v -- basic facts about the N-indexed list functions of Base.v. *)
From Coq Require Import ZArith Lia ZifyN ZifyNat ZifyBool.
From Pogreb Require Import Base.
Ltac Zify.zify_post_hook ::= Z.div_mod_to_equations.

Lemma nlen_length {A} (l : list A) : nlen l = N.of_nat (length l).
Proof.
  induction l as [|x l IH]; [reflexivity|].
  cbn [nlen length]. rewrite IH, Nat2N.inj_succ. reflexivity.
Qed.

Lemma length_nlen {A} (l : list A) : length l = N.to_nat (nlen l).
Proof. rewrite nlen_length, Nat2N.id. reflexivity. Qed.

Lemma nlen_nil {A} : nlen (@nil A) = 0.
Proof. reflexivity. Qed.

Lemma nlen_cons {A} (x : A) l : nlen (x :: l) = 1 + nlen l.
Proof. cbn [nlen]. lia. Qed.

Lemma nlen_app {A} (a b : list A) : nlen (a ++ b) = nlen a + nlen b.
Proof. rewrite !nlen_length, app_length. lia. Qed.

Lemma nlen_nil_iff {A} (l : list A) : nlen l = 0 <-> l = [].
Proof.
  split; [|intros ->; reflexivity].
  destruct l as [|x l]; [reflexivity|]. intros H. rewrite nlen_cons in H. lia.
Qed.

Lemma nlen_pos_iff {A} (l : list A) : 0 < nlen l <-> l <> [].
Proof.
  destruct l as [|x l].
  - cbn [nlen]. split; intros H; [lia|congruence].
  - rewrite nlen_cons. split; intros H; [congruence|lia].
Qed.

Lemma nlen_map {A B} (f : A -> B) l : nlen (map f l) = nlen l.
Proof. rewrite !nlen_length, map_length. reflexivity. Qed.

Lemma nlen_eq_length {A B} (a : list A) (b : list B) : nlen a = nlen b <-> length a = length b.
Proof. rewrite !nlen_length. lia. Qed.

Lemma ntake_0 {A} (l : list A) : ntake 0 l = [].
Proof. reflexivity. Qed.

Lemma ntake_nil {A} n : ntake n (@nil A) = [].
Proof. destruct n; reflexivity. Qed.

Lemma ntake_pos_cons {A} p (x : A) l : ntake_pos p (x :: l) = x :: ntake (Pos.pred_N p) l.
Proof. destruct p; reflexivity. Qed.

Lemma ntake_succ_cons {A} n (x : A) l : ntake (N.succ n) (x :: l) = x :: ntake n l.
Proof.
  destruct n as [|p]; [reflexivity|].
  change (N.succ (N.pos p)) with (N.pos (Pos.succ p)).
  unfold ntake at 1. rewrite ntake_pos_cons, Pos.pred_N_succ. reflexivity.
Qed.

Lemma ndrop_0 {A} (l : list A) : ndrop 0 l = l.
Proof. reflexivity. Qed.

Lemma ndrop_nil {A} n : ndrop n (@nil A) = [].
Proof. destruct n; reflexivity. Qed.

Lemma ndrop_pos_cons {A} p (x : A) l : ndrop_pos p (x :: l) = ndrop (Pos.pred_N p) l.
Proof. destruct p; reflexivity. Qed.

Lemma ndrop_succ_cons {A} n (x : A) l : ndrop (N.succ n) (x :: l) = ndrop n l.
Proof.
  destruct n as [|p]; [reflexivity|].
  change (N.succ (N.pos p)) with (N.pos (Pos.succ p)).
  unfold ndrop at 1. rewrite ndrop_pos_cons, Pos.pred_N_succ. reflexivity.
Qed.

Lemma ntake_firstn {A} n (l : list A) : ntake n l = firstn (N.to_nat n) l.
Proof.
  revert l. induction n as [|n IH] using N.peano_ind; intros l; [reflexivity|].
  rewrite N2Nat.inj_succ. destruct l as [|x l]; [apply ntake_nil|].
  rewrite ntake_succ_cons, IH. reflexivity.
Qed.

Lemma ndrop_skipn {A} n (l : list A) : ndrop n l = skipn (N.to_nat n) l.
Proof.
  revert l. induction n as [|n IH] using N.peano_ind; intros l; [reflexivity|].
  rewrite N2Nat.inj_succ. destruct l as [|x l]; [apply ndrop_nil|].
  rewrite ndrop_succ_cons, IH. reflexivity.
Qed.

Lemma firstn_ntake {A} n (l : list A) : firstn n l = ntake (N.of_nat n) l.
Proof. rewrite ntake_firstn, Nat2N.id. reflexivity. Qed.

Lemma skipn_ndrop {A} n (l : list A) : skipn n l = ndrop (N.of_nat n) l.
Proof. rewrite ndrop_skipn, Nat2N.id. reflexivity. Qed.

Lemma ntake_ndrop_id {A} n (l : list A) : ntake n l ++ ndrop n l = l.
Proof. rewrite ntake_firstn, ndrop_skipn. apply firstn_skipn. Qed.

Lemma ntake_app_exact {A} (a b : list A) : ntake (nlen a) (a ++ b) = a.
Proof.
  rewrite ntake_firstn, <- length_nlen, firstn_app, Nat.sub_diag, firstn_all, firstn_O.
  apply app_nil_r.
Qed.

Lemma ndrop_app_exact {A} (a b : list A) : ndrop (nlen a) (a ++ b) = b.
Proof.
  rewrite ndrop_skipn, <- length_nlen, skipn_app, Nat.sub_diag, skipn_all.
  reflexivity.
Qed.

Lemma ntake_app_le {A} n (a b : list A) : n <= nlen a -> ntake n (a ++ b) = ntake n a.
Proof.
  intros H. rewrite !ntake_firstn, firstn_app.
  replace (N.to_nat n - length a)%nat with 0%nat by (rewrite length_nlen; lia).
  rewrite firstn_O. apply app_nil_r.
Qed.

Lemma ndrop_app_le {A} n (a b : list A) : n <= nlen a -> ndrop n (a ++ b) = ndrop n a ++ b.
Proof.
  intros H. rewrite !ndrop_skipn, skipn_app.
  replace (N.to_nat n - length a)%nat with 0%nat by (rewrite length_nlen; lia).
  reflexivity.
Qed.

Lemma ntake_app_ge {A} n (a b : list A) : nlen a <= n -> ntake n (a ++ b) = a ++ ntake (n - nlen a) b.
Proof.
  intros H. rewrite !ntake_firstn, firstn_app.
  rewrite firstn_all2 by (rewrite length_nlen; lia).
  f_equal. f_equal. rewrite length_nlen. lia.
Qed.

Lemma ndrop_app_ge {A} n (a b : list A) : nlen a <= n -> ndrop n (a ++ b) = ndrop (n - nlen a) b.
Proof.
  intros H. rewrite !ndrop_skipn, skipn_app.
  rewrite skipn_all2 by (rewrite length_nlen; lia).
  cbn [app]. f_equal. rewrite length_nlen. lia.
Qed.

Lemma ntake_app_add {A} n (a b : list A) : ntake (nlen a + n) (a ++ b) = a ++ ntake n b.
Proof. rewrite ntake_app_ge by lia. do 2 f_equal. lia. Qed.

Lemma ndrop_app_add {A} n (a b : list A) : ndrop (nlen a + n) (a ++ b) = ndrop n b.
Proof. rewrite ndrop_app_ge by lia. f_equal. lia. Qed.

Lemma ntake_all {A} n (l : list A) : nlen l <= n -> ntake n l = l.
Proof. intros H. rewrite ntake_firstn. apply firstn_all2. rewrite length_nlen. lia. Qed.

Lemma ndrop_all {A} n (l : list A) : nlen l <= n -> ndrop n l = [].
Proof. intros H. rewrite ndrop_skipn. apply skipn_all2. rewrite length_nlen. lia. Qed.

Lemma ntake_nlen {A} (l : list A) : ntake (nlen l) l = l.
Proof. apply ntake_all. lia. Qed.

Lemma ndrop_nlen {A} (l : list A) : ndrop (nlen l) l = [].
Proof. apply ndrop_all. lia. Qed.

Lemma nlen_ntake {A} n (l : list A) : nlen (ntake n l) = N.min n (nlen l).
Proof. rewrite ntake_firstn, !nlen_length, firstn_length. lia. Qed.

Lemma nlen_ntake_le {A} n (l : list A) : n <= nlen l -> nlen (ntake n l) = n.
Proof. intros H. rewrite nlen_ntake. lia. Qed.

Lemma nlen_ndrop {A} n (l : list A) : nlen (ndrop n l) = nlen l - n.
Proof. rewrite ndrop_skipn, !nlen_length, skipn_length. lia. Qed.

Lemma ndrop_add {A} n m (l : list A) : ndrop (n + m) l = ndrop m (ndrop n l).
Proof.
  rewrite !ndrop_skipn, N2Nat.inj_add.
  generalize (N.to_nat n) as a. generalize (N.to_nat m) as b. clear n m.
  intros b a. revert l. induction a as [|a IH]; intros l; [reflexivity|].
  destruct l as [|x l]; [rewrite !skipn_nil; reflexivity|].
  cbn [Nat.add skipn]. apply IH.
Qed.

Lemma ntake_ntake {A} n m (l : list A) : ntake n (ntake m l) = ntake (N.min n m) l.
Proof. rewrite !ntake_firstn, firstn_firstn. f_equal. lia. Qed.

Lemma ntake_ndrop_split {A} n m (l : list A) : ntake (n + m) l = ntake n l ++ ntake m (ndrop n l).
Proof.
  rewrite <- (ntake_ndrop_id n l) at 1.
  destruct (N.le_gt_cases n (nlen l)) as [H|H].
  - rewrite ntake_app_ge by (rewrite nlen_ntake; lia).
    do 2 f_equal. rewrite nlen_ntake. lia.
  - rewrite (ndrop_all n l) by lia. rewrite app_nil_r, ntake_nil, app_nil_r.
    rewrite (ntake_all n l) by lia. apply ntake_all. lia.
Qed.

Lemma ntake_app_exact' {A} n (a b : list A) : nlen a = n -> ntake n (a ++ b) = a.
Proof. intros <-. apply ntake_app_exact. Qed.

Lemma ndrop_app_exact' {A} n (a b : list A) : nlen a = n -> ndrop n (a ++ b) = b.
Proof. intros <-. apply ndrop_app_exact. Qed.

Lemma ndrop_ntake {A} a n (l : list A) : ndrop a (ntake n l) = ntake (n - a) (ndrop a l).
Proof. rewrite !ndrop_skipn, !ntake_firstn, skipn_firstn_comm, N2Nat.inj_sub. reflexivity. Qed.

Lemma ntake_ndrop {A} a n (l : list A) : ntake n (ndrop a l) = ndrop a (ntake (a + n) l).
Proof. rewrite ndrop_ntake. f_equal. lia. Qed.

(* the field x behind the fields pre *)
Lemma field_at {A} (pre x post : list A) n k :
  nlen pre = n -> nlen x = k -> ntake k (ndrop n (pre ++ x ++ post)) = x.
Proof. intros <- <-. rewrite ndrop_app_exact. apply ntake_app_exact. Qed.

(* two decompositions of the same list *)
Lemma app_eq_split {A} (a b c d : list A) :
  a ++ b = c ++ d -> nlen a <= nlen c -> exists e, c = a ++ e /\ b = e ++ d.
Proof.
  intros E H. exists (ndrop (nlen a) c).
  assert (Ha : ntake (nlen a) (a ++ b) = ntake (nlen a) (c ++ d)) by (rewrite E; reflexivity).
  assert (Hb : ndrop (nlen a) (a ++ b) = ndrop (nlen a) (c ++ d)) by (rewrite E; reflexivity).
  rewrite ntake_app_exact, ntake_app_le in Ha by exact H.
  rewrite ndrop_app_exact, ndrop_app_le in Hb by exact H.
  split; [|exact Hb].
  rewrite Ha at 1. symmetry. apply ntake_ndrop_id.
Qed.

Lemma nlen_concat_cons {A} (c : list A) cs : nlen (concat (c :: cs)) = nlen c + nlen (concat cs).
Proof. cbn [concat]. apply nlen_app. Qed.

Lemma Forall_ntake_ndrop {A} (P : A -> Prop) n l :
  Forall P l <-> Forall P (ntake n l) /\ Forall P (ndrop n l).
Proof. rewrite <- Forall_app, ntake_ndrop_id. reflexivity. Qed.

Lemma Forall_ntake {A} (P : A -> Prop) n l : Forall P l -> Forall P (ntake n l).
Proof. intros H. apply (Forall_ntake_ndrop P n l). exact H. Qed.

Lemma Forall_ndrop {A} (P : A -> Prop) n l : Forall P l -> Forall P (ndrop n l).
Proof. intros H. apply (Forall_ntake_ndrop P n l). exact H. Qed.

Lemma Forall2_imp {A B} (R R' : A -> B -> Prop) l l' :
  Forall2 R l l' -> (forall a b, R a b -> R' a b) -> Forall2 R' l l'.
Proof. intros H HF. induction H; constructor; auto. Qed.

Lemma NoDup_app_inv {A} (a b : list A) : NoDup (a ++ b) ->
  NoDup a /\ NoDup b /\ forall x, In x a -> In x b -> False.
Proof.
  induction a as [|x a IH]; cbn [app]; intros Nd.
  - split; [constructor|]. split; [exact Nd|]. intros x [].
  - inversion Nd as [|x_ l_ Hx Hl]; subst x_ l_. destruct (IH Hl) as (I1 & I2 & I3).
    split; [constructor; [intros Hc; apply Hx, in_or_app; left; exact Hc|exact I1]|].
    split; [exact I2|]. intros y [<-|Hy] Hb; [apply Hx, in_or_app; right; exact Hb|exact (I3 _ Hy Hb)].
Qed.

(* the lists of a duplicate-free concatenation *)
Lemma NoDup_concat_nth {A} (L : list (list A)) : NoDup (concat L) ->
  forall i, NoDup (nth i L []) /\
            forall j x, i <> j -> In x (nth i L []) -> In x (nth j L []) -> False.
Proof.
  assert (In_c : forall (M : list (list A)) j x, In x (nth j M []) -> In x (concat M)).
  { intros M j x Hx. apply in_concat. exists (nth j M []). split; [|exact Hx].
    destruct (nth_in_or_default j M []) as [H|E]; [exact H|]. rewrite E in Hx. destruct Hx. }
  induction L as [|l L IH]; intros Nd i; cbn [concat] in Nd.
  - split; [destruct i; constructor|]. intros j x _ Hx. destruct i; destruct Hx.
  - destruct (NoDup_app_inv _ _ Nd) as (N1 & N2 & D). destruct i as [|i]; cbn [nth].
    + split; [exact N1|]. intros [|j] x Hne Hi Hj; [congruence|]. exact (D x Hi (In_c _ _ _ Hj)).
    + split; [exact (proj1 (IH N2 i))|]. intros [|j] x Hne Hi Hj; cbn [nth] in Hj.
      * exact (D x Hj (In_c _ _ _ Hi)).
      * apply (proj2 (IH N2 i) j x); [congruence|exact Hi|exact Hj].
Qed.

Lemma u16_small x : x < 65536 -> u16 x = x.
Proof. intros H. unfold u16. apply N.mod_small. exact H. Qed.

Lemma u32_small x : x < 4294967296 -> u32 x = x.
Proof. intros H. unfold u32. apply N.mod_small. exact H. Qed.

Lemma u16_lt x : u16 x < 65536.
Proof. unfold u16. apply N.mod_lt. discriminate. Qed.

Lemma u32_lt x : u32 x < 4294967296.
Proof. unfold u32. apply N.mod_lt. discriminate. Qed.

Lemma find_app {A} (f : A -> bool) l1 l2 :
  find f (l1 ++ l2) = match find f l1 with Some s => Some s | None => find f l2 end.
Proof.
  induction l1 as [|a l1 IH]; cbn [app find]; [reflexivity|].
  destruct (f a); [reflexivity|exact IH].
Qed.

Lemma forallb_byte l : forallb (fun b => b <? 256) l = true -> Forall byte l.
Proof.
  intros H. apply Forall_forall. intros x Hx. unfold byte. apply N.ltb_lt.
  exact (proj1 (forallb_forall _ _) H x Hx).
Qed.
