(* PhysIterBackup.v -- the iterator (C11) and backup (C12) theorems for the database on the physical
   index ([phys_ops], Phys.v).  Three layers, as in PhysCrash.v:

        s1 : st phys   --- gst_rel PR ---   sp : st pindex   --- st_rel ---   sf : st flat

   Nothing is assumed about the phys state beyond [gst_rel PR s1 sp], nothing about the chain state beyond
   [st_rel sp sf]; every other hypothesis (Inv, CInv, room, MetaOK, valid arguments) is about the FLAT
   ghost, as in DBProofsIter.v / DBProofsBackup.v; the side conditions of DBSimExact are derived
   (wxok_of_flat, ixoks_of_flat).  ItemIterator.Next on the phys database returns exactly what it returns
   on a PR-related chain database (phys_iter_step), so a run of Next calls and writer critical sections
   on the phys database ([pscan]) projects to a run of DBProofsIter ([pscan_cscan]) with the same
   iterator, items and histories, and the C11 statements follow.  Backup: plan, copies and directory do
   not depend on the index; a schedule on the three layers projects to DBProofsBackup.bsteps.

   - The concurrent C11 theorems quantify over [pscan] (three states) instead of [cscan] (two); the extra
     premise of a writer step is only that the phys database executed it ([wexec phys_ops .. = Some ..]);
     pw_step_of_phys: the ghosts can always follow, so the lockstep is no restriction.
   - [bop]: Put with ANY key / value lengths (rejected Puts included), Delete, Sync: the writers that can
     run during a Backup.  Compaction steps are excluded from the schedules for the reason given in
     DBProofsBackup.v (Backup holds maintenanceMu).
   - C12_schedule_phys: the schedule runs on the three layers in lockstep; the plan is taken from the
     memory of the PHYS state and the copies from the PHYS disk. *)
From Coq Require Import ZArith Lia ZifyN ZifyNat ZifyBool Permutation List.
From Pogreb Require Import Base BaseLemmas Crc Bytes Record RecordProofs Flat Index Spec DB DBInv
  DBLemmas DBProofsOps DBMeta DBProofsCompact DBProofsRecovery DBProofsCrash DBSim DBRun DBSimExact
  Bucket Phys PhysProofs PhysDB DBSimSessions PhysCrash DBProofsIter DBProofsBackup.
Import ListNotations.
Ltac Zify.zify_post_hook ::= Z.div_mod_to_equations.

Local Notation st1 := (@DB.st phys).
Local Notation stp := (@DB.st pindex).
Local Notation stf := (@DB.st flat).
Local Notation mem1 := (@DB.mem phys).
Local Notation memp := (@DB.mem pindex).
Local Notation memf := (@DB.mem flat).
Local Notation disk1 := (@DB.disk phys).
Local Notation diskp := (@DB.disk pindex).
Local Notation diskf := (@DB.disk flat).

Theorem phys_fetch_bucket (s1 : st1) (sp : stp) n :
  gst_rel PR s1 sp -> fetch_bucket phys_ops s1 n = fetch_bucket chain_ops sp n.
Proof. exact (fetch_bucket_x phys_ops chain_ops PR phys_exact_sim s1 sp n). Qed.

Theorem phys_iter_fill fuel (s1 : st1) (sp : stp) it :
  gst_rel PR s1 sp -> dbiter_fill phys_ops fuel s1 it = dbiter_fill chain_ops fuel sp it.
Proof. intros H. exact (dbiter_fill_x phys_ops chain_ops PR phys_exact_sim fuel s1 sp H it). Qed.

(* ItemIterator.Next on the phys database = Next on the chain database, whatever the iterator *)
Theorem phys_iter_step (s1 : st1) (sp : stp) it :
  gst_rel PR s1 sp -> dbiter_step phys_ops s1 it = dbiter_step chain_ops sp it.
Proof. exact (xsim_iter_step phys_ops chain_ops PR phys_exact_sim s1 sp it). Qed.

Theorem phys_scan_eq fuel (s1 : st1) (sp : stp) : gst_rel PR s1 sp -> forall it,
  scan phys_ops fuel s1 it = scan chain_ops fuel sp it.
Proof.
  intros H. induction fuel as [|f IH]; intros it; [reflexivity|].
  cbn [scan]. rewrite (phys_iter_step s1 sp it H).
  destruct (dbiter_step chain_ops sp it) as [[it' [kv|]]|]; [|reflexivity|reflexivity].
  rewrite (IH it'). reflexivity.
Qed.

Theorem phys_outs_eq n (s1 : st1) (sp : stp) : gst_rel PR s1 sp -> forall it,
  outs phys_ops n s1 it = outs chain_ops n sp it.
Proof.
  intros H. induction n as [|n IH]; intros it; [reflexivity|].
  cbn [outs]. rewrite (phys_iter_step s1 sp it H).
  destruct (dbiter_step chain_ops sp it) as [[it' r]|]; [|reflexivity].
  rewrite (IH it'). reflexivity.
Qed.

(* C11, quiescent part, on the PHYS database: a scan of a database nobody modifies returns every live
   key exactly once with its current value, then "done" for ever; it is the list Items returns *)
Theorem C11_quiescent_scan_phys P (s1 : st1) (sp : stp) (sf : stf) fuel :
  gst_rel PR s1 sp -> st_rel sp sf -> Inv P sf -> s_mem sf <> None ->
  (length (abs (s_disk sf)) < fuel)%nat ->
  exists l itf,
    scan phys_ops fuel s1 dbiter0 = (l, itf) /\
    Permutation l (abs (s_disk sf)) /\ NoDup (map fst l) /\
    (forall k v, In (k, v) l <-> sget (abs (s_disk sf)) k = Some v) /\
    dbiter_step phys_ops s1 itf = Some (itf, None) /\
    (forall n, outs phys_ops (length l + n) s1 dbiter0 = map Some l ++ repeat None n) /\
    db_items phys_ops s1 = OItems l /\
    (* the same calls on the chain database return the same *)
    scan chain_ops fuel sp dbiter0 = (l, itf).
Proof.
  intros H1 Hs HI Hopen Hfuel.
  destruct (C11_quiescent_scan P sp sf fuel Hs HI Hopen Hfuel) as (l & itf & A & B & C & D & E & F & G).
  exists l, itf.
  split; [rewrite (phys_scan_eq fuel s1 sp H1 dbiter0); exact A|].
  split; [exact B|]. split; [exact C|]. split; [exact D|].
  split; [rewrite (phys_iter_step s1 sp itf H1); exact E|].
  split; [intros n; rewrite (phys_outs_eq _ s1 sp H1 dbiter0); exact (F n)|].
  split; [|exact A].
  rewrite (xsim_items phys_ops chain_ops PR phys_exact_sim s1 sp H1). exact G.
Qed.

(* the critical sections that can run between two Next calls (iterator.go takes db.mu.RLock per call):
   Put, Delete, ONE step of the compaction in progress, the pick that starts a compaction, Sync *)
Inductive wop := WPut (k : key) (v : val) | WDel (k : key) | WCompact | WPick | WSync.

Definition wlab (o : wop) : wlabel :=
  match o with WPut k v => WLput k v | WDel k => WLdel k | _ => WLnone end.

(* new state, new cursor, output; None: the step is not enabled (no compaction step left / failed,
   nothing to pick) *)
Definition wexec {I} (ops : idx_ops I) (P : params) (o : wop) (s : @DB.st I) (c : cursor) :
    option (@DB.st I * cursor * out) :=
  match o with
  | WPut k v => Some (fst (db_put ops P k v s), c, snd (db_put ops P k v s))
  | WDel k => Some (fst (db_delete ops P k s), c, snd (db_delete ops P k s))
  | WCompact => match compact_step ops P s c with CMore s' c' => Some (s', c', OOk) | _ => None end
  | WPick => match compact_pick ops P s with Some (s', c') => Some (s', c', OOk) | None => None end
  | WSync => Some (fst (db_sync ops s), c, snd (db_sync ops s))
  end.

(* the index-independent side condition of DBSimExact (no record offset is 0 mod 2^32) *)
Definition wxok {I} (s : @DB.st I) (o : wop) : Prop :=
  match o with WPut _ _ => sizes_ok s | WCompact => xok s | _ => True end.

Definition wres_rel (a : option (st1 * cursor * out)) (b : option (stp * cursor * out)) : Prop :=
  match a, b with
  | None, None => True
  | Some (s1', c1, o1), Some (sp', cp, op) => gst_rel PR s1' sp' /\ c1 = cp /\ o1 = op
  | _, _ => False
  end.

(* every writer critical section: same enabledness, same output, same cursor, related states *)
Theorem wexec_phys P o (s1 : st1) (sp : stp) c :
  gst_rel PR s1 sp -> wxok sp o -> wres_rel (wexec phys_ops P o s1 c) (wexec chain_ops P o sp c).
Proof.
  intros H Hx. destruct o as [k v|k| | |]; cbn [wexec wxok wres_rel] in *.
  - destruct (xsim_put phys_ops chain_ops PR phys_exact_sim P k v s1 sp H Hx) as [A B]. auto.
  - destruct (xsim_delete phys_ops chain_ops PR phys_exact_sim P k s1 sp H) as [A B]. auto.
  - pose proof (xsim_compact_step phys_ops chain_ops PR phys_exact_sim P s1 sp c H Hx) as X.
    destruct (compact_step phys_ops P s1 c) as [|s1' c1|w1];
      destruct (compact_step chain_ops P sp c) as [|sp' cp|wp]; inversion X; subst; cbn [wres_rel]; auto.
  - pose proof (xsim_compact_pick phys_ops chain_ops PR phys_exact_sim P s1 sp H) as X.
    destruct (compact_pick phys_ops P s1) as [[s1' c1]|];
      destruct (compact_pick chain_ops P sp) as [[sp' cp]|]; unfold pick_res_rel in X; cbn [wres_rel];
      try contradiction; [|exact Logic.I].
    destruct X as [X ->]. auto.
  - destruct (xsim_sync phys_ops chain_ops PR phys_exact_sim s1 sp H) as [A B]. auto.
Qed.

(* executable interleavings of Next calls and writer critical sections *)
Inductive iact := ANext | AWrite (o : wop).
(* what a step returns; RStuck: Next left the domain of the model / the writer step is not enabled
   (the state is then left as it is) *)
Inductive ires := RNext (r : option (key * val)) | RWrite (o : out) | RStuck.

Fixpoint irun {I} (ops : idx_ops I) (P : params) (l : list iact) (s : @DB.st I) (c : cursor) (it : dbiter) :
    list ires * (@DB.st I * cursor * dbiter) :=
  match l with
  | [] => ([], (s, c, it))
  | ANext :: l' =>
      match dbiter_step ops s it with
      | Some (it', r) => let x := irun ops P l' s c it' in (RNext r :: fst x, snd x)
      | None => let x := irun ops P l' s c it in (RStuck :: fst x, snd x)
      end
  | AWrite o :: l' =>
      match wexec ops P o s c with
      | Some (s', c', r) => let x := irun ops P l' s' c' it in (RWrite r :: fst x, snd x)
      | None => let x := irun ops P l' s c it in (RStuck :: fst x, snd x)
      end
  end.

(* the side condition before every writer step of the run (it does not mention the iterator) *)
Fixpoint ixoks {I} (ops : idx_ops I) (P : params) (l : list iact) (s : @DB.st I) (c : cursor) : Prop :=
  match l with
  | [] => True
  | ANext :: l' => ixoks ops P l' s c
  | AWrite o :: l' =>
      wxok s o /\
      match wexec ops P o s c with
      | Some (s', c', _) => ixoks ops P l' s' c'
      | None => ixoks ops P l' s c
      end
  end.

Definition ifin_rel (a : st1 * cursor * dbiter) (b : stp * cursor * dbiter) : Prop :=
  gst_rel PR (fst (fst a)) (fst (fst b)) /\ snd (fst a) = snd (fst b) /\ snd a = snd b.

(* ANY interleaving of Next calls with Put / Delete / compaction steps / pick / Sync: the phys database
   returns, call by call, exactly what the chain database returns (items, "done", outputs of the
   writers), and ends in a related state with the same cursor and the same iterator *)
Theorem phys_iter_interleaved P (l : list iact) : forall (s1 : st1) (sp : stp) c it,
  gst_rel PR s1 sp -> ixoks chain_ops P l sp c ->
  fst (irun phys_ops P l s1 c it) = fst (irun chain_ops P l sp c it) /\
  ifin_rel (snd (irun phys_ops P l s1 c it)) (snd (irun chain_ops P l sp c it)).
Proof.
  induction l as [|a l IH]; intros s1 sp c it H Hx.
  - cbn [irun fst snd]. split; [reflexivity|]. split; [exact H|]. split; reflexivity.
  - destruct a as [|o].
    + cbn [irun ixoks] in *. rewrite (phys_iter_step s1 sp it H).
      destruct (dbiter_step chain_ops sp it) as [[it' r]|]; cbn [fst snd].
      * destruct (IH s1 sp c it' H Hx) as [A B]. rewrite A. split; [reflexivity|exact B].
      * destruct (IH s1 sp c it H Hx) as [A B]. rewrite A. split; [reflexivity|exact B].
    + cbn [irun ixoks] in *. destruct Hx as [Hx Hn].
      pose proof (wexec_phys P o s1 sp c H Hx) as X.
      destruct (wexec phys_ops P o s1 c) as [[[s1' c1] o1]|];
        destruct (wexec chain_ops P o sp c) as [[[sp' cp] op]|]; cbn [wres_rel] in X; try contradiction.
      * destruct X as (H' & -> & ->). cbn [fst snd].
        destruct (IH s1' sp' cp it H' Hn) as [A B]. rewrite A. split; [reflexivity|exact B].
      * cbn [fst snd]. destruct (IH s1 sp c it H Hn) as [A B]. rewrite A. split; [reflexivity|exact B].
Qed.

(* the side conditions of DBProofsIter.wr_step: all of them about the FLAT ghost state *)
Definition wside (sf : stf) (o : wop) : Prop :=
  match o with
  | WPut k v => roomy sf /\ Forall byte k /\ Forall byte v /\ nlen k <= max_key_len /\ nlen v <= max_val_len
  | WDel k => roomy sf /\ Forall byte k
  | WCompact => roomy sf
  | WPick => MetaOK sf
  | WSync => True
  end.

(* one writer critical section executed on the phys database [s1]; [sp], [sf] are the chain and flat
   ghosts that execute the same critical section *)
Inductive pw_step (P : params) (o : wop) :
    st1 -> stp -> stf -> cursor -> st1 -> stp -> stf -> cursor -> Prop :=
| pw_intro s1 sp sf c s1' sp' sf' c' o1 op of :
    wside sf o ->
    wexec phys_ops P o s1 c = Some (s1', c', o1) ->
    wexec chain_ops P o sp c = Some (sp', c', op) ->
    wexec flat_ops P o sf c = Some (sf', c', of) ->
    pw_step P o s1 sp sf c s1' sp' sf' c'.

(* the chain / flat part of a step is a writer step of DBProofsIter *)
Lemma wexec_wr_step P o (sp : stp) (sf : stf) c sp' sf' c' op of :
  wside sf o -> wexec chain_ops P o sp c = Some (sp', c', op) -> wexec flat_ops P o sf c = Some (sf', c', of) ->
  wr_step P sp sf c (wlab o) sp' sf' c'.
Proof.
  intros Hsd Ep Ef.
  destruct o as [k v|k| | |]; cbn [wexec wside wlab] in *.
  - injection Ep as <- <- _. injection Ef as <- _. destruct Hsd as (A & B & C & D & E).
    apply w_put; assumption.
  - injection Ep as <- <- _. injection Ef as <- _. destruct Hsd as (A & B). apply w_del; assumption.
  - destruct (compact_step chain_ops P sp c) as [|sp2 c2|w] eqn:Ec; try discriminate Ep.
    destruct (compact_step flat_ops P sf c) as [|sf2 c3|w] eqn:Ec'; try discriminate Ef.
    injection Ep as <- <- _. injection Ef as <- -> _. apply w_compact; assumption.
  - destruct (compact_pick chain_ops P sp) as [[sp2 c2]|] eqn:Ec; try discriminate Ep.
    destruct (compact_pick flat_ops P sf) as [[sf2 c3]|] eqn:Ec'; try discriminate Ef.
    injection Ep as <- <- _. injection Ef as <- -> _. apply w_pick; assumption.
  - injection Ep as <- <- _. injection Ef as <- _. apply w_sync.
Qed.

Lemma pw_wr_step P o s1 sp sf c s1' sp' sf' c' :
  pw_step P o s1 sp sf c s1' sp' sf' c' -> wr_step P sp sf c (wlab o) sp' sf' c'.
Proof.
  intros H. destruct H as [s1 sp sf c s1' sp' sf' c' o1 op of Hsd E1 Ep Ef].
  exact (wexec_wr_step P o sp sf c sp' sf' c' op of Hsd Ep Ef).
Qed.

(* a critical section enabled on the chain database is enabled on its flat ghost, with the same cursor *)
Lemma wexec_flat_of_chain P o (sp : stp) (sf : stf) c sp' c' op :
  ok P sp sf c -> wexec chain_ops P o sp c = Some (sp', c', op) ->
  exists sf' of, wexec flat_ops P o sf c = Some (sf', c', of).
Proof.
  intros (Hs & HI & HC) Ep.
  destruct o as [k v|k| | |]; cbn [wexec] in *.
  - injection Ep as _ <- _. eexists. eexists. reflexivity.
  - injection Ep as _ <- _. eexists. eexists. reflexivity.
  - pose proof (sim_compact_step P sp sf c Hs HI) as Y.
    destruct (compact_step chain_ops P sp c) as [|sp2 c2|w]; try discriminate Ep.
    injection Ep as _ -> _. inversion Y as [|sp0 sf' c0 Hs' Q1 Q2|]; subst.
    eexists. eexists. reflexivity.
  - pose proof (sim_compact_pick P sp sf Hs) as Y.
    destruct (compact_pick chain_ops P sp) as [[sp2 c2]|]; try discriminate Ep.
    injection Ep as _ -> _.
    destruct (compact_pick flat_ops P sf) as [[sf' cf]|]; [|contradiction].
    destruct Y as [_ ->]. eexists. eexists. reflexivity.
  - injection Ep as _ <- _. eexists. eexists. reflexivity.
Qed.

Lemma ok_roomy_xok P sp sf c : ok P sp sf c -> roomy sf -> xok sp.
Proof. intros (Hs & HI & _) Hr. exact (xok_chain_of_flat P sp sf Hs HI Hr). Qed.

(* the side condition of DBSimExact follows from the flat-side conditions *)
Lemma wxok_of_flat P sp sf c o : ok P sp sf c -> wside sf o -> wxok sp o.
Proof.
  intros Hok Hsd. destruct o as [k v|k| | |]; cbn [wside wxok] in *; try exact Logic.I.
  - exact (proj1 (ok_roomy_xok P sp sf c Hok (proj1 Hsd))).
  - exact (ok_roomy_xok P sp sf c Hok Hsd).
Qed.

(* phys and chain part of a step: related results, same output *)
Lemma pw_step_rel P o s1 sp sf c s1' sp' sf' c' :
  gst_rel PR s1 sp -> ok P sp sf c -> pw_step P o s1 sp sf c s1' sp' sf' c' -> gst_rel PR s1' sp'.
Proof.
  intros H1 Hok H. destruct H as [s1 sp sf c s1' sp' sf' c' o1 op of Hsd E1 Ep Ef].
  pose proof (wexec_phys P o s1 sp c H1 (wxok_of_flat P sp sf c o Hok Hsd)) as X.
  rewrite E1, Ep in X. cbn [wres_rel] in X. exact (proj1 X).
Qed.

(* The lockstep is no restriction: whatever critical section the PHYS database executes (under the
   flat-side conditions), the ghosts can execute it too, with the same cursor and the same output. *)
Theorem pw_step_of_phys P o (s1 : st1) (sp : stp) (sf : stf) c s1' c' o1 :
  gst_rel PR s1 sp -> ok P sp sf c -> wside sf o ->
  wexec phys_ops P o s1 c = Some (s1', c', o1) ->
  exists sp' sf' of,
    wexec chain_ops P o sp c = Some (sp', c', o1) /\ wexec flat_ops P o sf c = Some (sf', c', of) /\
    pw_step P o s1 sp sf c s1' sp' sf' c'.
Proof.
  intros H1 Hok Hsd E1.
  pose proof (wexec_phys P o s1 sp c H1 (wxok_of_flat P sp sf c o Hok Hsd)) as X. rewrite E1 in X.
  destruct (wexec chain_ops P o sp c) as [[[sp' cp] op]|] eqn:Ep; cbn [wres_rel] in X; [|contradiction].
  destruct X as (H1' & <- & <-).
  pose proof (wexec_flat_of_chain P o sp sf c sp' c' o1 Hok Ep) as Ef.
  destruct Ef as (sf' & of & Ef). exists sp', sf', of.
  split; [reflexivity|]. split; [exact Ef|]. exact (pw_intro P o _ _ _ _ _ _ _ _ _ _ _ Hsd E1 Ep Ef).
Qed.

(* the interleavings of [irun] under flat-side conditions only: *)
(* the conditions of [wside] before every writer step of the chain run and its flat ghost *)
Fixpoint isides (P : params) (l : list iact) (sp : stp) (sf : stf) (c : cursor) : Prop :=
  match l with
  | [] => True
  | ANext :: l' => isides P l' sp sf c
  | AWrite o :: l' =>
      wside sf o /\
      match wexec chain_ops P o sp c, wexec flat_ops P o sf c with
      | Some (sp', c', _), Some (sf', _, _) => isides P l' sp' sf' c'
      | _, _ => isides P l' sp sf c
      end
  end.

Lemma ixoks_of_flat P (HP : params_ok P) (l : list iact) : forall sp sf c,
  ok P sp sf c -> isides P l sp sf c -> ixoks chain_ops P l sp c.
Proof.
  induction l as [|a l IH]; intros sp sf c Hok Hsd; [exact Logic.I|].
  destruct a as [|o]; cbn [isides ixoks] in *; [exact (IH sp sf c Hok Hsd)|].
  destruct Hsd as [Hw Hn]. split; [exact (wxok_of_flat P sp sf c o Hok Hw)|].
  destruct (wexec chain_ops P o sp c) as [[[sp' c'] op]|] eqn:Ep; [|exact (IH sp sf c Hok Hn)].
  destruct (wexec_flat_of_chain P o sp sf c sp' c' op Hok Ep) as (sf' & of & Ef). rewrite Ef in Hn.
  pose proof (wexec_wr_step P o sp sf c sp' sf' c' op of Hw Ep Ef) as W.
  exact (IH sp' sf' c' (proj1 (wr_step_ok P HP _ _ _ _ _ _ _ Hok W)) Hn).
Qed.

(* ANY interleaving, hypotheses on the flat layer only *)
Corollary phys_iter_interleaved_flat P (HP : params_ok P) (l : list iact) (s1 : st1) (sp : stp) (sf : stf) c it :
  gst_rel PR s1 sp -> ok P sp sf c -> isides P l sp sf c ->
  fst (irun phys_ops P l s1 c it) = fst (irun chain_ops P l sp c it) /\
  ifin_rel (snd (irun phys_ops P l s1 c it)) (snd (irun chain_ops P l sp c it)).
Proof.
  intros H1 Hok Hsd. exact (phys_iter_interleaved P l s1 sp c it H1 (ixoks_of_flat P HP l sp sf c Hok Hsd)).
Qed.

(* The run since the iterator was created, ON THE PHYS DATABASE [s1]:  Next calls (dbiter_step phys_ops)
   and writer critical sections (wexec phys_ops) in any order.  [sp], [sf], ret, h, hn, ws as in
   DBProofsIter.cscan: ghosts, items returned, flat states gone through, flat states of the Next calls,
   labels of the writer steps. *)
Inductive pscan (P : params) : st1 -> stp -> stf -> cursor -> dbiter -> list (key * val) ->
                               list stf -> list stf -> list wlabel -> Prop :=
| ps_start s1 sp sf c : gst_rel PR s1 sp -> ok P sp sf c -> pscan P s1 sp sf c dbiter0 [] [sf] [] []
| ps_next s1 sp sf c it ret h hn ws it' r :
    pscan P s1 sp sf c it ret h hn ws -> dbiter_step phys_ops s1 it = Some (it', r) ->
    pscan P s1 sp sf c it' (ret ++ olist r) h (hn ++ [sf]) ws
| ps_write s1 sp sf c it ret h hn ws o s1' sp' sf' c' :
    pscan P s1 sp sf c it ret h hn ws -> pw_step P o s1 sp sf c s1' sp' sf' c' ->
    pscan P s1' sp' sf' c' it ret (h ++ [sf']) hn (ws ++ [wlab o]).

(* forgetting the phys layer gives a run of DBProofsIter: same iterator, same items, same histories *)
Theorem pscan_cscan P (HP : params_ok P) s1 sp sf c it ret h hn ws :
  pscan P s1 sp sf c it ret h hn ws -> gst_rel PR s1 sp /\ cscan P sp sf c it ret h hn ws.
Proof.
  induction 1 as [s1 sp sf c H1 Hok|s1 sp sf c it ret h hn ws it' r H IH E
                 |s1 sp sf c it ret h hn ws o s1' sp' sf' c' H IH Hw].
  - split; [exact H1|]. apply cs_start. exact Hok.
  - destruct IH as [H1 Hc]. split; [exact H1|].
    rewrite (phys_iter_step s1 sp it H1) in E. exact (cs_next P _ _ _ _ _ _ _ _ _ _ Hc E).
  - destruct IH as [H1 Hc]. destruct (cscan_ok P HP _ _ _ _ _ _ _ _ Hc) as (Hok & _).
    split; [exact (pw_step_rel P o _ _ _ _ _ _ _ _ H1 Hok Hw)|].
    exact (cs_write P _ _ _ _ _ _ _ _ _ _ _ _ Hc (pw_wr_step P o _ _ _ _ _ _ _ _ Hw)).
Qed.

(* in every state of such a run: the database is open and the physical invariant holds for the
   in-memory index and for every index stored on disk *)
Corollary pscan_phys_ok P (HP : params_ok P) s1 sp sf c it ret h hn ws :
  pscan P s1 sp sf c it ret h hn ws -> phys_open_ok s1.
Proof.
  intros H. destruct (pscan_cscan P HP _ _ _ _ _ _ _ _ _ H) as [H1 Hc].
  destruct (cscan_ok P HP _ _ _ _ _ _ _ _ Hc) as ((Hs & _ & (m & Em & _)) & _).
  apply (PR_open_ok s1 sp sf H1 Hs). congruence.
Qed.

(* C11 (a) on the phys database: every pair a Next call returns was in the contents at the instant of
   a Next call not later than the one that returns it *)
Theorem C11_truthful_at_return_phys P (HP : params_ok P) s1 sp sf c it ret h hn ws it' k v :
  pscan P s1 sp sf c it ret h hn ws -> dbiter_step phys_ops s1 it = Some (it', Some (k, v)) ->
  exists sf_t, In sf_t (hn ++ [sf]) /\ sget (abs (s_disk sf_t)) k = Some v.
Proof.
  intros H E. destruct (pscan_cscan P HP _ _ _ _ _ _ _ _ _ H) as [H1 Hc].
  rewrite (phys_iter_step s1 sp it H1) in E.
  exact (C11_truthful_at_return P HP sp sf c it ret h hn ws it' k v Hc E).
Qed.

Theorem C11_truthful_phys P (HP : params_ok P) s1 sp sf c it ret h hn ws k v :
  pscan P s1 sp sf c it ret h hn ws -> In (k, v) ret ->
  exists sf_t, In sf_t hn /\ In sf_t h /\ sget (abs (s_disk sf_t)) k = Some v.
Proof.
  intros H Hin. destruct (pscan_cscan P HP _ _ _ _ _ _ _ _ _ H) as [_ Hc].
  exact (C11_truthful P HP sp sf c it ret h hn ws k v Hc Hin).
Qed.

(* C11 (b) on the phys database *)
Theorem C11_complete_phys P (HP : params_ok P) s1 sp sf c it ret h hn ws it' k v :
  pscan P s1 sp sf c it ret h hn ws -> dbiter_step phys_ops s1 it = Some (it', None) ->
  (forall sf_t, In sf_t h -> sget (abs (s_disk sf_t)) k = Some v) ->
  In (k, v) ret.
Proof.
  intros H E Hall. destruct (pscan_cscan P HP _ _ _ _ _ _ _ _ _ H) as [H1 Hc].
  rewrite (phys_iter_step s1 sp it H1) in E.
  exact (C11_complete P HP sp sf c it ret h hn ws it' k v Hc E Hall).
Qed.

(* a live key that no Put and no Delete of the run names has been returned, with its value, when a
   Next call of the phys database says "done" -- whatever happened to other keys (bucket splits that
   allocate / free overflow buckets included) and whatever compaction did to the key's record *)
Theorem C11_complete_untouched_phys P (HP : params_ok P) s1 sp sf c it ret h hn ws it' k v :
  pscan P s1 sp sf c it ret h hn ws -> dbiter_step phys_ops s1 it = Some (it', None) ->
  sget (abs (s_disk sf)) k = Some v -> (forall lab, In lab ws -> ~ wl_touches lab k) ->
  In (k, v) ret.
Proof.
  intros H E Hg Hun. destruct (pscan_cscan P HP _ _ _ _ _ _ _ _ _ H) as [H1 Hc].
  rewrite (phys_iter_step s1 sp it H1) in E.
  exact (C11_complete_untouched P HP sp sf c it ret h hn ws it' k v Hc E Hg Hun).
Qed.

(* in such a run a Next call of the phys database never leaves the domain of the model *)
Theorem C11_next_total_phys P (HP : params_ok P) s1 sp sf c it ret h hn ws it0 :
  pscan P s1 sp sf c it ret h hn ws -> exists it' r, dbiter_step phys_ops s1 it0 = Some (it', r).
Proof.
  intros H. destruct (pscan_cscan P HP _ _ _ _ _ _ _ _ _ H) as [H1 Hc].
  destruct (cscan_ok P HP _ _ _ _ _ _ _ _ Hc) as (Hok & _).
  rewrite (phys_iter_step s1 sp it0 H1). exact (C11_next_total P sp sf c it0 Hok).
Qed.

(* the writer operations that can run during a Backup (Backup holds maintenanceMu: no compaction) *)
Inductive bop := BPut (k : key) (v : val) | BDel (k : key) | BSync.

Definition bexec {I} (ops : idx_ops I) (P : params) (o : bop) (s : @DB.st I) : @DB.st I * out :=
  match o with
  | BPut k v => db_put ops P k v s
  | BDel k => db_delete ops P k s
  | BSync => db_sync ops s
  end.

(* the premises of DBProofsBackup.wstep (ANY key / value lengths: a rejected Put is a step too) *)
Definition bside (sf : stf) (o : bop) : Prop :=
  match o with
  | BPut k v => Forall byte k /\ Forall byte v /\ roomy sf
  | BDel k => Forall byte k /\ roomy sf
  | BSync => True
  end.

(* one writer operation on the three layers *)
Lemma bexec_three P o (s1 : st1) (sp : stp) (sf : stf) :
  params_ok P -> gst_rel PR s1 sp -> st_rel sp sf -> Inv P sf -> s_mem sf <> None -> bside sf o ->
  snd (bexec phys_ops P o s1) = snd (bexec chain_ops P o sp) /\
  snd (bexec chain_ops P o sp) = snd (bexec flat_ops P o sf) /\
  gst_rel PR (fst (bexec phys_ops P o s1)) (fst (bexec chain_ops P o sp)) /\
  st_rel (fst (bexec chain_ops P o sp)) (fst (bexec flat_ops P o sf)) /\
  DBProofsBackup.wstep P sf (fst (bexec flat_ops P o sf)).
Proof.
  intros HP H1 Hs HI Hm Hsd. destruct o as [k v|k|]; cbn [bexec bside] in *.
  - destruct Hsd as (Hbk & Hbv & Hr).
    destruct (op3 P (OpPut k v) s1 sp sf H1 Hs HI (conj Hr (conj Hbk Hbv))) as ([A B] & D & C).
    refine (conj A (conj C (conj B (conj D _)))). apply ws_put; assumption.
  - destruct Hsd as (Hbk & Hr).
    destruct (op3 P (OpDelete k) s1 sp sf H1 Hs HI Logic.I) as ([A B] & D & C).
    refine (conj A (conj C (conj B (conj D _)))). apply ws_del; assumption.
  - destruct (op3 P OpSync s1 sp sf H1 Hs HI Logic.I) as ([A B] & D & C).
    exact (conj A (conj C (conj B (conj D (ws_sync P sf))))).
Qed.

(* a copy step reads the same bytes from the three disks *)
Lemma copy_seg_three (d1 : disk1) (dp : diskp) (df : diskf) p :
  gdisk_rel PR d1 dp -> disk_rel dp df -> copy_seg d1 p = copy_seg dp p /\ copy_seg dp p = copy_seg df p.
Proof. intros H1 Hd. split; [exact (copy_seg_x PR d1 dp p H1)|exact (copy_seg_x idx_rel dp df p Hd)]. Qed.

Lemma backup_plan_three (m1 : mem1) (mp : memp) (mf : memf) :
  gmem_rel PR m1 mp -> mem_rel mp mf -> backup_plan m1 = backup_plan mp /\ backup_plan mp = backup_plan mf.
Proof. intros H1 Hm. split; [exact (backup_plan_x PR m1 mp H1)|exact (backup_plan_x idx_rel mp mf Hm)]. Qed.

(* the backup directories of the three layers *)
Lemma backup_disk_three copies :
  gdisk_rel PR (@backup_disk phys copies) (@backup_disk pindex copies) /\
  disk_rel (@backup_disk pindex copies) (@backup_disk flat copies).
Proof. split; [exact (backup_disk_x PR copies)|exact (backup_disk_x idx_rel copies)]. Qed.

(* Schedules: source state of the phys database and its two ghosts, planned entries not copied yet,
   copies made so far.  A step is a writer operation of the source (on the three layers) or the copy
   of the next planned segment FROM THE DISK OF THE PHYS DATABASE. *)
Definition pbstate := (st1 * stp * stf * list (N * N * option N) * list dseg)%type.

Definition pb_flat (a : pbstate) : bstate :=
  match a with (_, _, sf, todo, done) => (sf, todo, done) end.

Inductive pbstep (P : params) : pbstate -> pbstate -> Prop :=
| pb_write s1 sp sf todo done o : bside sf o ->
    pbstep P (s1, sp, sf, todo, done)
             (fst (bexec phys_ops P o s1), fst (bexec chain_ops P o sp), fst (bexec flat_ops P o sf), todo, done)
| pb_copy s1 sp sf p todo done c : copy_seg (s_disk s1) p = Some c ->
    pbstep P (s1, sp, sf, p :: todo, done) (s1, sp, sf, todo, done ++ [c]).

Inductive pbsteps (P : params) (a : pbstate) : pbstate -> Prop :=
| pbs_refl : pbsteps P a a
| pbs_step b c : pbsteps P a b -> pbstep P b c -> pbsteps P a c.

(* what holds of the three source states all along *)
Definition B3 (P : params) (a : pbstate) : Prop :=
  match a with
  | (s1, sp, sf, _, _) => gst_rel PR s1 sp /\ st_rel sp sf /\ Inv P sf /\ s_mem sf <> None
  end.

Lemma pbstep_flat P a b : params_ok P -> B3 P a -> pbstep P a b -> B3 P b /\ bstep P (pb_flat a) (pb_flat b).
Proof.
  intros HP HB H. destruct H as [s1 sp sf todo done o Hsd|s1 sp sf p todo done c Ec]; cbn [B3 pb_flat] in *.
  - destruct HB as (H1 & Hs & HI & Hm).
    destruct (bexec_three P o s1 sp sf HP H1 Hs HI Hm Hsd) as (_ & _ & A & B & C).
    destruct (wstep_inv P sf _ HP HI Hm C) as [HI' Hm'].
    split; [split; [exact A|split; [exact B|split; [exact HI'|exact Hm']]]|]. apply bs_write. exact C.
  - split; [exact HB|]. destruct HB as (H1 & Hs & _).
    destruct (copy_seg_three _ _ _ p (st_rel_disk PR _ _ H1) (st_rel_disk idx_rel _ _ Hs)) as [A B].
    apply bs_copy. rewrite <- B, <- A. exact Ec.
Qed.

Lemma pbsteps_flat P a b : params_ok P -> B3 P a -> pbsteps P a b -> B3 P b /\ bsteps P (pb_flat a) (pb_flat b).
Proof.
  intros HP HB H. induction H as [|b c _ IH Hst]; [split; [exact HB|constructor]|].
  destruct IH as [HBb Hf]. destruct (pbstep_flat P b c HP HBb Hst) as [HBc Hst'].
  split; [exact HBc|]. econstructor; eassumption.
Qed.

(* The source is not affected.  A step of a schedule is
   - a copy step: the three source states (memory, disk AND trace) are left exactly as they are; or
   - a writer operation: it returns the SAME output on the phys, chain and flat databases, and the
     resulting states are related again: the source behaves as if no backup were running. *)
Theorem pbstep_source P a b : params_ok P -> B3 P a -> pbstep P a b ->
  (fst (fst b) = fst (fst a) /\
   exists p c, copy_seg (s_disk (fst (fst (fst (fst a))))) p = Some c /\
               snd (fst a) = p :: snd (fst b) /\ snd b = snd a ++ [c]) \/
  (snd (fst b) = snd (fst a) /\ snd b = snd a /\
   exists o, bside (snd (fst (fst a))) o /\
     fst (fst b) = (fst (bexec phys_ops P o (fst (fst (fst (fst a))))),
                    fst (bexec chain_ops P o (snd (fst (fst (fst a))))),
                    fst (bexec flat_ops P o (snd (fst (fst a))))) /\
     snd (bexec phys_ops P o (fst (fst (fst (fst a))))) = snd (bexec chain_ops P o (snd (fst (fst (fst a))))) /\
     snd (bexec chain_ops P o (snd (fst (fst (fst a))))) = snd (bexec flat_ops P o (snd (fst (fst a))))).
Proof.
  intros HP HB H. destruct H as [s1 sp sf todo done o Hsd|s1 sp sf p todo done c Ec]; cbn [fst snd B3] in *.
  - right. split; [reflexivity|]. split; [reflexivity|]. exists o. split; [exact Hsd|]. split; [reflexivity|].
    destruct HB as (H1 & Hs & HI & Hm).
    destruct (bexec_three P o s1 sp sf HP H1 Hs HI Hm Hsd) as (A & B & _). split; assumption.
  - left. split; [reflexivity|]. exists p, c. split; [exact Ec|]. split; reflexivity.
Qed.

Lemma abs_of_olog (d1 d2 : diskf) : olog d1 = olog d2 -> abs d1 = abs d2.
Proof. intros E. unfold abs. rewrite E. reflexivity. Qed.

(* opening a backup directory (any list of copies whose flat reading is recoverable and holds the log
   of [sf0]) with the phys index *)
Lemma backup_open_phys P seed (s10 : st1) (sp0 : stp) (sf0 : stf) copies :
  params_ok P -> gst_rel PR s10 sp0 -> st_rel sp0 sf0 -> Inv P sf0 -> s_mem sf0 <> None ->
  DiskOK (@backup_disk flat copies) -> bac_ok (@backup_disk flat copies) ->
  olog (@backup_disk flat copies) = olog (s_disk sf0) ->
  exists s2 sp2 sf2,
     db_open phys_ops P seed (closed1 (backup_disk copies)) = (s2, OOpened true) /\
     db_open chain_ops P seed (closedp (backup_disk copies)) = (sp2, OOpened true) /\
     db_open flat_ops P seed (closed (backup_disk copies)) = (sf2, OOpened true) /\
     gst_rel PR s2 sp2 /\ st_rel sp2 sf2 /\ Inv P sf2 /\ s_mem sf2 <> None /\
     phys_open_ok s2 /\
     answers1 P s2 (abs (s_disk sf0)) /\
     (forall k, sget (abs (s_disk sf2)) k = sget (abs (s_disk sf0)) k) /\
     (forall k, db_get phys_ops P k s2 = db_get phys_ops P k s10) /\
     (forall k, db_has phys_ops P k s2 = db_has phys_ops P k s10) /\
     db_count phys_ops s2 = db_count phys_ops s10.
Proof.
  intros HP H1 Hs HI Hm0 A1 A2 A4.
  destruct (backup_disk_three copies) as [R1 R2].
  destruct (phys_recover_image P seed (backup_disk copies) (backup_disk copies) (backup_disk copies)
              HP R1 R2 A1 A2 eq_refl)
    as (s2 & sp2 & sf2 & O1 & O2 & O3 & G1 & G2 & G3 & _ & G5 & _ & G7 & G8 & _ & G10).
  pose proof (abs_of_olog (@backup_disk flat copies) (s_disk sf0) A4) as Ea. rewrite Ea in G7, G10.
  pose proof (answers1_of_chain P s10 sp0 (abs (s_disk sf0)) H1 (answers_of_rel P sp0 sf0 Hs HI Hm0)) as G0.
  exists s2, sp2, sf2.
  split; [exact O1|]. split; [exact O2|]. split; [exact O3|]. split; [exact G1|]. split; [exact G2|].
  split; [exact G3|]. split; [exact G5|]. split; [exact G8|]. split; [exact G10|].
  split; [exact G7|].
  destruct G10 as (X1 & X2 & X3 & _). destruct G0 as (Y1 & Y2 & Y3 & _).
  split; [intros k; rewrite X1, Y1; reflexivity|]. split; [intros k; rewrite X2, Y2; reflexivity|].
  rewrite X3, Y3. reflexivity.
Qed.

(* C12 on the PHYS database, for EVERY schedule that interleaves the copy steps of the backup with
   Put / Delete / Sync of the source.  [s10] is the phys database at the snapshot instant (the plan is
   taken from ITS memory), [sp0], [sf0] its ghosts; [s1], [sp], [sf] the source after the schedule. *)
Theorem C12_schedule_phys P seed (s10 s1 : st1) (sp0 sp : stp) (sf0 sf : stf) (m10 : mem1) copies :
  params_ok P -> gst_rel PR s10 sp0 -> st_rel sp0 sf0 -> Inv P sf0 -> s_mem s10 = Some m10 ->
  pbsteps P (s10, sp0, sf0, backup_plan m10, []) (s1, sp, sf, [], copies) ->
  let b1 : disk1 := backup_disk copies in
  let bp : diskp := backup_disk copies in
  let bf : diskf := backup_disk copies in
  (* (i) the backup directory produced from the phys disk: related to the directories the chain and flat
         databases produce; it stores no index; it is recoverable and holds the log of the snapshot *)
  gdisk_rel PR b1 bp /\ disk_rel bp bf /\ phys_disk_ok b1 /\
  DiskOK bf /\ bac_ok bf /\ d_lock bf = true /\ olog bf = olog (s_disk sf0) /\
  (* (ii) opening it with the phys index: recovery; the rebuilt physical index satisfies PhysInv; the
          contents are exactly those of the snapshot instant *)
  (exists s2 sp2 sf2,
     db_open phys_ops P seed (closed1 b1) = (s2, OOpened true) /\
     db_open chain_ops P seed (closedp bp) = (sp2, OOpened true) /\
     db_open flat_ops P seed (closed bf) = (sf2, OOpened true) /\
     gst_rel PR s2 sp2 /\ st_rel sp2 sf2 /\ Inv P sf2 /\ s_mem sf2 <> None /\
     phys_open_ok s2 /\
     answers1 P s2 (abs (s_disk sf0)) /\
     (forall k, sget (abs (s_disk sf2)) k = sget (abs (s_disk sf0)) k) /\
     (forall k, db_get phys_ops P k s2 = db_get phys_ops P k s10) /\
     (forall k, db_has phys_ops P k s2 = db_has phys_ops P k s10) /\
     db_count phys_ops s2 = db_count phys_ops s10) /\
  (* (iii) the source: still a good open database, related to its ghosts, reached by the writers' steps *)
  gst_rel PR s1 sp /\ st_rel sp sf /\ Inv P sf /\ s_mem sf <> None /\ wsteps P sf0 sf /\ phys_open_ok s1.
Proof.
  intros HP H1 Hs HI Em1 Hrun. cbv zeta.
  destruct (st_rel_mem_cases PR _ _ H1) as [[E _]|(m1' & mp & E1 & Ep & Hm1)]; [congruence|].
  assert (m1' = m10) by congruence. subst m1'.
  destruct (st_rel_mem_cases idx_rel _ _ Hs) as [[E _]|(mp' & mf & Ep' & Ef & Hmp)]; [congruence|].
  assert (mp' = mp) by congruence. subst mp'.
  destruct (backup_plan_three m10 mp mf Hm1 Hmp) as [Q1 Q2].
  assert (Hm0 : s_mem sf0 <> None) by congruence.
  assert (HB0 : B3 P (s10, sp0, sf0, backup_plan m10, [])) by (cbn [B3]; auto).
  destruct (pbsteps_flat P _ _ HP HB0 Hrun) as [HB Hfl].
  cbn [pb_flat B3] in HB, Hfl. rewrite Q1, Q2 in Hfl.
  destruct (C12_schedule P seed sf0 sf mf copies HP HI Ef Hfl) as (A1 & A2 & A3 & A4 & A5 & A6 & A7 & A8).
  cbv zeta in A1, A2, A3, A4, A5.
  destruct (backup_disk_three copies) as [R1 R2].
  split; [exact R1|]. split; [exact R2|]. split; [exact (PR_disk_ok _ _ R1)|].
  split; [exact A1|]. split; [exact A2|]. split; [exact A3|]. split; [exact A4|].
  destruct HB as (H1' & Hs' & HI' & Hm').
  split; [|split; [exact H1'|split; [exact Hs'|split; [exact HI'|split; [exact Hm'|split; [exact A6|]]]]];
           exact (PR_open_ok s1 sp sf H1' Hs' Hm')].
  exact (backup_open_phys P seed s10 sp0 sf0 copies HP H1 Hs HI Hm0 A1 A2 A4).
Qed.

(* Backup of a phys database nobody else touches: [db_backup] itself *)
Lemma backup_go_of_Forall2 {I} (d : @DB.disk I) pl copies :
  Forall2 (fun p c => copy_seg d p = Some c) pl copies -> backup_go d pl = Some copies.
Proof.
  intros H. induction H as [|p c pl copies Ec _ IH]; [reflexivity|].
  rewrite backup_go_cons, Ec, IH. reflexivity.
Qed.

Lemma pbsteps_trans P a b c : pbsteps P a b -> pbsteps P b c -> pbsteps P a c.
Proof. intros H1 H2. induction H2 as [|c d _ IH Hst]; [exact H1|]. econstructor; eassumption. Qed.

(* copying the next planned segments, all from the current disk, is a schedule *)
Lemma pb_copy_some P (s1 : st1) (sp : stp) (sf : stf) rest : forall pre done cs,
  backup_go (s_disk s1) pre = Some cs ->
  pbsteps P (s1, sp, sf, pre ++ rest, done) (s1, sp, sf, rest, done ++ cs).
Proof.
  induction pre as [|p pre IH]; intros done cs E.
  - cbn in E. injection E as <-. rewrite app_nil_r. constructor.
  - rewrite backup_go_cons in E. destruct (copy_seg (s_disk s1) p) as [c|] eqn:Ec; [|discriminate E].
    destruct (backup_go (s_disk s1) pre) as [r|] eqn:Er; [|discriminate E]. injection E as <-.
    apply (pbsteps_trans P _ (s1, sp, sf, pre ++ rest, done ++ [c])).
    + econstructor; [constructor|]. cbn [app]. apply pb_copy. exact Ec.
    + specialize (IH (done ++ [c]) r eq_refl). rewrite <- app_assoc in IH. exact IH.
Qed.

Theorem backup_quiescent_phys P seed (s10 : st1) (sp0 : stp) (sf0 : stf) :
  params_ok P -> gst_rel PR s10 sp0 -> st_rel sp0 sf0 -> Inv P sf0 -> s_mem sf0 <> None ->
  exists copies,
    db_backup s10 = Some (backup_disk copies) /\ db_backup sp0 = Some (backup_disk copies) /\
    db_backup sf0 = Some (backup_disk copies) /\
    phys_disk_ok (backup_disk copies) /\
    exists s2 sp2 sf2,
     db_open phys_ops P seed (closed1 (backup_disk copies)) = (s2, OOpened true) /\
     db_open chain_ops P seed (closedp (backup_disk copies)) = (sp2, OOpened true) /\
     db_open flat_ops P seed (closed (backup_disk copies)) = (sf2, OOpened true) /\
     gst_rel PR s2 sp2 /\ st_rel sp2 sf2 /\ Inv P sf2 /\ s_mem sf2 <> None /\
     phys_open_ok s2 /\
     answers1 P s2 (abs (s_disk sf0)) /\
     (forall k, sget (abs (s_disk sf2)) k = sget (abs (s_disk sf0)) k) /\
     (forall k, db_get phys_ops P k s2 = db_get phys_ops P k s10) /\
     (forall k, db_has phys_ops P k s2 = db_has phys_ops P k s10) /\
     db_count phys_ops s2 = db_count phys_ops s10.
Proof.
  intros HP H1 Hs HI Hm0.
  destruct (st_rel_mem_cases idx_rel _ _ Hs) as [[_ E]|(mp & mf & Ep & Ef & Hmp)]; [congruence|].
  destruct (st_rel_mem_cases PR _ _ H1) as [[_ E]|(m1 & mp' & E1 & Ep' & Hm1)]; [congruence|].
  assert (mp' = mp) by congruence. subst mp'.
  destruct (backup_quiescent P seed sf0 mf HP HI Ef) as (copies & Eb & HF & A1 & A2 & _ & A4 & _).
  cbv zeta in A1, A2, A4.
  pose proof (backup_go_of_Forall2 _ _ _ HF) as Eg.
  destruct (backup_plan_three m1 mp mf Hm1 Hmp) as [Q1 Q2].
  exists copies.
  split.
  { rewrite db_backup_go, E1, Q1, Q2.
    rewrite (backup_go_x PR _ _ (backup_plan mf) (st_rel_disk PR _ _ H1)).
    rewrite (backup_go_x idx_rel _ _ (backup_plan mf) (st_rel_disk idx_rel _ _ Hs)), Eg. reflexivity. }
  split.
  { rewrite db_backup_go, Ep, Q2.
    rewrite (backup_go_x idx_rel _ _ (backup_plan mf) (st_rel_disk idx_rel _ _ Hs)), Eg. reflexivity. }
  split; [exact Eb|].
  split; [exact (PR_disk_ok _ _ (proj1 (backup_disk_three copies)))|].
  exact (backup_open_phys P seed s10 sp0 sf0 copies HP H1 Hs HI Hm0 A1 A2 A4).
Qed.

(* Non-vacuity (vm_compute), on the states of PhysCrash.PhysCrashEx: 35 colliding keys, 31 slots in the main
   bucket and 4 in an overflow bucket of overflow.pix *)
Module PhysIBEx.
Import SessEx PhysCrashEx.

Lemma X_hyps :
  gst_rel PR s1X spX /\ st_rel spX sfX /\ Inv exP sfX /\ s_mem sfX <> None /\ roomy sfX.
Proof.
  destruct X_rel1 as (H1 & Hs & _). destruct put_hyps as (HI & Hroom & _).
  split; [exact H1|]. split; [exact Hs|]. split; [exact HI|]. split; [|exact Hroom].
  destruct Hroom as (m & E & _). congruence.
Qed.

(* (a) a scan of the phys database: all 35 keys, each once, then "done" for ever *)
Example ex_scan_phys :
  exists l itf,
    scan phys_ops 36 s1X dbiter0 = (l, itf) /\ length l = 35%nat /\ NoDup (map fst l) /\
    Permutation l (abs (s_disk sfX)) /\
    (forall k v, In (k, v) l <-> sget (abs (s_disk sfX)) k = Some v) /\
    dbiter_step phys_ops s1X itf = Some (itf, None) /\
    outs phys_ops 37 s1X dbiter0 = map Some l ++ [None; None] /\
    db_items phys_ops s1X = OItems l /\
    map fst l = map (fun i => [N.of_nat i]) (seq 1 35).
Proof.
  destruct X_hyps as (H1 & Hs & HI & Ho & _).
  assert (Hlen : length (abs (s_disk sfX)) = 35%nat) by (vm_compute; reflexivity).
  assert (Hf : (length (abs (s_disk sfX)) < 36)%nat) by (rewrite Hlen; lia).
  destruct (C11_quiescent_scan_phys exP s1X spX sfX 36 H1 Hs HI Ho Hf) as (l & itf & A & B & C & D & E & F & G & _).
  assert (Hl : length l = 35%nat) by (rewrite (Permutation_length B); exact Hlen).
  exists l, itf. split; [exact A|]. split; [exact Hl|]. split; [exact C|]. split; [exact B|].
  split; [exact D|]. split; [exact E|]. split; [|split; [exact G|]].
  - specialize (F 2%nat). rewrite Hl in F. exact F.
  - assert (El : l = fst (scan phys_ops 36 s1X dbiter0)) by (rewrite A; reflexivity).
    rewrite El. vm_compute. reflexivity.
Qed.

(* (b) a backup of the phys database with a Put in the middle.  The log has six segments; the last one
   is not full (captured size 577).  Schedule: copy segments 0 and 1; Put kX (its record is appended to
   segment 5, AFTER the snapshot); copy segments 2..5 (segment 5 with CopyN 577). *)
Definition planX : list (N * N * option N) :=
  Eval vm_compute in match s_mem s1X with Some m => backup_plan m | None => [] end.

Definition srcP1 : st1 := fst (bexec phys_ops exP (BPut kX vX) s1X).
Definition srcPp : stp := fst (bexec chain_ops exP (BPut kX vX) spX).
Definition srcPf : stf := fst (bexec flat_ops exP (BPut kX vX) sfX).

Definition og (o : option (list dseg)) : list dseg := match o with Some l => l | None => [] end.
Definition copiesA : list dseg := Eval vm_compute in og (backup_go (s_disk s1X) (firstn 2 planX)).
Definition copiesB : list dseg := Eval vm_compute in og (backup_go (s_disk srcP1) (skipn 2 planX)).
Definition copiesX : list dseg := Eval vm_compute in copiesA ++ copiesB.

Example planX_shape :
  planX = [(0, 1, None); (1, 2, None); (2, 3, None); (3, 4, None); (4, 5, None); (5, 6, Some 577)].
Proof. reflexivity. Qed.

(* the source after the Put and the opened backup, evaluated once *)
Definition srcP1_v : st1 := Eval vm_compute in srcP1.
Lemma srcP1_eq : fst (bexec phys_ops exP (BPut kX vX) s1X) = srcP1_v. Proof. vm_compute. reflexivity. Qed.
Definition s2X : st1 := Eval vm_compute in fst (db_open phys_ops exP 9 (closed1 (backup_disk copiesX))).
Lemma s2X_eq : db_open phys_ops exP 9 (closed1 (backup_disk copiesX)) = (s2X, OOpened true).
Proof. vm_compute. reflexivity. Qed.

Lemma ex_schedule : pbsteps exP (s1X, spX, sfX, planX, []) (srcP1, srcPp, srcPf, [], copiesX).
Proof.
  (* the three sources are unfolded first: comparing [srcP1] with the term of [pb_write] later would
     make the kernel evaluate the Put *)
  unfold srcP1, srcPp, srcPf.
  assert (EA : backup_go (s_disk s1X) (firstn 2 planX) = Some copiesA) by (vm_compute; reflexivity).
  assert (EB : backup_go (s_disk (fst (bexec phys_ops exP (BPut kX vX) s1X))) (skipn 2 planX) = Some copiesB)
    by (rewrite srcP1_eq; vm_compute; reflexivity).
  assert (Hsd : bside sfX (BPut kX vX)).
  { destruct put_hyps as (_ & Hroom & _ & Hbk & Hbv & _). cbn [bside]. split; [exact Hbk|]. split; [exact Hbv|exact Hroom]. }
  pose proof (pb_copy_some exP s1X spX sfX (skipn 2 planX) (firstn 2 planX) [] copiesA EA) as S1.
  pose proof (pb_write exP s1X spX sfX (skipn 2 planX) ([] ++ copiesA) (BPut kX vX) Hsd) as S2.
  pose proof (pb_copy_some exP _ (fst (bexec chain_ops exP (BPut kX vX) spX)) (fst (bexec flat_ops exP (BPut kX vX) sfX))
                [] (skipn 2 planX) ([] ++ copiesA) copiesB EB) as S3.
  rewrite app_nil_r in S3.
  apply (pbsteps_trans exP _ _ _ (pbs_step exP _ _ _ S1 S2)). exact S3.
Qed.

Example ex_backup_phys :
  pbsteps exP (s1X, spX, sfX, planX, []) (srcP1, srcPp, srcPf, [], copiesX) /\
  (* the source has the new key ... *)
  db_count phys_ops s1X = ONum 35 /\ db_count phys_ops srcP1 = ONum 36 /\
  db_get phys_ops exP kX srcP1 = OVal (Some vX) /\ phys_open_ok srcP1 /\
  (* ... its record is in the file the backup copied last, but not in the copy *)
  map (fun f => length (f_recs f)) (d_segs (s_disk srcP1)) = [6; 6; 6; 6; 6; 6]%nat /\
  map (fun f => length (f_recs f)) copiesX = [6; 6; 6; 6; 6; 5]%nat /\
  phys_disk_ok (backup_disk copiesX) /\
  exists s2, db_open phys_ops exP 9 (closed1 (backup_disk copiesX)) = (s2, OOpened true) /\
    phys_open_ok s2 /\ answers1 exP s2 (abs (s_disk sfX)) /\
    (forall k, db_get phys_ops exP k s2 = db_get phys_ops exP k s1X) /\
    db_count phys_ops s2 = ONum 35 /\ db_get phys_ops exP kX s2 = OVal None /\
    db_get phys_ops exP [35] s2 = OVal (Some [35; 35]) /\
    (* the index rebuilt in the opened backup uses an overflow bucket again *)
    (exists m, s_mem s2 = Some m /\ ph_nkeys (m_idx m) = 35 /\ map pb_next (ph_main (m_idx m)) = [512] /\
               map (fun b => nlen (pb_live b)) (ph_over (m_idx m)) = [4]).
Proof.
  destruct X_hyps as (H1 & Hs & HI & Ho & _).
  assert (Em : exists m, s_mem s1X = Some m /\ backup_plan m = planX) by (eexists; split; reflexivity).
  destruct Em as (m & Em & Epl).
  pose proof ex_schedule as Hrun.
  split; [exact Hrun|].
  rewrite <- Epl in Hrun.
  destruct (C12_schedule_phys exP 9 s1X srcP1 spX srcPp sfX srcPf m copiesX exP_ok H1 Hs HI Em Hrun)
    as (_ & _ & D3 & _ & _ & _ & _ & (s2 & sp2 & sf2 & O1 & _ & _ & _ & _ & _ & _ & G1 & G2 & _ & G3 & _ & _) & _ & _ & _ & _ & _ & S6).
  cbv zeta in D3. rewrite s2X_eq in O1. injection O1 as <-.
  split; [vm_compute; reflexivity|].
  split; [unfold srcP1; rewrite srcP1_eq; vm_compute; reflexivity|]. split; [unfold srcP1; rewrite srcP1_eq; vm_compute; reflexivity|].
  split; [exact S6|]. split; [unfold srcP1; rewrite srcP1_eq; vm_compute; reflexivity|]. split; [vm_compute; reflexivity|].
  split; [exact D3|].
  exists s2X. split; [exact s2X_eq|]. split; [exact G1|]. split; [exact G2|]. split; [exact G3|].
  split; [vm_compute; reflexivity|]. split; [vm_compute; reflexivity|]. split; [vm_compute; reflexivity|].
  eexists. split; [reflexivity|]. vm_compute. repeat split.
Qed.

(* (c) the hypotheses of the concurrent theorems are satisfiable on this state: Next; Put kX; Next on
   the phys database is a [pscan] run; the theorems apply to it and to every continuation of it *)
Lemma X_ok : ok exP spX sfX FrozenEx.fz_c0.
Proof.
  destruct X_hyps as (_ & Hs & HI & _ & _).
  split; [exact Hs|]. split; [exact HI|].
  assert (Em : exists m, s_mem sfX = Some m) by (eexists; reflexivity). destruct Em as [m Em].
  exact (CInv_c0 sfX m Em).
Qed.

Lemma X_put_step :
  pw_step exP (WPut kX vX) s1X spX sfX FrozenEx.fz_c0
    (fst (db_put phys_ops exP kX vX s1X)) (fst (db_put chain_ops exP kX vX spX))
    (fst (db_put flat_ops exP kX vX sfX)) FrozenEx.fz_c0.
Proof.
  destruct put_hyps as (_ & Hroom & _ & Hbk & Hbv & Hk & Hv).
  assert (Hsd : wside sfX (WPut kX vX)).
  { cbn [wside]. split; [exact Hroom|]. split; [exact Hbk|]. split; [exact Hbv|]. split; [exact Hk|exact Hv]. }
  eapply (pw_intro exP (WPut kX vX) s1X spX sfX FrozenEx.fz_c0 _ _ _ _ _ _ _ Hsd); cbn [wexec]; reflexivity.
Qed.

Example ex_pscan_phys :
  exists it h hn,
    pscan exP (fst (db_put phys_ops exP kX vX s1X)) (fst (db_put chain_ops exP kX vX spX))
          (fst (db_put flat_ops exP kX vX sfX)) FrozenEx.fz_c0 it [([1], [1; 1]); ([2], [2; 2])] h hn
          [WLput kX vX] /\
    length (it_queue it) = 33%nat /\ it_next it = 1.
Proof.
  destruct X_hyps as (H1 & _).
  pose proof (ps_start exP s1X spX sfX FrozenEx.fz_c0 H1 X_ok) as R0.
  eassert (E0 : dbiter_step phys_ops s1X dbiter0 = Some (_, _)) by (vm_compute; reflexivity).
  pose proof (ps_next exP _ _ _ _ _ _ _ _ _ _ _ R0 E0) as R1. clear E0.
  pose proof (ps_write exP _ _ _ _ _ _ _ _ _ _ _ _ _ _ R1 X_put_step) as R2.
  match type of R2 with
  | pscan _ ?s1 _ _ _ ?it _ _ _ _ =>
      eassert (E2 : dbiter_step phys_ops s1 it = Some (_, _)) by (vm_compute; reflexivity)
  end.
  pose proof (ps_next exP _ _ _ _ _ _ _ _ _ _ _ R2 E2) as R3. clear E2.
  eexists _, _, _. split; [exact R3|]. split; reflexivity.
Qed.

(* whatever Next calls and writer steps that do not name key [35] follow: when Next says "done", key [35]
   (it lives in the overflow bucket) has been returned with its value; and every pair returned so far
   was in the database at the instant of one of the Next calls *)
Example ex_pscan_complete s1 sp sf c it ret h hn ws it' :
  pscan exP s1 sp sf c it ret h hn ws -> dbiter_step phys_ops s1 it = Some (it', None) ->
  sget (abs (s_disk sf)) [35] = Some [35; 35] -> (forall lab, In lab ws -> ~ wl_touches lab [35]) ->
  In ([35], [35; 35]) ret /\
  (forall k v, In (k, v) ret -> exists sf_t, In sf_t hn /\ In sf_t h /\ sget (abs (s_disk sf_t)) k = Some v).
Proof.
  intros R E Hg Hun. split.
  - exact (C11_complete_untouched_phys exP exP_ok s1 sp sf c it ret h hn ws it' [35] [35; 35] R E Hg Hun).
  - intros k v Hin. exact (C11_truthful_phys exP exP_ok s1 sp sf c it ret h hn ws k v R Hin).
Qed.
(* (d) an executable interleaving ([irun]), computed on the phys and on the chain database: Next; Put kX;
   Next; Sync; a compaction step while no compaction is in progress (not enabled: RStuck); the pick that
   starts a compaction (the sealed segments qualify); one step of it; Delete of key [3] (still queued:
   the stale pair is returned by the next call, as C11 allows); Next *)
Definition actsX : list iact :=
  [ANext; AWrite (WPut kX vX); ANext; AWrite WSync; AWrite WCompact; AWrite WPick; AWrite WCompact;
   AWrite (WDel [3]); ANext].

Example ex_irun :
  fst (irun phys_ops exP actsX s1X FrozenEx.fz_c0 dbiter0) =
    [RNext (Some ([1], [1; 1])); RWrite OOk; RNext (Some ([2], [2; 2])); RWrite OOk; RStuck; RWrite OOk;
     RWrite OOk; RWrite OOk; RNext (Some ([3], [3; 3]))] /\
  fst (irun phys_ops exP actsX s1X FrozenEx.fz_c0 dbiter0) = fst (irun chain_ops exP actsX spX FrozenEx.fz_c0 dbiter0) /\
  db_count phys_ops (fst (fst (snd (irun phys_ops exP actsX s1X FrozenEx.fz_c0 dbiter0)))) = ONum 35.
Proof. split; [vm_compute; reflexivity|]. split; vm_compute; reflexivity. Qed.
End PhysIBEx.

Print Assumptions phys_iter_step.
Print Assumptions phys_scan_eq.
Print Assumptions phys_outs_eq.
Print Assumptions C11_quiescent_scan_phys.
Print Assumptions wexec_phys.
Print Assumptions phys_iter_interleaved.
Print Assumptions phys_iter_interleaved_flat.
Print Assumptions pw_wr_step.
Print Assumptions pw_step_of_phys.
Print Assumptions pscan_cscan.
Print Assumptions pscan_phys_ok.
Print Assumptions C11_truthful_at_return_phys.
Print Assumptions C11_truthful_phys.
Print Assumptions C11_complete_phys.
Print Assumptions C11_complete_untouched_phys.
Print Assumptions C11_next_total_phys.
Print Assumptions bexec_three.
Print Assumptions pbsteps_flat.
Print Assumptions pbstep_source.
Print Assumptions backup_open_phys.
Print Assumptions C12_schedule_phys.
Print Assumptions backup_quiescent_phys.
Print Assumptions PhysIBEx.ex_scan_phys.
Print Assumptions PhysIBEx.ex_schedule.
Print Assumptions PhysIBEx.ex_backup_phys.
Print Assumptions PhysIBEx.ex_pscan_phys.
Print Assumptions PhysIBEx.ex_pscan_complete.
Print Assumptions PhysIBEx.ex_irun.
