(* DBProofsCrash.v -- process-crash theorems of the database model (DB.v) instantiated with the flat
   reference index.  Properties C03 (a process crash at any instant: acknowledged writes survive, the
   write in flight is atomic) and C04 (repeated crashes: recovery is idempotent, also when the crash
   strikes during recovery itself).  No axioms (Print Assumptions at the end).

   Crash model: [crash_image d es img] -- the operation whose events are [es] was started on disk [d] and
   the process died: before some call (ci_here after ci_step's), or in the middle of a data write with
   the first c bytes of the record in the file, for EVERY 0 < c < rsize r ([torn]).
   Every image of an operation is [Good] and holds the contents before the operation or after it
   (write_crash: the write-ahead order; safe_run / neutral: pieces of code all of whose prefixes keep
   the disk recoverable with the same log); recovery from a Good image gives back its contents
   (crash_then_recover); [epochs] chains histories, crashes and crashed recoveries. *)
From Coq Require Import ZArith Lia ZifyN ZifyNat ZifyBool Permutation.
From Pogreb Require Import Base BaseLemmas Crc Bytes Record RecordProofs Flat Spec DB DBInv DBLemmas
  DBProofsOps DBMeta DBProofsRecovery DBProofsCompact.
Ltac Zify.zify_post_hook ::= Z.div_mod_to_equations.

Local Notation disk := (@DB.disk flat).
Local Notation st := (@DB.st flat).
Local Notation mem := (@DB.mem flat).
Local Notation fsev := (@DB.fsev flat).
Local Notation run_evs := (fold_left (apply_ev flat_ops)).


(* the first c bytes of the record reached the file *)
Definition torn (d : disk) (id seq : N) (r : rec) (c : N) : disk :=
  upd_seg id seq (fun f => {| f_id := f_id f; f_seq := f_seq f; f_hdr := f_hdr f; f_recs := f_recs f;
                              f_tail := f_tail f ++ ntake c (encode_rec r); f_meta := f_meta f |}) d.

Inductive crash_image : disk -> list fsev -> disk -> Prop :=
| ci_here d es : crash_image d es d                                   (* died before the next call *)
| ci_step d e es img : crash_image (apply_ev flat_ops d e) es img -> crash_image d (e :: es) img
| ci_torn d id seq off r es c : 0 < c -> c < rsize r ->
    crash_image d (EAppend id seq off r :: es) (torn d id seq r c).

Lemma crash_image_split es1 : forall d es2 img,
  crash_image d (es1 ++ es2) img ->
  crash_image d es1 img \/ crash_image (run_evs es1 d) es2 img.
Proof.
  induction es1 as [|e es1 IH]; intros d es2 img H.
  - right. exact H.
  - rewrite <- app_comm_cons in H. inversion H as [d0 es0|d0 e0 es0 img0 H'|d0 id seq off r es0 c Hc0 Hc1]; subst.
    + left. apply ci_here.
    + destruct (IH _ _ _ H') as [Hl|Hr]; [left; apply ci_step; exact Hl|right; exact Hr].
    + left. apply ci_torn; assumption.
Qed.

Lemma crash_image_full es : forall d, crash_image d es (run_evs es d).
Proof. induction es as [|e es IH]; intros d; [apply ci_here|apply ci_step; apply IH]. Qed.

Lemma crash_image_app_l es1 es2 : forall d img, crash_image d es1 img -> crash_image d (es1 ++ es2) img.
Proof.
  intros d img H. induction H as [d es|d e es img H IH|d id seq off r es c Hc0 Hc1].
  - apply ci_here.
  - rewrite <- app_comm_cons. apply ci_step. exact IH.
  - rewrite <- app_comm_cons. apply ci_torn; assumption.
Qed.

Lemma crash_image_app_r es1 : forall es2 d img,
  crash_image (run_evs es1 d) es2 img -> crash_image d (es1 ++ es2) img.
Proof.
  induction es1 as [|e es1 IH]; intros es2 d img H; [exact H|].
  rewrite <- app_comm_cons. apply ci_step. apply IH. exact H.
Qed.

Definition is_append (e : fsev) : bool := match e with EAppend _ _ _ _ => true | _ => false end.

Lemma crash_image_single (d : disk) e img :
  is_append e = false -> crash_image d [e] img -> img = d \/ img = apply_ev flat_ops d e.
Proof.
  intros He H. inversion H as [d0 es0|d0 e0 es0 img0 H'|d0 id seq off r es0 c Hc0 Hc1]; subst.
  - left. reflexivity.
  - right. inversion H'; subst. reflexivity.
  - discriminate He.
Qed.

(* without a data write in the list, the images are the disks after the prefixes *)
Lemma crash_image_no_append es : forall d img,
  Forall (fun e => is_append e = false) es -> crash_image d es img ->
  exists es1 es2, es = es1 ++ es2 /\ img = run_evs es1 d.
Proof.
  induction es as [|e es IH]; intros d img Hna H.
  - inversion H; subst. exists [], []. split; reflexivity.
  - inversion Hna as [|? ? He Hna']; subst.
    inversion H as [d0 es0|d0 e0 es0 img0 H'|d0 id seq off r es0 c Hc0 Hc1]; subst.
    + exists [], (e :: es). split; reflexivity.
    + destruct (IH _ _ Hna' H') as (es1 & es2 & -> & ->). exists (e :: es1), es2. split; reflexivity.
    + discriminate He.
Qed.

Definition Good (d : disk) : Prop := DiskOK d /\ bac_ok d /\ d_lock d = true.

(* [DiskOK], [bac_ok], [d_lock] and [abs] do not depend on the index files, the metadata files or the
   segment side files: two disks with the same segment files proper ([same_log]), the same lock and
   the same *.bac names cannot be told apart by the crash theorems. *)
Lemma crash_facts_indep (d d' : disk) :
  same_log d d' -> d_lock d' = d_lock d -> d_bac d' = d_bac d ->
  (DiskOK d <-> DiskOK d') /\ (bac_ok d <-> bac_ok d') /\ d_lock d' = d_lock d /\
  olog d' = olog d /\ abs d' = abs d.
Proof.
  intros Hsl Hl Hb. split; [|split; [|split; [exact Hl|split]]].
  - split; [apply same_log_DiskOK; exact Hsl|apply same_log_DiskOK; apply same_log_sym; exact Hsl].
  - unfold bac_ok. rewrite Hb. tauto.
  - apply same_log_olog. exact Hsl.
  - apply same_log_abs. exact Hsl.
Qed.

(* overwriting the content of main.pix / overflow.pix / index.pmt / db.pmt and of every .psg.pmt *)
Definition scramble (i : option flat) (ov : bool) (im : gob flat) (dm : gob N) (fm : dseg -> gob smeta)
  (d : disk) : disk :=
  {| d_segs := map (fun f => set_fmeta (fm f) f) (d_segs d); d_orphans := d_orphans d; d_index := i;
     d_overflow := ov; d_imeta := im; d_dbmeta := dm; d_lock := d_lock d; d_bac := d_bac d |}.

Lemma scramble_same_log i ov im dm fm (d : disk) : same_log d (scramble i ov im dm fm d).
Proof.
  unfold same_log, scramble. cbn [d_segs]. rewrite map_map. apply map_ext. intros f. reflexivity.
Qed.

Theorem image_facts_indep i ov im dm fm (img : disk) :
  (DiskOK img <-> DiskOK (scramble i ov im dm fm img)) /\
  (bac_ok img <-> bac_ok (scramble i ov im dm fm img)) /\
  d_lock (scramble i ov im dm fm img) = d_lock img /\
  olog (scramble i ov im dm fm img) = olog img /\
  abs (scramble i ov im dm fm img) = abs img.
Proof. apply crash_facts_indep; [apply scramble_same_log|reflexivity|reflexivity]. Qed.

Lemma Good_same_log (d d' : disk) :
  same_log d d' -> d_lock d' = d_lock d -> d_bac d' = d_bac d -> Good d -> Good d'.
Proof.
  intros Hsl Hl Hb (H1 & H2 & H3).
  destruct (crash_facts_indep d d' Hsl Hl Hb) as (A1 & A2 & _).
  split; [apply A1; exact H1|]. split; [apply A2; exact H2|congruence].
Qed.

Lemma Good_with (d : disk) (X : Prop) : Good d -> X -> DiskOK d /\ bac_ok d /\ d_lock d = true /\ X.
Proof. intros (G1 & G2 & G3) H. auto. Qed.

Lemma olog_abs (d d' : disk) : olog d' = olog d -> abs d' = abs d.
Proof. unfold abs. intros ->. reflexivity. Qed.

(* events that leave the segment files proper and the lock alone, and rename only to *.bac *)
Definition neutral (e : fsev) : Prop := touches_log e = false /\ touches_lock e = false /\ ev_bac_ok e.

Lemma neutral_not_append e : neutral e -> is_append e = false.
Proof. intros (H & _). destruct e; try reflexivity. discriminate H. Qed.

Lemma neutral_step (d : disk) e :
  neutral e -> Good d -> Good (apply_ev flat_ops d e) /\ olog (apply_ev flat_ops d e) = olog d.
Proof.
  intros (Hlog & Hlock & Hbac) (H1 & H2 & H3).
  pose proof (apply_ev_same_log d e Hlog) as Hsl.
  split; [split; [|split]|].
  - eapply same_log_DiskOK; eassumption.
  - apply apply_ev_bac_ok; assumption.
  - rewrite (apply_ev_d_lock d e Hlock). exact H3.
  - apply same_log_olog. exact Hsl.
Qed.

Inductive safe_run : disk -> list fsev -> Prop :=
| sr_nil d : safe_run d []
| sr_cons d e es : is_append e = false ->
    Good (apply_ev flat_ops d e) -> olog (apply_ev flat_ops d e) = olog d ->
    safe_run (apply_ev flat_ops d e) es -> safe_run d (e :: es).

Lemma safe_run_app es1 : forall d es2,
  safe_run d es1 -> safe_run (run_evs es1 d) es2 -> safe_run d (es1 ++ es2).
Proof.
  induction es1 as [|e es1 IH]; intros d es2 H1 H2; [exact H2|].
  inversion H1 as [|? ? ? Ha Hg Ho Hr]; subst. rewrite <- app_comm_cons.
  apply sr_cons; [exact Ha|exact Hg|exact Ho|]. apply IH; [exact Hr|exact H2].
Qed.

Lemma safe_run_images es : forall d img,
  safe_run d es -> Good d -> crash_image d es img -> Good img /\ olog img = olog d.
Proof.
  induction es as [|e es IH]; intros d img Hs Hg H.
  - inversion H; subst. split; [exact Hg|reflexivity].
  - inversion Hs as [|? ? ? Ha Hg' Ho Hr]; subst.
    inversion H as [d0 es0|d0 e0 es0 img0 H'|d0 id seq off r es0 c Hc0 Hc1]; subst.
    + split; [exact Hg|reflexivity].
    + destruct (IH _ _ Hr Hg' H') as [A B]. split; [exact A|congruence].
    + discriminate Ha.
Qed.

Lemma safe_run_end es d : safe_run d es -> Good d -> Good (run_evs es d) /\ olog (run_evs es d) = olog d.
Proof. intros Hs Hg. apply (safe_run_images es d _ Hs Hg). apply crash_image_full. Qed.

Lemma neutral_safe_run es : forall d, Forall neutral es -> Good d -> safe_run d es.
Proof.
  induction es as [|e es IH]; intros d Hn Hg; [apply sr_nil|].
  inversion Hn as [|? ? He Hn']; subst. destruct (neutral_step d e He Hg) as [Hg' Ho].
  apply sr_cons; [apply neutral_not_append; exact He|exact Hg'|exact Ho|]. apply IH; assumption.
Qed.

Lemma neutral_images es d img :
  Forall neutral es -> Good d -> crash_image d es img -> Good img /\ olog img = olog d.
Proof. intros Hn Hg. apply safe_run_images; [apply neutral_safe_run; assumption|exact Hg]. Qed.

(* events that do not touch the segment files proper: every image has the same log files *)
Lemma no_log_images_same_log es : forall d img,
  Forall (fun e => touches_log e = false) es -> crash_image d es img -> same_log d img.
Proof.
  induction es as [|e es IH]; intros d img Hn H.
  - inversion H; subst. apply same_log_refl.
  - inversion Hn as [|? ? He Hn']; subst.
    inversion H as [d0 es0|d0 e0 es0 img0 H'|d0 id seq off r es0 c Hc0 Hc1]; subst.
    + apply same_log_refl.
    + eapply same_log_trans; [apply apply_ev_same_log; exact He|apply IH; assumption].
    + discriminate He.
Qed.

(* the writes of the index files and of the metadata files are neutral whatever they write: none of
   the theorems below looks at the payload of these events *)
Lemma neutral_payload_free (i : flat) id seq (sm : smeta) (sd : N) :
  neutral (EIndex i) /\ neutral (EGobIndex i) /\ neutral (EGobSeg id seq sm) /\ neutral (EGobDb sd).
Proof. repeat split. Qed.

Definition tails_nil (d : disk) : Prop := forall f, In f (d_segs d) -> f_tail f = [].

Lemma Inv_tails_nil P (s : st) : Inv P s -> s_mem s <> None -> tails_nil (s_disk s).
Proof.
  intros HI Hm. destruct (s_mem s) as [m|] eqn:Em; [|congruence].
  destruct (Inv_open P s m Em HI) as ((Hd & (HA & HB) & _) & _).
  intros f Hf. destruct (HB f Hf) as (g & Hg & E1 & E2).
  destruct (HA g Hg) as (f' & Hf' & F1 & F2 & F3 & F4 & F5).
  assert (E : f' = f).
  { apply (NoDup_map_inj f_id (d_segs (s_disk s))); [apply Hd|exact Hf'|exact Hf|congruence]. }
  subst f'. exact F4.
Qed.

Lemma Inv_Good P (s : st) : Inv P s -> s_mem s <> None -> bac_ok (s_disk s) -> Good (s_disk s).
Proof.
  intros HI Hm Hb. destruct (s_mem s) as [m|] eqn:Em; [|congruence].
  destruct (Inv_open P s m Em HI) as ((Hd & _) & _ & Hl & _). split; [exact Hd|split; assumption].
Qed.

Lemma lock_bac_step (d : disk) e :
  touches_lock e = false -> ev_bac_ok e -> bac_ok d -> d_lock d = true ->
  bac_ok (apply_ev flat_ops d e) /\ d_lock (apply_ev flat_ops d e) = true.
Proof.
  intros Hl He Hb Hlk. split; [apply apply_ev_bac_ok; assumption|].
  rewrite (apply_ev_d_lock d e Hl). exact Hlk.
Qed.

Lemma dseg_ok_before_append off r f : dseg_ok (append_seg off r f) -> dseg_ok f /\ f_hdr f = true.
Proof.
  unfold dseg_ok. cbn [append_seg f_recs f_tail f_hdr]. intros (H1 & H2 & H3 & H4 & H5).
  apply Forall_app in H1. destruct H1 as [H1 _]. rewrite recs_len_snoc in H5.
  assert (Hh : f_hdr f = true).
  { destruct (f_hdr f) eqn:Eh; [reflexivity|]. destruct (H4 eq_refl) as [E _].
    apply app_eq_nil in E. destruct E as [_ E]. discriminate E. }
  split; [|exact Hh]. split; [exact H1|]. split; [exact H2|]. split; [exact H3|]. split.
  - intros Hf. congruence.
  - lia.
Qed.

Lemma DiskOK_before_append (d : disk) id seq off r :
  DiskOK (apply_ev flat_ops d (EAppend id seq off r)) -> DiskOK d.
Proof.
  rewrite apply_ev_append, DiskOK_upd_seg by (split; reflexivity).
  intros (H1 & Hnd). split; [|exact Hnd]. apply Forall_forall. intros f Hf. specialize (H1 f Hf).
  destruct (is_seg id seq f); [apply (dseg_ok_before_append off r f H1)|exact H1].
Qed.

Lemma tails_nil_before_append (d : disk) id seq off r :
  tails_nil (apply_ev flat_ops d (EAppend id seq off r)) -> tails_nil d.
Proof.
  rewrite apply_ev_append. unfold tails_nil. rewrite d_segs_upd_seg. intros H f Hf.
  pose proof (H _ (in_map _ _ _ Hf)) as Hx. cbv beta in Hx.
  destruct (is_seg id seq f); exact Hx.
Qed.

Lemma rec_fits_ok r : rec_fits r -> rec_ok r.
Proof.
  intros (H1 & H2 & H3 & H4). consts. split; [exact H1|]. split; [exact H2|].
  rewrite delbit_val. split; lia.
Qed.

Lemma tail_stuck_torn r c : rec_fits r -> 0 < c -> c < rsize r -> tail_stuck (ntake c (encode_rec r)).
Proof.
  intros Hr H0 Hc. unfold tail_stuck.
  rewrite (strict_prefix_rejected r c (rec_fits_ok r Hr) H0 Hc). split; reflexivity.
Qed.

(* a torn append leaves a tail that recovery rejects at once: nothing of it is ever replayed *)
Lemma torn_ok (d : disk) id seq off r c :
  DiskOK (apply_ev flat_ops d (EAppend id seq off r)) -> tails_nil d -> rec_fits r ->
  0 < c -> c < rsize r ->
  DiskOK (torn d id seq r c) /\ olog (torn d id seq r c) = olog d /\ same_rest d (torn d id seq r c).
Proof.
  intros Hok Ht Hr H0 Hc. split; [|split].
  - revert Hok. unfold torn. rewrite apply_ev_append, !DiskOK_upd_seg by (split; reflexivity).
    intros (H1 & Hnd). split; [|exact Hnd]. intros f Hf. specialize (H1 f Hf).
    destruct (is_seg id seq f); [|exact H1].
    destruct (dseg_ok_before_append off r f H1) as [(A1 & A2 & A3 & A4 & A5) Hh].
    unfold dseg_ok. cbn [f_recs f_tail f_hdr]. rewrite (Ht f Hf). cbn [app].
    split; [exact A1|]. split; [apply tail_stuck_torn; assumption|].
    split; [apply Forall_ntake; apply encode_rec_bytes; apply rec_fits_ok; exact Hr|].
    split; [intros Hf'; congruence|exact A5].
  - apply rc_rsim_olog. unfold torn. apply rc_upd_seg_rsim. intros s. reflexivity.
  - unfold torn. apply upd_seg_same_rest.
Qed.

(* the new, still empty segment file of swapSegment: created, then its header written *)
Lemma create_header_back (d : disk) id seq :
  DiskOK d ->
  DiskOK (apply_ev flat_ops (apply_ev flat_ops d (ECreate (FSeg id seq))) (EHeader (FSeg id seq))) ->
  DiskOK (apply_ev flat_ops d (ECreate (FSeg id seq))).
Proof.
  intros (D1 & _). cbn [apply_ev]. rewrite DiskOK_upd_seg by (split; reflexivity).
  intros (_ & Hnd). split; [|exact Hnd].
  cbn [set_segs d_segs]. apply Forall_app. split; [exact D1|].
  constructor; [|constructor]. unfold dseg_ok. cbn [f_recs f_tail f_hdr recs_len fold_right].
  split; [constructor|]. split; [apply tail_stuck_nil|]. split; [constructor|].
  split; [intros _; split; reflexivity|]. consts. lia.
Qed.

Lemma create_header_safe (d : disk) id seq :
  Good d ->
  DiskOK (run_evs [ECreate (FSeg id seq); EHeader (FSeg id seq)] d) ->
  safe_run d [ECreate (FSeg id seq); EHeader (FSeg id seq)].
Proof.
  intros (H1 & H2 & H3) Hok. cbn [fold_left] in Hok.
  pose proof (create_header_back d id seq H1 Hok) as Hok1.
  destruct (lock_bac_step d (ECreate (FSeg id seq)) eq_refl Logic.I H2 H3) as [B1 L1].
  destruct (lock_bac_step _ (EHeader (FSeg id seq)) eq_refl Logic.I B1 L1) as [B2 L2].
  apply sr_cons; [reflexivity|split; [exact Hok1|split; assumption]|apply olog_create_seg|].
  apply sr_cons; [reflexivity|split; [exact Hok|split; assumption]|apply olog_header|apply sr_nil].
Qed.

Lemma neutral_sync f : neutral (ESync f).
Proof. split; [reflexivity|]. split; [reflexivity|exact Logic.I]. Qed.
Lemma neutral_index i : neutral (EIndex i).
Proof. split; [reflexivity|]. split; [reflexivity|exact Logic.I]. Qed.

Lemma pre_safe (d : disk) pre id seq :
  wr_pre_shape pre id seq -> Good d -> DiskOK (run_evs pre d) -> safe_run d pre.
Proof.
  intros Hs Hg Hok. destruct Hs as [->|[(i & q & ->)|[->|(i & q & ->)]]].
  - apply sr_nil.
  - apply neutral_safe_run; [|exact Hg]. constructor; [apply neutral_sync|constructor].
  - apply create_header_safe; assumption.
  - apply (safe_run_app [ESync (FSeg i q)] d [ECreate (FSeg id seq); EHeader (FSeg id seq)]).
    + apply neutral_safe_run; [|exact Hg]. constructor; [apply neutral_sync|constructor].
    + apply create_header_safe; [exact Hg|exact Hok].
Qed.

Lemma post_neutral (post : list fsev) :
  (post = [] \/ exists i q, post = [ESync (FSeg i q)]) -> Forall neutral post.
Proof. intros [->|(i & q & ->)]; [constructor|]. constructor; [apply neutral_sync|constructor]. Qed.

(* The write-ahead order.  Every image before the complete append has the old log (a torn append
   leaves a stuck tail); every image from the complete append on has the new log. *)
Lemma write_crash (d d' : disk) r id seq off pre i post img :
  Good d -> wr_pre_shape pre id seq -> (post = [] \/ exists j q, post = [ESync (FSeg j q)]) ->
  d' = run_evs (pre ++ [EAppend id seq off r; EIndex i]) d ->
  DiskOK d' -> tails_nil d' -> rec_fits r ->
  crash_image d (pre ++ [EAppend id seq off r; EIndex i] ++ post) img ->
  Good img /\ (olog img = olog d \/ olog img = olog d').
Proof.
  intros Hg Hshape Hpost Ed' Hok' Ht' Hr Himg.
  rewrite fold_left_app in Ed'. cbn [fold_left] in Ed'.
  set (d2 := run_evs pre d) in *. set (d3 := apply_ev flat_ops d2 (EAppend id seq off r)) in *.
  assert (Hsl : same_log d3 d') by (apply same_log_segs; rewrite Ed'; apply d_segs_index).
  assert (Hok3 : DiskOK d3) by (apply (same_log_DiskOK _ _ (same_log_sym _ _ Hsl)); exact Hok').
  assert (Ht3 : tails_nil d3).
  { intros f Hf. apply Ht'. rewrite Ed', d_segs_index. exact Hf. }
  assert (Hok2 : DiskOK d2) by (apply (DiskOK_before_append d2 id seq off r); exact Hok3).
  assert (Ht2 : tails_nil d2) by (apply (tails_nil_before_append d2 id seq off r); exact Ht3).
  pose proof (pre_safe d pre id seq Hshape Hg Hok2) as Hsafe.
  destruct (safe_run_end pre d Hsafe Hg) as [Hg2 Ho2]. fold d2 in Hg2, Ho2.
  destruct (crash_image_split _ _ _ _ Himg) as [Hl|Hrgt].
  - destruct (safe_run_images pre d img Hsafe Hg Hl) as [A B]. split; [exact A|left; exact B].
  - fold d2 in Hrgt. cbn [app] in Hrgt.
    inversion Hrgt as [d0 es0|d0 e0 es0 img0 H'|d0 id0 seq0 off0 r0 es0 c Hc0 Hc1]; subst.
    + split; [exact Hg2|left; exact Ho2].
    + fold d3 in H'. destruct Hg2 as (_ & B2 & L2).
      destruct (lock_bac_step d2 (EAppend id seq off r) eq_refl Logic.I B2 L2) as [B3 L3]. fold d3 in B3, L3.
      assert (Hg3 : Good d3) by (split; [exact Hok3|split; assumption]).
      assert (Hn : Forall neutral (EIndex i :: post)).
      { constructor; [apply neutral_index|apply post_neutral; exact Hpost]. }
      destruct (neutral_images _ d3 img Hn Hg3 H') as [A B]. split; [exact A|right].
      rewrite B. symmetry. apply same_log_olog. exact Hsl.
    + destruct (torn_ok d2 id seq off r c Hok3 Ht2 Hr Hc0 Hc1) as (A1 & A2 & A3).
      destruct A3 as (_ & _ & _ & _ & _ & R6 & R7). destruct Hg2 as (_ & B2 & L2).
      split; [split; [exact A1|split; [unfold bac_ok; rewrite R7; exact B2|congruence]]|].
      left. congruence.
Qed.

(* promoteRecord appends a COPY of the live record of its key: every image has the same contents as
   before the step. *)
Lemma append_copy_same_contents (d d' : disk) id off r :
  olog d' = olog d ++ [(id, off, r)] -> rdel r = false -> sget (abs d) (rk r) = Some (rv r) ->
  forall k, sget (abs d') k = sget (abs d) k.
Proof.
  intros Eo Hdel Hlive k. rewrite (abs_snoc _ _ _ Eo), sget_apply_rec. cbn [snd]. rewrite Hdel.
  destruct (key_eqb k (rk r)) eqn:E; [|reflexivity]. apply key_eqb_eq in E. subst k. symmetry. exact Hlive.
Qed.

Lemma crash_promote (d d' : disk) r id seq off pre i img :
  Good d -> wr_pre_shape pre id seq ->
  d' = run_evs (pre ++ [EAppend id seq off r; EIndex i]) d ->
  DiskOK d' -> tails_nil d' -> rec_fits r ->
  olog d' = olog d ++ [(id, off, r)] -> rdel r = false -> sget (abs d) (rk r) = Some (rv r) ->
  crash_image d (pre ++ [EAppend id seq off r; EIndex i]) img ->
  Good img /\ forall k, sget (abs img) k = sget (abs d) k.
Proof.
  intros Hg Hshape Ed' Hok' Ht' Hr Eo Hdel Hlive Himg.
  rewrite <- (app_nil_r [EAppend id seq off r; EIndex i]) in Himg.
  destruct (write_crash d d' r id seq off pre i [] img Hg Hshape (or_introl eq_refl) Ed' Hok' Ht' Hr Himg) as [G Ho].
  split; [exact G|]. intros k. destruct Ho as [Ho|Ho].
  - rewrite (olog_abs _ _ Ho). reflexivity.
  - rewrite (olog_abs _ _ Ho). apply (append_copy_same_contents d d' id off r Eo Hdel Hlive).
Qed.

Definition closed (d : disk) : st := {| s_mem := None; s_disk := d; s_trace := [] |}.

Lemma Inv_clear P (s : st) : Inv P s -> Inv P (clear_trace s).
Proof. apply Inv_same; reflexivity. Qed.

(* all images of an operation that is one write to the log, from the shape of its trace *)
Lemma write_images P (s s' : st) r id seq off pre i post img :
  Good (s_disk s) -> Inv P s' -> s_mem s' <> None -> rec_fits r ->
  wr_pre_shape pre id seq -> (post = [] \/ exists j q, post = [ESync (FSeg j q)]) ->
  s_disk s' = run_evs (pre ++ [EAppend id seq off r; EIndex i]) (s_disk s) ->
  crash_image (s_disk s) (pre ++ [EAppend id seq off r; EIndex i] ++ post) img ->
  DiskOK img /\ bac_ok img /\ d_lock img = true /\
  ((forall k', sget (abs img) k' = sget (abs (s_disk s)) k') \/
   (forall k', sget (abs img) k' = sget (abs (s_disk s')) k')).
Proof.
  intros Hg HI' Hm' Hr Hshape Hpost Ed Himg.
  assert (Hok' : DiskOK (s_disk s')).
  { destruct (s_mem s') as [m'|] eqn:Em'; [|congruence]. apply (Inv_open P s' m' Em' HI'). }
  destruct (write_crash (s_disk s) (s_disk s') r id seq off pre i post img Hg Hshape Hpost Ed Hok'
              (Inv_tails_nil P s' HI' Hm') Hr Himg) as [G Ho].
  apply (Good_with img _ G).
  destruct Ho as [Ho|Ho]; [left|right]; intros k'; rewrite (olog_abs _ _ Ho); reflexivity.
Qed.

Theorem crash_put P (s s' : st) k v o :
  params_ok P -> Inv P s -> (exists m, s_mem s = Some m /\ room m) -> bac_ok (s_disk s) ->
  Forall byte k -> Forall byte v -> nlen k <= max_key_len -> nlen v <= max_val_len ->
  db_put flat_ops P k v (clear_trace s) = (s', o) ->
  forall img, crash_image (s_disk s) (s_trace s') img ->
  DiskOK img /\ bac_ok img /\ d_lock img = true /\
  ((forall k', sget (abs img) k' = sget (abs (s_disk s)) k') \/
   (forall k', sget (abs img) k' = sget (abs (s_disk s')) k')).
Proof.
  intros HP HI Hm Hb Hbk Hbv Hk Hv Eput img Himg.
  assert (Hmn : s_mem s <> None) by (destruct Hm as (m & -> & _); discriminate).
  destruct (put_ok_ex P (clear_trace s) k v HP (Inv_clear P s HI) Hm Hbk Hbv Hk Hv)
    as (s0 & E0 & HI' & Hm' & _ & id & seq & off & pre & i2 & post & Et & Hshape & Hpost & _ & _ & Ed).
  rewrite Eput in E0. inversion E0; subst s0 o. clear E0.
  cbn [clear_trace s_trace s_disk app] in Et, Ed. rewrite Et in Himg.
  exact (write_images P s s' _ id seq off pre i2 post img (Inv_Good P s HI Hmn Hb) HI' Hm'
           (rec_fits_mkput k v Hbk Hbv Hk Hv) Hshape Hpost Ed Himg).
Qed.

Lemma sync_images (d : disk) (tr : list fsev) img :
  (tr = [] \/ exists i q, tr = [ESync (FSeg i q)]) -> crash_image d tr img -> img = d.
Proof.
  intros Htr H. destruct (crash_image_no_append tr d img) as (es1 & es2 & E & ->).
  - destruct Htr as [->|(i & q & ->)]; repeat constructor.
  - exact H.
  - destruct Htr as [->|(i & q & ->)].
    + destruct es1; [reflexivity|discriminate E].
    + destruct es1 as [|e es1]; [reflexivity|]. inversion E; subst.
      destruct es1; [reflexivity|discriminate].
Qed.

Theorem crash_delete P (s s' : st) k o :
  params_ok P -> Inv P s -> (exists m, s_mem s = Some m /\ room m) -> bac_ok (s_disk s) ->
  Forall byte k ->
  db_delete flat_ops P k (clear_trace s) = (s', o) ->
  forall img, crash_image (s_disk s) (s_trace s') img ->
  DiskOK img /\ bac_ok img /\ d_lock img = true /\
  ((forall k', sget (abs img) k' = sget (abs (s_disk s)) k') \/
   (forall k', sget (abs img) k' = sget (abs (s_disk s')) k')).
Proof.
  intros HP HI Hm Hb Hbk Edel img Himg.
  assert (Hmn : s_mem s <> None) by (destruct Hm as (m & -> & _); discriminate).
  pose proof (Inv_Good P s HI Hmn Hb) as Hg.
  destruct (delete_ok_ex P (clear_trace s) k HP (Inv_clear P s HI) Hm Hbk)
    as (s0 & E0 & HI' & Hm' & _ & _ & Hcases).
  rewrite Edel in E0. inversion E0; subst s0 o. clear E0.
  destruct Hcases as [(_ & Ed & Etr)|(_ & Hk & id & seq & off & pre & i1 & post & Et & Hshape & Hpost & _ & _ & Ed)].
  - cbn [clear_trace s_trace s_disk app] in Etr, Ed.
    assert (E : img = s_disk s) by (apply (sync_images (s_disk s) (s_trace s') img); assumption).
    subst img. apply (Good_with _ _ Hg). left. reflexivity.
  - cbn [clear_trace s_trace s_disk app] in Et, Ed. rewrite Et in Himg.
    exact (write_images P s s' _ id seq off pre i1 post img Hg HI' Hm' (rec_fits_mkdel k Hbk Hk) Hshape Hpost Ed Himg).
Qed.

Lemma sync_trace (s : st) : s_mem s <> None ->
  s_disk (fst (db_sync flat_ops (clear_trace s))) = s_disk s /\
  (s_trace (fst (db_sync flat_ops (clear_trace s))) = [] \/
   exists i q, s_trace (fst (db_sync flat_ops (clear_trace s))) = [ESync (FSeg i q)]).
Proof.
  intros Hm. unfold db_sync. cbn [clear_trace s_mem]. destruct (s_mem s) as [m|]; [|congruence].
  cbn [fst]. destruct (do_sync_spec (clear_trace s) m) as (_ & E2 & E3). split; [exact E2|exact E3].
Qed.

(* Sync never changes the contents: every image is the disk itself *)
Theorem crash_sync P (s s' : st) o :
  Inv P s -> s_mem s <> None -> bac_ok (s_disk s) ->
  db_sync flat_ops (clear_trace s) = (s', o) ->
  forall img, crash_image (s_disk s) (s_trace s') img ->
  DiskOK img /\ bac_ok img /\ d_lock img = true /\
  (forall k', sget (abs img) k' = sget (abs (s_disk s)) k') /\
  (forall k', sget (abs img) k' = sget (abs (s_disk s')) k').
Proof.
  intros HI Hm Hb Es img Himg. destruct (sync_trace s Hm) as [Ed Et]. rewrite Es in Ed, Et. cbn [fst] in Ed, Et.
  assert (E : img = s_disk s) by (apply (sync_images (s_disk s) (s_trace s') img); assumption).
  subst img. apply (Good_with _ _ (Inv_Good P s HI Hm Hb)). rewrite Ed. split; reflexivity.
Qed.

Theorem crash_then_recover P seed (img : disk) :
  params_ok P -> DiskOK img -> bac_ok img -> d_lock img = true ->
  exists s2, db_open flat_ops P seed {| s_mem := None; s_disk := img; s_trace := [] |} = (s2, OOpened true) /\
    Inv P s2 /\ s_mem s2 <> None /\ bac_ok (s_disk s2) /\
    (forall k, sget (abs (s_disk s2)) k = sget (abs img) k).
Proof.
  intros HP Hok Hb Hl. pose proof (open_recover_ok P seed img HP Hok Hb Hl) as H.
  destruct (db_open flat_ops P seed {| s_mem := None; s_disk := img; s_trace := [] |}) as [s2 o2].
  destruct H as (-> & HI & Hm & Habs & Hbac & _). exists s2. split; [reflexivity|].
  split; [exact HI|]. split; [exact Hm|]. split; [unfold bac_ok; rewrite Hbac; constructor|exact Habs].
Qed.

(* recovery from an image, with what the caller knows of the contents of the image *)
Lemma recovered P seed (img : disk) (Q : st -> Prop) :
  params_ok P -> DiskOK img -> bac_ok img -> d_lock img = true ->
  (forall s2, (forall k, sget (abs (s_disk s2)) k = sget (abs img) k) -> Q s2) ->
  exists s2, db_open flat_ops P seed {| s_mem := None; s_disk := img; s_trace := [] |} = (s2, OOpened true) /\
    Inv P s2 /\ s_mem s2 <> None /\ bac_ok (s_disk s2) /\ Q s2.
Proof.
  intros HP G1 G2 G3 HQ. destruct (crash_then_recover P seed img HP G1 G2 G3) as (s2 & E2 & HI2 & Hm2 & Hb2 & Ha2).
  exists s2. exact (conj E2 (conj HI2 (conj Hm2 (conj Hb2 (HQ s2 Ha2))))).
Qed.

Theorem C03_put P seed (s s' : st) k v o img :
  params_ok P -> Inv P s -> (exists m, s_mem s = Some m /\ room m) -> bac_ok (s_disk s) ->
  Forall byte k -> Forall byte v -> nlen k <= max_key_len -> nlen v <= max_val_len ->
  db_put flat_ops P k v (clear_trace s) = (s', o) ->
  crash_image (s_disk s) (s_trace s') img ->
  exists s2, db_open flat_ops P seed {| s_mem := None; s_disk := img; s_trace := [] |} = (s2, OOpened true) /\
    Inv P s2 /\ s_mem s2 <> None /\ bac_ok (s_disk s2) /\
    ((* exactly the contents before the Put *)
     (forall k', sget (abs (s_disk s2)) k' = sget (abs (s_disk s)) k') \/
     (* exactly the contents after it *)
     ((forall k', sget (abs (s_disk s2)) k' = sget (abs (s_disk s')) k') /\
      (forall k', sget (abs (s_disk s2)) k' = if key_eqb k' k then Some v else sget (abs (s_disk s)) k'))).
Proof.
  intros HP HI Hm Hb Hbk Hbv Hk Hv Eput Himg.
  destruct (crash_put P s s' k v o HP HI Hm Hb Hbk Hbv Hk Hv Eput img Himg) as (G1 & G2 & G3 & Hc).
  apply (recovered P seed img _ HP G1 G2 G3). intros s2 Ha2.
  destruct Hc as [Hc|Hc]; [left; intros k'; rewrite Ha2; apply Hc|right].
  pose proof (put_ok P (clear_trace s) k v HP (Inv_clear P s HI) Hm Hbk Hbv Hk Hv) as Hp.
  rewrite Eput in Hp. destruct Hp as (_ & _ & _ & Hnew). cbn [clear_trace s_disk] in Hnew.
  split; intros k'; rewrite Ha2, Hc; [reflexivity|apply Hnew].
Qed.

Theorem C03_delete P seed (s s' : st) k o img :
  params_ok P -> Inv P s -> (exists m, s_mem s = Some m /\ room m) -> bac_ok (s_disk s) ->
  Forall byte k ->
  db_delete flat_ops P k (clear_trace s) = (s', o) ->
  crash_image (s_disk s) (s_trace s') img ->
  exists s2, db_open flat_ops P seed {| s_mem := None; s_disk := img; s_trace := [] |} = (s2, OOpened true) /\
    Inv P s2 /\ s_mem s2 <> None /\ bac_ok (s_disk s2) /\
    ((forall k', sget (abs (s_disk s2)) k' = sget (abs (s_disk s)) k') \/
     ((forall k', sget (abs (s_disk s2)) k' = sget (abs (s_disk s')) k') /\
      (forall k', sget (abs (s_disk s2)) k' = if key_eqb k' k then None else sget (abs (s_disk s)) k'))).
Proof.
  intros HP HI Hm Hb Hbk Edel Himg.
  destruct (crash_delete P s s' k o HP HI Hm Hb Hbk Edel img Himg) as (G1 & G2 & G3 & Hc).
  apply (recovered P seed img _ HP G1 G2 G3). intros s2 Ha2.
  destruct Hc as [Hc|Hc]; [left; intros k'; rewrite Ha2; apply Hc|right].
  pose proof (delete_ok P (clear_trace s) k HP (Inv_clear P s HI) Hm Hbk) as Hp.
  rewrite Edel in Hp. destruct Hp as (_ & _ & _ & Hnew & _). cbn [clear_trace s_disk] in Hnew.
  split; intros k'; rewrite Ha2, Hc; [reflexivity|apply Hnew].
Qed.

Theorem C03_sync P seed (s s' : st) o img :
  params_ok P -> Inv P s -> s_mem s <> None -> bac_ok (s_disk s) ->
  db_sync flat_ops (clear_trace s) = (s', o) ->
  crash_image (s_disk s) (s_trace s') img ->
  exists s2, db_open flat_ops P seed {| s_mem := None; s_disk := img; s_trace := [] |} = (s2, OOpened true) /\
    Inv P s2 /\ s_mem s2 <> None /\ bac_ok (s_disk s2) /\
    (forall k', sget (abs (s_disk s2)) k' = sget (abs (s_disk s)) k').
Proof.
  intros HP HI Hm Hb Es Himg.
  destruct (crash_sync P s s' o HI Hm Hb Es img Himg) as (G1 & G2 & G3 & Hc & _).
  apply (recovered P seed img _ HP G1 G2 G3). intros s2 Ha2 k'. rewrite Ha2. apply Hc.
Qed.

(* pieces of code that only emit neutral events *)
Definition nrun (s s' : st) : Prop :=
  exists es, s_trace s' = s_trace s ++ es /\ s_disk s' = run_evs es (s_disk s) /\ Forall neutral es /\
             s_mem s' = s_mem s.

Lemma nrun_refl (s : st) : nrun s s.
Proof. exists []. rewrite app_nil_r. repeat split. constructor. Qed.

Lemma nrun_trans (a b c : st) : nrun a b -> nrun b c -> nrun a c.
Proof.
  intros (e1 & T1 & D1 & N1 & M1) (e2 & T2 & D2 & N2 & M2). exists (e1 ++ e2).
  split; [rewrite T2, T1, app_assoc; reflexivity|]. split; [rewrite D2, D1, fold_left_app; reflexivity|].
  split; [apply Forall_app; split; assumption|congruence].
Qed.

Lemma nrun_emit e (s : st) : neutral e -> nrun s (emit flat_ops e s).
Proof. intros H. exists [e]. repeat split. constructor; [exact H|constructor]. Qed.

Lemma nrun_emits es : forall s : st, Forall neutral es -> nrun s (emits flat_ops es s).
Proof.
  induction es as [|e es IH]; intros s H; [apply nrun_refl|].
  inversion H as [|? ? He H']; subst. rewrite rc_emits_cons.
  eapply nrun_trans; [apply nrun_emit; exact He|apply IH; exact H'].
Qed.

Definition meta_name (f : fname) : Prop :=
  match f with FDbMeta | FIndexMeta | FSegMeta _ _ => True | _ => False end.

Lemma nrun_gob_write f body (s : st) :
  meta_name f -> neutral body -> nrun s (gob_write flat_ops f body s).
Proof.
  intros Hf Hb. unfold gob_write.
  assert (H3 : Forall neutral [EHeader f; body; ESync f]).
  { constructor; [|constructor; [exact Hb|constructor; [apply neutral_sync|constructor]]].
    destruct f; try destruct Hf; (split; [reflexivity|split; [reflexivity|exact Logic.I]]). }
  destruct (exists_file (s_disk s) f).
  - eapply nrun_trans; [apply nrun_emit|apply nrun_emits; exact H3].
    destruct f; try destruct Hf; (split; [reflexivity|split; [reflexivity|exact Logic.I]]).
  - eapply nrun_trans; [apply nrun_emit|apply nrun_emits; exact H3].
    destruct f; try destruct Hf; (split; [reflexivity|split; [reflexivity|exact Logic.I]]).
Qed.

Lemma nrun_close_segs G : forall s : st,
  nrun s (fold_left (fun s g =>
            gob_write flat_ops (FSegMeta (g_id g) (g_seq g)) (EGobSeg (g_id g) (g_seq g) (g_meta g))
                      (emit flat_ops (ESync (FSeg (g_id g) (g_seq g))) s)) G s).
Proof.
  induction G as [|g G IH]; intros s; [apply nrun_refl|]. cbn [fold_left].
  eapply nrun_trans; [|apply IH].
  eapply nrun_trans; [apply nrun_emit; apply neutral_sync|].
  apply nrun_gob_write; [exact Logic.I|]. split; [reflexivity|split; [reflexivity|exact Logic.I]].
Qed.

(* Close = neutral events, then the removal of the lock file *)
Lemma close_shape (s : st) m : s_mem s = Some m ->
  exists s3 : st, nrun s s3 /\
    db_close flat_ops s =
      ({| s_mem := None; s_disk := apply_ev flat_ops (s_disk s3) (ERemove FLock);
          s_trace := s_trace s3 ++ [ERemove FLock] |}, OOk).
Proof.
  intros Em. unfold db_close. rewrite Em.
  set (s1 := gob_write flat_ops FDbMeta (EGobDb (m_seed m)) s).
  set (s2 := fold_left _ (m_segs m) s1).
  set (s3 := gob_write flat_ops FIndexMeta (EGobIndex (m_idx m)) s2).
  exists (emits flat_ops [ESync FMain; ESync FOverflow] s3). split; [|reflexivity].
  assert (N1 : nrun s s1).
  { apply nrun_gob_write; [exact Logic.I|]. split; [reflexivity|split; [reflexivity|exact Logic.I]]. }
  assert (N2 : nrun s1 s2) by apply nrun_close_segs.
  assert (N3 : nrun s2 s3).
  { apply nrun_gob_write; [exact Logic.I|]. split; [reflexivity|split; [reflexivity|exact Logic.I]]. }
  eapply nrun_trans; [exact N1|]. eapply nrun_trans; [exact N2|]. eapply nrun_trans; [exact N3|].
  apply nrun_emits. constructor; [apply neutral_sync|constructor; [apply neutral_sync|constructor]].
Qed.

(* every image reached before the removal of the lock file is recoverable with the same contents;
   the image after the last event is the cleanly closed disk *)
Theorem crash_close P (s s1 : st) o img :
  Inv P s -> s_mem s <> None -> bac_ok (s_disk s) ->
  db_close flat_ops (clear_trace s) = (s1, o) ->
  crash_image (s_disk s) (s_trace s1) img ->
  (DiskOK img /\ bac_ok img /\ d_lock img = true /\
   (forall k, sget (abs img) k = sget (abs (s_disk s)) k)) \/
  img = s_disk s1.
Proof.
  intros HI Hm Hb Ec Himg. pose proof (Inv_Good P s HI Hm Hb) as Hg.
  destruct (s_mem s) as [m|] eqn:Em; [|congruence].
  destruct (close_shape (clear_trace s) m Em) as (s3 & (es & T & D & Hn & _) & E).
  rewrite Ec in E. inversion E; subst s1 o. clear E.
  cbn [clear_trace s_trace s_disk app] in T, D. cbn [s_trace s_disk] in *. rewrite T in Himg.
  destruct (crash_image_split _ _ _ _ Himg) as [Hl|Hr].
  - left. destruct (neutral_images es (s_disk s) img Hn Hg Hl) as [G Ho].
    apply (Good_with _ _ G). intros k. rewrite (olog_abs _ _ Ho). reflexivity.
  - destruct (crash_image_single _ (ERemove FLock) _ eq_refl Hr) as [->| ->].
    + left. destruct (neutral_images es (s_disk s) _ Hn Hg (crash_image_full es _)) as [G Ho].
      apply (Good_with _ _ G). intros k. rewrite (olog_abs _ _ Ho). reflexivity.
    + right. rewrite D. reflexivity.
Qed.

Theorem C03_close P seed (s s1 : st) o img :
  params_ok P -> Inv P s -> s_mem s <> None -> bac_ok (s_disk s) ->
  db_close flat_ops (clear_trace s) = (s1, o) ->
  crash_image (s_disk s) (s_trace s1) img ->
  exists s2 b, db_open flat_ops P seed {| s_mem := None; s_disk := img; s_trace := [] |} = (s2, OOpened b) /\
    Inv P s2 /\ s_mem s2 <> None /\ bac_ok (s_disk s2) /\
    (forall k, sget (abs (s_disk s2)) k = sget (abs (s_disk s)) k).
Proof.
  intros HP HI Hm Hb Ec Himg.
  destruct (crash_close P s s1 o img HI Hm Hb Ec Himg) as [(G1 & G2 & G3 & Hc)| ->].
  - destruct (recovered P seed img (fun s2 => forall k, sget (abs (s_disk s2)) k = sget (abs (s_disk s)) k) HP G1 G2 G3)
      as (s2 & H); [intros s2 Ha2 k; rewrite Ha2; apply Hc|]. exists s2, true. exact H.
  - destruct (s_mem s) as [m|] eqn:Em; [|congruence].
    pose proof (close_reopen_ok_nometa P seed (clear_trace s) m (Inv_clear P s HI) Em) as H.
    pose proof (close_reopen_bac P seed (clear_trace s) m (Inv_clear P s HI) Em) as Hbb.
    pose proof (close_ok P (clear_trace s) m (Inv_clear P s HI) Em) as Hc.
    rewrite Ec in H, Hbb, Hc. destruct Hc as (_ & Hm1 & _).
    assert (E : clear_trace s1 = {| s_mem := None; s_disk := s_disk s1; s_trace := [] |}).
    { unfold clear_trace. rewrite Hm1. reflexivity. }
    rewrite E in H, Hbb.
    destruct (db_open flat_ops P seed {| s_mem := None; s_disk := s_disk s1; s_trace := [] |}) as [s2 o2].
    destruct H as (-> & HI2 & Ha2 & m2 & Em2 & _). exists s2, false.
    split; [reflexivity|]. split; [exact HI2|]. split; [congruence|].
    split; [unfold bac_ok; rewrite Hbb; exact Hb|exact Ha2].
Qed.

(* pieces of code every prefix of whose events keeps the disk recoverable, with the same log *)
Definition srun (s s' : st) : Prop :=
  exists es, s_trace s' = s_trace s ++ es /\ s_disk s' = run_evs es (s_disk s) /\ safe_run (s_disk s) es.

Lemma srun_refl (s : st) : srun s s.
Proof. exists []. rewrite app_nil_r. repeat split. apply sr_nil. Qed.

Lemma srun_trans (a b c : st) : srun a b -> srun b c -> srun a c.
Proof.
  intros (e1 & T1 & D1 & S1) (e2 & T2 & D2 & S2). exists (e1 ++ e2).
  split; [rewrite T2, T1, app_assoc; reflexivity|]. split; [rewrite D2, D1, fold_left_app; reflexivity|].
  apply safe_run_app; [exact S1|]. rewrite <- D1. exact S2.
Qed.

Lemma srun_good (s s' : st) : srun s s' -> Good (s_disk s) -> Good (s_disk s') /\ olog (s_disk s') = olog (s_disk s).
Proof. intros (es & _ & D & S) Hg. rewrite D. apply safe_run_end; assumption. Qed.

Lemma nrun_srun (s s' : st) : nrun s s' -> Good (s_disk s) -> srun s s'.
Proof.
  intros (es & T & D & Hn & _) Hg. exists es. split; [exact T|]. split; [exact D|].
  apply neutral_safe_run; assumption.
Qed.

Lemma srun_same (s s' : st) : s_trace s' = s_trace s -> s_disk s' = s_disk s -> srun s s'.
Proof. intros T D. exists []. rewrite app_nil_r. split; [exact T|]. split; [exact D|apply sr_nil]. Qed.

Lemma nrun_fold_emit {A} (ev : A -> fsev) (L : list A) : forall s : st,
  Forall (fun x => neutral (ev x)) L -> nrun s (fold_left (fun s x => emit flat_ops (ev x) s) L s).
Proof.
  induction L as [|x L IH]; intros s H; [apply nrun_refl|].
  inversion H as [|? ? Hx H']; subst. cbn [fold_left].
  eapply nrun_trans; [apply nrun_emit; exact Hx|apply IH; exact H'].
Qed.

(* backupNonsegmentFiles *)
Lemma nrun_backup (s : st) : nrun s (backup_nonseg flat_ops s).
Proof.
  unfold backup_nonseg. apply (nrun_fold_emit (fun f => ERename f (FBac f))).
  apply Forall_forall. intros f Hf.
  apply (Permutation_in _ (rc_sort_names_perm _)) in Hf. apply filter_In in Hf. destruct Hf as [_ Hf].
  apply negb_true_iff in Hf. apply orb_false_iff in Hf. destruct Hf as [Hs Hl].
  split; [|split; [|exact Logic.I]].
  - destruct f; try reflexivity. discriminate Hs.
  - destruct f; try reflexivity. discriminate Hl.
Qed.

(* openIndex *)
Lemma nrun_open_index (s s2 : st) i : open_index flat_ops s = Some (s2, i) -> nrun s s2.
Proof.
  unfold open_index.
  assert (NM : Forall neutral [@ECreate flat FMain; EHeader FMain]).
  { repeat constructor. }
  assert (NO : Forall neutral [@ECreate flat FOverflow; EHeader FOverflow]).
  { repeat constructor. }
  assert (NT : Forall neutral [@ETrunc flat FMain (header_size + 512); EIndex (ix_empty flat_ops)]).
  { repeat constructor. }
  set (fresh := match d_index (s_disk s) with None => true | Some _ => false end).
  set (s1 := if fresh then emits flat_ops [ECreate FMain; EHeader FMain] s else s).
  set (s2' := if d_overflow (s_disk s1) then s1 else emits flat_ops [ECreate FOverflow; EHeader FOverflow] s1).
  assert (N1 : nrun s s1) by (unfold s1; destruct fresh; [apply nrun_emits; exact NM|apply nrun_refl]).
  assert (N2 : nrun s1 s2').
  { unfold s2'. destruct (d_overflow (s_disk s1)); [apply nrun_refl|apply nrun_emits; exact NO]. }
  destruct fresh.
  - set (s3 := emits flat_ops [ETrunc FMain (header_size + 512); EIndex (ix_empty flat_ops)] s2').
    assert (N3 : nrun s2' s3) by (apply nrun_emits; exact NT).
    clearbody s3. intros E. injection E as <- _.
    eapply nrun_trans; [exact N1|]. eapply nrun_trans; [exact N2|exact N3].
  - destruct (d_index (s_disk s2')) as [i0|]; [|discriminate].
    destruct (d_imeta (s_disk s2')) as [| |j]; try discriminate.
    intros E. injection E as <- _. eapply nrun_trans; [exact N1|exact N2].
Qed.

(* openDatalog: the headers of empty segment files *)
Lemma dseg_ok_hdr_on f :
  dseg_ok f -> dseg_ok {| f_id := f_id f; f_seq := f_seq f; f_hdr := true; f_recs := f_recs f;
                          f_tail := f_tail f; f_meta := f_meta f |}.
Proof.
  unfold dseg_ok. cbn [f_recs f_tail f_hdr]. intros (H1 & H2 & H3 & _ & H5).
  split; [exact H1|]. split; [exact H2|]. split; [exact H3|]. split; [discriminate|exact H5].
Qed.

Lemma header_seg_safe (d : disk) id seq :
  Good d -> Good (apply_ev flat_ops d (EHeader (FSeg id seq))) /\
            olog (apply_ev flat_ops d (EHeader (FSeg id seq))) = olog d.
Proof.
  intros ((H1 & Hnd) & Hb & Hl). split; [|apply olog_header].
  destruct (lock_bac_step d (EHeader (FSeg id seq)) eq_refl Logic.I Hb Hl) as [Hb' Hl'].
  split; [|split; assumption].
  cbn [apply_ev]. apply DiskOK_upd_seg; [split; reflexivity|]. split; [|exact Hnd].
  intros f Hf. fa H1 f Hf. destruct (is_seg id seq f); [apply dseg_ok_hdr_on|]; exact Hfa.
Qed.

Lemma srun_hdr_fold L : forall s : st, Good (s_disk s) -> srun s (fold_left rc_hdr_step L s).
Proof.
  induction L as [|f L IH]; intros s Hg; [apply srun_refl|]. cbn [fold_left].
  assert (S1 : srun s (rc_hdr_step s f)).
  { unfold rc_hdr_step. destruct (f_hdr f); [apply srun_refl|].
    exists [EHeader (FSeg (f_id f) (f_seq f))]. split; [reflexivity|]. split; [reflexivity|].
    destruct (header_seg_safe (s_disk s) (f_id f) (f_seq f) Hg) as [A B].
    apply sr_cons; [reflexivity|exact A|exact B|apply sr_nil]. }
  eapply srun_trans; [exact S1|]. apply IH. apply (srun_good _ _ S1 Hg).
Qed.

(* swapSegment during open: a new, empty segment file *)
Lemma srun_swap (s : st) (m : mem) :
  Good (s_disk s) -> rc_magree (m_segs m) (s_disk s) -> ids_increasing (m_segs m) ->
  (forall g, In g (m_segs m) -> g_seq g <= m_maxseq m) ->
  srun s (fst (swap_segment flat_ops s m)).
Proof.
  intros Hg Hmag Hinc Hmax. unfold swap_segment.
  destruct (find (fun g => negb (sm_full (g_meta g))) (m_segs m)) as [g|]; [apply srun_refl|].
  cbn [fst]. set (id := lowest_free 0 (m_segs m)). set (seq := m_maxseq m + 1).
  exists [ECreate (FSeg id seq); EHeader (FSeg id seq)].
  split; [apply s_trace_emits|]. split; [apply s_disk_emits|].
  apply create_header_safe; [exact Hg|].
  assert (Hfresh : forall g, In g (m_segs m) -> g_id g <> id).
  { intros g Hin. apply lowest_free_fresh; assumption. }
  assert (Hsegs : d_segs (run_evs [ECreate (FSeg id seq); EHeader (FSeg id seq)] (s_disk s)) =
                  d_segs (s_disk s) ++ [rc_newf id seq]).
  { apply (d_segs_create_header (s_disk s)). intros f Hf E.
    destruct (proj2 Hmag f Hf) as (g & Hin & E1 & _). apply (Hfresh g Hin). congruence. }
  destruct Hg as (Hok & _).
  apply (rc_create_spec (s_disk s) _ (m_segs m) (m_maxseq m) id seq Hok Hmag Hinc Hmax eq_refl Hfresh Hsegs).
Qed.

(* recover(): the truncation of a stuck tail *)
Lemma trunc_safe (d : disk) id seq f :
  Good d -> find_dseg id d = Some f ->
  Good (apply_ev flat_ops d (ETrunc (FSeg id seq) (header_size + recs_len (f_recs f) + 0))) /\
  olog (apply_ev flat_ops d (ETrunc (FSeg id seq) (header_size + recs_len (f_recs f) + 0))) = olog d.
Proof.
  intros ((H1 & H2 & H3) & Hb & Hl) Ef.
  set (n := header_size + recs_len (f_recs f) + 0).
  destruct (lock_bac_step d (ETrunc (FSeg id seq) n) eq_refl Logic.I Hb Hl) as [Hb' Hl'].
  assert (Hx : forall x, In x (d_segs d) ->
             rc_rcore (if is_seg id seq x then trunc_seg n x else x) = rc_rcore x /\
             dseg_ok (if is_seg id seq x then trunc_seg n x else x)).
  { intros x Hin. rewrite Forall_forall in H1. pose proof (H1 x Hin) as Hdx.
    destruct (is_seg id seq x) eqn:Es; [|split; [reflexivity|exact Hdx]].
    assert (E : x = f) by (apply (rc_is_seg_unique d id seq f x H2 Ef Hin Es)). subst x.
    destruct (f_hdr f) eqn:Eh.
    - unfold n. rewrite (rc_trunc_seg_all f Eh). split; [reflexivity|].
      destruct Hdx as (A1 & A2 & A3 & A4 & A5). unfold dseg_ok, rc_clean. cbn [f_recs f_tail f_hdr].
      split; [exact A1|]. split; [apply tail_stuck_nil|]. split; [constructor|].
      split; [discriminate|exact A5].
    - unfold trunc_seg. rewrite Eh. cbn [negb]. split; [reflexivity|exact Hdx]. }
  assert (Hsegs : d_segs (apply_ev flat_ops d (ETrunc (FSeg id seq) n)) =
                  map (fun x => if is_seg id seq x then trunc_seg n x else x) (d_segs d)).
  { cbn [apply_ev]. apply d_segs_upd_seg. }
  assert (Hrs : rc_rsim d (apply_ev flat_ops d (ETrunc (FSeg id seq) n))).
  { unfold rc_rsim. rewrite Hsegs, map_map. apply map_ext_in. intros x Hin. symmetry. apply (Hx x Hin). }
  split; [|apply rc_rsim_olog; exact Hrs].
  split; [|split; assumption].
  unfold DiskOK. rewrite (rc_rsim_ids _ _ Hrs), (rc_rsim_seqs _ _ Hrs). split; [|split; assumption].
  rewrite Hsegs. apply Forall_forall. intros y Hy. apply in_map_iff in Hy. destruct Hy as (x & <- & Hin).
  apply (Hx x Hin).
Qed.

Lemma srun_recover_segment P id seq (s : st) (m : mem) :
  Good (s_disk s) -> srun s (fst (recover_segment flat_ops P id seq s m)).
Proof.
  intros Hg. unfold recover_segment.
  destruct (find_dseg id (s_disk s)) as [f|] eqn:Ef; [|apply srun_refl].
  destruct (find_dseg_In _ _ _ Ef) as [Hin _].
  assert (Hst : tail_stuck (f_tail f)).
  { destruct Hg as ((H1 & _) & _). rewrite Forall_forall in H1. apply (H1 f Hin). }
  destruct (rc_tail_stuck_parse _ Hst) as (why & Ep & _). rewrite Ep. cbv beta iota zeta.
  rewrite rc_reframe_nil. cbn [fst].
  assert (St : srun s (emit flat_ops (ETrunc (FSeg id seq) (header_size + recs_len (f_recs f) + 0)) s)).
  { exists [ETrunc (FSeg id seq) (header_size + recs_len (f_recs f) + 0)].
    split; [reflexivity|]. split; [reflexivity|].
    destruct (trunc_safe (s_disk s) id seq f Hg Ef) as [A B].
    apply sr_cons; [reflexivity|exact A|exact B|apply sr_nil]. }
  destruct why; [apply srun_refl|exact St|exact St|exact St].
Qed.

Lemma srun_recover_loop P (L : list mseg) : forall (s : st) (m : mem),
  Good (s_disk s) ->
  srun s (fst (fold_left (fun sm g => recover_segment flat_ops P (g_id g) (g_seq g) (fst sm) (snd sm)) L (s, m))).
Proof.
  induction L as [|g L IH]; intros s m Hg; [apply srun_refl|]. cbn [fold_left fst snd].
  pose proof (srun_recover_segment P (g_id g) (g_seq g) s m Hg) as S1.
  destruct (recover_segment flat_ops P (g_id g) (g_seq g) s m) as [s1 m1]. cbn [fst] in S1.
  eapply srun_trans; [exact S1|]. apply IH. apply (srun_good _ _ S1 Hg).
Qed.

(* removeRecoveryBackupFiles *)
Lemma nrun_remove_bac (s : st) : bac_ok (s_disk s) -> nrun s (remove_bac flat_ops s).
Proof.
  intros Hb. unfold remove_bac. apply (nrun_fold_emit (fun f => ERemove f)).
  apply Forall_forall. intros f Hf. apply (Permutation_in _ (rc_sort_names_perm _)) in Hf.
  unfold bac_ok in Hb. rewrite Forall_forall in Hb. pose proof (Hb f Hf) as Hx.
  destruct f; try destruct Hx. split; [reflexivity|split; [reflexivity|exact Logic.I]].
Qed.

(* recover(): the loop, then swapSegment (D13: it picks the newest segment; in a recovery it finds it
   writable and emits nothing -- but the proof below does not need to know that: should it create a new
   segment file, the step is safe because the disk it leads to is well-formed), the index, the *.bac files *)
Lemma srun_recover P (s : st) (m : mem) :
  Good (s_disk s) -> DiskOK (s_disk (fst (recover flat_ops P s m))) -> srun s (fst (recover flat_ops P s m)).
Proof.
  intros Hg. unfold recover.
  pose proof (srun_recover_loop P (by_seq (m_segs m)) s m Hg) as S1.
  destruct (fold_left _ (by_seq (m_segs m)) (s, m)) as [s1 m1]. cbn [fst] in S1 |- *.
  destruct (srun_good _ _ S1 Hg) as [Hg1 _].
  set (m2 := seal_all_but_last (by_seq (m_segs m)) m1).
  assert (Tail : forall (s1' : st) (m3 : mem), Good (s_disk s1') ->
            srun s1' (remove_bac flat_ops (emit flat_ops (EIndex (m_idx m3)) s1'))).
  { intros s1' m3 Hg'.
    assert (S2 : srun s1' (emit flat_ops (EIndex (m_idx m3)) s1')).
    { apply nrun_srun; [apply nrun_emit; apply neutral_index|exact Hg']. }
    destruct (srun_good _ _ S2 Hg') as [Hg2 _].
    eapply srun_trans; [exact S2|]. apply nrun_srun; [apply nrun_remove_bac; apply Hg2|exact Hg2]. }
  unfold swap_segment.
  destruct (find (fun g => negb (sm_full (g_meta g))) (m_segs m2)) as [gc|].
  - cbn [fst]. intros _. eapply srun_trans; [exact S1|]. apply Tail. exact Hg1.
  - cbv zeta. set (id := lowest_free 0 (m_segs m2)). set (seq := m_maxseq m2 + 1).
    set (s1' := emits flat_ops [ECreate (FSeg id seq); EHeader (FSeg id seq)] s1).
    match goal with |- context [m_idx ?x] => set (m3 := x) end.
    cbn [fst]. intros HokF.
    assert (Ed' : s_disk s1' = run_evs [ECreate (FSeg id seq); EHeader (FSeg id seq)] (s_disk s1)) by apply s_disk_emits.
    destruct Hg1 as (Hok1 & Hb1 & Hl1).
    destruct (lock_bac_step _ (ECreate (FSeg id seq)) eq_refl Logic.I Hb1 Hl1) as [Hb1a Hl1a].
    destruct (lock_bac_step _ (EHeader (FSeg id seq)) eq_refl Logic.I Hb1a Hl1a) as [Hb1' Hl1'].
    destruct (lock_bac_step _ (EIndex (m_idx m3)) eq_refl Logic.I Hb1' Hl1') as [Hb2 _].
    assert (N3 : nrun s1' (remove_bac flat_ops (emit flat_ops (EIndex (m_idx m3)) s1'))).
    { eapply nrun_trans; [apply nrun_emit; apply neutral_index|]. apply nrun_remove_bac.
      rewrite s_disk_emit, Ed'. exact Hb2. }
    assert (Hok1' : DiskOK (s_disk s1')).
    { destruct N3 as (es & _ & D & Hn & _).
      assert (Hsl : same_log (s_disk s1') (run_evs es (s_disk s1'))).
      { apply (no_log_images_same_log es); [|apply crash_image_full].
        apply Forall_forall. intros e He. rewrite Forall_forall in Hn. apply (Hn e He). }
      rewrite <- D in Hsl. apply (same_log_DiskOK _ _ (same_log_sym _ _ Hsl)). exact HokF. }
    assert (S2 : srun s1 s1').
    { exists [ECreate (FSeg id seq); EHeader (FSeg id seq)]. split; [apply s_trace_emits|]. split; [exact Ed'|].
      apply create_header_safe; [split; [exact Hok1|split; assumption]|]. rewrite <- Ed'. exact Hok1'. }
    eapply srun_trans; [exact S1|]. eapply srun_trans; [exact S2|]. apply Tail.
    split; [exact Hok1'|]. rewrite Ed'. split; assumption.
Qed.

Lemma open_srun P seed (d : disk) : Good d -> srun (closed d) (fst (db_open flat_ops P seed (closed d))).
Proof.
  intros Hg. pose proof Hg as (Hok & Hbac & Hlock).
  assert (HokF : DiskOK (s_disk (fst (db_open flat_ops P seed (closed d))))).
  { pose proof (open_recover_gen P seed (closed d) eq_refl Hok Hbac Hlock) as HR.
    destruct (db_open flat_ops P seed (closed d)) as [sf of]. cbn [fst].
    destruct HR as (_ & HIf & Hmf & _). destruct (s_mem sf) as [mf|] eqn:Emf; [|congruence].
    apply (Inv_open P sf mf Emf HIf). }
  revert HokF.
  unfold db_open. change (s_mem (closed d)) with (@None mem). cbv iota.
  change (d_lock (s_disk (closed d))) with (d_lock d). rewrite Hlock. cbv iota.
  (* backupNonsegmentFiles *)
  pose proof (rc_backup_spec (closed d) Hok Hbac) as H1. cbv zeta in H1.
  pose proof (nrun_backup (closed d)) as N1.
  set (s1 := backup_nonseg flat_ops (closed d)) in *.
  destruct H1 as (_ & _ & _ & Hi1 & Hmeta1 & _).
  assert (S1 : srun (closed d) s1) by (apply nrun_srun; [exact N1|exact Hg]).
  destruct (srun_good _ _ S1 Hg) as [Hg1 _].
  (* openIndex *)
  destruct (rc_open_index_fresh s1 Hi1) as (s2 & E2 & Hsegs2 & _).
  rewrite E2. pose proof (nrun_open_index s1 s2 [] E2) as N2.
  assert (S2 : srun s1 s2) by (apply nrun_srun; [exact N2|exact Hg1]).
  destruct (srun_good _ _ S2 Hg1) as [Hg2 _].
  (* openDatalog *)
  assert (Hmeta2 : forall f, In f (d_segs (s_disk s2)) -> f_meta f = GAbsent).
  { rewrite Hsegs2. exact Hmeta1. }
  destruct (rc_open_segments_recovery s2 (proj1 Hg2) Hmeta2)
    as (s3 & segs & E3 & _ & _ & Hmag3 & Hinc3 & _).
  destruct (rc_open_segments_spec s2 (proj1 (proj2 (proj1 Hg2)))) as (s3' & segs' & E3' & _ & _ & _ & Efold & _).
  rewrite E3 in E3'. injection E3' as <- <-. rewrite E3.
  assert (S3 : srun s2 s3) by (rewrite Efold; apply srun_hdr_fold; exact Hg2).
  destruct (srun_good _ _ S3 Hg2) as [Hg3 _].
  (* swapSegment *)
  match goal with |- context [swap_segment flat_ops s3 ?m] => set (m0 := m) end.
  assert (S4 : srun s3 (fst (swap_segment flat_ops s3 m0))).
  { apply srun_swap; [exact Hg3|exact Hmag3|exact Hinc3|]. intros g Hin. apply (rc_fold_max_ge segs 0). exact Hin. }
  destruct (swap_segment flat_ops s3 m0) as [s4 m1]. cbn [fst] in S4.
  destruct (srun_good _ _ S4 Hg3) as [Hg4 _].
  assert (S04 : srun (closed d) s4).
  { eapply srun_trans; [exact S1|]. eapply srun_trans; [exact S2|]. eapply srun_trans; [exact S3|exact S4]. }
  cbn [ix_count flat_ops nlen]. change (0 =? 0) with true. cbv iota.
  (* recover *)
  match goal with |- context [recover flat_ops P s4 ?m] => set (m2 := m) end.
  pose proof (srun_recover P s4 m2 Hg4) as S5.
  destruct (recover flat_ops P s4 m2) as [s5 m3]. cbn [fst] in S5 |- *. intros HokF.
  eapply srun_trans; [exact S04|]. eapply srun_trans; [exact (S5 HokF)|].
  apply srun_same; reflexivity.
Qed.

(* The events of a recovering Open only rename / create / remove non-segment files, write the headers
   of empty segment files, create one empty segment file, truncate stuck tails and write the index:
   whenever the process dies during recovery, what is left is as recoverable as before. *)
Theorem crash_open_recover P seed (d : disk) :
  DiskOK d -> bac_ok d -> d_lock d = true ->
  forall img, crash_image d (s_trace (fst (db_open flat_ops P seed {| s_mem := None; s_disk := d; s_trace := [] |}))) img ->
  DiskOK img /\ bac_ok img /\ d_lock img = true /\ forall k, sget (abs img) k = sget (abs d) k.
Proof.
  intros Hok Hb Hl img Himg. assert (Hg : Good d) by (split; [exact Hok|split; assumption]).
  destruct (open_srun P seed d Hg) as (es & T & _ & Hs). fold (closed d) in Himg.
  cbn [closed s_trace app] in T. rewrite T in Himg. cbn [closed s_disk] in Hs.
  destruct (safe_run_images es d img Hs Hg Himg) as [G Ho].
  apply (Good_with _ _ G). intros k. rewrite (olog_abs _ _ Ho). reflexivity.
Qed.

Theorem C04_recover_after_crashed_recovery P seed seed2 (d : disk) img :
  params_ok P -> DiskOK d -> bac_ok d -> d_lock d = true ->
  crash_image d (s_trace (fst (db_open flat_ops P seed {| s_mem := None; s_disk := d; s_trace := [] |}))) img ->
  exists s2, db_open flat_ops P seed2 {| s_mem := None; s_disk := img; s_trace := [] |} = (s2, OOpened true) /\
    Inv P s2 /\ s_mem s2 <> None /\ bac_ok (s_disk s2) /\
    (forall k, sget (abs (s_disk s2)) k = sget (abs d) k).
Proof.
  intros HP Hok Hb Hl Himg.
  destruct (crash_open_recover P seed d Hok Hb Hl img Himg) as (G1 & G2 & G3 & Hc).
  apply (recovered P seed2 img _ HP G1 G2 G3). intros s2 Ha2 k. rewrite Ha2. apply Hc.
Qed.

(* C04: any finite sequence of epochs  [history of acknowledged operations ; crash in the middle
      of an operation ; recovery attempts that crash themselves ; a recovery that completes]        *)
Inductive op := OpPut (k : key) (v : val) | OpDelete (k : key) | OpSync.

Definition run_op (P : params) (o : op) (s : st) : st :=
  match o with
  | OpPut k v => fst (db_put flat_ops P k v (clear_trace s))
  | OpDelete k => fst (db_delete flat_ops P k (clear_trace s))
  | OpSync => fst (db_sync flat_ops (clear_trace s))
  end.

(* the per-operation side conditions ([room]: no segment is within one maximal record of 4 GiB) *)
Definition op_pre (o : op) (s : st) : Prop :=
  match o with
  | OpPut k v => (exists m, s_mem s = Some m /\ room m) /\
                 Forall byte k /\ Forall byte v /\ nlen k <= max_key_len /\ nlen v <= max_val_len
  | OpDelete k => (exists m, s_mem s = Some m /\ room m) /\ Forall byte k
  | OpSync => True
  end.

(* an open, consistent database *)
Definition Open (P : params) (s : st) : Prop := Inv P s /\ s_mem s <> None /\ bac_ok (s_disk s).

(* contents, as a function; the specification of the operations *)
Definition cmap := key -> option val.
Definition cont (d : disk) : cmap := fun k => sget (abs d) k.
Definition ceq (a b : cmap) : Prop := forall k, a k = b k.
Definition spec_op (o : op) (c : cmap) : cmap :=
  match o with
  | OpPut k v => fun k' => if key_eqb k' k then Some v else c k'
  | OpDelete k => fun k' => if key_eqb k' k then None else c k'
  | OpSync => c
  end.
Definition spec_hist (h : list op) (c : cmap) : cmap := fold_left (fun c o => spec_op o c) h c.

Lemma ceq_refl c : ceq c c. Proof. intros k. reflexivity. Qed.
Lemma ceq_sym a b : ceq a b -> ceq b a. Proof. intros H k. symmetry. apply H. Qed.
Lemma ceq_trans a b c : ceq a b -> ceq b c -> ceq a c. Proof. intros H1 H2 k. rewrite H1. apply H2. Qed.
Lemma spec_op_ceq o a b : ceq a b -> ceq (spec_op o a) (spec_op o b).
Proof. intros H k. destruct o as [k0 v|k0|]; cbn [spec_op]; try rewrite H; reflexivity. Qed.
Lemma spec_hist_ceq h : forall a b, ceq a b -> ceq (spec_hist h a) (spec_hist h b).
Proof.
  induction h as [|o h IH]; intros a b H; [exact H|]. unfold spec_hist. cbn [fold_left].
  apply IH. apply spec_op_ceq. exact H.
Qed.

(* A writer operation by its events: at most a Sync, or one write to the log (write_images).  It
   completes, and meets its specification. *)
Lemma op_shape P o (s : st) :
  params_ok P -> Open P s -> op_pre o s ->
  Inv P (run_op P o s) /\ s_mem (run_op P o s) <> None /\
  ceq (cont (s_disk (run_op P o s))) (spec_op o (cont (s_disk s))) /\
  ((s_disk (run_op P o s) = s_disk s /\
    (s_trace (run_op P o s) = [] \/ exists i q, s_trace (run_op P o s) = [ESync (FSeg i q)])) \/
   exists r id seq off pre i post,
     rec_fits r /\ wr_pre_shape pre id seq /\ (post = [] \/ exists j q, post = [ESync (FSeg j q)]) /\
     s_trace (run_op P o s) = pre ++ [EAppend id seq off r; EIndex i] ++ post /\
     s_disk (run_op P o s) = run_evs (pre ++ [EAppend id seq off r; EIndex i]) (s_disk s) /\
     olog (s_disk (run_op P o s)) = olog (s_disk s) ++ [(id, off, r)]).
Proof.
  intros HP (HI & Hm & _) Hpre. pose proof (Inv_clear P s HI) as HI0.
  destruct o as [k v|k|]; cbn [run_op op_pre spec_op] in *.
  - destruct Hpre as (Hroom & Hbk & Hbv & Hk & Hv).
    destruct (put_ok_ex P (clear_trace s) k v HP HI0 Hroom Hbk Hbv Hk Hv)
      as (s' & -> & HI' & Hm' & Hnew & id & seq & off & pre & i2 & post & Et & Hsh & Hpost & _ & Eo & Ed).
    refine (conj HI' (conj Hm' (conj Hnew (or_intror _)))).
    exists (mkput k v), id, seq, off, pre, i2, post. auto 7 using rec_fits_mkput.
  - destruct Hpre as (Hroom & Hbk).
    destruct (delete_ok_ex P (clear_trace s) k HP HI0 Hroom Hbk) as (s' & -> & HI' & Hm' & Hnew & _ & Hcases).
    refine (conj HI' (conj Hm' (conj Hnew _))).
    destruct Hcases as [(_ & Ed & Et)|(_ & Hk & id & seq & off & pre & i1 & post & Et & Hsh & Hpost & _ & Eo & Ed)].
    + left. split; [exact Ed|exact Et].
    + right. exists (mkdel k), id, seq, off, pre, i1, post. auto 7 using rec_fits_mkdel.
  - pose proof (sync_ok P (clear_trace s) HI0 Hm) as Hp. destruct (sync_trace s Hm) as [Ed Et].
    destruct (db_sync flat_ops (clear_trace s)) as [s' o']. destruct Hp as (_ & HI' & _ & Em). cbn [fst] in *.
    refine (conj HI' (conj _ (conj _ (or_introl (conj Ed Et))))); [rewrite Em; exact Hm|rewrite Ed; apply ceq_refl].
Qed.

Lemma op_disk_run P o (s : st) :
  params_ok P -> Open P s -> op_pre o s ->
  s_disk (run_op P o s) = run_evs (s_trace (run_op P o s)) (s_disk s).
Proof.
  intros HP HO Hpre.
  destruct (op_shape P o s HP HO Hpre)
    as (_ & _ & _ & [(-> & Et)|(r & id & seq & off & pre & i & post & _ & _ & Hpost & -> & -> & _)]).
  - destruct Et as [->|(i & q & ->)]; reflexivity.
  - rewrite app_assoc, (fold_left_app _ _ post). destruct Hpost as [->|(j & q & ->)]; reflexivity.
Qed.

Lemma op_final_image P o (s : st) :
  params_ok P -> Open P s -> op_pre o s ->
  crash_image (s_disk s) (s_trace (run_op P o s)) (s_disk (run_op P o s)).
Proof. intros HP HO Hpre. rewrite (op_disk_run P o s HP HO Hpre). apply crash_image_full. Qed.

Lemma op_crash P o (s : st) img :
  params_ok P -> Open P s -> op_pre o s ->
  crash_image (s_disk s) (s_trace (run_op P o s)) img ->
  Good img /\ (ceq (cont img) (cont (s_disk s)) \/ ceq (cont img) (spec_op o (cont (s_disk s)))).
Proof.
  intros HP HO Hpre Himg. pose proof HO as (HI & Hm & Hb). pose proof (Inv_Good P s HI Hm Hb) as Hg.
  destruct (op_shape P o s HP HO Hpre)
    as (HI' & Hm' & Hc' & [(_ & Et)|(r & id & seq & off & pre & i & post & Hr & Hsh & Hpost & Et & Ed & _)]).
  - rewrite (sync_images (s_disk s) _ img Et Himg). split; [exact Hg|left; apply ceq_refl].
  - rewrite Et in Himg.
    destruct (write_images P s _ r id seq off pre i post img Hg HI' Hm' Hr Hsh Hpost Ed Himg) as (G1 & G2 & G3 & Hc).
    split; [exact (conj G1 (conj G2 G3))|]. destruct Hc as [Hc|Hc]; [left; exact Hc|right].
    intros k. unfold cont. rewrite Hc. apply Hc'.
Qed.

Lemma op_ok P o (s : st) :
  params_ok P -> Open P s -> op_pre o s ->
  Open P (run_op P o s) /\ ceq (cont (s_disk (run_op P o s))) (spec_op o (cont (s_disk s))).
Proof.
  intros HP HO Hpre.
  destruct (op_crash P o s _ HP HO Hpre (op_final_image P o s HP HO Hpre)) as ((_ & Hb' & _) & _).
  destruct (op_shape P o s HP HO Hpre) as (HI' & Hm' & Hc' & _).
  exact (conj (conj HI' (conj Hm' Hb')) Hc').
Qed.

(* a finite history of acknowledged operations *)
Inductive history (P : params) : st -> list op -> st -> Prop :=
| h_nil s : history P s [] s
| h_cons s o h s' : op_pre o s -> history P (run_op P o s) h s' -> history P s (o :: h) s'.

Lemma history_ok P (s : st) h sh :
  params_ok P -> history P s h sh -> Open P s ->
  Open P sh /\ ceq (cont (s_disk sh)) (spec_hist h (cont (s_disk s))).
Proof.
  intros HP H. induction H as [s|s o h s' Hpre H IH]; intros HO.
  - split; [exact HO|apply ceq_refl].
  - destruct (op_ok P o s HP HO Hpre) as [HO1 Hc1]. destruct (IH HO1) as [HO' Hc'].
    split; [exact HO'|]. eapply ceq_trans; [exact Hc'|]. unfold spec_hist at 2. cbn [fold_left].
    apply spec_hist_ceq. exact Hc1.
Qed.

(* recovery attempts: any number of recoveries that crash themselves, then one that completes *)
Inductive recoveries (P : params) : disk -> st -> Prop :=
| rec_done d seed : recoveries P d (fst (db_open flat_ops P seed (closed d)))
| rec_crash d seed img s' :
    crash_image d (s_trace (fst (db_open flat_ops P seed (closed d)))) img ->
    recoveries P img s' -> recoveries P d s'.

Lemma recoveries_ok P (d : disk) s' :
  params_ok P -> recoveries P d s' -> Good d -> Open P s' /\ ceq (cont (s_disk s')) (cont d).
Proof.
  intros HP H. induction H as [d seed|d seed img s' Himg H IH]; intros (G1 & G2 & G3).
  - destruct (crash_then_recover P seed d HP G1 G2 G3) as (s2 & E2 & HI2 & Hm2 & Hb2 & Ha2).
    unfold closed. rewrite E2. cbn [fst]. split; [split; [exact HI2|split; assumption]|exact Ha2].
  - destruct (crash_open_recover P seed d G1 G2 G3 img Himg) as (A1 & A2 & A3 & Hc).
    destruct (IH (conj A1 (conj A2 A3))) as [HO Hc']. split; [exact HO|].
    eapply ceq_trans; [exact Hc'|exact Hc].
Qed.

(* one epoch: history [h] is acknowledged, operation [o] is in flight when the process dies (a crash
   between operations is [o := OpSync] with the image [ci_here]); then the recovery attempts *)
Inductive epochs (P : params) : st -> list (list op * op) -> st -> Prop :=
| ep_nil s : epochs P s [] s
| ep_cons s h sh o img s1 rest s' :
    history P s h sh -> op_pre o sh ->
    crash_image (s_disk sh) (s_trace (run_op P o sh)) img ->
    recoveries P img s1 ->
    epochs P s1 rest s' ->
    epochs P s ((h, o) :: rest) s'.

(* what the specification allows after the same epochs: every acknowledged operation has taken
   effect, in order; the operation in flight at each crash has taken effect entirely or not at all *)
Inductive spec_epochs : cmap -> list (list op * op) -> cmap -> Prop :=
| se_nil c c' : ceq c c' -> spec_epochs c [] c'
| se_lost c h o rest c' : spec_epochs (spec_hist h c) rest c' -> spec_epochs c ((h, o) :: rest) c'
| se_done c h o rest c' : spec_epochs (spec_op o (spec_hist h c)) rest c' -> spec_epochs c ((h, o) :: rest) c'.

Lemma spec_epochs_ceq c1 es c' : spec_epochs c1 es c' -> forall c2, ceq c1 c2 -> spec_epochs c2 es c'.
Proof.
  intros H. induction H as [c c' Hc|c h o rest c' H IH|c h o rest c' H IH]; intros c2 H12.
  - apply se_nil. eapply ceq_trans; [apply ceq_sym; exact H12|exact Hc].
  - apply se_lost. apply IH. apply spec_hist_ceq. exact H12.
  - apply se_done. apply IH. apply spec_op_ceq. apply spec_hist_ceq. exact H12.
Qed.

Theorem C04_chain P (s : st) es s' :
  params_ok P -> Open P s -> epochs P s es s' ->
  Inv P s' /\ s_mem s' <> None /\ bac_ok (s_disk s') /\
  spec_epochs (cont (s_disk s)) es (cont (s_disk s')).
Proof.
  intros HP HO H. revert HO.
  induction H as [s|s h sh o img s1 rest s' Hh Hpre Himg Hrec Hep IH]; intros HO.
  - destruct HO as (A & B & C). split; [exact A|]. split; [exact B|]. split; [exact C|].
    apply se_nil. apply ceq_refl.
  - destruct (history_ok P s h sh HP Hh HO) as [HOh Hch].
    destruct (op_crash P o sh img HP HOh Hpre Himg) as [Hg Hci].
    destruct (recoveries_ok P img s1 HP Hrec Hg) as [HO1 Hc1].
    destruct (IH HO1) as (A & B & C & Hspec).
    split; [exact A|]. split; [exact B|]. split; [exact C|].
    destruct Hci as [Hci|Hci].
    + apply se_lost. apply (spec_epochs_ceq _ _ _ Hspec).
      eapply ceq_trans; [exact Hc1|]. eapply ceq_trans; [exact Hci|exact Hch].
    + apply se_done. apply (spec_epochs_ceq _ _ _ Hspec).
      eapply ceq_trans; [exact Hc1|]. eapply ceq_trans; [exact Hci|]. apply spec_op_ceq. exact Hch.
Qed.

(* one epoch, spelled out: the C03 relation between consecutive reopened states *)
Corollary C04_epoch P (s : st) h o s' :
  params_ok P -> Open P s -> epochs P s [(h, o)] s' ->
  Inv P s' /\ s_mem s' <> None /\
  (ceq (cont (s_disk s')) (spec_hist h (cont (s_disk s))) \/
   ceq (cont (s_disk s')) (spec_op o (spec_hist h (cont (s_disk s))))).
Proof.
  intros HP HO H. destruct (C04_chain P s _ s' HP HO H) as (A & B & _ & Hs).
  split; [exact A|]. split; [exact B|].
  inversion Hs as [|c h0 o0 rest c' H1|c h0 o0 rest c' H1]; subst;
    inversion H1 as [c0 c0' Hc| |]; subst; [left|right]; apply ceq_sym; exact Hc.
Qed.


(* removeSegment: neutral events (Sync of the current segment, removal of the side file), then the
   removal of the segment file *)
Lemma remove_segment_shape id seq (s : st) (m : mem) :
  exists es, Forall neutral es /\
    s_trace (remove_segment flat_ops id seq s m) = s_trace s ++ es ++ [ERemove (FSeg id seq)] /\
    s_disk (remove_segment flat_ops id seq s m) = run_evs (es ++ [ERemove (FSeg id seq)]) (s_disk s).
Proof.
  unfold remove_segment.
  set (s1 := do_sync flat_ops s m).
  assert (N1 : nrun s s1).
  { unfold s1, do_sync. destruct (cur_seg m); [apply nrun_emit; apply neutral_sync|apply nrun_refl]. }
  set (s2 := if exists_file (s_disk s1) (FSegMeta id seq) then emit flat_ops (ERemove (FSegMeta id seq)) s1 else s1).
  assert (N2 : nrun s1 s2).
  { unfold s2. destruct (exists_file (s_disk s1) (FSegMeta id seq)); [|apply nrun_refl].
    apply nrun_emit. split; [reflexivity|split; [reflexivity|exact Logic.I]]. }
  destruct (nrun_trans _ _ _ N1 N2) as (es & T & D & Hn & _). exists es. split; [exact Hn|].
  cbn [with_mem s_trace s_disk]. rewrite s_trace_emit, s_disk_emit, T, D, fold_left_app, <- app_assoc.
  split; reflexivity.
Qed.

(* the three kinds of micro-step, by their events *)
Lemma compact_step_shape P (s : st) (c : cursor) s' c' :
  Inv P s -> (exists m, s_mem s = Some m /\ room m) ->
  compact_step flat_ops P s c = CMore s' c' ->
  (s_trace s' = s_trace s /\ s_disk s' = s_disk s) \/
  (exists r nid seq noff pre i2, rec_fits r /\ wr_pre_shape pre nid seq /\
     s_trace s' = s_trace s ++ pre ++ [EAppend nid seq noff r; EIndex i2] /\
     s_disk s' = run_evs (pre ++ [EAppend nid seq noff r; EIndex i2]) (s_disk s)) \/
  (exists es id seq, Forall neutral es /\
     s_trace s' = s_trace s ++ es ++ [ERemove (FSeg id seq)] /\
     s_disk s' = run_evs (es ++ [ERemove (FSeg id seq)]) (s_disk s)).
Proof.
  intros HI (m & Em & Hroom) E. pose proof (Inv_InvLog P s m Em HI) as HL.
  destruct (compact_step_inv flat_ops P s c m s' c' Em E)
    as [id seq todo _ _|id seq off f r _ _ _ _
       |id seq off f r i1 s1 m1 nid noff i2 _ Ef Hrec _ _ Ew _|id seq off f _ _ _ _ _].
  - left. split; reflexivity.
  - left. split; reflexivity.
  - right. left.
    assert (Hrf : rec_fits r)
      by (apply (rec_of_rec_fits (s_disk s) id off); [apply HL|unfold rec_of; rewrite Ef; exact Hrec]).
    destruct (write_record_full P r s m HL Hroom Hrf)
      as (s1' & m1' & nid' & noff' & Ew' & _ & _ & _ & _ & _ & _ & _ & (sq & pre & Et & Ed & Hsh) & _).
    rewrite Ew in Ew'. inversion Ew'; subst s1' m1' nid' noff'.
    exists r, nid, sq, noff, pre, i2. split; [exact Hrf|]. split; [exact Hsh|].
    cbn [with_mem s_trace s_disk]. rewrite s_trace_emit, s_disk_emit, Et, Ed. split.
    + rewrite <- !app_assoc. reflexivity.
    + rewrite !fold_left_app. reflexivity.
  - right. right. destruct (remove_segment_shape id seq s m) as (es & Hn & T & D). exists es, id, seq. auto.
Qed.

Lemma sync_only_images es : forall (d : disk) img,
  Forall is_sync es -> crash_image d es img -> img = d.
Proof.
  induction es as [|e es IH]; intros d img Hs H.
  - inversion H; subst. reflexivity.
  - inversion Hs as [|? ? (i & q & ->) Hs']; subst.
    inversion H as [d0 es0|d0 e0 es0 img0 H'|]; subst; [reflexivity|].
    apply (IH _ _ Hs' H').
Qed.

(* pickForCompaction + seal: Sync calls only; every image is the disk itself *)
Theorem crash_compact_pick P (s s' : st) (c : cursor) :
  Inv P s -> s_mem s <> None -> bac_ok (s_disk s) ->
  compact_pick flat_ops P (clear_trace s) = Some (s', c) ->
  Forall is_sync (s_trace s') /\ s_disk s' = s_disk s /\
  forall img, crash_image (s_disk s) (s_trace s') img ->
  img = s_disk s /\ DiskOK img /\ bac_ok img /\ d_lock img = true /\
  forall k, sget (abs img) k = sget (abs (s_disk s)) k.
Proof.
  intros HI Hm Hb E. pose proof (Inv_Good P s HI Hm Hb) as Hg.
  destruct (s_mem s) as [m|] eqn:Em; [|congruence].
  pose proof (Inv_InvLog P s m Em HI) as (_ & _ & Hinc & _).
  unfold compact_pick in E. cbn [clear_trace s_mem] in E. rewrite Em in E.
  destruct (cp_seal_all (pick P m) (clear_trace s) m Hinc) as (s1 & m1 & Ef & _ & Ed & _ & (es & Et & Hs) & _).
  rewrite Ef in E. injection E as <- _. cbn [with_mem s_trace s_disk]. cbn [clear_trace s_trace s_disk app] in Et, Ed.
  rewrite Et, Ed. split; [exact Hs|]. split; [reflexivity|].
  intros img Himg. rewrite (sync_only_images es _ _ Hs Himg).
  split; [reflexivity|]. apply (Good_with _ _ Hg). reflexivity.
Qed.

(* one micro-step of Compact: start of a segment / skip of a dead record (no event), promotion of a
   live record (writeRecord of a COPY, then the index), removal of the exhausted segment *)
Theorem crash_compact_step P (s : st) (c : cursor) s' c' :
  Inv P s -> CInv s c -> (exists m, s_mem s = Some m /\ room m) -> bac_ok (s_disk s) ->
  compact_step flat_ops P (clear_trace s) c = CMore s' c' ->
  forall img, crash_image (s_disk s) (s_trace s') img ->
  DiskOK img /\ bac_ok img /\ d_lock img = true /\ forall k, sget (abs img) k = sget (abs (s_disk s)) k.
Proof.
  intros HI HC Hroom Hb E img Himg.
  assert (Hmn : s_mem s <> None) by (destruct Hroom as (m & -> & _); discriminate).
  pose proof (Inv_Good P s HI Hmn Hb) as Hg.
  assert (HC' : CInv (clear_trace s) c) by exact HC.
  pose proof (compact_step_ok_ex P (clear_trace s) c (Inv_clear P s HI) HC' Hroom) as Hpost.
  rewrite E in Hpost. destruct Hpost as (HI' & _ & Hm' & Habs & _ & _ & _ & Hbac').
  cbn [clear_trace s_disk] in Habs, Hbac'.
  assert (Hb' : bac_ok (s_disk s')) by (unfold bac_ok; rewrite Hbac'; exact Hb).
  pose proof (Inv_Good P s' HI' Hm' Hb') as Hg'.
  destruct (compact_step_shape P (clear_trace s) c s' c' (Inv_clear P s HI) Hroom E)
    as [(T & _)|[(r & nid & sq & noff & pre & i2 & Hrf & Hsh & T & D)|(es & id & seq & Hn & T & D)]];
    cbn [clear_trace s_trace s_disk] in T; try rewrite app_nil_l in T.
  - rewrite T in Himg. inversion Himg; subst. apply (Good_with _ _ Hg). reflexivity.
  - cbn [clear_trace s_disk] in D. rewrite T in Himg.
    rewrite <- (app_nil_r [EAppend nid sq noff r; EIndex i2]) in Himg.
    destruct (write_images P s s' r nid sq noff pre i2 [] img Hg HI' Hm' Hrf Hsh (or_introl eq_refl) D Himg)
      as (G1 & G2 & G3 & Hc).
    refine (conj G1 (conj G2 (conj G3 _))). intros k. destruct Hc as [Hc|Hc]; rewrite Hc; [reflexivity|apply Habs].
  - cbn [clear_trace s_disk] in D. rewrite T in Himg.
    destruct (crash_image_split _ _ _ _ Himg) as [Hl|Hr].
    + destruct (neutral_images es (s_disk s) img Hn Hg Hl) as [G Ho].
      apply (Good_with _ _ G). intros k. rewrite (olog_abs _ _ Ho). reflexivity.
    + destruct (crash_image_single _ (ERemove (FSeg id seq)) _ eq_refl Hr) as [-> | ->].
      * destruct (neutral_images es (s_disk s) _ Hn Hg (crash_image_full es _)) as [G Ho].
        apply (Good_with _ _ G). intros k. rewrite (olog_abs _ _ Ho). reflexivity.
      * rewrite fold_left_app in D. cbn [fold_left] in D. rewrite <- D. exact (Good_with _ _ Hg' Habs).
Qed.

Theorem C03_compact_step P seed (s : st) (c : cursor) s' c' img :
  params_ok P -> Inv P s -> CInv s c -> (exists m, s_mem s = Some m /\ room m) -> bac_ok (s_disk s) ->
  compact_step flat_ops P (clear_trace s) c = CMore s' c' ->
  crash_image (s_disk s) (s_trace s') img ->
  exists s2, db_open flat_ops P seed {| s_mem := None; s_disk := img; s_trace := [] |} = (s2, OOpened true) /\
    Inv P s2 /\ s_mem s2 <> None /\ bac_ok (s_disk s2) /\
    (forall k, sget (abs (s_disk s2)) k = sget (abs (s_disk s)) k) /\
    (forall k, sget (abs (s_disk s2)) k = sget (abs (s_disk s')) k).
Proof.
  intros HP HI HC Hroom Hb E Himg.
  destruct (crash_compact_step P s c s' c' HI HC Hroom Hb E img Himg) as (G1 & G2 & G3 & Hc).
  apply (recovered P seed img _ HP G1 G2 G3). intros s2 Ha2.
  assert (HC' : CInv (clear_trace s) c) by exact HC.
  pose proof (compact_step_ok P (clear_trace s) c (Inv_clear P s HI) HC' Hroom) as Hpost.
  rewrite E in Hpost. destruct Hpost as (_ & _ & _ & Habs). cbn [clear_trace s_disk] in Habs.
  split; intros k; rewrite Ha2, Hc; [reflexivity|symmetry; apply Habs].
Qed.

Theorem C03_compact_pick P seed (s s' : st) (c : cursor) img :
  params_ok P -> Inv P s -> s_mem s <> None -> bac_ok (s_disk s) ->
  compact_pick flat_ops P (clear_trace s) = Some (s', c) ->
  crash_image (s_disk s) (s_trace s') img ->
  exists s2, db_open flat_ops P seed {| s_mem := None; s_disk := img; s_trace := [] |} = (s2, OOpened true) /\
    Inv P s2 /\ s_mem s2 <> None /\ bac_ok (s_disk s2) /\
    (forall k, sget (abs (s_disk s2)) k = sget (abs (s_disk s)) k).
Proof.
  intros HP HI Hm Hb E Himg.
  destruct (crash_compact_pick P s s' c HI Hm Hb E) as (_ & _ & H).
  destruct (H img Himg) as (_ & G1 & G2 & G3 & Hc).
  apply (recovered P seed img _ HP G1 G2 G3). intros s2 Ha2 k. rewrite Ha2. apply Hc.
Qed.

Definition ex_P : params :=
  {| p_maxseg := 540; p_minseg := 0; p_frag := fun _ _ => false; p_sync := true;
     p_grow := fun _ _ => false; p_hash := fun _ _ => 0 |}.
Definition ex_k : key := [5].
Definition ex_v : val := [6; 7].
Definition ex_s1 : st := Eval vm_compute in fst (db_open flat_ops ex_P 7 (closed disk0)).
Definition ex_s2 : st := Eval vm_compute in fst (db_put flat_ops ex_P [1] [2] (clear_trace ex_s1)).
Definition ex_s3 : st := Eval vm_compute in fst (db_put flat_ops ex_P [3] [4] (clear_trace ex_s2)).
Definition ex_s4 : st := Eval vm_compute in fst (db_put flat_ops ex_P ex_k ex_v (clear_trace ex_s3)).
Definition ex_pre : list fsev := [ESync (FSeg 0 1); ECreate (FSeg 1 2); EHeader (FSeg 1 2)].
Definition ex_img : disk := Eval vm_compute in torn (run_evs ex_pre (s_disk ex_s3)) 1 2 (mkput ex_k ex_v) 5.

Lemma ex_open : db_open flat_ops ex_P 7 (closed disk0) = (ex_s1, OOpened false).
Proof. vm_compute. reflexivity. Qed.
Lemma ex_put1 : db_put flat_ops ex_P [1] [2] (clear_trace ex_s1) = (ex_s2, OOk).
Proof. vm_compute. reflexivity. Qed.
Lemma ex_put2 : db_put flat_ops ex_P [3] [4] (clear_trace ex_s2) = (ex_s3, OOk).
Proof. vm_compute. reflexivity. Qed.
Lemma ex_put3 : db_put flat_ops ex_P ex_k ex_v (clear_trace ex_s3) = (ex_s4, OOk).
Proof. vm_compute. reflexivity. Qed.

Lemma ex_params_ok : params_ok ex_P. Proof. reflexivity. Qed.

Lemma ex_inv1 : Inv ex_P ex_s1.
Proof.
  unfold Inv, ex_s1. cbn [s_mem s_disk].
  split; [|split; [|split; [|split; [|split; [|split; [|split; [reflexivity|split; reflexivity]]]]]]].
  - unfold DiskOK. cbn [d_segs map f_id f_seq]. split; [|split].
    + constructor; [|constructor]. unfold dseg_ok. cbn [f_recs f_tail f_hdr].
      split; [constructor|]. split; [apply tail_stuck_nil|]. split; [constructor|].
      split; [discriminate|reflexivity].
    + constructor; [intros []|constructor].
    + constructor; [intros []|constructor].
  - split.
    + intros g [<-|[]]. eexists. split; [left; reflexivity|]. repeat split.
    + intros f [<-|[]]. eexists. split; [left; reflexivity|]. repeat split.
  - split; [intros g' []|exact Logic.I].
  - split.
    + intros g [<-|[]]. cbn [g_seq m_maxseq]. lia.
    + intros g g' [<-|[]] [<-|[]] _. cbn [g_seq]. lia.
  - intros _. eexists. split; [left; reflexivity|]. split; reflexivity.
  - unfold index_agrees. cbn [m_idx map find option_map]. split; [constructor|]. split; [constructor|].
    intros k. reflexivity.
Qed.

Lemma ex_inv2 : Inv ex_P ex_s2.
Proof.
  pose proof (put_ok ex_P (clear_trace ex_s1) [1] [2] ex_params_ok (Inv_clear _ _ ex_inv1)) as H.
  rewrite ex_put1 in H. apply H.
  - apply open_room_b_ok. vm_compute. reflexivity.
  - apply forallb_byte. reflexivity.
  - apply forallb_byte. reflexivity.
  - vm_compute. discriminate.
  - vm_compute. discriminate.
Qed.

Lemma ex_inv3 : Inv ex_P ex_s3.
Proof.
  pose proof (put_ok ex_P (clear_trace ex_s2) [3] [4] ex_params_ok (Inv_clear _ _ ex_inv2)) as H.
  rewrite ex_put2 in H. apply H.
  - apply open_room_b_ok. vm_compute. reflexivity.
  - apply forallb_byte. reflexivity.
  - apply forallb_byte. reflexivity.
  - vm_compute. discriminate.
  - vm_compute. discriminate.
Qed.

Example crash_put_nonvacuous :
  (* the hypotheses of crash_put / C03_put *)
  params_ok ex_P /\ Inv ex_P ex_s3 /\ (exists m, s_mem ex_s3 = Some m /\ room m) /\ bac_ok (s_disk ex_s3) /\
  Forall byte ex_k /\ Forall byte ex_v /\ nlen ex_k <= max_key_len /\ nlen ex_v <= max_val_len /\
  db_put flat_ops ex_P ex_k ex_v (clear_trace ex_s3) = (ex_s4, OOk) /\
  (* the Put seals segment 0, creates segment 1 and appends there *)
  s_trace ex_s4 = ex_pre ++ [EAppend 1 2 512 (mkput ex_k ex_v);
                             EIndex (match s_mem ex_s4 with Some m => m_idx m | None => [] end);
                             ESync (FSeg 1 2)] /\
  (* a torn image: 5 of the 13 bytes of the record reached the new segment file *)
  crash_image (s_disk ex_s3) (s_trace ex_s4) ex_img /\
  ex_img = torn (run_evs ex_pre (s_disk ex_s3)) 1 2 (mkput ex_k ex_v) 5 /\
  (exists f, In f (d_segs ex_img) /\ nlen (f_tail f) = 5) /\
  (* it holds exactly the contents before the Put; the completed Put holds the new value *)
  abs ex_img = abs (s_disk ex_s3) /\ sget (abs ex_img) ex_k = None /\ sget (abs ex_img) [1] = Some [2] /\
  sget (abs (s_disk ex_s4)) ex_k = Some ex_v.
Proof.
  split; [exact ex_params_ok|]. split; [exact ex_inv3|].
  split; [apply open_room_b_ok; vm_compute; reflexivity|]. split; [constructor|].
  split; [apply forallb_byte; reflexivity|]. split; [apply forallb_byte; reflexivity|].
  split; [vm_compute; discriminate|]. split; [vm_compute; discriminate|].
  split; [exact ex_put3|]. split; [reflexivity|].
  split.
  - change (s_trace ex_s4) with (ex_pre ++ [EAppend 1 2 512 (mkput ex_k ex_v);
                             EIndex (match s_mem ex_s4 with Some m => m_idx m | None => [] end);
                             ESync (FSeg 1 2)]).
    apply crash_image_app_r.
    change ex_img with (torn (run_evs ex_pre (s_disk ex_s3)) 1 2 (mkput ex_k ex_v) 5).
    apply ci_torn; reflexivity.
  - split; [reflexivity|]. split.
    + eexists. split; [right; left; reflexivity|reflexivity].
    + repeat split; vm_compute; reflexivity.
Qed.

(* ... and recovery from that image gives a consistent database with the old contents *)
Example crash_put_nonvacuous_recover :
  exists s2, db_open flat_ops ex_P 9 {| s_mem := None; s_disk := ex_img; s_trace := [] |} = (s2, OOpened true) /\
    Inv ex_P s2 /\ (forall k', sget (abs (s_disk s2)) k' = sget (abs (s_disk ex_s3)) k') /\
    sget (abs (s_disk s2)) ex_k = None /\ sget (abs (s_disk s2)) [3] = Some [4].
Proof.
  destruct crash_put_nonvacuous as (HP & HI & Hroom & Hb & Hbk & Hbv & Hk & Hv & Eput & _ & Himg & _ & _ & Eabs & _).
  destruct (crash_put ex_P ex_s3 ex_s4 ex_k ex_v OOk HP HI Hroom Hb Hbk Hbv Hk Hv Eput ex_img Himg) as (G1 & G2 & G3 & _).
  destruct (crash_then_recover ex_P 9 ex_img HP G1 G2 G3) as (s2 & E2 & HI2 & _ & _ & Ha2).
  exists s2. split; [exact E2|]. split; [exact HI2|].
  split; [intros k'; rewrite Ha2, Eabs; reflexivity|]. rewrite !Ha2. split; vm_compute; reflexivity.
Qed.


Print Assumptions crash_image_split.
Print Assumptions image_facts_indep.
Print Assumptions crash_facts_indep.
Print Assumptions crash_promote.
Print Assumptions crash_put.
Print Assumptions crash_delete.
Print Assumptions crash_sync.
Print Assumptions crash_then_recover.
Print Assumptions C03_put.
Print Assumptions C03_delete.
Print Assumptions C03_sync.
Print Assumptions crash_close.
Print Assumptions C03_close.
Print Assumptions crash_open_recover.
Print Assumptions C04_recover_after_crashed_recovery.
Print Assumptions C04_chain.
Print Assumptions C04_epoch.
Print Assumptions crash_compact_pick.
Print Assumptions crash_compact_step.
Print Assumptions C03_compact_step.
Print Assumptions C03_compact_pick.
Print Assumptions crash_put_nonvacuous.
Print Assumptions crash_put_nonvacuous_recover.
