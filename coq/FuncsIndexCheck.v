(* FuncsIndexCheck.v -- OBLIGATIONS tying the integer code of the index (index.go: bucketIndex,
   bucketOffset, the split-pointer advance in split; bucket.go: slot.kvSize; compaction.go: the slot
   test of promoteRecord) AS TRANSLATED FROM THE CURRENT SOURCES (gen/Funcs.v, regenerated on every
   run by tools/gotrans) to the definitions the model and all its theorems use (Index.v).
   Each statement quantifies over ALL values of the Go types involved. *)
From Coq Require Import ZArith NArith Bool Lia.
From Pogreb Require Import Base Index GoSem.
From Pogreb.gen Require Import Funcs.
Open Scope Z_scope.

(* masking with the n low bits, on N and on Z *)
Lemma land_ones_NZ h n : Z.land (Z.of_N h) (Z.ones (Z.of_N n)) = Z.of_N (N.land h (N.ones n)).
Proof.
  rewrite Z.land_ones by lia. rewrite N.land_ones. rewrite N2Z.inj_mod, N2Z.inj_pow. reflexivity.
Qed.

Lemma pow2_le_32 l : 0 <= l <= 32 -> 0 < 2 ^ l <= 4294967296.
Proof.
  intros H. split. apply Z.pow_pos_nonneg; lia.
  rewrite <- p2_32. apply Z.pow_le_mono_r; lia.
Qed.

(* (1 << l) - 1 in uint32, for l <= 32, is the mask of the l low bits (for l = 32: 0 - 1 wraps) *)
Lemma mask32 l : 0 <= l <= 32 -> go_sub (U 32) (go_shl (U 32) 1 l) 1 = Z.ones l.
Proof.
  intros H. unfold go_sub, go_shl. rewrite Z.shiftl_1_l. rewrite Z.ones_equiv.
  pose proof (pow2_le_32 l H) as P.
  destruct (Z.eq_dec l 32) as [->|N].
  - cbn [wrap]. rewrite Z.mod_same by (rewrite p2_32; lia). rewrite p2_32. reflexivity.
  - assert (L : 2 ^ l < 4294967296).
    { rewrite <- p2_32. apply Z.pow_lt_mono_r; lia. }
    rewrite (wrap_U32 (2 ^ l)) by lia. rewrite wrap_U32 by lia. lia.
Qed.

(* index.bucketIndex = Index.bucket_index, for every hash, split pointer and level < 32
   (numBuckets is a uint32, so level <= 32; at level 32 `level + 1` would still be fine in uint8 but
   1 << 33 is 0 in uint32: the statement is for the levels a database can reach) *)
Theorem bucketIndex_ok : forall level split h : N,
  (level < 32)%N -> (split < 2 ^ 32)%N -> (h < 2 ^ 32)%N ->
  go_bucketIndex (Z.of_N level) (Z.of_N split) (Z.of_N h) = Z.of_N (bucket_index level split h).
Proof.
  intros level split h Hl _ _. unfold go_bucketIndex, bucket_index.
  rewrite mask32 by lia.
  unfold go_add at 1. rewrite wrap_U8 by lia.
  rewrite mask32 by lia.
  unfold go_and, go_ltb.
  rewrite <- (N2Z.inj_add _ 1), !land_ones_NZ, ltb_NZ.
  destruct (N.land h (N.ones level) <? split)%N; reflexivity.
Qed.

(* the split-pointer advance of index.split = Index.advance, while the pointer is inside its level *)
Theorem split_advance_ok : forall level split : N,
  (level < 32)%N -> (split < 2 ^ level)%N ->
  go_split_advance (Z.of_N level) (Z.of_N split) =
  (Z.of_N (fst (advance level split)), Z.of_N (snd (advance level split))).
Proof.
  intros level split Hl Hs. unfold go_split_advance, advance.
  assert (P : (2 ^ level < 2 ^ 32)%N) by (apply N.pow_lt_mono_r; lia).
  change (2 ^ 32)%N with 4294967296%N in P.
  unfold go_add, go_shl, go_eqb. rewrite Z.shiftl_1_l, <- (N2Z.inj_pow 2), <- !(N2Z.inj_add _ 1).
  rewrite !wrap_U32_N, !N.mod_small, wrap_U8, eqb_NZ by lia.
  destruct (split + 1 =? 2 ^ level)%N; reflexivity.
Qed.

(* bucketOffset: bucket i of an index file lives at 512 + 512 * i (header, then 512-byte buckets) *)
Theorem bucketOffset_ok : forall i : N, (i < 2 ^ 32)%N ->
  go_bucketOffset (Z.of_N i) = Z.of_N (512 + 512 * i).
Proof.
  intros i Hi. change (2 ^ 32)%N with 4294967296%N in Hi. unfold go_bucketOffset, go_conv, go_mul, go_add.
  rewrite (wrap_S64 (Z.of_N i)) by lia.
  rewrite (wrap_S64 (512 * Z.of_N i)) by lia.
  rewrite wrap_S64 by lia. lia.
Qed.

(* slot.kvSize and the size of the record a slot points to *)
Theorem kvSize_ok : forall ks vs : N, (ks < 2 ^ 16)%N -> (vs < 2 ^ 31)%N ->
  go_kvSize (Z.of_N ks) (Z.of_N vs) = Z.of_N (ks + vs).
Proof.
  intros ks vs Hk Hv. change (2 ^ 16)%N with 65536%N in Hk. change (2 ^ 31)%N with 2147483648%N in Hv.
  unfold go_kvSize, go_conv, go_add. rewrite (wrap_U32 (Z.of_N ks)) by lia. rewrite wrap_U32 by lia. lia.
Qed.

(* promoteRecord skips a slot exactly when it is not Index.rp_hit *)
Theorem promote_other_ok : forall (h seg off : N) (s : slot),
  go_promote_other (Z.of_N h) (Z.of_N (sl_h s)) (Z.of_N off) (Z.of_N (sl_off s)) (Z.of_N seg) (Z.of_N (sl_seg s))
  = negb (rp_hit h seg off s).
Proof.
  intros h seg off s. unfold go_promote_other, go_neqb, rp_hit.
  rewrite !eqb_NZ, (N.eqb_sym h), (N.eqb_sym off), (N.eqb_sym seg).
  destruct (sl_h s =? h)%N, (sl_off s =? off)%N, (sl_seg s =? seg)%N; reflexivity.
Qed.

(* ItemIterator.Next refills its queue exactly when DB.dbiter_fill does: the queue is empty and the
   next bucket index is below the CURRENT number of buckets of the index (re-read on every call) *)
Theorem iter_more_ok : forall (qlen next nbuckets : N),
  go_iter_more (Z.of_N qlen) (Z.of_N next) (Z.of_N nbuckets) = ((qlen =? 0)%N && (next <? nbuckets)%N).
Proof.
  intros qlen next nbuckets. unfold go_iter_more, go_eqb, go_ltb.
  rewrite (eqb_NZ _ 0), ltb_NZ. reflexivity.
Qed.
