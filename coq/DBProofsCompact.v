(* DBProofsCompact.v -- compaction (Compact = pick + seal ; per picked segment: start, one record per
   critical section, remove) of the database model instantiated with the flat reference index is
   LOGICALLY INVISIBLE at every micro-step, with arbitrary writer operations (Put, Delete, Sync)
   interleaved between micro-steps, and leaks no files.  No axioms (Print Assumptions at the end).

   EXTRA INVARIANT (DBMeta.v): [MetaOK s] -- the in-memory DeleteRecords counter of every live segment
   is exact.  pickForCompaction trusts that counter; [Inv] does not constrain it, and
   [wrong_counter_refuted] below is a concrete [inv_b]-state in which db_compact resurrects a key.
   MetaOK is a hypothesis of compact_pick_ok / db_compact_ok only, and is preserved by every operation
   of this file.  After the pick, the cursor invariant is purely about the disk.

   The cursor invariant [CInv s c]: every remaining picked segment is live and sealed; they are ordered
   by increasing sequence id; for the source (id, seq, off): off is a record boundary of its file and
   every index slot pointing into it has sl_off >= off; for every remaining picked segment that holds a
   delete record, EVERY older live segment is itself among the remaining ones (so, the list being
   ordered, precedes it; when its turn comes it is the oldest live segment).  Slots into removed
   segments cannot exist by Inv (no_slot_into_removed).

   [wact_ok] is the whole of it for one critical section of a writer or of the compactor;
   pick_without_seal_refuted, remove_meta_wrong_ext_refuted and wrong_counter_refuted (vm_compute) show
   that the seal inside the pick, the removal of the side file and MetaOK are needed. *)
From Coq Require Import ZArith Lia ZifyN ZifyNat ZifyBool Permutation Sorted.
From Pogreb Require Import Base BaseLemmas Crc Bytes Record RecordProofs Flat Spec DB DBInv DBLemmas DBProofsOps DBMeta DBProofsRecovery.
Ltac Zify.zify_post_hook ::= Z.div_mod_to_equations.

Local Notation disk := (@DB.disk flat).
Local Notation st := (@DB.st flat).
Local Notation mem := (@DB.mem flat).
Local Notation fsev := (@DB.fsev flat).


(* counters may change, "full" may get set; identity, size and the delete-record counter stay *)
Definition mkeep (g g' : mseg) : Prop :=
  g_id g' = g_id g /\ g_seq g' = g_seq g /\ g_size g' = g_size g /\
  (sm_full (g_meta g) = true -> sm_full (g_meta g') = true) /\
  sm_delrec (g_meta g') = sm_delrec (g_meta g).

Lemma mkeep_refl g : mkeep g g. Proof. repeat split; auto. Qed.
Lemma mkeep_trans a b c : mkeep a b -> mkeep b c -> mkeep a c.
Proof.
  intros (A1 & A2 & A3 & A4 & A5) (B1 & B2 & B3 & B4 & B5).
  repeat split; try congruence. auto.
Qed.

Lemma mkeep2_mkeep g g' : mkeep2 g g' -> mkeep g g'.
Proof. intros (A1 & A2 & A3 & A4 & A5 & _). repeat split; assumption. Qed.

Lemma msim2_mem_sim (m m' : mem) : msim2 mkeep m m' -> mem_sim m m'.
Proof. apply msim2_mseg_sim. intros g g' (H1 & H2 & H3 & H4 & _). repeat split; assumption. Qed.

Lemma msim2_ids_increasing (m m' : mem) : msim2 mkeep m m' -> ids_increasing (m_segs m) -> ids_increasing (m_segs m').
Proof.
  intros ((F & HF & EF) & _) H. rewrite EF. apply ids_increasing_map; [|exact H]. intros g. apply (HF g).
Qed.



Definition cp_ptr_from (m : key -> option (N * N)) (l : list entry) := fold_left upd_ptr l m.

Lemma cp_ptrl_eq l : ptrl l = cp_ptr_from (fun _ => None) l. Proof. reflexivity. Qed.

(* the last entry for a key decides *)
Definition last_for (k : key) (l : list entry) : option entry := find (fun e => key_eqb k (rk (snd e))) (rev l).

Lemma last_for_app k l1 l2 :
  last_for k (l1 ++ l2) = match last_for k l2 with Some e => Some e | None => last_for k l1 end.
Proof. unfold last_for. rewrite rev_app_distr. apply find_app. Qed.

Lemma cp_from_closed m l k :
  cp_ptr_from m l k =
  match last_for k l with
  | Some e => if rdel (snd e) then None else Some (fst (fst e), snd (fst e))
  | None => m k
  end.
Proof.
  induction l as [|e l IH] using rev_ind; [reflexivity|].
  unfold cp_ptr_from. rewrite fold_left_app, last_for_app. cbn [fold_left]. rewrite upd_ptr_eq.
  unfold last_for at 1. cbn [rev app find]. destruct (key_eqb k (rk (snd e))); [reflexivity|exact IH].
Qed.

(* Removing the entries S of one segment from the ordered log l1 ++ S ++ l2 does not change what a
   replay yields, provided no rebuilt pointer points into S and S holds delete records only if
   nothing older is left. *)
Theorem ptrl_remove_segment (l1 S l2 : list entry) :
  (forall k id off, ptrl (l1 ++ S ++ l2) k = Some (id, off) -> forall r, ~ In (id, off, r) S) ->
  (l1 = [] \/ forall e, In e S -> rdel (snd e) = false) ->
  forall k, ptrl (l1 ++ l2) k = ptrl (l1 ++ S ++ l2) k.
Proof.
  intros Hlive Hdel k. specialize (Hlive k). rewrite (cp_ptrl_eq (l1 ++ l2)).
  rewrite (cp_ptrl_eq (l1 ++ S ++ l2)) in Hlive |- *. rewrite cp_from_closed, !last_for_app in Hlive.
  rewrite !cp_from_closed, !last_for_app.
  destruct (last_for k l2) as [e2|]; [reflexivity|].
  destruct (last_for k S) as [[[id off] r]|] eqn:ES; [|reflexivity].
  apply find_some in ES. destruct ES as [HIn _]. apply (proj2 (in_rev _ _)) in HIn. cbn [fst snd] in *.
  destruct (rdel r) eqn:Er.
  - destruct Hdel as [->|Hput]; [reflexivity|]. pose proof (Hput _ HIn) as H. cbn [snd] in H. congruence.
  - exfalso. exact (Hlive id off eq_refl r HIn).
Qed.

Theorem absl_remove_segment (l1 S l2 : list entry) :
  (forall id off r r', In (id, off, r) (l1 ++ S ++ l2) -> In (id, off, r') (l1 ++ S ++ l2) -> r = r') ->
  (forall k id off, ptrl (l1 ++ S ++ l2) k = Some (id, off) -> forall r, ~ In (id, off, r) S) ->
  (l1 = [] \/ forall e, In e S -> rdel (snd e) = false) ->
  forall k, sget (absl (l1 ++ l2)) k = sget (absl (l1 ++ S ++ l2)) k.
Proof.
  intros Hfun Hlive Hdel k. pose proof (ptrl_remove_segment l1 S l2 Hlive Hdel k) as Hp.
  destruct (ptrl_absl (l1 ++ l2) k) as [A1 A2]. destruct (ptrl_absl (l1 ++ S ++ l2) k) as [B1 B2].
  destruct (ptrl (l1 ++ S ++ l2) k) as [[id off]|] eqn:E.
  - destruct (A1 id off Hp) as (r' & Hin' & _ & _ & G'). destruct (B1 id off eq_refl) as (r & Hin & _ & _ & G).
    assert (r' = r); [|congruence].
    apply (Hfun id off r' r); [|exact Hin]. apply in_app_or in Hin'. apply in_or_app.
    destruct Hin' as [H|H]; [left; exact H|right; apply in_or_app; right; exact H].
  - rewrite (A2 Hp), (B2 eq_refl). reflexivity.
Qed.


(* the picked segments still to be processed, the source first *)
Definition crem (c : cursor) : list (N * N) :=
  match c_src c with Some (id, seq, _) => (id, seq) :: c_todo c | None => c_todo c end.

(* segment [id] holds a delete record *)
Definition has_del (d : disk) (id : N) : Prop := exists off r, rec_of d id off = Some r /\ rdel r = true.

(* a live segment that accepts no more writes *)
Definition sealed (m : mem) (x : N * N) : Prop :=
  exists g, In g (m_segs m) /\ g_id g = fst x /\ g_seq g = snd x /\ sm_full (g_meta g) = true.

(* [off] is the offset of a record of [f] or the end of its records *)
Definition boundary (f : dseg) (off : N) : Prop :=
  exists pre post, f_recs f = pre ++ post /\ off = header_size + recs_len pre.

Definition pair_lt (a b : N * N) : Prop := snd a < snd b.

Definition CInv (s : st) (c : cursor) : Prop :=
  exists m, s_mem s = Some m /\
    (* every remaining picked segment is live and sealed *)
    (forall x, In x (crem c) -> sealed m x) /\
    (* oldest first *)
    StronglySorted pair_lt (crem c) /\
    (* the source: the cursor is at a record boundary; what lies before it is no longer referenced *)
    (match c_src c with
     | None => True
     | Some (id, seq, off) =>
         (exists f, find_dseg id (s_disk s) = Some f /\ boundary f off) /\
         (forall sl, In sl (m_idx m) -> sl_seg sl = id -> off <= sl_off sl)
     end) /\
    (* a remaining picked segment with a delete record: every older live segment is also still to be
       processed (hence, the list being ordered, comes before it) *)
    (forall x, In x (crem c) -> has_del (s_disk s) (fst x) ->
       forall g, In g (m_segs m) -> g_seq g < snd x -> In (g_id g, g_seq g) (crem c)).

(* CInv in two parts: the remaining picked segments; the position in the source *)
Definition PickedOK (m : mem) (d : disk) (l : list (N * N)) : Prop :=
  (forall x, In x l -> sealed m x) /\ StronglySorted pair_lt l /\
  (forall x, In x l -> has_del d (fst x) ->
     forall g, In g (m_segs m) -> g_seq g < snd x -> In (g_id g, g_seq g) l).

Definition SrcOK (m : mem) (d : disk) (src : option (N * N * N)) : Prop :=
  match src with
  | None => True
  | Some (id, seq, off) =>
      (exists f, find_dseg id d = Some f /\ boundary f off) /\
      (forall sl, In sl (m_idx m) -> sl_seg sl = id -> off <= sl_off sl)
  end.

Lemma CInv_iff (s : st) (c : cursor) :
  CInv s c <-> exists m, s_mem s = Some m /\ PickedOK m (s_disk s) (crem c) /\ SrcOK m (s_disk s) (c_src c).
Proof. unfold CInv, PickedOK, SrcOK. split; intros (m & Em & H); exists m; (split; [exact Em|tauto]). Qed.

Lemma CInv_open (s : st) (c : cursor) m :
  CInv s c -> s_mem s = Some m -> PickedOK m (s_disk s) (crem c) /\ SrcOK m (s_disk s) (c_src c).
Proof. intros HC Em. apply CInv_iff in HC. destruct HC as (m0 & Em0 & H). congruence. Qed.

Lemma CInv_intro (s : st) (c : cursor) m :
  s_mem s = Some m -> PickedOK m (s_disk s) (crem c) -> SrcOK m (s_disk s) (c_src c) -> CInv s c.
Proof. intros Em H1 H2. apply CInv_iff. exists m. auto. Qed.

Lemma Inv_msim2 P (s s' : st) (m m' : mem) :
  Inv P s -> s_mem s = Some m -> msim2 mkeep m m' -> s_mem s' = Some m' -> s_disk s' = s_disk s -> Inv P s'.
Proof.
  intros HI Em Hsim Em' Ed. destruct (Inv_open P s m Em HI) as (HL & Hidx & Hlock & Hindex & Hovf).
  pose proof Hsim as (_ & _ & _ & _ & Eidx & Eseed).
  apply (Inv_intro P s' m' Em'); rewrite Ed, ?Eidx, ?Eseed; try assumption.
  apply (mem_sim_InvLog m); [apply msim2_mem_sim; exact Hsim|exact HL].
Qed.

Definition metaok (m : mem) (d : disk) : Prop :=
  forall g f, In g (m_segs m) -> find_dseg (g_id g) d = Some f ->
    sm_delrec (g_meta g) = nlen (filter rdel (f_recs f)).

Lemma MetaOK_eq (s : st) m : s_mem s = Some m -> (MetaOK s <-> metaok m (s_disk s)).
Proof. unfold MetaOK, metaok. intros ->. reflexivity. Qed.

(* the counters stay exact when every segment afterwards is an old one with the same counter and the
   same records on disk *)
Lemma metaok_mono (m m' : mem) (d d' : disk) :
  (forall g', In g' (m_segs m') ->
     exists g, In g (m_segs m) /\ g_id g = g_id g' /\ sm_delrec (g_meta g) = sm_delrec (g_meta g')) ->
  (forall g', In g' (m_segs m') ->
     option_map f_recs (find_dseg (g_id g') d') = option_map f_recs (find_dseg (g_id g') d)) ->
  metaok m d -> metaok m' d'.
Proof.
  intros Hg Hf HM g' f' Hg' Ef'. destruct (Hg g' Hg') as (g & Hin & Eid & <-).
  pose proof (Hf g' Hg') as H. rewrite Ef' in H.
  destruct (find_dseg (g_id g') d) as [f|] eqn:Ef; [|discriminate]. injection H as ->.
  apply (HM g f Hin). rewrite Eid. exact Ef.
Qed.

Lemma cp_metaok_sim (m m' : mem) (d d' : disk) :
  msim2 mkeep m m' -> (forall id, find_dseg id d' = find_dseg id d) -> metaok m d -> metaok m' d'.
Proof.
  intros Hsim Hf. apply metaok_mono.
  - intros g' Hg'. destruct (msim2_In_inv _ _ _ g' Hsim Hg') as (g & Hg & K1 & _ & _ & _ & K5). exists g. auto.
  - intros g' _. rewrite Hf. reflexivity.
Qed.

Lemma sorted_app_l {A} (R : A -> A -> Prop) (l1 l2 : list A) :
  StronglySorted R (l1 ++ l2) -> StronglySorted R l1.
Proof.
  induction l1 as [|a l1 IH]; cbn [app]; intros H; [constructor|].
  inversion H as [|? ? H' Ha]; subst. constructor; [exact (IH H')|]. exact (proj1 (proj1 (Forall_app _ _ _) Ha)).
Qed.

Lemma cp_sorted_app {A} (R : A -> A -> Prop) (l1 l2 : list A) :
  StronglySorted R l1 -> StronglySorted R l2 -> (forall x y, In x l1 -> In y l2 -> R x y) ->
  StronglySorted R (l1 ++ l2).
Proof.
  induction l1 as [|a l1 IH]; intros H1 H2 H; [exact H2|].
  inversion H1 as [|? ? H1' Ha]; subst. cbn [app]. constructor.
  - apply IH; [exact H1'|exact H2|]. intros x y Hx Hy. apply H; [right; exact Hx|exact Hy].
  - apply Forall_forall. intros y Hy. apply in_app_or in Hy. destruct Hy as [Hy|Hy].
    + exact (proj1 (Forall_forall _ _) Ha y Hy).
    + apply H; [left; reflexivity|exact Hy].
Qed.

Lemma cp_sorted_map {A B} (R : A -> A -> Prop) (R' : B -> B -> Prop) (h : A -> B) l :
  (forall a b, R a b -> R' (h a) (h b)) -> StronglySorted R l -> StronglySorted R' (map h l).
Proof.
  intros HR. induction l as [|a l IH]; intros H; [constructor|].
  inversion H as [|? ? H' Ha]; subst. cbn [map]. constructor; [apply IH; exact H'|].
  apply Forall_forall. intros y Hy. apply in_map_iff in Hy. destruct Hy as (b & <- & Hb).
  apply HR. exact (proj1 (Forall_forall _ _) Ha b Hb).
Qed.

Lemma cp_sorted_head {A} (R : A -> A -> Prop) a l x : StronglySorted R (a :: l) -> In x l -> R a x.
Proof. intros H Hx. inversion H as [|? ? _ Ha]; subst. exact (proj1 (Forall_forall _ _) Ha x Hx). Qed.

Lemma cp_sorted_tail {A} (R : A -> A -> Prop) a l : StronglySorted R (a :: l) -> StronglySorted R l.
Proof. intros H. inversion H; assumption. Qed.

Lemma cp_seq_inj (m : mem) (d : disk) a b :
  InvLog m d -> In a (m_segs m) -> In b (m_segs m) -> g_seq a = g_seq b -> a = b.
Proof.
  intros ((_ & _ & Hnseq) & [Ha1 _] & Hinc & _) Ha Hb E.
  destruct (Ha1 a Ha) as (fa' & Hfa & A1 & A2 & _). destruct (Ha1 b Hb) as (fb & Hfb & B1 & B2 & _).
  assert (fa' = fb) by (apply (NoDup_map_inj f_seq _ fa' fb Hnseq Hfa Hfb); congruence). subst fb.
  apply (ids_increasing_unique _ a b Hinc Ha Hb). congruence.
Qed.

Definition lt_seq (a b : mseg) : Prop := g_seq a < g_seq b.

Lemma cp_by_seq_sorted_lt (m : mem) (d : disk) : InvLog m d -> StronglySorted lt_seq (by_seq (m_segs m)).
Proof.
  intros HI. apply (isort_sorted_lt g_seq). apply rc_NoDup_map_inj_on.
  - apply (NoDup_map_inv g_id). apply ids_increasing_NoDup. apply HI.
  - intros a b. apply (cp_seq_inj m d a b HI).
Qed.

Lemma cp_pick_rev P rs : forall acc,
  StronglySorted lt_seq (rev rs) ->
  exists front, pick_rev P rs acc = front ++ acc /\
    StronglySorted lt_seq front /\ (forall x, In x front -> In x (rev rs)) /\
    (forall x, In x front -> 0 < sm_delrec (g_meta x) ->
       forall y, In y (rev rs) -> g_seq y < g_seq x -> In y front).
Proof.
  induction rs as [|g older IH]; intros acc Hs.
  - exists []. split; [reflexivity|]. split; [constructor|]. split; intros x [].
  - cbn [rev] in Hs |- *. pose proof (sorted_app_l _ _ _ Hs) as Hs1. destruct (sorted_app_inv _ _ _ Hs) as [_ Hlt].
    assert (Hmax : forall y, In y (rev older) -> g_seq y < g_seq g).
    { intros y Hy. apply (Hlt y g Hy). left. reflexivity. }
    assert (Hskip : exists front, pick_rev P older acc = front ++ acc /\
      StronglySorted lt_seq front /\ (forall x, In x front -> In x (rev older ++ [g])) /\
      (forall x, In x front -> 0 < sm_delrec (g_meta x) ->
         forall y, In y (rev older ++ [g]) -> g_seq y < g_seq x -> In y front)).
    { destruct (IH acc Hs1) as (front & E & F1 & F2 & F3). exists front.
      split; [exact E|]. split; [exact F1|]. split.
      - intros x Hx. apply in_or_app. left. apply F2. exact Hx.
      - intros x Hx Hd y Hy Hyx. apply in_app_or in Hy. destruct Hy as [Hy|[<-|[]]]; [apply (F3 x Hx Hd y Hy Hyx)|].
        pose proof (Hmax x (F2 x Hx)). lia. }
    cbn [pick_rev].
    destruct (u32 (g_size g) <? p_minseg P); [exact Hskip|].
    destruct (negb (p_frag P (sm_delbytes (g_meta g)) (g_size g))); [exact Hskip|].
    destruct (N.ltb_spec 0 (sm_delrec (g_meta g))) as [Hd|Hd].
    + exists (rev older ++ [g]). split; [rewrite <- app_assoc; reflexivity|]. split; [exact Hs|].
      split; [auto|]. intros x _ _ y Hy _. exact Hy.
    + destruct (IH (g :: acc) Hs1) as (front & E & F1 & F2 & F3). exists (front ++ [g]).
      split; [rewrite E, <- app_assoc; reflexivity|]. split; [|split].
      * apply cp_sorted_app; [exact F1|constructor; constructor|].
        intros x y Hx [<-|[]]. apply Hmax. apply F2. exact Hx.
      * intros x Hx. apply in_app_or in Hx. apply in_or_app. destruct Hx as [Hx|Hx]; [left; apply F2; exact Hx|right; exact Hx].
      * intros x Hx Hdx y Hy Hyx. apply in_app_or in Hx. destruct Hx as [Hx|[<-|[]]]; [|lia].
        apply in_or_app. left. apply in_app_or in Hy. destruct Hy as [Hy|[<-|[]]]; [apply (F3 x Hx Hdx y Hy Hyx)|].
        pose proof (Hmax x (F2 x Hx)). lia.
Qed.

Lemma cp_pick_spec P (m : mem) (d : disk) :
  InvLog m d ->
  StronglySorted lt_seq (pick P m) /\ (forall g, In g (pick P m) -> In g (m_segs m)) /\
  (forall x, In x (pick P m) -> 0 < sm_delrec (g_meta x) ->
     forall y, In y (m_segs m) -> g_seq y < g_seq x -> In y (pick P m)).
Proof.
  intros HI. unfold pick.
  assert (Hs : StronglySorted lt_seq (rev (rev (by_seq (m_segs m))))) by (rewrite rev_involutive; apply (cp_by_seq_sorted_lt m d HI)).
  destruct (cp_pick_rev P (rev (by_seq (m_segs m))) [] Hs) as (front & E & F1 & F2 & F3).
  rewrite E, app_nil_r. rewrite rev_involutive in F2, F3. split; [exact F1|]. split.
  - intros g Hg. apply (isort_In (fun a b => g_seq a <? g_seq b)). apply F2. exact Hg.
  - intros x Hx Hd y Hy. apply F3; [exact Hx|exact Hd|]. apply (isort_In (fun a b => g_seq a <? g_seq b)). exact Hy.
Qed.

Definition is_sync (e : fsev) : Prop := exists i q, e = ESync (FSeg i q).

Lemma cp_seal_all (picked : list mseg) : forall (s : st) (m : mem),
  ids_increasing (m_segs m) ->
  exists s1 m1,
    fold_left (fun sm g => seal flat_ops (g_id g) (fst sm) (snd sm)) picked (s, m) = (s1, m1) /\
    msim2 mkeep2 m m1 /\ s_disk s1 = s_disk s /\ s_mem s1 = s_mem s /\
    (exists es, s_trace s1 = s_trace s ++ es /\ Forall is_sync es) /\
    (forall g g0, In g picked -> In g0 (m_segs m) -> g_id g0 = g_id g ->
       exists g1, In g1 (m_segs m1) /\ mkeep2 g0 g1 /\ sm_full (g_meta g1) = true).
Proof.
  induction picked as [|g picked IH]; intros s m Hinc.
  - exists s, m. split; [reflexivity|]. split; [apply msim2_refl, mkeep2_refl|]. split; [reflexivity|]. split; [reflexivity|].
    split; [exists []; rewrite app_nil_r; split; [reflexivity|constructor]|]. intros g g0 [].
  - cbn [fold_left fst snd].
    destruct (cp_seal s m (g_id g)) as (s0 & m0 & E0 & Hsim0 & Ed0 & Em0 & Et0 & Hfull0). rewrite E0.
    pose proof (msim2_ids_increasing _ _ (msim2_mono _ _ _ _ mkeep2_mkeep Hsim0) Hinc) as Hinc0.
    destruct (IH s0 m0 Hinc0) as (s1 & m1 & E1 & Hsim1 & Ed1 & Em1 & (es & Et1 & Hes) & Hfull1).
    exists s1, m1. split; [exact E1|]. split; [eapply (msim2_trans _ _ _ _ mkeep2_trans); eassumption|].
    split; [congruence|]. split; [congruence|]. split.
    + destruct Et0 as [Et0|(i & q & Et0)].
      * exists es. split; [congruence|exact Hes].
      * exists (ESync (FSeg i q) :: es). split; [rewrite Et1, Et0, <- app_assoc; reflexivity|].
        constructor; [eexists _, _; reflexivity|exact Hes].
    + intros x g0 [<-|Hx] Hg0 Eid.
      * destruct (Hfull0 g0 Hg0 Eid Hinc) as (g00 & Hg00 & K0 & F0).
        destruct (msim2_In _ _ _ g00 Hsim1 Hg00) as (g1 & Hg1 & K1).
        exists g1. split; [exact Hg1|]. split; [eapply mkeep2_trans; eassumption|].
        destruct K1 as (_ & _ & _ & K4 & _). exact (K4 F0).
      * destruct (msim2_In _ _ _ g0 Hsim0 Hg0) as (g00 & Hg00 & K0).
        assert (Eid0 : g_id g00 = g_id x) by (destruct K0 as (K & _); congruence).
        destruct (Hfull1 x g00 Hx Hg00 Eid0) as (g1 & Hg1 & K1 & F1).
        exists g1. split; [exact Hg1|]. split; [eapply mkeep2_trans; eassumption|exact F1].
Qed.

Lemma cp_has_del_counter (s : st) (m : mem) g :
  MetaOK s -> s_mem s = Some m -> In g (m_segs m) -> has_del (s_disk s) (g_id g) -> 0 < sm_delrec (g_meta g).
Proof.
  unfold MetaOK. intros HM Em Hg (off & r & Hrec & Hdel). rewrite Em in HM.
  unfold rec_of in Hrec. destruct (find_dseg (g_id g) (s_disk s)) as [f|] eqn:Ef; [|discriminate].
  rewrite (HM g f Hg Ef). apply nlen_pos_iff.
  apply rec_at_In, seg_entries_In_rec in Hrec.
  assert (HIn : In r (filter rdel (f_recs f))) by (apply filter_In; split; assumption).
  intros E. rewrite E in HIn. destruct HIn.
Qed.

(* pick + seal: one critical section *)
Theorem compact_pick_ok P (s : st) :
  Inv P s -> MetaOK s -> s_mem s <> None ->
  exists s' c, compact_pick flat_ops P s = Some (s', c) /\ Inv P s' /\ CInv s' c /\ s_disk s' = s_disk s /\
    MetaOK s' /\ c_src c = None /\
    (exists es, s_trace s' = s_trace s ++ es /\ Forall is_sync es) /\
    (forall m m', s_mem s = Some m -> s_mem s' = Some m' -> room m -> room m').
Proof.
  intros HI HM Hm. destruct (s_mem s) as [m|] eqn:Em; [|congruence].
  pose proof (Inv_InvLog P s m Em HI) as HL.
  destruct (cp_pick_spec P m (s_disk s) HL) as (Hsort & Hlive & Hold).
  assert (Hinc : ids_increasing (m_segs m)) by apply HL.
  destruct (cp_seal_all (pick P m) s m Hinc) as (s1 & m1 & E1 & Hsim2 & Ed1 & Em1 & Htr & Hfull).
  pose proof (msim2_mono _ _ _ _ mkeep2_mkeep Hsim2) as Hsim.
  unfold compact_pick. rewrite Em, E1.
  eexists _, _. split; [reflexivity|].
  cbn [s_disk with_mem s_mem s_trace c_src].
  split; [apply (Inv_msim2 P s (with_mem m1 s1) m m1 HI Em Hsim eq_refl Ed1)|]. split.
  { apply (CInv_intro (with_mem m1 s1) _ m1 eq_refl); [|exact I]. unfold crem; cbn [c_src c_todo s_disk with_mem]. rewrite Ed1.
    split; [|split].
    - intros x Hx. apply in_map_iff in Hx. destruct Hx as (g & <- & Hg).
      destruct (Hfull g g Hg (Hlive g Hg) eq_refl) as (g1 & Hg1 & (K1 & K2 & _) & F1).
      exists g1. cbn [fst snd]. auto.
    - apply (cp_sorted_map lt_seq pair_lt); [|exact Hsort]. intros a b H. exact H.
    - intros x Hx Hdel g' Hg' Hlt. apply in_map_iff in Hx. destruct Hx as (g & <- & Hg). cbn [fst snd] in *.
      pose proof (cp_has_del_counter s m g HM Em (Hlive g Hg) Hdel) as Hcnt.
      destruct (msim2_In_inv _ _ _ g' Hsim Hg') as (g0 & Hg0 & K1 & K2 & _). rewrite K1, K2. rewrite K2 in Hlt.
      apply (in_map (fun g => (g_id g, g_seq g))). apply (Hold g Hg Hcnt g0 Hg0 Hlt). }
  split; [exact Ed1|]. split.
  { apply (MetaOK_eq (with_mem m1 s1) m1 eq_refl). cbn [s_disk with_mem]. rewrite Ed1.
    apply (cp_metaok_sim m m1 _ _ Hsim (fun _ => eq_refl)). apply (MetaOK_eq s m Em). exact HM. }
  split; [reflexivity|]. split; [exact Htr|].
  intros m0 m' E0 E' Hroom. inversion E0; subst m0. inversion E'; subst m'.
  apply (mem_sim_room m); [apply msim2_mem_sim; exact Hsim|exact Hroom].
Qed.


Lemma cp_rec_at_boundary pre post :
  rec_at (header_size + recs_len pre) (with_offsets header_size (pre ++ post)) =
  match post with [] => None | r :: _ => Some r end.
Proof.
  rewrite with_offsets_app, rec_at_app, rec_at_out_of_range by lia.
  destruct post as [|r post]; [reflexivity|]. rewrite with_offsets_cons, rec_at_cons, N.eqb_refl. reflexivity.
Qed.

Lemma cp_entries_after pre r post p r' :
  In (p, r') (with_offsets header_size (pre ++ r :: post)) -> header_size + recs_len pre <= p ->
  p = header_size + recs_len pre \/ header_size + recs_len pre + rsize r <= p.
Proof.
  rewrite with_offsets_app, with_offsets_cons. intros HIn Hle. apply in_app_or in HIn.
  destruct HIn as [HIn|[E|HIn]].
  - apply with_offsets_In_range in HIn. pose proof (rsize_pos r'). lia.
  - left. symmetry. exact (f_equal fst E).
  - apply with_offsets_In_range in HIn. right. lia.
Qed.

(* records from the cursor to the end *)
Definition remaining (f : dseg) (off : N) : nat :=
  length (filter (fun p => off <=? fst p) (seg_entries f)).

Lemma cp_remaining pre post f :
  f_recs f = pre ++ post -> remaining f (header_size + recs_len pre) = length post.
Proof.
  intros E. unfold remaining, seg_entries. rewrite E, with_offsets_app, filter_app.
  rewrite (filter_none _ (with_offsets header_size pre)), (filter_all _ (with_offsets _ post)).
  - cbn [app]. apply with_offsets_length.
  - intros [p r] HIn. apply with_offsets_In_range in HIn. cbn [fst]. apply N.leb_le. lia.
  - intros [p r] HIn. apply with_offsets_In_range in HIn. cbn [fst]. apply N.leb_gt. pose proof (rsize_pos r). lia.
Qed.

Lemma cp_find_filter {A} (p q : A -> bool) l :
  (forall x, In x l -> p x = true -> q x = true) -> find p (filter q l) = find p l.
Proof.
  induction l as [|a l IH]; intros H; [reflexivity|]. cbn [filter find].
  assert (IH' : find p (filter q l) = find p l) by (apply IH; intros x Hx; apply H; right; exact Hx).
  destruct (q a) eqn:Eq.
  - cbn [find]. rewrite IH'. reflexivity.
  - destruct (p a) eqn:Ep; [|exact IH']. rewrite (H a (or_introl eq_refl) Ep) in Eq. discriminate.
Qed.

Lemma cp_find_remove_seg (d : disk) id seq id' :
  id' <> id -> find_dseg id' (apply_ev flat_ops d (ERemove (FSeg id seq))) = find_dseg id' d.
Proof.
  intros Hne. unfold find_dseg. rewrite d_segs_remove_seg. apply cp_find_filter.
  intros x _ Hx. apply N.eqb_eq in Hx. unfold is_seg. destruct (N.eqb_spec (f_id x) id); [congruence|reflexivity].
Qed.

Lemma cp_find_removed_seg (d : disk) id seq :
  (forall x, In x (d_segs d) -> f_id x = id -> f_seq x = seq) ->
  find_dseg id (apply_ev flat_ops d (ERemove (FSeg id seq))) = None.
Proof.
  intros H. apply find_dseg_None. intros x Hx E. rewrite d_segs_remove_seg in Hx.
  apply filter_In in Hx. destruct Hx as [Hx Hn]. unfold is_seg in Hn.
  rewrite E, (H x Hx E), !N.eqb_refl in Hn. discriminate.
Qed.

Lemma cp_filter_id (l : list dseg) f :
  NoDup (map f_id l) -> In f l -> filter (fun x => f_id x =? f_id f) l = [f].
Proof.
  induction l as [|a l IH]; intros Hnd HIn; [destruct HIn|].
  cbn [map] in Hnd. inversion Hnd as [|? ? Ha Hnd']; subst. cbn [filter]. destruct HIn as [->|HIn].
  - rewrite N.eqb_refl. f_equal. apply filter_none. intros y Hy.
    apply N.eqb_neq. intros E. apply Ha. rewrite <- E. apply in_map. exact Hy.
  - destruct (N.eqb_spec (f_id a) (f_id f)) as [E|_]; [|apply IH; assumption].
    exfalso. apply Ha. rewrite E. apply in_map. exact HIn.
Qed.

Definition in_seg (id : N) (e : entry) : bool := fst (fst e) =? id.

Lemma cp_olog_seg (d : disk) id :
  DiskOK d ->
  filter (in_seg id) (olog d) = match find_dseg id d with Some f => dseg_entries f | None => [] end.
Proof.
  intros (_ & Hnid & Hnseq). unfold olog.
  rewrite <- (concat_map_filter dseg_entries (fun x => f_id x =? id) (in_seg id)).
  2:{ intros x _ y Hy. apply dseg_entries_In in Hy. unfold in_seg. rewrite (proj1 Hy). reflexivity. }
  rewrite <- dby_seq_filter by exact Hnseq.
  destruct (find_dseg id d) as [f|] eqn:Ef.
  - apply find_dseg_In in Ef. destruct Ef as [Hf <-]. rewrite (cp_filter_id _ f Hnid Hf).
    unfold dby_seq. cbn [fold_left insert_dseg_seq map concat]. apply app_nil_r.
  - rewrite filter_none; [reflexivity|]. intros y Hy. apply N.eqb_neq. exact (proj1 (find_dseg_None _ _) Ef y Hy).
Qed.

Lemma cp_entries_recs f : map snd (dseg_entries f) = f_recs f.
Proof. unfold dseg_entries, seg_entries. rewrite map_map. cbn [snd]. apply with_offsets_map_snd. Qed.

Lemma cp_write_target (d d' : disk) id off r f' :
  DiskOK d -> DiskOK d' -> olog d' = olog d ++ [(id, off, r)] -> find_dseg id d' = Some f' ->
  f_recs f' = match find_dseg id d with Some f => f_recs f | None => [] end ++ [r].
Proof.
  intros Hd Hd' Eo Ef'. pose proof (cp_olog_seg d' id Hd') as H'. pose proof (cp_olog_seg d id Hd) as H.
  rewrite Ef', Eo, filter_app in H'. cbn [filter] in H'. unfold in_seg at 2 in H'. cbn [fst] in H'.
  rewrite N.eqb_refl, H in H'. rewrite <- cp_entries_recs, <- H', map_app. cbn [map snd].
  destruct (find_dseg id d); [rewrite cp_entries_recs|]; reflexivity.
Qed.

Lemma cp_olog_split (d : disk) f :
  DiskOK d -> In f (d_segs d) ->
  exists A B,
    (forall x, In x A -> In x (d_segs d) /\ f_seq x < f_seq f /\ f_id x <> f_id f) /\
    (forall x, In x B -> In x (d_segs d) /\ f_id x <> f_id f) /\
    olog d = concat (map dseg_entries A) ++ dseg_entries f ++ concat (map dseg_entries B) /\
    olog (apply_ev flat_ops d (ERemove (FSeg (f_id f) (f_seq f)))) =
      concat (map dseg_entries A) ++ concat (map dseg_entries B).
Proof.
  intros (Hok & Hnid & Hnseq) Hf.
  assert (Hf' : In f (dby_seq (d_segs d))) by (apply dby_seq_In; exact Hf).
  destruct (in_split _ _ Hf') as (A & B & E).
  pose proof (dby_seq_sorted_lt _ Hnseq) as Hs. rewrite E in Hs.
  destruct (sorted_app_inv _ _ _ Hs) as [HsB HAB].
  assert (HinA : forall x, In x A -> In x (d_segs d)).
  { intros x Hx. apply dby_seq_In. rewrite E. apply in_or_app. left. exact Hx. }
  assert (HinB : forall x, In x B -> In x (d_segs d)).
  { intros x Hx. apply dby_seq_In. rewrite E. apply in_or_app. right. right. exact Hx. }
  assert (Hid : forall x, In x (d_segs d) -> f_seq x <> f_seq f -> f_id x <> f_id f).
  { intros x Hx Hne Eid. apply Hne. f_equal. exact (NoDup_map_inj f_id _ x f Hnid Hx Hf Eid). }
  assert (HA : forall x, In x A -> In x (d_segs d) /\ f_seq x < f_seq f /\ f_id x <> f_id f).
  { intros x Hx. pose proof (HAB x f Hx (or_introl eq_refl)) as Hlt. cbn beta in Hlt.
    split; [apply HinA; exact Hx|]. split; [exact Hlt|]. apply Hid; [apply HinA; exact Hx|lia]. }
  assert (HB : forall x, In x B -> In x (d_segs d) /\ f_id x <> f_id f).
  { intros x Hx. pose proof (cp_sorted_head _ _ _ x HsB Hx) as Hlt. cbn beta in Hlt.
    split; [apply HinB; exact Hx|]. apply Hid; [apply HinB; exact Hx|lia]. }
  exists A, B. split; [exact HA|]. split; [exact HB|]. split.
  - unfold olog. rewrite E, map_app, concat_app. cbn [map concat]. reflexivity.
  - rewrite olog_remove_seg by exact Hnseq. rewrite E, filter_app. cbn [filter].
    unfold is_seg at 2. rewrite !N.eqb_refl. cbn [andb negb].
    rewrite (filter_all _ A), (filter_all _ B), map_app, concat_app; [reflexivity| |].
    + intros y Hy. unfold is_seg. destruct (N.eqb_spec (f_id y) (f_id f)) as [Ey|_]; [|reflexivity].
      exfalso. exact (proj2 (HB y Hy) Ey).
    + intros y Hy. unfold is_seg. destruct (N.eqb_spec (f_id y) (f_id f)) as [Ey|_]; [|reflexivity].
      exfalso. exact (proj2 (proj2 (HA y Hy)) Ey).
Qed.

(* removing a segment no pointer points into, that is the oldest one or holds no delete record *)
Theorem cp_remove_reads (d : disk) f :
  DiskOK d -> In f (d_segs d) ->
  (forall k i o, ptr_of d k = Some (i, o) -> i <> f_id f) ->
  ((forall x, In x (d_segs d) -> f_seq f <= f_seq x) \/ (forall r, In r (f_recs f) -> rdel r = false)) ->
  let d' := apply_ev flat_ops d (ERemove (FSeg (f_id f) (f_seq f))) in
  (forall k, ptr_of d' k = ptr_of d k) /\ (forall k, sget (abs d') k = sget (abs d) k).
Proof.
  intros Hd Hf Hptr Hold. destruct (cp_olog_split d f Hd Hf) as (A & B & HA & HB & Eo & Eo').
  cbn zeta. set (l1 := concat (map dseg_entries A)) in *. set (l2 := concat (map dseg_entries B)) in *.
  assert (Hlive : forall k id off, ptrl (l1 ++ dseg_entries f ++ l2) k = Some (id, off) ->
                   forall r, ~ In (id, off, r) (dseg_entries f)).
  { intros k id off Hp r HIn. rewrite <- Eo, <- ptr_of_eq in Hp. apply (Hptr k id off Hp).
    apply dseg_entries_In in HIn. exact (proj1 HIn). }
  assert (Hdel : l1 = [] \/ forall e, In e (dseg_entries f) -> rdel (snd e) = false).
  { destruct Hold as [Hmin|Hput].
    - left. destruct A as [|a A]; [reflexivity|]. exfalso.
      destruct (HA a (or_introl eq_refl)) as (Ha & Hlt & _). pose proof (Hmin a Ha). lia.
    - right. intros [[i o] r] HIn. apply dseg_entries_In in HIn. cbn [fst snd] in HIn |- *.
      apply Hput. apply (seg_entries_In_rec f o r). exact (proj2 HIn). }
  split; intros k.
  - rewrite !ptr_of_eq, Eo, Eo'. apply ptrl_remove_segment; assumption.
  - rewrite !abs_eq, Eo, Eo'. apply absl_remove_segment; try assumption.
    intros id off r r' H1 H2. rewrite <- Eo in H1, H2.
    apply (rec_of_olog d id off r (proj1 (proj2 Hd))) in H1. apply (rec_of_olog d id off r' (proj1 (proj2 Hd))) in H2.
    congruence.
Qed.

Lemma cp_repoint_None l h seg off a b :
  fl_repoint l h seg off a b = None -> forall x, In x l -> fl_points h seg off x = false.
Proof.
  induction l as [|s l IH]; intros H x Hx; [destruct Hx|]. cbn [fl_repoint] in H.
  destruct (fl_points h seg off s) eqn:Ep; [discriminate|].
  destruct (fl_repoint l h seg off a b) eqn:Er; [discriminate|].
  destruct Hx as [<-|Hx]; [exact Ep|apply IH; [reflexivity|exact Hx]].
Qed.

Lemma cp_repoint_indep l h seg off a b a' b' :
  fl_repoint l h seg off a b = None -> fl_repoint l h seg off a' b' = None.
Proof.
  induction l as [|s l IH]; intros H; [reflexivity|]. cbn [fl_repoint] in H |- *.
  destruct (fl_points h seg off s); [discriminate|].
  destruct (fl_repoint l h seg off a b) eqn:Er; [discriminate|]. rewrite IH; reflexivity.
Qed.

Lemma cp_repoint_Some l h seg off a b : forall l',
  fl_repoint l h seg off a b = Some l' ->
  exists pre sl post, l = pre ++ sl :: post /\ l' = pre ++ repointed sl a b :: post /\
                      fl_points h seg off sl = true.
Proof.
  induction l as [|s l IH]; intros l' H; [discriminate|]. cbn [fl_repoint] in H.
  destruct (fl_points h seg off s) eqn:Ep.
  - inversion H; subst. exists [], s, l. auto.
  - destruct (fl_repoint l h seg off a b) as [l0|] eqn:Er; [|discriminate]. cbn [option_map] in H.
    inversion H; subst. destruct (IH l0 eq_refl) as (pre & sl & post & E1 & E2 & E3).
    exists (s :: pre), sl, post. rewrite E1, E2. auto.
Qed.

Lemma cp_points_inv h seg off sl : fl_points h seg off sl = true -> sl_h sl = h /\ sl_off sl = off /\ sl_seg sl = seg.
Proof.
  unfold fl_points. intros H. apply andb_true_iff in H. destruct H as [H H3].
  apply andb_true_iff in H. destruct H as [H1 H2].
  apply N.eqb_eq in H1. apply N.eqb_eq in H2. apply N.eqb_eq in H3. auto.
Qed.

Lemma cp_slot_keep P (d d1 : disk) seed sl :
  (forall off, rec_of d1 (sl_seg sl) off = rec_of d (sl_seg sl) off) ->
  slot_ok P d seed sl -> slot_ok P d1 seed sl /\ slot_key d1 sl = slot_key d sl.
Proof.
  intros H Hok. split.
  - apply slot_ok_rec_of. apply slot_ok_rec_of in Hok. rewrite H. exact Hok.
  - unfold slot_key. rewrite !read_kv_rec_of, H. reflexivity.
Qed.


Lemma idx_agrees_ext P seed idx (d d' : disk) :
  (forall sl, In sl idx -> forall o, rec_of d' (sl_seg sl) o = rec_of d (sl_seg sl) o) ->
  (forall k, ptr_of d' k = ptr_of d k) -> idx_agrees P seed idx d -> idx_agrees P seed idx d'.
Proof.
  intros Hrec Hptr (Hok & Hnd & Hp).
  assert (Hsl : forall sl, In sl idx -> slot_ok P d' seed sl /\ slot_key d' sl = slot_key d sl).
  { intros sl Hsl. fa Hok sl Hsl. apply cp_slot_keep; [apply Hrec; exact Hsl|exact Hfa]. }
  split; [|split].
  - apply Forall_forall. intros sl Hsl'. apply (Hsl sl Hsl').
  - rewrite (map_ext_in _ (slot_key d)); [exact Hnd|]. intros sl Hsl'. apply (Hsl sl Hsl').
  - intros k. rewrite Hptr, Hp. f_equal. apply find_ext_in.
    intros sl Hsl'. unfold khit. rewrite (proj2 (Hsl sl Hsl')). reflexivity.
Qed.


(* no side file without its segment, no leftover of a recovery *)
Definition files_exact (s : st) : Prop := d_orphans (s_disk s) = [] /\ d_bac (s_disk s) = [].

(* the work left: one step per record, two per segment (start, remove) *)
Definition seg_nrecs (d : disk) (id : N) : nat :=
  match find_dseg id d with Some f => length (f_recs f) | None => O end.
Definition todo_measure (d : disk) (l : list (N * N)) : nat :=
  fold_right (fun x n => (2 + seg_nrecs d (fst x) + n)%nat) O l.
Definition cmeasure (d : disk) (c : cursor) : nat :=
  (match c_src c with
   | Some (id, _, off) => S (match find_dseg id d with Some f => remaining f off | None => O end)
   | None => O
   end + todo_measure d (c_todo c))%nat.

(* what every operation of this file keeps besides [Inv] and [CInv] *)
Definition keeps3 (s s' : st) : Prop :=
  (MetaOK s -> MetaOK s') /\ (files_exact s -> files_exact s') /\ d_bac (s_disk s') = d_bac (s_disk s).

Lemma keeps3_refl s : keeps3 s s.
Proof. unfold keeps3. auto. Qed.

Lemma keeps3_trans a b c : keeps3 a b -> keeps3 b c -> keeps3 a c.
Proof. intros (M1 & F1 & B1) (M2 & F2 & B2). split; [auto|]. split; [auto|congruence]. Qed.

Lemma keeps3_disk (s s' : st) : s_disk s' = s_disk s -> (MetaOK s -> MetaOK s') -> keeps3 s s'.
Proof. intros E HM. unfold keeps3, files_exact. rewrite E. auto. Qed.

Lemma keeps3_same (s s' : st) : s_mem s' = s_mem s -> s_disk s' = s_disk s -> keeps3 s s'.
Proof. intros Em Ed. apply (keeps3_disk s s' Ed). unfold MetaOK. rewrite Em, Ed. exact (fun H => H). Qed.

Lemma keeps3_msim2 (s s' : st) (m m' : mem) :
  s_mem s = Some m -> s_mem s' = Some m' -> msim2 mkeep m m' -> s_disk s' = s_disk s -> keeps3 s s'.
Proof.
  intros Em Em' Hsim Ed. apply (keeps3_disk s s' Ed). intros HM.
  apply (MetaOK_eq s' m' Em'). rewrite Ed. apply (cp_metaok_sim m m' _ _ Hsim (fun _ => eq_refl)), (MetaOK_eq s m Em), HM.
Qed.

Definition step_post (P : params) (s : st) (c : cursor) (s' : st) (c' : cursor) : Prop :=
  Inv P s' /\ CInv s' c' /\ s_mem s' <> None /\
  (forall k, sget (abs (s_disk s')) k = sget (abs (s_disk s)) k) /\
  S (cmeasure (s_disk s') c') = cmeasure (s_disk s) c /\ keeps3 s s'.

Lemma cp_todo_measure_ext (d d' : disk) l :
  (forall x, In x l -> seg_nrecs d' (fst x) = seg_nrecs d (fst x)) -> todo_measure d' l = todo_measure d l.
Proof.
  induction l as [|x l IH]; intros H; [reflexivity|]. cbn [todo_measure fold_right].
  fold (todo_measure d' l). fold (todo_measure d l). rewrite IH, (H x (or_introl eq_refl)); [reflexivity|].
  intros y Hy. apply H. right. exact Hy.
Qed.

Lemma cp_sealed_file (m : mem) (d : disk) x :
  InvLog m d -> sealed m x ->
  exists g f, In g (m_segs m) /\ g_id g = fst x /\ g_seq g = snd x /\ sm_full (g_meta g) = true /\
    find_dseg (fst x) d = Some f /\ In f (d_segs d) /\ f_id f = fst x /\ f_seq f = snd x /\
    f_hdr f = true /\ f_tail f = [] /\ flen f = header_size + recs_len (f_recs f).
Proof.
  intros (Hd & [Ha1 _] & _) (g & Hg & G1 & G2 & G3).
  destruct (Ha1 g Hg) as (f & Hf & F1 & F2 & F3 & F4 & F5).
  exists g, f. repeat split; try assumption; try congruence.
  - rewrite <- G1, <- F1. apply find_dseg_unique; [apply Hd|exact Hf].
  - apply flen_clean; assumption.
Qed.

Lemma cp_sealed_sim (m m' : mem) x : msim2 mkeep m m' -> sealed m x -> sealed m' x.
Proof.
  intros Hsim (g & Hg & G1 & G2 & G3). destruct (msim2_In _ _ _ g Hsim Hg) as (g' & Hg' & K1 & K2 & _ & K4 & _).
  exists g'. split; [exact Hg'|]. split; [congruence|]. split; [congruence|auto].
Qed.

(* The remaining picked segments stay in order under any change that keeps them sealed and their files
   untouched, and adds only segments newer than every one of them. *)
Lemma PickedOK_transfer (m m' : mem) (d d' : disk) l :
  PickedOK m d l ->
  (forall x, In x l -> sealed m x -> sealed m' x) ->
  (forall g', In g' (m_segs m') ->
     (exists g, In g (m_segs m) /\ g_id g = g_id g' /\ g_seq g = g_seq g') \/
     (forall x, In x l -> snd x < g_seq g')) ->
  (forall x, In x l -> find_dseg (fst x) d' = find_dseg (fst x) d) ->
  PickedOK m' d' l.
Proof.
  intros (C1 & C2 & C4) Hsealed Hsegs Hfind.
  split; [intros x Hx; apply Hsealed; [exact Hx|apply C1; exact Hx]|]. split; [exact C2|].
  intros x Hx Hdel g' Hg' Hlt.
  assert (Hdel0 : has_del d (fst x)).
  { destruct Hdel as (o & r & Hr & Hdr). exists o, r. split; [|exact Hdr].
    unfold rec_of in *. rewrite (Hfind x Hx) in Hr. exact Hr. }
  destruct (Hsegs g' Hg') as [(g & Hg & E1 & E2)|Hnew].
  - rewrite <- E1, <- E2. apply (C4 x Hx Hdel0 g Hg). congruence.
  - pose proof (Hnew x Hx). lia.
Qed.

Lemma PickedOK_msim2 (m m' : mem) (d d' : disk) l :
  msim2 mkeep m m' -> (forall x, In x l -> find_dseg (fst x) d' = find_dseg (fst x) d) ->
  PickedOK m d l -> PickedOK m' d' l.
Proof.
  intros Hsim Hfind HP. apply (PickedOK_transfer m m' d d' l HP); [| |exact Hfind].
  - intros x _. apply cp_sealed_sim. exact Hsim.
  - intros g' Hg'. left. destruct (msim2_In_inv _ _ _ g' Hsim Hg') as (g & Hg & K1 & K2 & _). exists g. auto.
Qed.

Lemma PickedOK_segs (m m' : mem) (d d' : disk) l :
  m_segs m' = m_segs m -> (forall x, In x l -> find_dseg (fst x) d' = find_dseg (fst x) d) ->
  PickedOK m d l -> PickedOK m' d' l.
Proof.
  intros E Hfind HP. apply (PickedOK_transfer m m' d d' l HP); [| |exact Hfind].
  - intros x _. unfold sealed. rewrite E. exact (fun H => H).
  - intros g' Hg'. left. exists g'. rewrite <- E. auto.
Qed.

Lemma SrcOK_transfer (m m' : mem) (d d' : disk) id seq off :
  SrcOK m d (Some (id, seq, off)) -> find_dseg id d' = find_dseg id d ->
  (forall sl, In sl (m_idx m') -> In sl (m_idx m) \/ sl_seg sl <> id) ->
  SrcOK m' d' (Some (id, seq, off)).
Proof.
  intros [Hf Hsl] Ef Hslots. split; [rewrite Ef; exact Hf|].
  intros sl HIn Eseg. destruct (Hslots sl HIn) as [H|H]; [apply Hsl; assumption|contradiction].
Qed.

Lemma cp_sealed_ids (m : mem) (d : disk) x y :
  InvLog m d -> sealed m x -> sealed m y -> fst x = fst y -> snd x = snd y.
Proof.
  intros (_ & _ & Hinc & _) (g & Hg & G1 & G2 & _) (g' & Hg' & G1' & G2' & _) E.
  assert (g = g') by (apply (ids_increasing_unique _ g g' Hinc Hg Hg'); congruence). subst g'. congruence.
Qed.

Lemma cp_slot_entry P (d : disk) seed sl f :
  slot_ok P d seed sl -> find_dseg (sl_seg sl) d = Some f ->
  exists r, In (sl_off sl, r) (seg_entries f) /\ rdel r = false /\ sl_h sl = p_hash P seed (rk r) /\
            slot_key d sl = rk r.
Proof.
  intros Hok Ef. destruct (slot_ok_read P d seed sl Hok) as (r & Er & Hd & _ & _ & Hh & _ & Hk).
  unfold rec_of in Er. rewrite Ef in Er. exists r. split; [apply rec_at_In; exact Er|]. auto.
Qed.

Lemma cp_step_start P (s : st) (c : cursor) (m : mem) id seq todo c' :
  Inv P s -> CInv s c -> s_mem s = Some m -> c_src c = None -> c_todo c = (id, seq) :: todo ->
  c_todo c' = todo -> c_src c' = Some (id, seq, header_size) ->
  step_post P s c (with_mem (set_msegs m (upd_mseg id (fun g => set_gmeta g (set_full (g_meta g))) (m_segs m))) s) c'.
Proof.
  intros HI HC Em Esrc Etodo Etodo' Esrc'. destruct (CInv_open s c m HC Em) as [HP _].
  destruct (Inv_open P s m Em HI) as (HL & Hidx & _).
  set (m1 := set_msegs m (upd_mseg id (fun g => set_gmeta g (set_full (g_meta g))) (m_segs m))).
  assert (Hsim : msim2 mkeep m m1) by (apply msim2_upd_mseg; [apply mkeep_refl|intros g; apply mkeep2_mkeep, mkeep2_full_g]).
  assert (Erem : crem c = (id, seq) :: todo) by (unfold crem; rewrite Esrc; exact Etodo).
  assert (Erem' : crem c' = crem c) by (unfold crem; rewrite Esrc, Esrc', Etodo', Etodo; reflexivity).
  assert (Hsl : sealed m (id, seq)) by (apply HP; rewrite Erem; left; reflexivity).
  destruct (cp_sealed_file m (s_disk s) _ HL Hsl) as (g & f & _ & _ & _ & _ & Ef & _).
  cbn [fst snd] in *.
  refine (conj _ (conj _ (conj _ (conj _ (conj _ (keeps3_msim2 s (with_mem m1 s) m m1 Em eq_refl Hsim eq_refl))))));
    [| |discriminate|reflexivity|].
  - apply (Inv_msim2 P s (with_mem m1 s) m m1 HI Em Hsim eq_refl eq_refl).
  - apply (CInv_intro (with_mem m1 s) c' m1 eq_refl); rewrite ?Erem', ?Esrc'; cbn [s_disk with_mem].
    + apply (PickedOK_msim2 m m1 _ _ _ Hsim (fun _ _ => eq_refl) HP).
    + split.
      * exists f. split; [exact Ef|]. exists [], (f_recs f). split; [reflexivity|]. rewrite recs_len_nil. lia.
      * intros sl Hsl' Eseg. fa (proj1 Hidx) sl Hsl'. rewrite <- Eseg in Ef.
        destruct (cp_slot_entry P _ _ sl f Hfa Ef) as (r & HIn & _). apply seg_entries_range in HIn. lia.
  - unfold cmeasure. rewrite Esrc, Esrc', Etodo, Etodo'. cbn [s_disk with_mem todo_measure fold_right fst].
    fold (todo_measure (s_disk s) todo). unfold seg_nrecs. rewrite Ef.
    assert (E : remaining f header_size = length (f_recs f)).
    { pose proof (cp_remaining [] (f_recs f) f eq_refl) as H. rewrite recs_len_nil, N.add_0_r in H. exact H. }
    rewrite E. lia.
Qed.

Lemma cp_cursor_advance (f : dseg) off r :
  boundary f off -> rec_at off (seg_entries f) = Some r ->
  boundary f (off + rsize r) /\ remaining f off = S (remaining f (off + rsize r)) /\
  (forall p r', In (p, r') (seg_entries f) -> off <= p -> p = off \/ off + rsize r <= p).
Proof.
  intros (pre & post & E & ->) Hrec. unfold seg_entries in Hrec. rewrite E, cp_rec_at_boundary in Hrec.
  destruct post as [|r0 post]; [discriminate|]. inversion Hrec; subst r0.
  assert (E2 : f_recs f = (pre ++ [r]) ++ post) by (rewrite <- app_assoc; exact E).
  assert (Eoff : header_size + recs_len pre + rsize r = header_size + recs_len (pre ++ [r])) by (rewrite recs_len_snoc; lia).
  split; [|split].
  - exists (pre ++ [r]), post. split; [exact E2|exact Eoff].
  - rewrite Eoff, (cp_remaining pre (r :: post) f E), (cp_remaining (pre ++ [r]) post f E2). reflexivity.
  - intros p r' HIn Hle. unfold seg_entries in HIn. rewrite E in HIn. apply (cp_entries_after pre r post p r' HIn Hle).
Qed.

Lemma cp_step_skip P (s : st) (c : cursor) (m : mem) id seq off f r c' :
  Inv P s -> CInv s c -> s_mem s = Some m -> c_src c = Some (id, seq, off) ->
  find_dseg id (s_disk s) = Some f -> rec_at off (seg_entries f) = Some r ->
  (forall sl, In sl (m_idx m) -> sl_seg sl = id -> sl_off sl <> off) ->
  c_todo c' = c_todo c -> c_src c' = Some (id, seq, off + rsize r) ->
  step_post P s c s c'.
Proof.
  intros HI HC Em Esrc Ef Hrec Hnoslot Etodo' Esrc'. destruct (CInv_open s c m HC Em) as [HP HS].
  destruct (Inv_open P s m Em HI) as (HL & Hidx & _).
  rewrite Esrc in HS. destruct HS as ((f0 & Ef0 & Hb) & Hslots).
  assert (f0 = f) by congruence. subst f0.
  destruct (cp_cursor_advance f off r Hb Hrec) as (Hb' & Hrem & Hafter).
  assert (Erem : crem c' = crem c) by (unfold crem; rewrite Esrc, Esrc', Etodo'; reflexivity).
  refine (conj HI (conj _ (conj _ (conj _ (conj _ (keeps3_refl s)))))); [|congruence|reflexivity|].
  - apply (CInv_intro s c' m Em); rewrite ?Erem, ?Esrc'; [exact HP|]. split.
    + exists f. split; [exact Ef|exact Hb'].
    + intros sl Hsl Eseg. pose proof (Hslots sl Hsl Eseg) as Hle. fa (proj1 Hidx) sl Hsl.
      rewrite <- Eseg in Ef. destruct (cp_slot_entry P _ _ sl f Hfa Ef) as (r' & HIn & _).
      destruct (Hafter _ _ HIn Hle) as [E|H]; [exfalso; exact (Hnoslot sl Hsl Eseg E)|exact H].
  - unfold cmeasure. rewrite Esrc, Esrc', Etodo', Ef, Hrem. reflexivity.
Qed.


Lemma cp_metaok_write (m m' : mem) (d d' : disk) id off r :
  InvLog m d -> InvLog m' d' -> olog d' = olog d ++ [(id, off, r)] -> wframe m m' d d' id r ->
  metaok m d -> metaok m' d'.
Proof.
  intros HL HL' Eo (_ & M2 & _ & D1 & (gt & Hgt & Egt & M4) & _) HM g' f' Hg' Ef'.
  pose proof HL as (Hd & [Ha1 Ha2] & _). pose proof HL' as (Hd' & _ & Hinc' & _).
  destruct (N.eq_dec (g_id g') id) as [E|Hne].
  - assert (g' = gt) by (apply (ids_increasing_unique _ g' gt Hinc' Hg' Hgt); congruence). subst gt.
    rewrite E in Ef'.
    set (old := match find_dseg id d with Some f => f_recs f | None => [] end).
    assert (Erecs : f_recs f' = old ++ [r]) by apply (cp_write_target d d' id off r f' Hd Hd' Eo Ef').
    assert (Hcnt : sm_delrec (g_meta g') = delrec_after r (nlen (filter rdel old))).
    { destruct M4 as [(g & Hg & Eg & _ & _ & _ & Edr)|(Hfresh & _ & _ & Edr)].
      - rewrite Edr. f_equal. destruct (Ha1 g Hg) as (f0 & Hf0 & F1 & _).
        assert (Ef0 : find_dseg id d = Some f0) by (rewrite <- Eg, <- F1; apply find_dseg_unique; [apply Hd|exact Hf0]).
        unfold old. rewrite Ef0. apply (HM g f0 Hg). rewrite Eg. exact Ef0.
      - rewrite Edr. f_equal. unfold old.
        assert (En : find_dseg id d = None).
        { apply find_dseg_None. intros f0 Hf0 E0. destruct (Ha2 f0 Hf0) as (g & Hg & G1 & _).
          apply (proj1 (Hfresh g Hg)). congruence. }
        rewrite En. reflexivity. }
    apply find_dseg_In in Ef'. destruct Ef' as [Hf' _].
    fa (proj1 Hd') f' Hf'. destruct Hfa as (_ & _ & _ & _ & Hlt).
    pose proof (rc_ndel_bound (f_recs f')) as Hb.
    rewrite Hcnt. rewrite Erecs in Hb |- *. rewrite filter_app, nlen_app in Hb |- *. cbn [filter] in Hb |- *.
    unfold delrec_after. destruct (rdel r) eqn:Er; [|cbn [nlen]; lia].
    rewrite nlen_cons, nlen_nil in Hb |- *. apply u32_small. rewrite Erecs in Hlt. consts. lia.
  - destruct (M2 g' Hg' Hne) as (g & Hg & K1 & _ & _ & _ & K5 & _). rewrite K5.
    rewrite (D1 (g_id g') Hne) in Ef'. apply (HM g f' Hg). congruence.
Qed.

Lemma cp_repoint_index P seed (d d1 : disk) pre sl post nid noff r :
  DiskOK d -> DiskOK d1 -> idx_agrees P seed (pre ++ sl :: post) d ->
  olog d1 = olog d ++ [(nid, noff, r)] ->
  rec_of d (sl_seg sl) (sl_off sl) = Some r ->
  idx_agrees P seed (pre ++ repointed sl nid noff :: post) d1 /\
  (forall k, sget (abs d1) k = sget (abs d) k) /\ slot_key d sl = rk r.
Proof.
  intros Hd Hd1 Hidx Eo Hrec. pose proof Hidx as (Hok & Hnd & Hptr).
  pose proof (olog_keep d d1 _ Hd Hd1 Eo) as Hkeep.
  pose proof (olog_new d d1 _ _ _ Hd1 Eo) as Hnew.
  assert (HslIn : In sl (pre ++ sl :: post)) by (apply in_or_app; right; left; reflexivity).
  fa Hok sl HslIn.
  destruct (slot_ok_read P d seed sl Hfa) as (r0 & Er0 & Hdel & Hks & Hvs & Hh & Hrk & Hkey).
  assert (r0 = r) by congruence. subst r0.
  set (sl' := repointed sl nid noff).
  assert (Hsl' : slot_ok P d1 seed sl').
  { apply slot_ok_rec_of. exists r. unfold sl', repointed; cbn [sl_seg sl_off sl_ks sl_vs sl_h]. auto. }
  set (kf := slot_key d) in *. set (kf1 := slot_key d1).
  assert (Hkf1 : kf1 sl' = rk r).
  { destruct (slot_ok_read P d1 seed sl' Hsl') as (r1 & Er1 & _ & _ & _ & _ & _ & Ek1).
    unfold kf1. rewrite Ek1. unfold sl', repointed in Er1; cbn [sl_seg sl_off] in Er1. congruence. }
  assert (Hone : forall x, In x (pre ++ sl :: post) -> slot_ok P d1 seed x /\ kf1 x = kf x).
  { intros x Hx. fa Hok x Hx. destruct (slot_keep P d d1 seed x Hkeep Hfa0) as (A & _ & B). auto. }
  assert (Hpre : forall x, In x pre -> In x (pre ++ sl :: post)) by (intros x Hx; apply in_or_app; left; exact Hx).
  assert (Hpost : forall x, In x post -> In x (pre ++ sl :: post)) by (intros x Hx; apply in_or_app; right; right; exact Hx).
  assert (Emap : map kf1 (pre ++ sl' :: post) = map kf (pre ++ sl :: post)).
  { rewrite !map_app. cbn [map]. rewrite Hkf1, Hkey. f_equal; [|f_equal]; apply map_ext_in; intros x Hx.
    - apply (Hone x (Hpre x Hx)).
    - apply (Hone x (Hpost x Hx)). }
  assert (Hnotin : ~ In (rk r) (map kf pre ++ map kf post)).
  { rewrite map_app in Hnd. cbn [map] in Hnd. rewrite Hkey in Hnd. apply (NoDup_remove_2 _ _ _ Hnd). }
  split; [|split; [|exact Hkey]].
  - split; [|split].
    + apply Forall_forall. intros x Hx. apply in_app_or in Hx. destruct Hx as [Hx|[<-|Hx]].
      * apply (Hone x (Hpre x Hx)).
      * exact Hsl'.
      * apply (Hone x (Hpost x Hx)).
    + fold kf1. rewrite Emap. exact Hnd.
    + intros k. fold kf1. rewrite (ptr_of_snoc d d1 _ Eo), upd_ptr_eq, Hptr. cbn [fst snd]. rewrite Hdel.
      fold kf. rewrite !find_app. cbn [find].
      rewrite (find_ext_in (khit kf1 k) (khit kf k) pre), (find_ext_in (khit kf1 k) (khit kf k) post).
      2:{ intros x Hx. unfold khit. rewrite (proj2 (Hone x (Hpost x Hx))). reflexivity. }
      2:{ intros x Hx. unfold khit. rewrite (proj2 (Hone x (Hpre x Hx))). reflexivity. }
      unfold khit at 2 5. rewrite Hkf1, Hkey.
      destruct (key_eqb k (rk r)) eqn:Ek.
      * apply key_eqb_eq in Ek. subst k.
        rewrite (proj2 (find_khit_None kf (rk r) pre)); [reflexivity|].
        intros HIn. apply Hnotin. apply in_or_app. left. exact HIn.
      * reflexivity.
  - intros k. rewrite (abs_snoc d d1 _ Eo), sget_apply_rec. cbn [snd]. rewrite Hdel.
    destruct (key_eqb k (rk r)) eqn:Ek; [|reflexivity]. apply key_eqb_eq in Ek. subst k.
    pose proof (idx_lookup P seed _ d (kf sl) Hd Hidx) as Hlk. fold kf in Hlk.
    rewrite (find_khit_In kf _ sl Hnd HslIn) in Hlk.
    destruct Hlk as (_ & v & Erd & Eg). rewrite Hkey in Eg. rewrite Eg. congruence.
Qed.


(* what a write (of a writer or of promoteRecord) does to the picked segments *)
Lemma PickedOK_wframe (m m' : mem) (d d' : disk) nid r l :
  ids_increasing (m_segs m') -> wframe m m' d d' nid r -> PickedOK m d l ->
  PickedOK m' d' l /\ forall x, In x l -> fst x <> nid.
Proof.
  intros Hinc' (M1 & M2 & M3 & D1 & (gt & Hgt & Egt & M4) & _) HP.
  assert (S1 : forall x, In x l -> sealed m' x /\ fst x <> nid).
  { intros x Hx. destruct (proj1 HP x Hx) as (g & Hg & G1 & G2 & G3).
    pose proof (M3 g Hg G3) as Hne. destruct (M1 g Hg Hne) as (g' & Hg' & K1 & K2 & _ & K4 & _).
    split; [|congruence]. exists g'. split; [exact Hg'|]. split; [congruence|]. split; [congruence|auto]. }
  split; [|intros x Hx; apply (S1 x Hx)].
  apply (PickedOK_transfer m m' d d' l HP).
  - intros x Hx _. apply (S1 x Hx).
  - intros g' Hg'. destruct (N.eq_dec (g_id g') nid) as [E|Hne'].
    + assert (g' = gt) by (apply (ids_increasing_unique _ g' gt Hinc' Hg' Hgt); congruence). subst gt.
      destruct M4 as [(g & Hg & G1 & G2 & _)|(Hfresh & _)].
      * left. exists g. split; [exact Hg|]. split; congruence.
      * right. intros x Hx. destruct (proj1 HP x Hx) as (gx & Hgx & _ & G2 & _).
        pose proof (proj2 (Hfresh gx Hgx)). lia.
    + left. destruct (M2 g' Hg' Hne') as (g & Hg & K1 & K2 & _). exists g. auto.
  - intros x Hx. apply D1. apply (S1 x Hx).
Qed.

Lemma cp_off_u32 (d : disk) id f off r :
  DiskOK d -> find_dseg id d = Some f -> rec_at off (seg_entries f) = Some r -> u32 off = off.
Proof.
  intros Hd Ef Hrec. apply u32_small. apply rec_at_In, seg_entries_range in Hrec.
  apply find_dseg_In in Ef. fa (proj1 Hd) f (proj1 Ef). destruct Hfa as (_ & _ & _ & _ & Hlt). lia.
Qed.

(* a write to the log (of Put, Delete or promoteRecord), counter updates, a new index: the picked
   segments are not written to *)
Lemma cp_writer (s : st) (c : cursor) (m m0 : mem) P r (s1 : st) (m1 m2 : mem) nid noff i2 (s' : st) :
  InvLog m0 (s_disk s) -> s_mem s = Some m -> msim2 mkeep m m0 -> CInv s c ->
  write_record flat_ops P r s m0 = Some (s1, m1, nid, noff) -> room m0 -> rec_fits r ->
  msim2 mkeep m1 m2 -> (forall x, In x i2 -> sl_seg x = nid \/ In x (m_idx m)) ->
  s_mem s' = Some (set_idx m2 i2) -> s_disk s' = apply_ev flat_ops (s_disk s1) (EIndex i2) ->
  CInv s' c /\
  (forall x, In x (crem c) -> fst x <> nid /\ find_dseg (fst x) (s_disk s') = find_dseg (fst x) (s_disk s)) /\
  keeps3 s s'.
Proof.
  intros HL0 Em Hsim0 HC Ew Hroom Hfits Hsim2 Hidx Em' Ed'. destruct (CInv_open s c m HC Em) as [HP HS].
  destruct (write_record_full P r s m0 HL0 Hroom Hfits)
    as (s1' & m1' & nid' & noff' & Ew' & HL1 & Eo & _ & _ & _ & _ & Hrest & _ & HW).
  rewrite Ew in Ew'. inversion Ew'; subst s1' m1' nid' noff'. clear Ew'.
  assert (Hfind' : forall id, find_dseg id (s_disk s') = find_dseg id (s_disk s1)).
  { intros id. rewrite Ed'. apply find_dseg_segs. apply d_segs_index. }
  pose proof (PickedOK_msim2 m m0 _ _ _ Hsim0 (fun _ _ => eq_refl) HP) as HP0.
  destruct (PickedOK_wframe m0 m1 _ _ nid r _ (proj1 (proj2 (proj2 HL1))) HW HP0) as [HP1 Hnids].
  assert (Hkept : forall x, In x (crem c) ->
            fst x <> nid /\ find_dseg (fst x) (s_disk s') = find_dseg (fst x) (s_disk s)).
  { intros x Hx. split; [exact (Hnids x Hx)|]. rewrite Hfind'. destruct HW as (_ & _ & _ & D1 & _). apply D1, Hnids, Hx. }
  split; [|split; [exact Hkept|split]].
  - apply (CInv_intro s' c _ Em').
    + apply (PickedOK_segs m2 (set_idx m2 i2) (s_disk s1) _ _ eq_refl (fun x _ => Hfind' (fst x))).
      apply (PickedOK_msim2 m1 m2 _ _ _ Hsim2 (fun _ _ => eq_refl) HP1).
    + destruct (c_src c) as [[[id seq] off]|] eqn:Esrc; [|exact I].
      assert (Hhead : In (id, seq) (crem c)) by (unfold crem; rewrite Esrc; left; reflexivity).
      destruct (Hkept _ Hhead) as [Hne Ekept]. cbn [fst] in Hne. apply (SrcOK_transfer m _ (s_disk s) _ id seq off HS Ekept).
      cbn [m_idx set_idx]. intros sl Hsl. destruct (Hidx sl Hsl) as [E|H]; [right; congruence|left; exact H].
  - intros HM. apply (MetaOK_eq s m Em) in HM. apply (MetaOK_eq s' _ Em').
    assert (HM1 : metaok m1 (s_disk s1)).
    { apply (cp_metaok_write m0 m1 _ _ nid noff r HL0 HL1 Eo HW).
      apply (cp_metaok_sim m m0 _ _ Hsim0 (fun _ => eq_refl) HM). }
    intros g' f' Hg' Ef'. cbn [set_idx m_segs] in Hg'.
    apply (cp_metaok_sim m1 m2 _ _ Hsim2 Hfind' HM1 g' f' Hg' Ef').
  - pose proof (apply_ev_index_frame (s_disk s1) i2) as Hfr. cbn zeta in Hfr.
    destruct Hfr as (_ & Fo & _ & _ & _ & _ & Fb). destruct Hrest as (Ro & _ & _ & _ & _ & _ & Rb).
    unfold files_exact. rewrite Ed'. split; [|exact (eq_trans Fb Rb)].
    intros [H1 H2]. split; [exact (eq_trans Fo (eq_trans Ro H1))|exact (eq_trans Fb (eq_trans Rb H2))].
Qed.

Lemma cp_step_promote P (s : st) (c : cursor) (m : mem) id seq off f r s1 m1 nid noff i2 c' :
  Inv P s -> CInv s c -> s_mem s = Some m -> room m -> c_src c = Some (id, seq, off) ->
  find_dseg id (s_disk s) = Some f -> rec_at off (seg_entries f) = Some r ->
  write_record flat_ops P r s m = Some (s1, m1, nid, noff) ->
  fl_repoint (m_idx m1) (p_hash P (m_seed m) (rk r)) id (u32 off) nid noff = Some i2 ->
  c_todo c' = c_todo c -> c_src c' = Some (id, seq, off + rsize r) ->
  step_post P s c (with_mem (set_idx m1 i2) (emit flat_ops (EIndex i2) s1)) c'.
Proof.
  intros HI HC Em Hroom Esrc Ef Hrec Ew Erp Etodo' Esrc'. destruct (CInv_open s c m HC Em) as [_ HS].
  destruct (Inv_open P s m Em HI) as (HL & Hidx & Hlock & Hindex & Hovf).
  assert (Hd : DiskOK (s_disk s)) by apply HL.
  rewrite Esrc in HS. destruct HS as ((f0 & Ef0 & Hb) & Hslots).
  assert (f0 = f) by congruence. subst f0.
  destruct (cp_cursor_advance f off r Hb Hrec) as (Hb' & Hrem & Hafter).
  assert (Hrecof : rec_of (s_disk s) id off = Some r) by (unfold rec_of; rewrite Ef; exact Hrec).
  pose proof (rec_of_rec_fits _ _ _ _ Hd Hrecof) as Hfits.
  destruct (write_record_full P r s m HL Hroom Hfits)
    as (s1' & m1' & nid' & noff' & Ew' & HL1 & Eo & Hnoff & Ei & Esd & Em1 & Hrest & _).
  rewrite Ew in Ew'. inversion Ew'; subst s1' m1' nid' noff'. clear Ew'.
  assert (Hd1 : DiskOK (s_disk s1)) by apply HL1.
  rewrite Ei, (cp_off_u32 _ _ _ _ _ Hd Ef Hrec) in Erp.
  destruct (cp_repoint_Some _ _ _ _ _ _ _ Erp) as (pre & sl & post & Eidx & Ei2 & Hpts).
  destruct (cp_points_inv _ _ _ _ Hpts) as (Hslh & Hsloff & Hslseg).
  assert (Erem : crem c' = crem c) by (unfold crem; rewrite Esrc, Esrc', Etodo'; reflexivity).
  set (s' := with_mem (set_idx m1 i2) (emit flat_ops (EIndex i2) s1)).
  (* as a write: the picked segments and the three kept facts *)
  destruct (cp_writer s c m m P r s1 m1 m1 nid noff i2 s' HL Em (msim2_refl _ mkeep_refl m) HC Ew Hroom Hfits
              (msim2_refl _ mkeep_refl m1)) as (HC1 & Hkept & Hkeeps); [|reflexivity|reflexivity|].
  { intros x Hx. rewrite Ei2 in Hx. rewrite Eidx. apply in_app_or in Hx.
    destruct Hx as [Hx|[<-|Hx]]; [right; apply in_or_app; left; exact Hx|left; reflexivity|].
    right. apply in_or_app. right. right. exact Hx. }
  destruct (Hkept (id, seq)) as [Hne Hfind]; [unfold crem; rewrite Esrc; left; reflexivity|].
  cbn [fst] in Hne, Hfind. rewrite Ef in Hfind.
  set (d := s_disk s) in *. set (d1 := s_disk s1) in *.
  assert (Hsl : same_log d1 (s_disk s')) by (apply same_log_segs; apply d_segs_index).
  rewrite Eidx in Hidx. rewrite <- Hslseg, <- Hsloff in Hrecof.
  destruct (cp_repoint_index P (m_seed m) d d1 pre sl post nid noff r Hd Hd1 Hidx Eo Hrecof) as (Hidx2 & Habs & Hkey).
  rewrite <- Ei2 in Hidx2.
  refine (conj _ (conj _ (conj _ (conj _ (conj _ Hkeeps))))); [| |discriminate| |].
  - apply (Inv_intro P s' (set_idx m1 i2) eq_refl); cbn [m_seed m_idx set_idx].
    + apply (InvLog_same_log _ _ _ Hsl). apply set_idx_InvLog. exact HL1.
    + rewrite Esd. apply (idx_agrees_same_log _ _ _ _ _ Hsl Hidx2).
    + destruct Hrest as (_ & _ & _ & _ & _ & Rl & _). exact (eq_trans Rl Hlock).
    + apply d_index_index.
    + destruct Hrest as (_ & _ & Rov & _). exact (eq_trans Rov Hovf).
  - destruct (CInv_open s' c _ HC1 eq_refl) as [HP1 _].
    apply (CInv_intro s' c' _ eq_refl); rewrite ?Erem, ?Esrc'; [exact HP1|].
    split; [exists f; split; [exact Hfind|exact Hb']|].
    cbn [m_idx set_idx]. intros x Hx Eseg. rewrite Ei2 in Hx. apply in_app_or in Hx.
    assert (Hold : In x (pre ++ sl :: post) -> x <> sl -> off + rsize r <= sl_off x).
    { intros HIn Hnsl. rewrite <- Eidx in HIn. pose proof (Hslots x HIn Eseg) as Hle.
      rewrite Eidx in HIn. fa (proj1 Hidx) x HIn.
      assert (Efx : find_dseg (sl_seg x) d = Some f) by (rewrite Eseg; exact Ef).
      destruct (cp_slot_entry P _ _ x f Hfa Efx) as (r' & HIn' & _ & _ & Hk').
      destruct (Hafter _ _ HIn' Hle) as [E|H]; [|exact H].
      exfalso. apply Hnsl.
      assert (Er' : r' = r).
      { apply rec_at_In in Hrec. unfold seg_entries in *. rewrite E in HIn'. eapply with_offsets_inj; eassumption. }
      apply (NoDup_map_inj (slot_key d) _ x sl (proj1 (proj2 Hidx)) HIn); [apply in_or_app; right; left; reflexivity|].
      rewrite Hk', Hkey, Er'. reflexivity. }
    assert (Hnd : NoDup (pre ++ sl :: post)) by (apply (NoDup_map_inv (slot_key d)); apply Hidx).
    destruct Hx as [Hx|[<-|Hx]].
    + apply Hold; [apply in_or_app; left; exact Hx|]. intros ->. apply (NoDup_remove_2 _ _ _ Hnd). apply in_or_app. left. exact Hx.
    + exfalso. unfold repointed in Eseg; cbn [sl_seg] in Eseg. congruence.
    + apply Hold; [apply in_or_app; right; right; exact Hx|]. intros ->. apply (NoDup_remove_2 _ _ _ Hnd). apply in_or_app. right. exact Hx.
  - intros k. rewrite (same_log_abs _ _ Hsl). apply Habs.
  - unfold cmeasure. rewrite Esrc, Esrc', Etodo', Hfind. fold d. rewrite Ef, Hrem.
    rewrite (cp_todo_measure_ext d (s_disk s') (c_todo c)); [reflexivity|].
    intros x Hx. unfold seg_nrecs. destruct (Hkept x) as [_ ->]; [|reflexivity].
    unfold crem. rewrite Esrc. right. exact Hx.
Qed.


(* the disk before the segment file itself is removed: the side file, if there is one, is gone *)
Definition meta_removed (d : disk) (id seq : N) : disk :=
  if exists_file d (FSegMeta id seq) then apply_ev flat_ops d (ERemove (FSegMeta id seq)) else d.

Definition mem_removed (m : mem) (id seq : N) : mem :=
  let m1 := set_msegs m (filter (fun g => negb (g_id g =? id)) (m_segs m)) in
  if (fst (m_cur m) =? id) && (snd (m_cur m) =? seq) then set_cur m1 (m_cur m) true else m1.

Lemma cp_remove_segment_eq id seq (s : st) (m : mem) :
  s_disk (remove_segment flat_ops id seq s m) =
    apply_ev flat_ops (meta_removed (s_disk s) id seq) (ERemove (FSeg id seq)) /\
  s_mem (remove_segment flat_ops id seq s m) = Some (mem_removed m id seq).
Proof.
  unfold remove_segment, meta_removed, mem_removed. destruct (do_sync_spec s m) as (_ & E2 & _).
  cbn [s_disk s_mem with_mem]. rewrite s_disk_emit, E2. split; [|reflexivity].
  destruct (exists_file (s_disk s) (FSegMeta id seq)); [rewrite s_disk_emit, E2|rewrite E2]; reflexivity.
Qed.

Lemma cp_mem_removed_segs (m : mem) id seq :
  m_segs (mem_removed m id seq) = filter (fun g => negb (g_id g =? id)) (m_segs m) /\
  m_maxseq (mem_removed m id seq) = m_maxseq m /\ m_idx (mem_removed m id seq) = m_idx m /\
  m_seed (mem_removed m id seq) = m_seed m.
Proof. unfold mem_removed. destruct ((fst (m_cur m) =? id) && (snd (m_cur m) =? seq)); repeat split. Qed.

Lemma In_mem_removed (m : mem) id seq x :
  In x (m_segs (mem_removed m id seq)) <-> In x (m_segs m) /\ g_id x <> id.
Proof.
  rewrite (proj1 (cp_mem_removed_segs m id seq)), filter_In. split; intros [A B]; (split; [exact A|]).
  - intros E. rewrite E, N.eqb_refl in B. discriminate.
  - destruct (N.eqb_spec (g_id x) id); [contradiction|reflexivity].
Qed.

Lemma cp_meta_removed (d : disk) id seq :
  let dm := meta_removed d id seq in
  same_log d dm /\ d_lock dm = d_lock d /\ d_index dm = d_index d /\ d_overflow dm = d_overflow d /\
  d_bac dm = d_bac d /\
  (d_orphans d = [] ->
   d_orphans dm = [] /\ forall x, In x (d_segs dm) -> is_seg id seq x = true -> gob_present (f_meta x) = false).
Proof.
  cbn zeta. unfold meta_removed. destruct (exists_file d (FSegMeta id seq)) eqn:Ex.
  - split; [apply apply_ev_same_log; reflexivity|]. split; [reflexivity|]. split; [reflexivity|].
    split; [reflexivity|]. split; [reflexivity|]. intros Ho. cbn [apply_ev file_removed d_orphans set_orphans]. rewrite Ho.
    split; [reflexivity|]. intros x Hx Hs. cbn [d_segs set_orphans] in Hx. rewrite d_segs_upd_seg in Hx.
    apply in_map_iff in Hx. destruct Hx as (y & <- & Hy).
    destruct (is_seg id seq y) eqn:Ey; [reflexivity|]. congruence.
  - split; [apply same_log_refl|]. repeat (split; [reflexivity|]). intros Ho. split; [exact Ho|].
    intros x Hx Hs. destruct (gob_present (f_meta x)) eqn:Eg; [|reflexivity]. exfalso.
    unfold exists_file in Ex. assert (Hex : existsb (fname_eqb (FSegMeta id seq)) (dir d) = true); [|congruence].
    apply existsb_exists. exists (FSegMeta id seq). split; [|apply rc_fname_eqb_refl].
    unfold dir. apply in_or_app. left. unfold seg_names. apply in_concat.
    exists (FSeg (f_id x) (f_seq x) :: (if gob_present (f_meta x) then [FSegMeta (f_id x) (f_seq x)] else [])).
    split; [apply (in_map (fun s => FSeg (f_id s) (f_seq s) :: (if gob_present (f_meta s) then [FSegMeta (f_id s) (f_seq s)] else []))); exact Hx|].
    rewrite Eg. right. left. unfold is_seg in Hs. apply andb_true_iff in Hs. destruct Hs as [H1 H2].
    apply N.eqb_eq in H1. apply N.eqb_eq in H2. congruence.
Qed.

Lemma cp_filter_map_seg id seq (G : dseg -> dseg) (l : list dseg) :
  (forall x, is_seg id seq (G x) = is_seg id seq x) ->
  filter (fun s => negb (is_seg id seq s)) (map (fun s => if is_seg id seq s then G s else s) l) =
  filter (fun s => negb (is_seg id seq s)) l.
Proof.
  intros HG. induction l as [|a l IH]; [reflexivity|]. cbn [map filter].
  destruct (is_seg id seq a) eqn:Ea.
  - rewrite HG, Ea. cbn [negb]. exact IH.
  - rewrite Ea. cbn [negb]. rewrite IH. reflexivity.
Qed.

Lemma cp_removed_disk (d : disk) id seq :
  let d' := apply_ev flat_ops (meta_removed d id seq) (ERemove (FSeg id seq)) in
  d_segs d' = filter (fun s => negb (is_seg id seq s)) (d_segs d) /\
  d_index d' = d_index d /\ d_overflow d' = d_overflow d /\ d_imeta d' = d_imeta d /\
  d_dbmeta d' = d_dbmeta d /\ d_lock d' = d_lock d /\ d_bac d' = d_bac d /\
  (d_orphans d = [] -> d_orphans d' = []) /\
  (forall i, i <> id -> find_dseg i d' = find_dseg i d).
Proof.
  cbn zeta. destruct (cp_meta_removed d id seq) as (_ & Fl & Fi & Fo & Fb & Forph).
  rewrite d_segs_remove_seg, apply_ev_d_index, apply_ev_d_overflow, apply_ev_d_imeta, apply_ev_d_dbmeta,
    apply_ev_d_lock, apply_ev_d_bac by reflexivity.
  refine (conj _ (conj Fi (conj Fo (conj _ (conj _ (conj Fl (conj Fb (conj _ _)))))))).
  - unfold meta_removed. destruct (exists_file d (FSegMeta id seq)); [|reflexivity].
    cbn [apply_ev file_removed d_segs set_orphans]. rewrite d_segs_upd_seg. apply cp_filter_map_seg. reflexivity.
  - unfold meta_removed. destruct (exists_file d (FSegMeta id seq)); reflexivity.
  - unfold meta_removed. destruct (exists_file d (FSegMeta id seq)); reflexivity.
  - intros Ho. destruct (Forph Ho) as [Hom Hnometa].
    cbn [apply_ev file_removed d_orphans set_orphans]. rewrite Hom. cbn [app].
    apply concat_nil_Forall. apply Forall_forall. intros l Hl. apply in_map_iff in Hl. destruct Hl as (x & <- & Hx).
    apply filter_In in Hx. rewrite (Hnometa x (proj1 Hx) (proj2 Hx)). reflexivity.
  - intros i Hi. rewrite cp_find_remove_seg by exact Hi. unfold meta_removed.
    destruct (exists_file d (FSegMeta id seq)); [|reflexivity].
    apply (find_dseg_upd_seg_other id seq _ d i); [reflexivity|exact Hi].
Qed.

Lemma cp_ids_increasing_filter p l : ids_increasing l -> ids_increasing (filter p l).
Proof.
  induction l as [|g l IH]; intros H; [exact I|]. destruct H as [H1 H2]. cbn [filter].
  destruct (p g); [|apply IH; exact H2]. split; [|apply IH; exact H2].
  intros g' Hg'. apply filter_In in Hg'. apply H1. exact (proj1 Hg').
Qed.

Lemma cp_remove_InvLog (m : mem) (dm : disk) id seq g :
  InvLog m dm -> In g (m_segs m) -> g_id g = id -> g_seq g = seq ->
  InvLog (mem_removed m id seq) (apply_ev flat_ops dm (ERemove (FSeg id seq))).
Proof.
  intros (Hd & [Ha1 Ha2] & Hinc & [Hs1 Hs2] & Hcur) Hg Gid Gseq.
  destruct (cp_mem_removed_segs m id seq) as (Esegs & Emax & _).
  set (d' := apply_ev flat_ops dm (ERemove (FSeg id seq))).
  assert (Ed' : d_segs d' = filter (fun s => negb (is_seg id seq s)) (d_segs dm)) by apply d_segs_remove_seg.
  pose proof (In_mem_removed m id seq) as HIn.
  assert (Hsrc : forall x, In x (d_segs dm) -> f_id x = id -> f_seq x = seq).
  { intros x Hx E. destruct (Ha2 x Hx) as (gx & Hgx & G1 & G2).
    assert (gx = g) by (apply (ids_increasing_unique _ gx g Hinc Hgx Hg); congruence). subst gx. congruence. }
  destruct Hd as (Hok & Hnid & Hnseq).
  split; [|split; [|split; [|split]]].
  - split; [|split]; rewrite Ed'.
    + apply Forall_forall. intros x Hx. apply filter_In in Hx. exact (proj1 (Forall_forall _ _) Hok x (proj1 Hx)).
    + apply NoDup_map_filter. exact Hnid.
    + apply NoDup_map_filter. exact Hnseq.
  - split.
    + intros x Hx. apply HIn in Hx. destruct Hx as [Hx Hne]. destruct (Ha1 x Hx) as (f0 & Hf0 & F1 & F).
      exists f0. split; [|split; [exact F1|exact F]]. rewrite Ed'. apply filter_In. split; [exact Hf0|].
      unfold is_seg. destruct (N.eqb_spec (f_id f0) id); [congruence|reflexivity].
    + intros f0 Hf0. rewrite Ed' in Hf0. apply filter_In in Hf0. destruct Hf0 as [Hf0 Hns].
      destruct (Ha2 f0 Hf0) as (gx & Hgx & G1 & G2). exists gx. split; [|split; assumption].
      apply HIn. split; [exact Hgx|]. intros E. unfold is_seg in Hns.
      rewrite <- G1, E, N.eqb_refl, (Hsrc f0 Hf0), N.eqb_refl in Hns by congruence. discriminate.
  - rewrite Esegs. apply cp_ids_increasing_filter. exact Hinc.
  - split.
    + intros x Hx. apply HIn in Hx. rewrite Emax. apply Hs1. exact (proj1 Hx).
    + intros x y Hx Hy. apply HIn in Hx. apply HIn in Hy. apply Hs2; [exact (proj1 Hx)|exact (proj1 Hy)].
  - unfold cur_ok, mem_removed.
    destruct ((fst (m_cur m) =? id) && (snd (m_cur m) =? seq)) eqn:Ec; cbn [m_cur_removed m_cur set_cur set_msegs m_segs]; [discriminate|].
    intros Hr. destruct (Hcur Hr) as (gc & Hgc & G1 & G2). exists gc. split; [|split; assumption].
    apply filter_In. split; [exact Hgc|]. destruct (N.eqb_spec (g_id gc) id) as [E|_]; [|reflexivity]. exfalso.
    assert (gc = g) by (apply (ids_increasing_unique _ gc g Hinc Hgc Hg); congruence). subst gc.
    rewrite <- G1, <- G2, Gid, Gseq, !N.eqb_refl in Ec. discriminate.
Qed.

Lemma cp_has_rec_off f r : In r (f_recs f) -> exists off, rec_at off (seg_entries f) = Some r.
Proof.
  intros HIn. unfold seg_entries. rewrite <- (with_offsets_map_snd header_size (f_recs f)) in HIn.
  apply in_map_iff in HIn. destruct HIn as ([o r'] & E & HIn). cbn [snd] in E. subst r'.
  exists o. apply rec_at_with_offsets. exact HIn.
Qed.

Lemma cp_step_remove P (s : st) (c : cursor) (m : mem) id seq off f c' :
  Inv P s -> CInv s c -> s_mem s = Some m -> c_src c = Some (id, seq, off) ->
  find_dseg id (s_disk s) = Some f -> rec_at off (seg_entries f) = None ->
  c_todo c' = c_todo c -> c_src c' = None ->
  flen f = off /\ f_seq f = seq /\ step_post P s c (remove_segment flat_ops id seq s m) c'.
Proof.
  intros HI HC Em Esrc Ef Hrec Etodo' Esrc'. destruct (CInv_open s c m HC Em) as [HP HS].
  destruct (Inv_open P s m Em HI) as (HL & Hidx & Hlock & Hindex & Hovf).
  rewrite Esrc in HS. destruct HS as ((f0 & Ef0 & Hb) & Hslots).
  assert (f0 = f) by congruence. subst f0. clear Ef0.
  assert (Erem : crem c = (id, seq) :: c_todo c) by (unfold crem; rewrite Esrc; reflexivity).
  assert (Erem' : crem c' = c_todo c) by (unfold crem; rewrite Esrc'; exact Etodo').
  rewrite Erem in HP. pose proof HP as (C1 & C2 & C4).
  destruct (cp_sealed_file m _ _ HL (C1 _ (or_introl eq_refl)))
    as (g & f0 & Hg & G1 & G2 & G3 & Ef0 & Hf & F1 & F2 & F3 & F4 & F5). cbn [fst snd] in *.
  assert (f0 = f) by congruence. subst f0. clear Ef0.
  (* the cursor is at the end of the file *)
  destruct Hb as (pre & post & E & Eoff). unfold seg_entries in Hrec. rewrite Eoff, E, cp_rec_at_boundary in Hrec.
  destruct post; [|discriminate]. rewrite app_nil_r in E.
  split; [rewrite F5, Eoff, E; reflexivity|]. split; [exact F2|].
  destruct (cp_remove_segment_eq id seq s m) as [Edisk Emem].
  set (s' := remove_segment flat_ops id seq s m) in *.
  set (d := s_disk s) in *. set (dm := meta_removed d id seq) in *.
  set (d' := apply_ev flat_ops dm (ERemove (FSeg id seq))) in *.
  set (m' := mem_removed m id seq) in *.
  destruct (cp_meta_removed d id seq) as (Hslm & _). fold dm in Hslm.
  destruct (cp_removed_disk d id seq) as (_ & Dindex & Dovf & _ & _ & Dlock & Dbac & Dorph & Hfind'). fold dm d' in Dindex, Dovf, Dlock, Dbac, Dorph, Hfind'.
  destruct (cp_mem_removed_segs m id seq) as (_ & _ & Eidx & Eseed). fold m' in Eidx, Eseed.
  pose proof (In_mem_removed m id seq) as HIn'. fold m' in HIn'.
  assert (HLm : InvLog m dm) by (apply (InvLog_same_log _ _ _ Hslm HL)).
  pose proof (cp_remove_InvLog m dm id seq g HLm Hg G1 G2) as HL'. fold d' m' in HL'.
  assert (Hnoslot : forall sl, In sl (m_idx m) -> sl_seg sl <> id).
  { intros sl Hsl Es. pose proof (Hslots sl Hsl Es) as Hle. fa (proj1 Hidx) sl Hsl.
    assert (Efx : find_dseg (sl_seg sl) d = Some f) by (rewrite Es; exact Ef).
    destruct (cp_slot_entry P _ _ sl f Hfa Efx) as (r & HIn & _). apply seg_entries_range in HIn.
    pose proof (rsize_pos r). rewrite E in HIn. lia. }
  assert (Htodo_ne : forall x, In x (c_todo c) -> fst x <> id).
  { intros x Hx Ex. pose proof (cp_sorted_head _ _ _ x C2 Hx) as Hlt. unfold pair_lt in Hlt. cbn [snd] in Hlt.
    pose proof (cp_sealed_ids m d x (id, seq) HL (C1 x (or_intror Hx)) (C1 _ (or_introl eq_refl)) Ex) as Es.
    cbn [snd] in Es. lia. }
  (* reads: the list lemma, applied to the file as it is in dm *)
  assert (Hreads : (forall k, ptr_of d' k = ptr_of d k) /\ (forall k, sget (abs d') k = sget (abs d) k)).
  { destruct (rc_rsim_find d dm id f (rc_same_log_rsim _ _ Hslm) Ef) as (f1 & Ef1 & Hcore).
    injection Hcore as K1 K2 K4.
    destruct (find_dseg_In _ _ _ Ef1) as [Hf1 _].
    rewrite <- (same_log_ptr_of _ _ Hslm), <- (same_log_abs _ _ Hslm).
    assert (Ed2 : d' = apply_ev flat_ops dm (ERemove (FSeg (f_id f1) (f_seq f1)))) by (unfold d'; congruence).
    rewrite Ed2.
    apply (cp_remove_reads dm f1 (proj1 HLm) Hf1).
    - intros k i o Hp. rewrite (same_log_ptr_of _ _ Hslm) in Hp. destruct Hidx as (_ & _ & Hptr). rewrite Hptr in Hp.
      destruct (find (khit (slot_key d) k) (m_idx m)) as [sl|] eqn:Efind; [|discriminate].
      apply find_khit_Some in Efind. cbn [option_map] in Hp. inversion Hp as [[Hi Ho]]. rewrite K1, F1. apply Hnoslot. exact (proj1 Efind).
    - destruct (existsb rdel (f_recs f)) eqn:Edel.
      + left. apply existsb_exists in Edel. destruct Edel as (r & Hr & Hdr).
        destruct (cp_has_rec_off f r Hr) as (o & Ho).
        assert (Hhd : has_del d id) by (exists o, r; split; [unfold rec_of; rewrite Ef; exact Ho|exact Hdr]).
        intros x Hx. destruct (proj2 (proj1 (proj2 HLm)) x Hx) as (gx & Hgx & _ & Gs). rewrite K2, F2, <- Gs.
        destruct (N.le_gt_cases seq (g_seq gx)) as [H|H]; [exact H|]. exfalso.
        pose proof (C4 (id, seq) (or_introl eq_refl) Hhd gx Hgx H) as HIn. destruct HIn as [Ex|HIn].
        * inversion Ex. lia.
        * pose proof (cp_sorted_head _ _ _ _ C2 HIn) as Hlt. unfold pair_lt in Hlt. cbn [snd] in Hlt. lia.
      + right. rewrite K4. intros r Hr. destruct (rdel r) eqn:Er; [|reflexivity].
        assert (existsb rdel (f_recs f) = true); [|congruence]. apply existsb_exists. exists r. auto. }
  destruct Hreads as [Hptr' Habs'].
  refine (conj _ (conj _ (conj _ (conj _ (conj _ (conj _ (conj _ _))))))).
  - apply (Inv_intro P s' m' Emem); rewrite Edisk; fold dm; fold d'; [exact HL'| |congruence|congruence|congruence].
    rewrite Eidx, Eseed. apply (idx_agrees_ext P _ _ d d'); [|exact Hptr'|exact Hidx].
    intros sl Hsl o. unfold rec_of. rewrite (Hfind' _ (Hnoslot sl Hsl)). reflexivity.
  - apply (CInv_intro s' c' m' Emem); rewrite ?Erem', ?Esrc', Edisk; fold dm; fold d'; [|exact I].
    split; [|split; [exact (cp_sorted_tail _ _ _ C2)|]].
    + intros x Hx. destruct (C1 x (or_intror Hx)) as (gx & Hgx & X1 & X2 & X3).
      exists gx. split; [|auto]. apply HIn'. split; [exact Hgx|]. rewrite X1. apply Htodo_ne. exact Hx.
    + intros x Hx Hdel gx Hgx Hlt. apply HIn' in Hgx. destruct Hgx as [Hgx Hne].
      assert (Hdel0 : has_del d (fst x)).
      { destruct Hdel as (o & r & Hr & Hdr). exists o, r. split; [|exact Hdr].
        unfold rec_of in *. rewrite (Hfind' _ (Htodo_ne x Hx)) in Hr. exact Hr. }
      destruct (C4 x (or_intror Hx) Hdel0 gx Hgx Hlt) as [Ex|H]; [|exact H]. inversion Ex. congruence.
  - congruence.
  - rewrite Edisk. fold dm; fold d'. exact Habs'.
  - unfold cmeasure. rewrite Esrc, Esrc', Etodo', Edisk. fold dm; fold d'; fold d. rewrite Ef.
    rewrite Eoff, (cp_remaining pre [] f) by (rewrite app_nil_r; exact E).
    rewrite (cp_todo_measure_ext d d' (c_todo c)); [reflexivity|].
    intros x Hx. unfold seg_nrecs. rewrite (Hfind' _ (Htodo_ne x Hx)). reflexivity.
  - intros HM. apply (MetaOK_eq s m Em) in HM. apply (MetaOK_eq s' m' Emem). rewrite Edisk. fold dm; fold d'.
    revert HM. apply metaok_mono.
    + intros gx Hgx. exists gx. split; [apply HIn'; exact Hgx|auto].
    + intros gx Hgx. rewrite (Hfind' _ (proj2 (proj1 (HIn' gx) Hgx))). reflexivity.
  - unfold files_exact. rewrite Edisk. fold dm; fold d'; fold d. intros [Ho Hb']. split; [exact (Dorph Ho)|congruence].
  - rewrite Edisk. fold dm; fold d'. exact Dbac.
Qed.


Lemma cp_slot_at P (d : disk) seed idx sl id off f r :
  Forall (slot_ok P d seed) idx -> In sl idx -> sl_seg sl = id -> sl_off sl = off ->
  find_dseg id d = Some f -> rec_at off (seg_entries f) = Some r ->
  rdel r = false /\ sl_h sl = p_hash P seed (rk r).
Proof.
  intros Hok Hsl Eseg Eoff Ef Hrec. fa Hok sl Hsl. rewrite <- Eseg in Ef.
  destruct (cp_slot_entry P d seed sl f Hfa Ef) as (r' & HIn & Hd & Hh & _).
  rewrite Eoff in HIn. apply rec_at_In in Hrec. unfold seg_entries in *.
  assert (r' = r) by (eapply with_offsets_inj; eassumption). subst r'. auto.
Qed.

(* The four kinds of micro-step, for any index implementation: what [compact_step ... = CMore s' c']
   says, without the match tree. *)
Section CStepKind.
Context {I : Type}.
Variable ops : idx_ops I.
Variable P : params.

Inductive cstep_kind (s : @DB.st I) (c : cursor) (m : @DB.mem I) : @DB.st I -> cursor -> Prop :=
| ck_start id seq todo :
    c_src c = None -> c_todo c = (id, seq) :: todo ->
    cstep_kind s c m
      (with_mem (set_msegs m (upd_mseg id (fun g => set_gmeta g (set_full (g_meta g))) (m_segs m))) s)
      {| c_todo := todo; c_src := Some (id, seq, header_size);
         c_segs := c_segs c; c_recs := c_recs c; c_bytes := c_bytes c |}
| ck_skip id seq off f r :
    c_src c = Some (id, seq, off) -> find_dseg id (s_disk s) = Some f -> rec_at off (seg_entries f) = Some r ->
    rdel r = true \/ ix_repoint ops (m_idx m) (p_hash P (m_seed m) (rk r)) id (u32 off) id (u32 off) = None ->
    cstep_kind s c m s
      {| c_todo := c_todo c; c_src := Some (id, seq, off + rsize r); c_segs := c_segs c;
         c_recs := c_recs c + 1; c_bytes := c_bytes c + rsize r |}
| ck_promote id seq off f r i1 s1 m1 nid noff i2 :
    c_src c = Some (id, seq, off) -> find_dseg id (s_disk s) = Some f -> rec_at off (seg_entries f) = Some r ->
    rdel r = false ->
    ix_repoint ops (m_idx m) (p_hash P (m_seed m) (rk r)) id (u32 off) id (u32 off) = Some i1 ->
    write_record ops P r s m = Some (s1, m1, nid, noff) ->
    ix_repoint ops (m_idx m1) (p_hash P (m_seed m) (rk r)) id (u32 off) nid noff = Some i2 ->
    cstep_kind s c m
      (with_mem (set_idx m1 i2) (emit ops (EIndex i2) s1))
      {| c_todo := c_todo c; c_src := Some (id, seq, off + rsize r); c_segs := c_segs c;
         c_recs := c_recs c; c_bytes := c_bytes c |}
| ck_remove id seq off f :
    c_src c = Some (id, seq, off) -> find_dseg id (s_disk s) = Some f -> rec_at off (seg_entries f) = None ->
    flen f = off -> f_seq f = seq ->
    cstep_kind s c m
      (remove_segment ops id seq s m)
      {| c_todo := c_todo c; c_src := None; c_segs := c_segs c + 1; c_recs := c_recs c; c_bytes := c_bytes c |}.

Lemma compact_step_inv s c m s' c' :
  s_mem s = Some m -> compact_step ops P s c = CMore s' c' -> cstep_kind s c m s' c'.
Proof.
  intros Em E. unfold compact_step in E. rewrite Em in E.
  destruct (c_src c) as [[[id seq] off]|] eqn:Esrc.
  - destruct (find_dseg id (s_disk s)) as [f|] eqn:Ef; [|discriminate].
    destruct (rec_at off (seg_entries f)) as [r|] eqn:Hrec.
    + cbn zeta in E. destruct (rdel r) eqn:Edel.
      * injection E as <- <-. apply (ck_skip s c m id seq off f r); auto.
      * destruct (ix_repoint ops (m_idx m) (p_hash P (m_seed m) (rk r)) id (u32 off) id (u32 off)) as [i1|] eqn:Erp1.
        -- destruct (write_record ops P r s m) as [[[[s1 m1] nid] noff]|] eqn:Ew; [|discriminate].
           destruct (ix_repoint ops (m_idx m1) (p_hash P (m_seed m) (rk r)) id (u32 off) nid noff) as [i2|] eqn:Erp2;
             [|discriminate].
           injection E as <- <-. apply (ck_promote s c m id seq off f r i1 s1 m1 nid noff i2); assumption.
        -- injection E as <- <-. apply (ck_skip s c m id seq off f r); auto.
    + destruct ((flen f =? off) && (f_seq f =? seq)) eqn:En; [|discriminate]. injection E as <- <-.
      apply andb_true_iff in En. destruct En as [E1 E2]. apply N.eqb_eq in E1. apply N.eqb_eq in E2.
      apply (ck_remove s c m id seq off f); assumption.
  - destruct (c_todo c) as [|[id seq] todo] eqn:Etodo; [discriminate|]. injection E as <- <-.
    apply ck_start; [exact Esrc|exact Etodo].
Qed.

(* the other outcome: the compaction is over exactly when no source is open and none is left to do *)
Lemma compact_step_done s c :
  compact_step ops P s c = CDone <-> s_mem s <> None /\ c_src c = None /\ c_todo c = [].
Proof.
  unfold compact_step. split.
  - destruct (s_mem s) as [m|]; [|discriminate].
    destruct (c_src c) as [[[id seq] off]|].
    + destruct (find_dseg id (s_disk s)) as [f|]; [|discriminate].
      destruct (rec_at off (seg_entries f)) as [r|].
      * destruct (rdel r); [discriminate|].
        destruct (ix_repoint ops (m_idx m) _ id (u32 off) id (u32 off)); [|discriminate].
        destruct (write_record ops P r s m) as [[[[s1 m1] nid] noff]|]; [|discriminate].
        destruct (ix_repoint ops (m_idx m1) _ id (u32 off) nid noff); discriminate.
      * destruct (negb ((flen f =? off) && (f_seq f =? seq))); discriminate.
    + destruct (c_todo c) as [|[id seq] todo]; [|discriminate].
      intros _. split; [discriminate|]. split; reflexivity.
  - intros (Hm & -> & ->). destruct (s_mem s); [reflexivity|congruence].
Qed.
End CStepKind.

(* every micro-step of Compact: invariants kept, contents unchanged, work left decreases by one *)
Theorem compact_step_ok_ex P (s : st) (c : cursor) :
  Inv P s -> CInv s c -> (exists m, s_mem s = Some m /\ room m) ->
  match compact_step flat_ops P s c with
  | CDone => c_src c = None /\ c_todo c = []
  | CFail _ => False
  | CMore s' c' => step_post P s c s' c'
  end.
Proof.
  intros HI HC (m & Em & Hroom). destruct (CInv_open s c m HC Em) as [_ HS].
  destruct (Inv_open P s m Em HI) as (HL & Hidx & _). assert (Hd : DiskOK (s_disk s)) by apply HL.
  unfold compact_step. rewrite Em. destruct (c_src c) as [[[id seq] off]|] eqn:Esrc.
  - destruct HS as ((f & Ef & Hb) & Hslots). rewrite Ef.
    destruct (rec_at off (seg_entries f)) as [r|] eqn:Hrec.
    + cbn zeta.
      destruct (rdel r) eqn:Edel.
      * apply (cp_step_skip P s c m id seq off f r); try assumption; try reflexivity.
        intros sl Hsl Eseg Eoff. destruct (cp_slot_at P _ _ _ sl id off f r (proj1 Hidx) Hsl Eseg Eoff Ef Hrec) as [H _]. congruence.
      * cbn [ix_repoint flat_ops].
        destruct (fl_repoint (m_idx m) (p_hash P (m_seed m) (rk r)) id (u32 off) id (u32 off)) as [i1|] eqn:Erp1.
        -- assert (Hrecof : rec_of (s_disk s) id off = Some r) by (unfold rec_of; rewrite Ef; exact Hrec).
           pose proof (rec_of_rec_fits _ _ _ _ Hd Hrecof) as Hfits.
           destruct (write_record_full P r s m HL Hroom Hfits) as (s1 & m1 & nid & noff & Ew & _ & _ & _ & Ei & _).
           rewrite Ew.
           destruct (fl_repoint (m_idx m1) (p_hash P (m_seed m) (rk r)) id (u32 off) nid noff) as [i2|] eqn:Erp2.
           ++ apply (cp_step_promote P s c m id seq off f r s1 m1 nid noff i2); try assumption; reflexivity.
           ++ rewrite Ei in Erp2. rewrite (cp_repoint_indep _ _ _ _ _ _ id (u32 off) Erp2) in Erp1. discriminate.
        -- apply (cp_step_skip P s c m id seq off f r); try assumption; try reflexivity.
           intros sl Hsl Eseg Eoff.
           destruct (cp_slot_at P _ _ _ sl id off f r (proj1 Hidx) Hsl Eseg Eoff Ef Hrec) as [_ Hh].
           pose proof (cp_repoint_None _ _ _ _ _ _ Erp1 sl Hsl) as Hp. unfold fl_points in Hp.
           rewrite Hh, (cp_off_u32 _ _ _ _ _ Hd Ef Hrec), Eseg, Eoff, !N.eqb_refl in Hp. discriminate.
    + destruct (cp_step_remove P s c m id seq off f
                 {| c_todo := c_todo c; c_src := None; c_segs := c_segs c + 1; c_recs := c_recs c; c_bytes := c_bytes c |}
                 HI HC Em Esrc Ef Hrec eq_refl eq_refl) as (E1 & E2 & Hpost).
      rewrite E1, E2, !N.eqb_refl. cbn [andb negb]. exact Hpost.
  - destruct (c_todo c) as [|[id seq] todo] eqn:Etodo; [auto|].
    apply (cp_step_start P s c m id seq todo); try assumption; reflexivity.
Qed.

Theorem compact_step_ok P (s : st) (c : cursor) :
  Inv P s -> CInv s c -> (exists m, s_mem s = Some m /\ room m) ->
  match compact_step flat_ops P s c with
  | CDone => c_src c = None /\ c_todo c = []
  | CFail _ => False
  | CMore s' c' => Inv P s' /\ CInv s' c' /\ s_mem s' <> None /\
                   (forall k, sget (abs (s_disk s')) k = sget (abs (s_disk s)) k)
  end.
Proof.
  intros HI HC Hm. pose proof (compact_step_ok_ex P s c HI HC Hm) as H.
  destruct (compact_step flat_ops P s c) as [|s' c'|w]; [exact H| |exact H].
  destruct H as (H1 & H2 & H3 & H4 & _). auto.
Qed.

Corollary compact_step_MetaOK P (s : st) (c : cursor) s' c' :
  Inv P s -> CInv s c -> (exists m, s_mem s = Some m /\ room m) -> MetaOK s ->
  compact_step flat_ops P s c = CMore s' c' -> MetaOK s'.
Proof.
  intros HI HC Hm HM E. pose proof (compact_step_ok_ex P s c HI HC Hm) as H. rewrite E in H.
  destruct H as (_ & _ & _ & _ & _ & H & _). exact (H HM).
Qed.

Corollary compact_step_files P (s : st) (c : cursor) s' c' :
  Inv P s -> CInv s c -> (exists m, s_mem s = Some m /\ room m) -> files_exact s ->
  compact_step flat_ops P s c = CMore s' c' -> files_exact s'.
Proof.
  intros HI HC Hm HF E. pose proof (compact_step_ok_ex P s c HI HC Hm) as H. rewrite E in H.
  destruct H as (_ & _ & _ & _ & _ & _ & H & _). exact (H HF).
Qed.


Lemma CInv_same (s s' : st) (c : cursor) : s_mem s' = s_mem s -> s_disk s' = s_disk s -> CInv s c -> CInv s' c.
Proof. unfold CInv. intros -> ->. exact (fun H => H). Qed.

Lemma cp_fl_replace_In hit new l : forall l' o,
  fl_replace hit new l = Some (l', o) -> forall x, In x l' -> x = new \/ In x l.
Proof.
  induction l as [|a l IH]; intros l' o H x Hx; [discriminate|]. cbn [fl_replace] in H.
  destruct (hit a).
  - inversion H; subst. destruct Hx as [<-|Hx]; [left; reflexivity|right; right; exact Hx].
  - destruct (fl_replace hit new l) as [[l0 o0]|] eqn:E; [|discriminate]. inversion H; subst.
    destruct Hx as [<-|Hx]; [right; left; reflexivity|].
    destruct (IH l0 o eq_refl x Hx) as [->|H']; [left; reflexivity|right; right; exact H'].
Qed.

Lemma cp_fl_put_In grow l sl mt i2 old :
  fl_put grow l sl mt = (i2, old) -> forall x, In x i2 -> x = sl \/ In x l.
Proof.
  unfold fl_put. destruct (fl_replace (fl_hit (sl_h sl) mt) sl l) as [[l' o]|] eqn:E; intros H x Hx; inversion H; subst.
  - apply (cp_fl_replace_In _ _ _ _ _ E x Hx).
  - apply in_app_or in Hx. destruct Hx as [Hx|[<-|[]]]; [right; exact Hx|left; reflexivity].
Qed.

Lemma cp_fl_remove_In hit l : forall l' o, fl_remove hit l = Some (l', o) -> forall x, In x l' -> In x l.
Proof.
  induction l as [|a l IH]; intros l' o H x Hx; [discriminate|]. cbn [fl_remove] in H.
  destruct (hit a).
  - inversion H; subst. right. exact Hx.
  - destruct (fl_remove hit l) as [[l0 o0]|] eqn:E; [|discriminate]. inversion H; subst.
    destruct Hx as [<-|Hx]; [left; reflexivity|right; apply (IH l0 o eq_refl x Hx)].
Qed.

Lemma cp_fl_del_In l h mt i1 old : fl_del l h mt = (i1, old) -> forall x, In x i1 -> In x l.
Proof.
  unfold fl_del. destruct (fl_remove (fl_hit h mt) l) as [[l' o]|] eqn:E; intros H x Hx; inversion H; subst.
  - apply (cp_fl_remove_In _ _ _ _ E x Hx).
  - exact Hx.
Qed.

Lemma msim2_track_del sl (m : mem) : msim2 mkeep m (track_del sl m).
Proof. unfold track_del. apply msim2_upd_mseg; [apply mkeep_refl|]. intros g. repeat split; auto. Qed.
Lemma msim2_add_delbytes id n (m : mem) : msim2 mkeep m (add_delbytes id n m).
Proof. unfold add_delbytes. apply msim2_upd_mseg; [apply mkeep_refl|]. intros g. repeat split; auto. Qed.
Lemma msim2_set_idx (m : mem) i : (exists F, (forall g, mkeep g (F g)) /\ m_segs (set_idx m i) = map F (m_segs m)).
Proof. exists (fun g => g). split; [apply mkeep_refl|]. cbn [set_idx m_segs]. rewrite map_id. reflexivity. Qed.

Section Writers.
Variable P : params.

Theorem put_preserves (s : st) (c : cursor) k v :
  Inv P s -> (exists m, s_mem s = Some m /\ room m) ->
  Forall byte k -> Forall byte v -> nlen k <= max_key_len -> nlen v <= max_val_len ->
  CInv s c -> CInv (fst (db_put flat_ops P k v s)) c /\ keeps3 s (fst (db_put flat_ops P k v s)).
Proof.
  intros HI (m & Em & Hroom) Hbk Hbv Hk Hv HC.
  destruct (Inv_open P s m Em HI) as (HL & _).
  assert (Hr : rec_fits (mkput k v)) by (apply rec_fits_mkput; assumption).
  destruct (write_record_full P (mkput k v) s m HL Hroom Hr) as (s1 & m1 & nid & noff & Ew & _ & _ & _ & Ei & _).
  unfold db_put. rewrite Em, (proj2 (N.ltb_ge _ _) Hk), (proj2 (N.ltb_ge _ _) Hv), Ew. cbn [ix_put flat_ops].
  destruct (fl_put (p_grow P) (m_idx m1) _ (matchf (s_disk s1) k)) as [i2 old] eqn:Eput.
  set (m2 := match old with Some o => track_del o m1 | None => m1 end).
  destruct (finish_spec P (emit flat_ops (EIndex i2) s1) (set_idx m2 i2)) as (s' & Ef & Ems' & Eds' & _).
  rewrite Ef. cbn [fst]. rewrite s_disk_emit in Eds'.
  destruct (cp_writer s c m m P (mkput k v) s1 m1 m2 nid noff i2 s' HL Em (msim2_refl _ mkeep_refl m) HC Ew Hroom Hr)
    as (C2 & _ & K2); [| |exact Ems'|exact Eds'|exact (conj C2 K2)].
  - unfold m2. destruct old; [apply msim2_track_del|apply msim2_refl, mkeep_refl].
  - intros x Hx. destruct (cp_fl_put_In _ _ _ _ _ _ Eput x Hx) as [->|H]; [left; reflexivity|right; congruence].
Qed.

Theorem delete_preserves (s : st) (c : cursor) k :
  Inv P s -> (exists m, s_mem s = Some m /\ room m) -> Forall byte k -> CInv s c ->
  CInv (fst (db_delete flat_ops P k s)) c /\ keeps3 s (fst (db_delete flat_ops P k s)).
Proof.
  intros HI (m & Em & Hroom) Hbk HC.
  destruct (Inv_open P s m Em HI) as (HL & Hidx & _). assert (Hd : DiskOK (s_disk s)) by apply HL.
  unfold db_delete. rewrite Em. cbn [ix_del flat_ops].
  destruct (fl_del (m_idx m) (p_hash P (m_seed m) k) (matchf (s_disk s) k)) as [i1 old] eqn:Edel.
  destruct old as [o|].
  - destruct (del_found P _ _ _ k i1 o Hd Hidx Edel) as [Hk _].
    assert (Hr : rec_fits (mkdel k)) by (apply rec_fits_mkdel; assumption).
    pose proof (track_del_InvLog o m _ HL) as HL0. pose proof (track_del_room o m Hroom) as Hroom0.
    destruct (write_record_full P (mkdel k) s (track_del o m) HL0 Hroom0 Hr) as (s1 & m1 & nid & noff & Ew & _).
    rewrite Ew.
    set (m2 := add_delbytes nid (u32 (rsize (mkdel k))) m1).
    destruct (finish_spec P (emit flat_ops (EIndex i1) s1) (set_idx m2 i1)) as (s' & Ef & Ems' & Eds' & _).
    rewrite Ef. cbn [fst]. rewrite s_disk_emit in Eds'.
    destruct (cp_writer s c m (track_del o m) P (mkdel k) s1 m1 m2 nid noff i1 s' HL0 Em (msim2_track_del o m) HC Ew Hroom0 Hr)
      as (C2 & _ & K2); [apply msim2_add_delbytes| |exact Ems'|exact Eds'|exact (conj C2 K2)].
    intros x Hx. right. apply (cp_fl_del_In _ _ _ _ _ Edel x Hx).
  - destruct (del_absent P _ _ _ k i1 Hd Hidx Edel) as [-> _].
    destruct (finish_spec P s m) as (s' & Ef & Ems' & Eds' & _). rewrite Ef. cbn [fst].
    assert (Em' : s_mem s' = s_mem s) by congruence.
    exact (conj (CInv_same s s' c Em' Eds' HC) (keeps3_same s s' Em' Eds')).
Qed.

Theorem sync_preserves (s : st) (c : cursor) :
  CInv s c -> CInv (fst (db_sync flat_ops s)) c /\ keeps3 s (fst (db_sync flat_ops s)).
Proof.
  intros HC. pose proof HC as (m & Em & _). unfold db_sync. rewrite Em. cbn [fst].
  destruct (do_sync_spec s m) as (E1 & E2 & _). assert (Em' : s_mem (do_sync flat_ops s m) = s_mem s) by congruence.
  exact (conj (CInv_same s _ c Em' E2 HC) (keeps3_same s _ Em' E2)).
Qed.
End Writers.


(* the 32-bit offset side condition [room] holds in every state the run goes through *)
Fixpoint run_room (P : params) (fuel : nat) (s : st) (c : cursor) : Prop :=
  match fuel with
  | O => True
  | S f => (exists m, s_mem s = Some m /\ room m) /\
           match compact_step flat_ops P s c with
           | CMore s' c' => run_room P f s' c'
           | _ => True
           end
  end.

Theorem compact_run_ok P fuel : forall (s : st) (c : cursor),
  Inv P s -> CInv s c -> (cmeasure (s_disk s) c < fuel)%nat -> run_room P fuel s c ->
  let '(s', o) := compact_run flat_ops P fuel s c in
  (exists a b n, o = OCompact a b n) /\ Inv P s' /\ s_mem s' <> None /\
  (forall k, sget (abs (s_disk s')) k = sget (abs (s_disk s)) k) /\ keeps3 s s'.
Proof.
  induction fuel as [|f IH]; intros s c HI HC Hlt Hroom; [lia|].
  cbn [run_room] in Hroom. destruct Hroom as [Hm Hrest]. cbn [compact_run].
  pose proof (compact_step_ok_ex P s c HI HC Hm) as Hstep.
  destruct (compact_step flat_ops P s c) as [|s1 c1|w]; [| |destruct Hstep].
  - split; [eexists _, _, _; reflexivity|]. split; [exact HI|]. destruct Hm as (m & Em & _).
    split; [congruence|]. split; [reflexivity|apply keeps3_refl].
  - destruct Hstep as (HI1 & HC1 & _ & Habs1 & Hmeas & K1).
    assert (Hlt1 : (cmeasure (s_disk s1) c1 < f)%nat) by lia.
    pose proof (IH s1 c1 HI1 HC1 Hlt1 Hrest) as H.
    destruct (compact_run flat_ops P f s1 c1) as [s' o].
    destruct H as (A1 & A2 & A3 & A4 & K2).
    split; [exact A1|]. split; [exact A2|]. split; [exact A3|].
    split; [intros k; rewrite A4; apply Habs1|exact (keeps3_trans _ _ _ K1 K2)].
Qed.

Definition nrecs_in (L : list dseg) (id : N) : nat :=
  match find (fun s => f_id s =? id) L with Some f => length (f_recs f) | None => O end.
Definition sum_nrecs (L : list dseg) (ids : list N) : nat := fold_right (fun id n => (nrecs_in L id + n)%nat) O ids.
Definition total_of (L : list dseg) : nat := fold_right (fun f n => (length (f_recs f) + n)%nat) O L.

Lemma cp_sum_cons_notin f L ids : ~ In (f_id f) ids -> sum_nrecs (f :: L) ids = sum_nrecs L ids.
Proof.
  induction ids as [|id ids IH]; intros H; [reflexivity|]. cbn [sum_nrecs fold_right].
  fold (sum_nrecs (f :: L) ids). fold (sum_nrecs L ids). rewrite IH by (intros X; apply H; right; exact X).
  unfold nrecs_in. cbn [find]. destruct (N.eqb_spec (f_id f) id) as [E|_]; [|reflexivity].
  exfalso. apply H. left. symmetry. exact E.
Qed.

Lemma cp_sum_cons f L ids : NoDup ids -> (sum_nrecs (f :: L) ids <= length (f_recs f) + sum_nrecs L ids)%nat.
Proof.
  induction ids as [|id ids IH]; intros Hnd; [cbn; lia|]. inversion Hnd as [|? ? Hid Hnd']; subst.
  cbn [sum_nrecs fold_right]. fold (sum_nrecs (f :: L) ids). fold (sum_nrecs L ids).
  unfold nrecs_in at 1. cbn [find]. destruct (N.eqb_spec (f_id f) id) as [E|_].
  - rewrite cp_sum_cons_notin by (rewrite E; exact Hid). lia.
  - fold (nrecs_in L id). specialize (IH Hnd'). lia.
Qed.

Lemma cp_sum_total L : forall ids, NoDup ids -> (sum_nrecs L ids <= total_of L)%nat.
Proof.
  induction L as [|f L IH]; intros ids Hnd.
  - induction ids as [|id ids IHi]; [cbn; lia|]. inversion Hnd; subst. cbn [sum_nrecs fold_right].
    fold (sum_nrecs [] ids). specialize (IHi H2). unfold nrecs_in. cbn [find total_of fold_right] in *. lia.
  - pose proof (cp_sum_cons f L ids Hnd). specialize (IH ids Hnd). cbn [total_of fold_right]. fold (total_of L). lia.
Qed.

Lemma cp_todo_measure_sum (d : disk) l :
  todo_measure d l = (2 * length l + sum_nrecs (d_segs d) (map fst l))%nat.
Proof.
  induction l as [|x l IH]; [reflexivity|]. cbn [todo_measure fold_right map length sum_nrecs].
  fold (todo_measure d l). fold (sum_nrecs (d_segs d) (map fst l)). rewrite IH.
  unfold seg_nrecs, nrecs_in, find_dseg. lia.
Qed.

Lemma cp_picked_NoDup (m : mem) (d : disk) l :
  InvLog m d -> (forall x, In x l -> sealed m x) -> StronglySorted pair_lt l -> NoDup (map fst l).
Proof.
  intros HL. induction l as [|x l IH]; intros Hs Hsort; [constructor|].
  cbn [map]. constructor.
  - intros HIn. apply in_map_iff in HIn. destruct HIn as (y & E & Hy).
    pose proof (cp_sorted_head _ _ _ y Hsort Hy) as Hlt. unfold pair_lt in Hlt.
    pose proof (cp_sealed_ids m d y x HL (Hs y (or_intror Hy)) (Hs x (or_introl eq_refl)) E). lia.
  - apply IH; [intros y Hy; apply Hs; right; exact Hy|exact (cp_sorted_tail _ _ _ Hsort)].
Qed.

Lemma cp_total_recs (d : disk) : total_recs d = total_of (d_segs d).
Proof. reflexivity. Qed.

(* the fuel that db_compact gives to the run is enough *)
Lemma cp_fuel P (s1 : st) (c : cursor) :
  Inv P s1 -> CInv s1 c -> c_src c = None ->
  (cmeasure (s_disk s1) c < S (2 * length (c_todo c) + 2 * total_recs (s_disk s1) + 2))%nat.
Proof.
  intros HI1 HC1 Esrc. unfold cmeasure. rewrite Esrc, cp_todo_measure_sum, cp_total_recs. cbn [plus].
  pose proof HC1 as (m1 & Em1 & C1 & C2 & _). unfold crem in C1, C2. rewrite Esrc in C1, C2.
  pose proof (Inv_InvLog P s1 m1 Em1 HI1) as HL1.
  pose proof (cp_sum_total (d_segs (s_disk s1)) _ (cp_picked_NoDup m1 _ _ HL1 C1 C2)). lia.
Qed.

Definition compact_room (P : params) (s : st) : Prop :=
  match compact_pick flat_ops P s with
  | Some (s1, c) => run_room P (S (2 * length (c_todo c) + 2 * total_recs (s_disk s1) + 2)) s1 c
  | None => True
  end.

Theorem db_compact_ok P (s : st) :
  Inv P s -> MetaOK s -> s_mem s <> None -> compact_room P s ->
  let '(s', o) := db_compact flat_ops P s in
  (exists a b n, o = OCompact a b n) /\ Inv P s' /\ s_mem s' <> None /\
  (forall k, sget (abs (s_disk s')) k = sget (abs (s_disk s)) k) /\
  MetaOK s' /\ (files_exact s -> files_exact s') /\ d_bac (s_disk s') = d_bac (s_disk s).
Proof.
  intros HI HM Hm Hroom. unfold compact_room in Hroom. unfold db_compact.
  destruct (compact_pick_ok P s HI HM Hm) as (s1 & c & Ep & HI1 & HC1 & Ed1 & HM1 & Esrc & _).
  rewrite Ep in Hroom |- *.
  pose proof (compact_run_ok P _ s1 c HI1 HC1 (cp_fuel P s1 c HI1 HC1 Esrc) Hroom) as H.
  destruct (compact_run flat_ops P _ s1 c) as [s' o].
  destruct H as (A1 & A2 & A3 & A4 & K).
  destruct (keeps3_trans _ _ _ (keeps3_disk s s1 Ed1 (fun _ => HM1)) K) as (M & F & B).
  split; [exact A1|]. split; [exact A2|]. split; [exact A3|]. split; [intros k; rewrite A4, Ed1; reflexivity|].
  exact (conj (M HM) (conj F B)).
Qed.


Lemma cp_seg_names_In (d : disk) n :
  In n (seg_names d) <->
  exists x, In x (d_segs d) /\
    (n = FSeg (f_id x) (f_seq x) \/ (gob_present (f_meta x) = true /\ n = FSegMeta (f_id x) (f_seq x))).
Proof.
  unfold seg_names. rewrite in_concat. split.
  - intros (l & Hl & Hn). apply in_map_iff in Hl. destruct Hl as (x & <- & Hx). exists x. split; [exact Hx|].
    destruct Hn as [<-|Hn]; [left; reflexivity|]. right.
    destruct (gob_present (f_meta x)); [|destruct Hn]. destruct Hn as [<-|[]]. auto.
  - intros (x & Hx & H). eexists. split; [apply in_map_iff; exists x; split; [reflexivity|exact Hx]|].
    destruct H as [->|[Hg ->]]; [left; reflexivity|]. right. rewrite Hg. left. reflexivity.
Qed.

Definition fixed_name (n : fname) : Prop :=
  n = FMain \/ n = FOverflow \/ n = FIndexMeta \/ n = FDbMeta \/ n = FLock.

(* the directory of a database without leftovers: the files of the segments, then at most the five
   fixed files, which depend on the non-segment fields only *)
Definition dir_fixed (d : disk) : list fname :=
  (match d_index d with Some _ => [FMain] | None => [] end) ++
  (if d_overflow d then [FOverflow] else []) ++
  (if gob_present (d_imeta d) then [FIndexMeta] else []) ++
  (if gob_present (d_dbmeta d) then [FDbMeta] else []) ++
  (if d_lock d then [FLock] else []).

Lemma dir_files_exact (d : disk) : d_orphans d = [] -> d_bac d = [] -> dir d = seg_names d ++ dir_fixed d.
Proof. intros Ho Hb. unfold dir, dir_fixed. rewrite Ho, Hb, app_nil_r. reflexivity. Qed.

Lemma dir_fixed_ext (d d' : disk) :
  d_index d' = d_index d -> d_overflow d' = d_overflow d -> d_imeta d' = d_imeta d ->
  d_dbmeta d' = d_dbmeta d -> d_lock d' = d_lock d -> dir_fixed d' = dir_fixed d.
Proof. unfold dir_fixed. intros -> -> -> -> ->. reflexivity. Qed.

Lemma Forall_if1 {A} (Q : A -> Prop) (b : bool) x : Q x -> Forall Q (if b then [x] else []).
Proof. intros H. destruct b; repeat constructor. exact H. Qed.

Lemma filter_if1 {A} (p : A -> bool) (b : bool) x : p x = false -> filter p (if b then [x] else []) = [].
Proof. intros H. destruct b; cbn [filter]; rewrite ?H; reflexivity. Qed.

Lemma length_if1 {A} (b : bool) (x : A) : (length (if b then [x] else []) <= 1)%nat.
Proof. destruct b; cbn [length]; lia. Qed.

Lemma dir_fixed_spec (d : disk) :
  Forall fixed_name (dir_fixed d) /\ (length (dir_fixed d) <= 5)%nat /\ filter is_segfile (dir_fixed d) = [].
Proof.
  unfold dir_fixed, fixed_name. split; [|split].
  - apply Forall_app. split; [destruct (d_index d); repeat constructor; tauto|].
    repeat (apply Forall_app; split); apply Forall_if1; tauto.
  - rewrite !app_length.
    pose proof (length_if1 (d_overflow d) FOverflow). pose proof (length_if1 (gob_present (d_imeta d)) FIndexMeta).
    pose proof (length_if1 (gob_present (d_dbmeta d)) FDbMeta). pose proof (length_if1 (d_lock d) FLock).
    destruct (d_index d); cbn [length]; lia.
  - rewrite !filter_app, !filter_if1 by reflexivity. destruct (d_index d); reflexivity.
Qed.

(* every file of an open database belongs to a live segment or is one of the five fixed files *)
Theorem dir_exact P (s : st) (m : mem) n :
  Inv P s -> files_exact s -> s_mem s = Some m -> In n (dir (s_disk s)) ->
  (exists g, In g (m_segs m) /\ (n = FSeg (g_id g) (g_seq g) \/ n = FSegMeta (g_id g) (g_seq g))) \/
  fixed_name n.
Proof.
  intros HI [Ho Hb] Em HIn. destruct (Inv_open P s m Em HI) as ((_ & [_ Ha2] & _) & _).
  rewrite (dir_files_exact _ Ho Hb) in HIn. apply in_app_or in HIn.
  destruct HIn as [HIn|HIn]; [left|right; exact (proj1 (Forall_forall _ _) (proj1 (dir_fixed_spec _)) n HIn)].
  apply cp_seg_names_In in HIn. destruct HIn as (x & Hx & H).
  destruct (Ha2 x Hx) as (g & Hg & G1 & G2). exists g. split; [exact Hg|]. rewrite G1, G2.
  destruct H as [->|[_ ->]]; auto.
Qed.

(* the step that removes segment (id, seq): exactly its two files disappear *)
Theorem compact_removes_files P (s : st) (c : cursor) (m : mem) id seq off f :
  Inv P s -> files_exact s -> CInv s c -> s_mem s = Some m -> c_src c = Some (id, seq, off) ->
  find_dseg id (s_disk s) = Some f -> rec_at off (seg_entries f) = None ->
  let s' := remove_segment flat_ops id seq s m in
  compact_step flat_ops P s c =
    CMore s' {| c_todo := c_todo c; c_src := None; c_segs := c_segs c + 1; c_recs := c_recs c; c_bytes := c_bytes c |} /\
  ~ In (FSeg id seq) (dir (s_disk s')) /\ ~ In (FSegMeta id seq) (dir (s_disk s')) /\
  (forall n, In n (dir (s_disk s')) <-> In n (dir (s_disk s)) /\ n <> FSeg id seq /\ n <> FSegMeta id seq) /\
  files_exact s'.
Proof.
  intros HI HF HC Em Esrc Ef Hrec. cbn zeta.
  destruct (cp_step_remove P s c m id seq off f
             {| c_todo := c_todo c; c_src := None; c_segs := c_segs c + 1; c_recs := c_recs c; c_bytes := c_bytes c |}
             HI HC Em Esrc Ef Hrec eq_refl eq_refl) as (E1 & E2 & Hpost).
  destruct Hpost as (_ & _ & _ & _ & _ & _ & HF' & _). specialize (HF' HF).
  assert (Hstep : compact_step flat_ops P s c = CMore (remove_segment flat_ops id seq s m)
            {| c_todo := c_todo c; c_src := None; c_segs := c_segs c + 1; c_recs := c_recs c; c_bytes := c_bytes c |}).
  { unfold compact_step. rewrite Em, Esrc, Ef, Hrec, E1, E2, !N.eqb_refl. reflexivity. }
  split; [exact Hstep|].
  destruct (cp_remove_segment_eq id seq s m) as [Edisk _].
  destruct HF as [Ho Hb]. destruct HF' as [Ho' Hb'].
  destruct (cp_removed_disk (s_disk s) id seq) as (Dsegs & Di & Dov & Dim & Ddb & Dl & _).
  rewrite <- Edisk in Dsegs, Di, Dov, Dim, Ddb, Dl.
  set (d := s_disk s) in *. set (d' := s_disk (remove_segment flat_ops id seq s m)) in *.
  destruct (Inv_open P s m Em HI) as (((_ & Hnid & _) & _) & _). fold d in Hnid.
  assert (Hone : forall x, In x (d_segs d) -> f_id x = id -> f_seq x = seq).
  { intros x Hx E. apply find_dseg_In in Ef. destruct Ef as [Hf Hfid].
    assert (x = f) by (apply (NoDup_map_inj f_id _ x f Hnid Hx Hf); congruence). subst x. exact E2. }
  assert (Hiff : forall n, In n (dir d') <-> In n (dir d) /\ n <> FSeg id seq /\ n <> FSegMeta id seq).
  { intros n. rewrite (dir_files_exact d' Ho' Hb'), (dir_files_exact d Ho Hb), !in_app_iff,
      (dir_fixed_ext d d' Di Dov Dim Ddb Dl), !cp_seg_names_In, Dsegs.
    split.
    - intros [(x & Hx & H)|H].
      + apply filter_In in Hx. destruct Hx as [Hx Hns]. split; [left; exists x; auto|].
        assert (Hnot : ~ (f_id x = id /\ f_seq x = seq)).
        { intros [A B]. unfold is_seg in Hns. rewrite A, B, !N.eqb_refl in Hns. cbn [andb negb] in Hns. discriminate Hns. }
        destruct H as [->|[_ ->]]; split; intros E; inversion E; apply Hnot; auto.
      + split; [right; exact H|]. pose proof (proj1 (Forall_forall _ _) (proj1 (dir_fixed_spec d)) n H) as Hfix.
        unfold fixed_name in Hfix. split; intros ->; intuition discriminate.
    - intros [[(x & Hx & H)|H] [Hn1 Hn2]]; [|right; exact H].
      left. exists x. split; [|exact H]. apply filter_In. split; [exact Hx|].
      unfold is_seg. destruct (N.eqb_spec (f_id x) id) as [E|_]; [|reflexivity].
      exfalso. pose proof (Hone x Hx E) as Es. rewrite E, Es in H. destruct H as [->|[_ ->]]; congruence. }
  split; [intros H; apply Hiff in H; tauto|]. split; [intros H; apply Hiff in H; tauto|].
  split; [exact Hiff|split; assumption].
Qed.

Inductive wop := WPut (k : key) (v : val) | WDel (k : key).
Definition apply_wop (a : smap) (o : wop) : smap :=
  match o with WPut k v => sput a k v | WDel k => sdel a k end.

Section Reach.
Variable P : params.

(* [creach s c ops s' c']: from (s, c), micro-steps of Compact and the writer operations [ops]
   (in this order, interleaved in any way, with Syncs) lead to (s', c') *)
Inductive creach : st -> cursor -> list wop -> st -> cursor -> Prop :=
| cr_refl s c : creach s c [] s c
| cr_step s c ops s1 c1 s2 c2 :
    creach s c ops s1 c1 -> (exists m, s_mem s1 = Some m /\ room m) ->
    compact_step flat_ops P s1 c1 = CMore s2 c2 -> creach s c ops s2 c2
| cr_put s c ops s1 c1 k v :
    creach s c ops s1 c1 -> (exists m, s_mem s1 = Some m /\ room m) ->
    Forall byte k -> Forall byte v -> nlen k <= max_key_len -> nlen v <= max_val_len ->
    creach s c (ops ++ [WPut k v]) (fst (db_put flat_ops P k v s1)) c1
| cr_del s c ops s1 c1 k :
    creach s c ops s1 c1 -> (exists m, s_mem s1 = Some m /\ room m) -> Forall byte k ->
    creach s c (ops ++ [WDel k]) (fst (db_delete flat_ops P k s1)) c1
| cr_sync s c ops s1 c1 :
    creach s c ops s1 c1 -> creach s c ops (fst (db_sync flat_ops s1)) c1.

Lemma cp_sget_ext_wop (a b : smap) o :
  (forall k, sget a k = sget b k) -> forall k, sget (apply_wop a o) k = sget (apply_wop b o) k.
Proof.
  intros H k. destruct o as [k0 v|k0]; cbn [apply_wop]; rewrite ?sget_sput, ?sget_sdel, H; reflexivity.
Qed.

Lemma sget_ext_wops ops : forall a b : smap,
  (forall k, sget a k = sget b k) -> forall k, sget (fold_left apply_wop ops a) k = sget (fold_left apply_wop ops b) k.
Proof.
  induction ops as [|o ops IH]; intros a b H; [exact H|]. cbn [fold_left]. apply IH, cp_sget_ext_wop, H.
Qed.

(* from [s], state and cursor (s', c') are reached, and the contents are those after the writers' [ops] *)
Definition reached (s : st) (ops : list wop) (s' : st) (c' : cursor) : Prop :=
  Inv P s' /\ CInv s' c' /\ s_mem s' <> None /\
  (forall k, sget (abs (s_disk s')) k = sget (fold_left apply_wop ops (abs (s_disk s))) k) /\ keeps3 s s'.

Lemma reached_trans s ops s1 c1 ops' s2 c2 :
  reached s ops s1 c1 -> reached s1 ops' s2 c2 -> reached s (ops ++ ops') s2 c2.
Proof.
  intros (_ & _ & _ & A1 & K1) (I2 & C2 & N2 & A2 & K2).
  refine (conj I2 (conj C2 (conj N2 (conj _ (keeps3_trans _ _ _ K1 K2))))).
  intros k. rewrite A2, fold_left_app. apply sget_ext_wops, A1.
Qed.

(* One critical section on the flat-index database: a writer's Put, Delete or Sync, a micro-step of the
   compactor, or its pick.  [wact s c l r c']: it takes state and cursor (s, c) to (fst r, c'), returns
   snd r, and [l] is what it does to the contents.  The side conditions are those of [creach]; the pick
   trusts the counters. *)
Inductive wact (s : st) (c : cursor) : list wop -> st * out -> cursor -> Prop :=
| wa_put k v :
    (exists m, s_mem s = Some m /\ room m) ->
    Forall byte k -> Forall byte v -> nlen k <= max_key_len -> nlen v <= max_val_len ->
    wact s c [WPut k v] (db_put flat_ops P k v s) c
| wa_del k :
    (exists m, s_mem s = Some m /\ room m) -> Forall byte k -> wact s c [WDel k] (db_delete flat_ops P k s) c
| wa_sync : wact s c [] (db_sync flat_ops s) c
| wa_step s' c' :
    (exists m, s_mem s = Some m /\ room m) -> compact_step flat_ops P s c = CMore s' c' -> wact s c [] (s', OOk) c'
| wa_pick s' c' : MetaOK s -> compact_pick flat_ops P s = Some (s', c') -> wact s c [] (s', OOk) c'.

(* the compactor's two actions need no condition on the parameters *)
Lemma reached_step (s : st) (c : cursor) s' c' :
  Inv P s -> CInv s c -> (exists m, s_mem s = Some m /\ room m) ->
  compact_step flat_ops P s c = CMore s' c' -> reached s [] s' c'.
Proof.
  intros HI HC Hm E. pose proof (compact_step_ok_ex P s c HI HC Hm) as H. rewrite E in H.
  destruct H as (I2 & C2 & N2 & A2 & _ & K2). exact (conj I2 (conj C2 (conj N2 (conj A2 K2)))).
Qed.

Lemma reached_pick (s : st) (c : cursor) s' c' :
  Inv P s -> CInv s c -> MetaOK s -> compact_pick flat_ops P s = Some (s', c') -> reached s [] s' c'.
Proof.
  intros HI HC HM E.
  assert (Hopen : s_mem s <> None) by (destruct HC as (m & -> & _); discriminate).
  destruct (compact_pick_ok P s HI HM Hopen) as (s1 & c1 & E1 & I2 & C2 & Ed & M2 & _).
  rewrite E in E1. injection E1 as <- <-.
  refine (conj I2 (conj C2 (conj _ (conj _ (keeps3_disk s s' Ed (fun _ => M2)))))).
  - destruct C2 as (m' & -> & _). discriminate.
  - rewrite Ed. reflexivity.
Qed.

Theorem wact_ok (s : st) (c : cursor) l r c' :
  params_ok P -> Inv P s -> CInv s c -> wact s c l r c' -> snd r = OOk /\ reached s l (fst r) c'.
Proof.
  intros HP HI HC H.
  assert (Hopen : s_mem s <> None) by (destruct HC as (m & -> & _); discriminate).
  destruct H as [k v Hm Hbk Hbv Hk Hv|k Hm Hbk| |s' c' Hm E|s' c' HM E]; unfold reached; cbn [fold_left apply_wop].
  - pose proof (put_ok P s k v HP HI Hm Hbk Hbv Hk Hv) as H.
    destruct (put_preserves P s c k v HI Hm Hbk Hbv Hk Hv HC) as [C2 K2].
    destruct (db_put flat_ops P k v s) as [s2 o]. cbn [fst snd] in *. destruct H as (-> & I2 & N2 & A2).
    refine (conj eq_refl (conj I2 (conj C2 (conj N2 (conj _ K2))))). intros k'. rewrite A2, sget_sput. reflexivity.
  - pose proof (delete_ok P s k HP HI Hm Hbk) as H.
    destruct (delete_preserves P s c k HI Hm Hbk HC) as [C2 K2].
    destruct (db_delete flat_ops P k s) as [s2 o]. cbn [fst snd] in *. destruct H as (-> & I2 & N2 & A2 & _).
    refine (conj eq_refl (conj I2 (conj C2 (conj N2 (conj _ K2))))). intros k'. rewrite A2, sget_sdel. reflexivity.
  - pose proof (sync_ok P s HI Hopen) as H. destruct (sync_preserves s c HC) as [C2 K2].
    destruct (db_sync flat_ops s) as [s2 o]. cbn [fst snd] in *. destruct H as (-> & I2 & E2 & E3).
    refine (conj eq_refl (conj I2 (conj C2 (conj _ (conj _ K2))))); [congruence|rewrite E2; reflexivity].
  - exact (conj eq_refl (reached_step s c s' c' HI HC Hm E)).
  - exact (conj eq_refl (reached_pick s c s' c' HI HC HM E)).
Qed.

Lemma reached_wact s ops s1 c1 l r c2 :
  params_ok P -> reached s ops s1 c1 -> wact s1 c1 l r c2 -> reached s (ops ++ l) (fst r) c2.
Proof.
  intros HP H1 Ha. apply (reached_trans s ops s1 c1 l _ c2 H1).
  destruct H1 as (I1 & C1 & _). apply (wact_ok s1 c1 l r c2 HP I1 C1 Ha).
Qed.

Theorem creach_ok (s : st) (c : cursor) ops s' c' :
  params_ok P -> Inv P s -> CInv s c -> creach s c ops s' c' ->
  Inv P s' /\ CInv s' c' /\ s_mem s' <> None /\
  (forall k, sget (abs (s_disk s')) k = sget (fold_left apply_wop ops (abs (s_disk s))) k) /\
  (MetaOK s -> MetaOK s') /\ (files_exact s -> files_exact s') /\ d_bac (s_disk s') = d_bac (s_disk s).
Proof.
  intros HP HI HC Hr. change (reached s ops s' c').
  induction Hr as [s c|s c ops s1 c1 s2 c2 Hr IH Hm Hstep|s c ops s1 c1 k v Hr IH Hm Hbk Hbv Hk Hv
                  |s c ops s1 c1 k Hr IH Hm Hbk|s c ops s1 c1 Hr IH].
  - destruct HC as (m & Em & HC').
    refine (conj HI (conj (ex_intro _ m (conj Em HC')) (conj _ (conj (fun _ => eq_refl) (keeps3_refl s))))). congruence.
  - rewrite <- (app_nil_r ops). exact (reached_wact _ _ _ _ _ _ _ HP (IH HI HC) (wa_step s1 c1 s2 c2 Hm Hstep)).
  - exact (reached_wact _ _ _ _ _ _ _ HP (IH HI HC) (wa_put s1 c1 k v Hm Hbk Hbv Hk Hv)).
  - exact (reached_wact _ _ _ _ _ _ _ HP (IH HI HC) (wa_del s1 c1 k Hm Hbk)).
  - rewrite <- (app_nil_r ops). exact (reached_wact _ _ _ _ _ _ _ HP (IH HI HC) (wa_sync s1 c1)).
Qed.

(* crash (the handle is lost, the disk stays) and recovery: exactly the writers' operations are
   visible; nothing that compaction dropped comes back *)
Theorem compact_no_resurrection seed (s : st) (c : cursor) ops s' c' :
  params_ok P -> Inv P s -> CInv s c -> bac_ok (s_disk s) -> creach s c ops s' c' ->
  let '(s2, o) := db_open flat_ops P seed {| s_mem := None; s_disk := s_disk s'; s_trace := [] |} in
  o = OOpened true /\ Inv P s2 /\ s_mem s2 <> None /\
  (forall k, sget (abs (s_disk s2)) k = sget (abs (s_disk s')) k) /\
  (forall k, sget (abs (s_disk s2)) k = sget (fold_left apply_wop ops (abs (s_disk s))) k).
Proof.
  intros HP HI HC Hbac Hr. destruct (creach_ok s c ops s' c' HP HI HC Hr) as (I1 & _ & N1 & A1 & _ & _ & B1).
  destruct (s_mem s') as [m'|] eqn:Em'; [|congruence].
  destruct (Inv_open P s' m' Em' I1) as (HL & _ & Hlock & _).
  assert (Hbac' : bac_ok (s_disk s')) by (unfold bac_ok in *; rewrite B1; exact Hbac).
  pose proof (open_recover_ok P seed (s_disk s') HP (proj1 HL) Hbac' Hlock) as H.
  destruct (db_open flat_ops P seed {| s_mem := None; s_disk := s_disk s'; s_trace := [] |}) as [s2 o].
  destruct H as (H1 & H2 & H3 & H4 & _).
  split; [exact H1|]. split; [exact H2|]. split; [exact H3|]. split; [exact H4|].
  intros k. rewrite H4. apply A1.
Qed.
End Reach.


(* (a) pick without seal (defect D3) *)
Definition compact_pick_pinned (P : params) (s : st) : option (st * cursor) :=
  match s_mem s with
  | None => None
  | Some m =>
    Some (s, {| c_todo := map (fun g => (g_id g, g_seq g)) (pick P m); c_src := None;
                c_segs := 0; c_recs := 0; c_bytes := 0 |})
  end.

Definition w_P : params :=
  {| p_maxseg := 552; p_minseg := 0; p_frag := fun delbytes _ => 0 <? delbytes; p_sync := false;
     p_grow := fun _ _ => false; p_hash := fun _ _ => 0 |}.
Definition w_k : key := [107].
Definition w_j : key := [106].
Definition w_big : val := repeat 65 20%nat.

Definition w_crash (s : st) : st := {| s_mem := None; s_disk := s_disk s; s_trace := [] |}.

Definition w_s0 : st := {| s_mem := None; s_disk := disk0; s_trace := [] |}.
Definition w_s1 : st := fst (db_open flat_ops w_P 7 w_s0).                 (* fresh: segment 0, seq 1 *)
Definition w_s2 : st := fst (db_put flat_ops w_P w_k w_big w_s1).          (* 00000-1: put k *)
Definition w_s3 : st := fst (db_put flat_ops w_P w_j [1] w_s2).            (* does not fit: 00001-2 *)
Definition w_s4 : st := fst (db_put flat_ops w_P w_j [2] w_s3).            (* 00001-2 now has dead bytes *)

(* the run: pick, a Delete of k by a writer, all micro-steps, crash, recovery *)
Definition w_run (pickf : params -> st -> option (st * cursor)) : st :=
  match pickf w_P w_s4 with
  | None => w_s4
  | Some (s5, c) =>
    let s6 := fst (db_delete flat_ops w_P w_k s5) in
    let s7 := fst (compact_run flat_ops w_P 20 s6 c) in
    fst (db_open flat_ops w_P 9 (w_crash s7))
  end.

Theorem pick_without_seal_refuted :
  (* only the newer segment is picked; it holds no delete record at that time *)
  option_map (fun p => c_todo (snd p)) (compact_pick_pinned w_P w_s4) = Some [(1, 2)] /\
  option_map (fun p => c_todo (snd p)) (compact_pick flat_ops w_P w_s4) = Some [(1, 2)] /\
  db_get flat_ops w_P w_k w_s4 = OVal (Some w_big) /\
  (* pinned: the Delete lands in the picked segment, its marker is dropped, the old Put survives *)
  db_get flat_ops w_P w_k (w_run compact_pick_pinned) = OVal (Some w_big) /\
  sget (abs (s_disk (w_run compact_pick_pinned))) w_k = Some w_big /\
  (* with the seal inside the pick section the key stays deleted *)
  db_get flat_ops w_P w_k (w_run (compact_pick flat_ops)) = OVal None /\
  sget (abs (s_disk (w_run (compact_pick flat_ops)))) w_k = None /\
  db_get flat_ops w_P w_j (w_run (compact_pick flat_ops)) = OVal (Some [2]).
Proof. vm_compute. repeat split. Qed.

(* (b) removeSegment removes the wrong name instead of the side file (defect D8) *)
Definition remove_segment_pinned (id seq : N) (s : st) (m : mem) : st :=
  let s1 := do_sync flat_ops s m in
  let m1 := set_msegs m (filter (fun g => negb (g_id g =? id)) (m_segs m)) in
  let m2 := if (fst (m_cur m) =? id) && (snd (m_cur m) =? seq)
            then set_cur m1 (m_cur m) true else m1 in
  (* "name.psg" + ".psg" in place of "name.psg" + ".pmt": the model's nearest name is the segment itself *)
  let s2 := if exists_file (s_disk s1) (FSeg id seq)
            then emit flat_ops (ERemove (FSeg id seq)) s1 else s1 in
  with_mem m2 (emit flat_ops (ERemove (FSeg id seq)) s2).

(* compact_step with the removal as a parameter *)
Definition compact_step_with (rm : N -> N -> st -> mem -> st) (P : params) (s : st) (c : cursor) : cstep :=
  match s_mem s with
  | None => CFail 10
  | Some m =>
    match c_src c with
    | None =>
      match c_todo c with
      | [] => CDone
      | (id, seq) :: todo =>
        let m1 := set_msegs m (upd_mseg id (fun g => set_gmeta g (set_full (g_meta g))) (m_segs m)) in
        CMore (with_mem m1 s)
              {| c_todo := todo; c_src := Some (id, seq, header_size);
                 c_segs := c_segs c; c_recs := c_recs c; c_bytes := c_bytes c |}
      end
    | Some (id, seq, off) =>
      match find_dseg id (s_disk s) with
      | None => CFail 11
      | Some f =>
        match rec_at off (seg_entries f) with
        | None =>
          if negb ((flen f =? off) && (f_seq f =? seq)) then CFail 12 else
          CMore (rm id seq s m)
                {| c_todo := c_todo c; c_src := None;
                   c_segs := c_segs c + 1; c_recs := c_recs c; c_bytes := c_bytes c |}
        | Some r =>
          let next := Some (id, seq, off + rsize r) in
          let reclaimed := {| c_todo := c_todo c; c_src := next; c_segs := c_segs c;
                              c_recs := c_recs c + 1; c_bytes := c_bytes c + rsize r |} in
          let kept := {| c_todo := c_todo c; c_src := next; c_segs := c_segs c;
                         c_recs := c_recs c; c_bytes := c_bytes c |} in
          if rdel r then CMore s reclaimed
          else
            let h := p_hash P (m_seed m) (rk r) in
            match fl_repoint (m_idx m) h id (u32 off) id (u32 off) with
            | None => CMore s reclaimed
            | Some _ =>
              match write_record flat_ops P r s m with
              | None => CFail 13
              | Some (s1, m1, nid, noff) =>
                match fl_repoint (m_idx m1) h id (u32 off) nid noff with
                | None => CFail 14
                | Some i2 => CMore (with_mem (set_idx m1 i2) (emit flat_ops (EIndex i2) s1)) kept
                end
              end
            end
        end
      end
    end
  end.

Lemma compact_step_with_real P s c : compact_step_with (remove_segment flat_ops) P s c = compact_step flat_ops P s c.
Proof. reflexivity. Qed.

Fixpoint compact_run_with (rm : N -> N -> st -> mem -> st) (P : params) (fuel : nat) (s : st) (c : cursor) : st :=
  match fuel with
  | O => s
  | S f => match compact_step_with rm P s c with
           | CMore s' c' => compact_run_with rm P f s' c'
           | _ => s
           end
  end.

Definition db_compact_with (rm : N -> N -> st -> mem -> st) (P : params) (s : st) : st :=
  match compact_pick flat_ops P s with
  | None => s
  | Some (s1, c) => compact_run_with rm P 30 s1 c
  end.

(* a database with garbage, closed (side files written) and reopened cleanly *)
Definition v_s5 : st := clear_trace (fst (db_close flat_ops w_s4)).
Definition v_s6 : st := fst (db_open flat_ops w_P 9 v_s5).

Theorem remove_meta_wrong_ext_refuted :
  snd (db_open flat_ops w_P 9 v_s5) = OOpened false /\
  files_exact v_s6 /\
  (* the real removal: both files of the compacted segment are gone, nothing is left behind *)
  d_orphans (s_disk (db_compact_with (remove_segment flat_ops) w_P v_s6)) = [] /\
  existsb (fname_eqb (FSegMeta 1 2)) (dir (s_disk (db_compact_with (remove_segment flat_ops) w_P v_s6))) = false /\
  (* pinned: the side file of the removed segment stays *)
  d_orphans (s_disk (db_compact_with remove_segment_pinned w_P v_s6)) = [(1, 2)] /\
  existsb (fname_eqb (FSegMeta 1 2)) (dir (s_disk (db_compact_with remove_segment_pinned w_P v_s6))) = true /\
  existsb (fname_eqb (FSeg 1 2)) (dir (s_disk (db_compact_with remove_segment_pinned w_P v_s6))) = false.
Proof. vm_compute. repeat split. Qed.

(* (c) why MetaOK is needed: a wrong DeleteRecords counter (side file lost) resurrects a key *)
Definition u_P : params :=
  {| p_maxseg := 560; p_minseg := 0; p_frag := fun delbytes size => size <=? 30 * delbytes; p_sync := false;
     p_grow := fun _ _ => false; p_hash := fun _ _ => 0 |}.
Definition u_f : key := [102].
Definition u_s1 : st := fst (db_open flat_ops u_P 7 w_s0).
Definition u_s2 : st := fst (db_put flat_ops u_P w_k [1] u_s1).        (* 00000-1: put k *)
Definition u_s3 : st := fst (db_put flat_ops u_P u_f w_big u_s2).      (* 00000-1: put f *)
Definition u_s4 : st := fst (db_put flat_ops u_P w_j [2] (fst (db_put flat_ops u_P w_j [1] u_s3))).  (* 00001-2 *)
Definition u_s5 : st := fst (db_delete flat_ops u_P w_k u_s4).         (* the delete record goes to 00001-2 *)
(* forget the counter of segment 1, as openSegment does when the side file cannot be read *)
Definition u_forget (s : st) : st :=
  match s_mem s with
  | None => s
  | Some m => with_mem (set_msegs m (upd_mseg 1 (fun g => set_gmeta g
                {| sm_full := sm_full (g_meta g); sm_put := sm_put (g_meta g); sm_delrec := 0;
                   sm_delkeys := sm_delkeys (g_meta g); sm_delbytes := sm_delbytes (g_meta g) |}) (m_segs m))) s
  end.
Definition u_s6 : st := u_forget u_s5.

Theorem wrong_counter_refuted :
  inv_b u_P u_s6 = true /\                                           (* the invariant of DBInv.v holds *)
  sget (abs (s_disk u_s6)) w_k = None /\
  (exists a b n, snd (db_compact flat_ops u_P u_s6) = OCompact a b n) /\
  sget (abs (s_disk (fst (db_compact flat_ops u_P u_s6)))) w_k = Some [1] /\   (* but Compact brings k back *)
  sget (abs (s_disk (fst (db_compact flat_ops u_P u_s5)))) w_k = None.           (* exact counter: fine *)
Proof. vm_compute. repeat split. eexists _, _, _. reflexivity. Qed.

Theorem put_preserves_CInv P (s : st) (c : cursor) k v :
  Inv P s -> (exists m, s_mem s = Some m /\ room m) ->
  Forall byte k -> Forall byte v -> nlen k <= max_key_len -> nlen v <= max_val_len ->
  CInv s c -> CInv (fst (db_put flat_ops P k v s)) c.
Proof. intros HI Hm Hbk Hbv Hk Hv HC. apply (put_preserves P s c k v HI Hm Hbk Hbv Hk Hv HC). Qed.

Theorem delete_preserves_CInv P (s : st) (c : cursor) k :
  Inv P s -> (exists m, s_mem s = Some m /\ room m) -> Forall byte k ->
  CInv s c -> CInv (fst (db_delete flat_ops P k s)) c.
Proof. intros HI Hm Hbk HC. apply (delete_preserves P s c k HI Hm Hbk HC). Qed.

Theorem sync_preserves_CInv (s : st) (c : cursor) :
  CInv s c -> CInv (fst (db_sync flat_ops s)) c.
Proof. intros HC. apply (sync_preserves s c HC). Qed.

Theorem put_preserves_MetaOK P (s : st) (c : cursor) k v :
  Inv P s -> (exists m, s_mem s = Some m /\ room m) ->
  Forall byte k -> Forall byte v -> nlen k <= max_key_len -> nlen v <= max_val_len ->
  CInv s c -> MetaOK s -> MetaOK (fst (db_put flat_ops P k v s)).
Proof. intros HI Hm Hbk Hbv Hk Hv HC. apply (put_preserves P s c k v HI Hm Hbk Hbv Hk Hv HC). Qed.

Theorem delete_preserves_MetaOK P (s : st) (c : cursor) k :
  Inv P s -> (exists m, s_mem s = Some m /\ room m) -> Forall byte k ->
  CInv s c -> MetaOK s -> MetaOK (fst (db_delete flat_ops P k s)).
Proof. intros HI Hm Hbk HC. apply (delete_preserves P s c k HI Hm Hbk HC). Qed.

Theorem put_preserves_files P (s : st) (c : cursor) k v :
  Inv P s -> (exists m, s_mem s = Some m /\ room m) ->
  Forall byte k -> Forall byte v -> nlen k <= max_key_len -> nlen v <= max_val_len ->
  CInv s c -> files_exact s -> files_exact (fst (db_put flat_ops P k v s)).
Proof. intros HI Hm Hbk Hbv Hk Hv HC. apply (put_preserves P s c k v HI Hm Hbk Hbv Hk Hv HC). Qed.

Theorem delete_preserves_files P (s : st) (c : cursor) k :
  Inv P s -> (exists m, s_mem s = Some m /\ room m) -> Forall byte k ->
  CInv s c -> files_exact s -> files_exact (fst (db_delete flat_ops P k s)).
Proof. intros HI Hm Hbk HC. apply (delete_preserves P s c k HI Hm Hbk HC). Qed.

Theorem sync_preserves_files (s : st) (c : cursor) :
  CInv s c -> files_exact s -> files_exact (fst (db_sync flat_ops s)).
Proof. intros HC. apply (sync_preserves s c HC). Qed.

Theorem pick_preserves_files P (s s' : st) c :
  compact_pick flat_ops P s = Some (s', c) -> Inv P s -> MetaOK s -> files_exact s -> files_exact s'.
Proof.
  intros E HI HM HF. assert (Hm : s_mem s <> None) by (unfold compact_pick in E; destruct (s_mem s); [discriminate|discriminate]).
  destruct (compact_pick_ok P s HI HM Hm) as (s1 & c1 & E1 & _ & _ & Ed & _).
  rewrite E in E1. inversion E1; subst. unfold files_exact in *. rewrite Ed. exact HF.
Qed.

(* index slots never point into a segment that is gone *)
Corollary no_slot_into_removed P (s : st) (m : mem) sl :
  Inv P s -> s_mem s = Some m -> In sl (m_idx m) -> find_dseg (sl_seg sl) (s_disk s) <> None.
Proof.
  intros HI Em Hsl. destruct (Inv_open P s m Em HI) as (_ & (Hok & _) & _). fa Hok sl Hsl.
  destruct Hfa as (f & r & Ef & _). congruence.
Qed.

Print Assumptions ptrl_remove_segment.
Print Assumptions absl_remove_segment.
Print Assumptions compact_pick_ok.
Print Assumptions compact_step_ok_ex.
Print Assumptions compact_step_ok.
Print Assumptions compact_step_MetaOK.
Print Assumptions compact_step_files.
Print Assumptions put_preserves_CInv.
Print Assumptions delete_preserves_CInv.
Print Assumptions sync_preserves_CInv.
Print Assumptions put_preserves_MetaOK.
Print Assumptions delete_preserves_MetaOK.
Print Assumptions put_preserves_files.
Print Assumptions delete_preserves_files.
Print Assumptions sync_preserves_files.
Print Assumptions pick_preserves_files.
Print Assumptions compact_run_ok.
Print Assumptions db_compact_ok.
Print Assumptions dir_exact.
Print Assumptions compact_removes_files.
Print Assumptions creach_ok.
Print Assumptions compact_no_resurrection.
Print Assumptions no_slot_into_removed.
Print Assumptions pick_without_seal_refuted.
Print Assumptions remove_meta_wrong_ext_refuted.
Print Assumptions wrong_counter_refuted.
